(* ChoicePointProofs_C16.v — the choice_point model against its declarative run: over any sequence of calls
   on one object both name the same current candidate ([run_refines]). *)
From Coq Require Import List ZArith Bool Lia.
Import ListNotations.
From Verif Require Import Base.Val.
From Verif Require Import C16.ChoicePoint_C16.

Definition has_surv (f : list N) (c : clause) : bool := existsb (fun x => negb (inb x f)) c.
Definition sub (g f : list N) : Prop := forall x, inb x g = true -> inb x f = true.

Lemma keep_nil_iff f c : keep f c = [] <-> has_surv f c = false.
Proof.
  unfold keep, has_surv. induction c as [|x c IH]; cbn; [tauto|].
  destruct (negb (inb x f)); cbn; [split; discriminate | exact IH].
Qed.

Lemma filter_choices_ok f ds :
  forallb (has_surv f) ds = true -> filter_choices f ds = map (keep f) ds.
Proof.
  induction ds as [|c ds IH]; cbn; [reflexivity|]. intro H. apply andb_true_iff in H as [H1 H2].
  destruct (keep f c) as [|y l] eqn:E.
  - apply keep_nil_iff in E. congruence.
  - rewrite IH by exact H2. reflexivity.
Qed.
Lemma filter_choices_len f ds : (length (filter_choices f ds) <= length ds)%nat.
Proof. induction ds as [|c ds IH]; cbn; [lia|]. destruct (keep f c); cbn; lia. Qed.
Lemma filter_choices_short f ds :
  forallb (has_surv f) ds = false -> (length (filter_choices f ds) < length ds)%nat.
Proof.
  induction ds as [|c ds IH]; cbn; [discriminate|]. intro H.
  destruct (keep f c) as [|y l] eqn:E; cbn; [lia|].
  apply andb_false_iff in H as [H|H].
  - assert (K : keep f c = []) by (apply keep_nil_iff; exact H). congruence.
  - specialize (IH H). lia.
Qed.

Definition viable_deps (f : list N) (d : list depset) : bool := forallb (forallb (has_surv f)) d.
Lemma viable_unfold f p : viable f p = viable_deps f (pdeps p).
Proof. reflexivity. Qed.

Lemma try_all_spec f d :
  try_all f d = if viable_deps f d then Some (prune f d) else None.
Proof.
  unfold viable_deps. induction d as [|ds d IH]; cbn; [reflexivity|].
  destruct (forallb (has_surv f) ds) eqn:V; cbn.
  - rewrite (filter_choices_ok f ds V), map_length, Nat.eqb_refl, IH.
    destruct (forallb (forallb (has_surv f)) d); reflexivity.
  - pose proof (filter_choices_short f ds V) as L.
    destruct (Nat.eqb_spec (length (filter_choices f ds)) (length ds)) as [E|E]; [lia|reflexivity].
Qed.

Lemma keep_keep g f c : sub g f -> keep f (keep g c) = keep f c.
Proof.
  intro S. unfold keep. induction c as [|x c IH]; cbn; [reflexivity|].
  destruct (inb x g) eqn:G; cbn.
  - rewrite (S x G). cbn. exact IH.
  - destruct (inb x f); cbn; rewrite IH; reflexivity.
Qed.
Lemma has_surv_keep g f c : sub g f -> has_surv f (keep g c) = has_surv f c.
Proof.
  intro S. unfold has_surv, keep. induction c as [|x c IH]; cbn; [reflexivity|].
  destruct (inb x g) eqn:G; cbn.
  - rewrite (S x G). cbn. exact IH.
  - rewrite IH. reflexivity.
Qed.
Lemma prune_prune g f d : sub g f -> prune f (prune g d) = prune f d.
Proof.
  intro S. unfold prune. rewrite map_map. apply map_ext. intro ds. rewrite map_map.
  apply map_ext. intro c. apply keep_keep. exact S.
Qed.
Lemma viable_prune g f d : sub g f -> viable_deps f (prune g d) = viable_deps f d.
Proof.
  intro S. unfold viable_deps, prune. induction d as [|ds d IH]; cbn; [reflexivity|]. rewrite IH. f_equal.
  induction ds as [|c ds IH2]; cbn; [reflexivity|]. rewrite IH2, has_surv_keep by exact S. reflexivity.
Qed.
Lemma sub_nil f : sub [] f.
Proof. intros x H. discriminate. Qed.
Lemma sub_app_l g f a : sub g f -> sub g (f ++ a).
Proof.
  intros S x H. specialize (S x H). unfold inb in *. rewrite existsb_app, S. reflexivity.
Qed.
Lemma sub_refl f : sub f f.
Proof. intros x H. exact H. Qed.
Lemma keep_nil c : keep [] c = c.
Proof.
  unfold keep. induction c as [|x c IH]; [reflexivity|]. cbn [filter].
  change (inb x []) with false. cbn [negb]. f_equal. exact IH.
Qed.
Lemma prune_nil d : prune [] d = d.
Proof.
  unfold prune. rewrite <- (map_id d) at 2. apply map_ext. intro ds.
  rewrite <- (map_id ds) at 2. apply map_ext. apply keep_nil.
Qed.

(* [c] is candidate [o] with its slots already filtered by some earlier filters *)
Definition shadow (fl : list N) (c o : pk) : Prop :=
  pid c = pid o /\ exists g, sub g fl /\ pdeps c = prune g (pdeps o).
Lemma shadow_self fl o : shadow fl o o.
Proof. split; [reflexivity|]. exists []. split; [apply sub_nil | symmetry; apply prune_nil]. Qed.
Lemma shadow_grow fl a c o : shadow fl c o -> shadow (fl ++ a) c o.
Proof. intros [P [g [S E]]]. split; [exact P|]. exists g. split; [apply sub_app_l; exact S | exact E]. Qed.

Lemma scan_rest f r :
  match scan f r with
  | None => drop_unviable f r = []
  | Some (k, q, r') => exists o, drop_unviable f r = o :: r' /\ pid q = pid o /\ pdeps q = prune f (pdeps o)
  end.
Proof.
  induction r as [|p r IH]; cbn; [reflexivity|].
  rewrite try_all_spec, <- viable_unfold. destruct (viable f p) eqn:V; [exists p; auto|].
  destruct (scan f r) as [[[k q] r']|]; exact IH.
Qed.

Lemma scan_head f c o r : shadow f c o ->
  match scan f (c :: r) with
  | None => drop_unviable f (o :: r) = []
  | Some (k, q, r') => exists o', drop_unviable f (o :: r) = o' :: r' /\ pid q = pid o'
                                  /\ pdeps q = prune f (pdeps o')
  end.
Proof.
  intros [P [g [S E]]]. cbn. rewrite try_all_spec, E, viable_prune, prune_prune by exact S.
  rewrite <- viable_unfold. destruct (viable f o) eqn:V.
  - exists o. repeat split; [exact P].
  - pose proof (scan_rest f r) as H. destruct (scan f r) as [[[k q] r']|]; exact H.
Qed.

(* the object s and the declarative state t agree.  While no candidate has been pulled (cur = None) the
   declarative run has not started either, but only a live object says so: a dead one has cur = None too *)
Definition Refines (s : st) (t : sst) : Prop :=
  flt s = sflt t /\ alive s = salive t /\
  match cur s with
  | Some c => alive s = true /\ started t = true /\ exists o, scands t = o :: rest s /\ shadow (flt s) c o
  | None => alive s = true -> (started t = false /\ scands t = rest s)
  end.

Definition cur_id (s : st) : option N := match cur s with Some c => Some (pid c) | None => None end.

Lemma refines_cur s t : Refines s t -> cur_id s = scur t.
Proof.
  intros [F [A C]]. unfold cur_id, scur. destruct (cur s) as [c|].
  - destruct C as [A1 [S [o [E [P _]]]]]. rewrite S, <- A, A1, E. cbn. rewrite P. reflexivity.
  - destruct (alive s) eqn:Al.
    + destruct (C eq_refl) as [S _]. rewrite S. reflexivity.
    + rewrite <- A. rewrite andb_false_r. reflexivity.
Qed.

Lemma scan_live s t a : Refines s t -> alive s = true ->
  match scan (flt s ++ a) (match cur s with Some c => c :: rest s | None => rest s end) with
  | None => drop_unviable (flt s ++ a) (scands t) = []
  | Some (k, q, r') => exists o', drop_unviable (flt s ++ a) (scands t) = o' :: r' /\ pid q = pid o'
                                  /\ pdeps q = prune (flt s ++ a) (pdeps o')
  end.
Proof.
  intros [F [A C]] Al. destruct (cur s) as [c|].
  - destruct C as [_ [_ [o [-> Sh]]]]. apply scan_head, shadow_grow, Sh.
  - destruct (C Al) as [_ ->]. apply scan_rest.
Qed.

Lemma reduce_refines s t a : Refines s t -> Refines (fst (reduce s a)) (sstep t (Reduce a)).
Proof.
  intros H. pose proof H as [F [A C]]. unfold reduce. cbn [sstep]. rewrite <- A, <- F.
  destruct (alive s) eqn:Al; cbn [negb]; cbv beta iota zeta; [|exact H].
  pose proof (scan_live s t a H Al) as S. destruct (scan _ _) as [[[k q] r']|].
  - destruct S as [o' [D [P E']]]. rewrite D. cbn. repeat split.
    exists o'. split; [reflexivity|]. split; [exact P|]. exists (flt s ++ a). split; [apply sub_refl | exact E'].
  - rewrite S. cbn. split; [reflexivity|]. split; [reflexivity|]. intro X; discriminate X.
Qed.

(* current_pkg and bool pull the first candidate when there is none yet; they differ in what they return *)
Lemma cur_refines s t : Refines s t -> Refines (fst (step s Cur)) (sstep t Cur).
Proof.
  intros H. pose proof H as [F [A C]]. cbn [step sstep]. rewrite <- A.
  destruct (cur s) as [c|] eqn:Cu.
  - destruct C as [A1 [S X]]. rewrite S. exact H.
  - destruct (alive s) eqn:Al; cbn [negb]; [|rewrite orb_true_r; exact H].
    destruct (C eq_refl) as [S E]. rewrite S, E. cbn. destruct (rest s) as [|p r] eqn:Re; cbn.
    + split; [exact F|]. split; [reflexivity|]. intro X; discriminate X.
    + rewrite <- F. repeat split. exists p. split; [reflexivity | apply shadow_self].
Qed.
Lemma truth_state s : fst (step s Truth) = fst (step s Cur).
Proof.
  cbn [step]. destruct (cur s); [reflexivity|]. destruct (negb (alive s)); [reflexivity|].
  destruct (rest s); reflexivity.
Qed.

Lemma step_refines s t o : Refines s t -> Refines (fst (step s o)) (sstep t o).
Proof.
  intro H. destruct o as [a| | |].
  - apply reduce_refines, H.
  - pose proof H as [F [A C]]. cbn [step sstep]. rewrite <- A.
    destruct (alive s) eqn:Al; cbn [negb]; [|exact H].
    assert (L : (if started t then tl (scands t) else scands t) = rest s).
    { destruct (cur s) as [c|].
      - destruct C as [_ [S [o [E _]]]]. rewrite S, E. reflexivity.
      - destruct (C eq_refl) as [S E]. rewrite S. exact E. }
    rewrite L. destruct (rest s) as [|p r] eqn:Re.
    + cbn. split; [exact F|]. split; [reflexivity|]. intro X; discriminate X.
    + (* reduce_atoms([]) on the freshly pulled candidate *)
      pose proof (reduce_refines (mkst r (Some p) true (flt s)) (mksst (p :: r) true true (sflt t)) []) as Hr.
      cbn [sstep salive negb sflt scands] in Hr. rewrite app_nil_r in Hr. apply Hr.
      split; [exact F|]. split; [reflexivity|]. cbn. repeat split.
      exists p. split; [reflexivity | apply shadow_self].
  - apply cur_refines, H.
  - rewrite truth_state. apply (cur_refines s t H).
Qed.

Fixpoint run_ids (s : st) (ops : list op) : list (option N) :=
  match ops with
  | [] => []
  | o :: ops' => let s' := fst (step s o) in cur_id s' :: run_ids s' ops'
  end.

Lemma run_refines s t ops : Refines s t -> run_ids s ops = srun t ops.
Proof.
  revert s t. induction ops as [|o ops IH]; intros s t H; cbn; [reflexivity|].
  pose proof (step_refines s t o H) as H'. rewrite (refines_cur _ _ H'). f_equal. apply IH. exact H'.
Qed.

(* non-vacuity, on an any-of group that collapses onto a plain requirement.  candidate 0: RDEPEND "|| ( a0 a1 ) a1", candidate 1: none.
   after reduce_atoms(a0) candidate 0 is still current, with both groups reduced to [a1] *)
Definition ex_c0 : pk := mkpk 0 [[]; []; [[0;1]%N; [1]%N]; []; []].
Definition ex_c1 : pk := mkpk 1 [[]; []; []; []; []].
Example ex_collapse :
  run_cp ([ex_c0; ex_c1], [Cur; Reduce [0%N]])
  = VL [VL [VZ 0; VZ 0; enc_deps (pdeps ex_c0)];
        VL [VB false; VZ 0; enc_deps [[]; []; [[1%N]; [1%N]]; []; []]]].
Proof. vm_compute. reflexivity. Qed.
