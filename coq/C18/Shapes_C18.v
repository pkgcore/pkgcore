(* Shapes_C18.v — what a crash inside one step's block of ops can show on the NoAlias domain
   (BlockCrash), for the five block kinds and hence for every successful step. *)
From Coq Require Import List ZArith Lia.
Import ListNotations.
From Verif Require Import C18.Fs C18.FsLemmas C18.Model_C18 C18.Proofs_C18 C18.Exact_C18.

Lemma create_perms_prefix um s x fp c :
  is_kdir x = false -> lookup s fp = None -> create_ops um s x fp = (c, None) ->
  forall k q, q <> fp -> lookup (run (firstn k (c ++ perms_new x fp)) s) q = lookup s q.
Proof.
  intros Hk Hl Hc k q Hq. pose proof (perms_new_on x fp) as Hp.
  destruct (create_ops_free _ _ _ _ _ Hk Hl Hc) as [(d & hl & Ek & ->)|(o & n & -> & Ho & _)]; cbn [app].
  - destruct k as [|k]; [reflexivity|]. cbn [firstn run].
    destruct (apply_op s (Create fp (file_create_mode um))) as [s1|] eqn:Hc1; [|reflexivity].
    apply (run_prefix_inv _ _ (staged_middle s fp (chunks1 d) _ Hp) s1 k (staged_create _ _ _ _ Hc1)), Hq.
  - now apply (new_perms_prefix s o fp n).
Qed.

Lemma mkdirs_prefix s mk :
  mkdirs_free s mk -> forall k q, lookup s q <> None -> lookup (run (firstn k mk) s) q = lookup s q.
Proof. intros Hmk k q Hq. destruct (mkdirs_free_prefix s mk Hmk k q) as [E|(E & _)]; congruence. Qed.

(* what a crash inside one entry's block may show: [p] is the entry's location.  Only paths bound
   before the block are constrained: '#new' names and missing parents come and go inside it *)
Definition BlockCrash (s : fs) (ops : list op) (p : path) : Prop :=
  forall k q, lookup s q <> None ->
    let st := run (firstn k ops) s in
    (q <> p -> lookup st q = lookup s q) /\
    (q = p -> lookup st q = lookup s q \/ st = run ops s \/
              exists m u g t u' g', lookup s q = Some (Dir m u g t) /\ lookup st q = Some (Dir m u' g' t)).

Lemma bc_final s ops p s1 q :
  BlockCrash s ops p -> run_opt ops s = Some s1 -> lookup s q <> None -> q <> p -> lookup s1 q = lookup s q.
Proof.
  intros BC Hr Hq Hne. destruct (BC (length ops) q Hq) as [A _].
  rewrite firstn_all, (run_opt_run _ _ _ Hr) in A. now apply A.
Qed.

Lemma bc_free s ops p :
  lookup s p = None ->
  (forall k q, lookup s q <> None -> q <> p -> lookup (run (firstn k ops) s) q = lookup s q) ->
  BlockCrash s ops p.
Proof. intros Hl H k q Hq. cbv zeta. split; [now apply H|]. intros ->. contradiction. Qed.

Lemma bc_staged um s x cp c s1 :
  is_kdir x = false -> lookup s (sibling_new cp) = None -> create_ops um s x (sibling_new cp) = (c, None) ->
  run_opt (c ++ perms_new x (sibling_new cp) ++ [Rename (sibling_new cp) cp]) s = Some s1 ->
  BlockCrash s (c ++ perms_new x (sibling_new cp) ++ [Rename (sibling_new cp) cp]) cp.
Proof.
  intros Hk Hl Hc Hr k q Hq. set (tmp := sibling_new cp) in *.
  assert (Hqt : q <> tmp) by (intros ->; congruence).
  destruct (staged_block _ _ _ _ _ _ _ Hk Hl (sibling_new_neq cp) Hc Hr) as [_ [_ F]].
  rewrite app_assoc in *. cbv zeta.
  destruct (Nat.le_gt_cases k (length (c ++ perms_new x tmp))) as [Hle|Hgt].
  - rewrite firstn_app_le by exact Hle.
    rewrite (create_perms_prefix um s x tmp c Hk Hl Hc k q Hqt). split; [reflexivity|now left].
  - rewrite firstn_all2 by (rewrite app_length; cbn; lia). split.
    + intro Hqc. rewrite (run_opt_run _ _ _ Hr). now apply F.
    + intros _. right; left. reflexivity.
Qed.

Lemma bc_direct um s x p mk s1 c s2 :
  is_kdir x = false -> lookup s p = None -> mkdirs_free s mk ->
  run_opt mk s = Some s1 -> (forall q, lookup s q <> None -> lookup s1 q = lookup s q) ->
  lookup s1 p = None -> create_ops um s1 x p = (c, None) ->
  run_opt (mk ++ c ++ perms_new x p) s = Some s2 ->
  BlockCrash s (mk ++ c ++ perms_new x p) p.
Proof.
  intros Hk Hl Hmk Hr1 Hfr Hl1 Hc Hr. apply bc_free; [exact Hl|]. intros k q Hq Hqp.
  destruct (run_firstn_app mk (c ++ perms_new x p) k s) as [[_ ->]|[_ ->]]; [now apply mkdirs_prefix|].
  rewrite Hr1, (create_perms_prefix um s1 x p c Hk Hl1 Hc _ q Hqp). now apply Hfr.
Qed.

Lemma bc_link s a b : lookup s b = None -> BlockCrash s [Link a b] b.
Proof.
  intros Hl. apply bc_free; [exact Hl|]. intros [|k] q _ Hqb; [reflexivity|]. cbn [firstn run].
  destruct (apply_op s (Link a b)) as [s1|] eqn:Ha; [|reflexivity].
  replace (run (firstn k []) s1) with s1 by now destruct k.
  cbn in Ha. destruct (lookup s a) as [na|]; [|discriminate]. eapply set_if_frame; eauto.
Qed.

Lemma bc_newdir um s x p :
  lookup s p = None -> BlockCrash s (Mkdir p (dir_create_mode um x) :: perms_new x p ++ perms_new x p) p.
Proof.
  intros Hl. apply bc_free; [exact Hl|]. intros k q _ Hqp.
  apply (new_perms_prefix s _ p (Dir (dir_create_mode um x) ME ME NOW)); [reflexivity| |exact Hqp].
  apply Forall_app; split; apply perms_new_on.
Qed.

Lemma bc_existingdir s x cp m u g t :
  lookup s cp = Some (Dir m u g t) -> BlockCrash s (perms_existing x cp cp (Dir m u g t)) cp.
Proof.
  intros Hl k q Hq. cbv zeta. split.
  - intro Hqc.
    destruct (perms_prefix cp _ (perms_existing_on x cp (Dir m u g t)) s _ k Hl
                (private_nonfile _ _ (Dir m u g t) eq_refl)) as [F _].
    now apply F.
  - intros ->. destruct (perms_existing_shape x cp cp (Dir m u g t)) as (ch & ot & -> & _).
    assert (Hall : forall ops, length ops <= k -> run (firstn k ops) s = run ops s)
      by (intros ops Hk; now rewrite firstn_all2).
    destruct ch, ot as [t0|]; cbn [app].
    + destruct k as [|[|k]]; [now left| |right; left; apply Hall; cbn; lia].
      right; right. cbn [firstn run apply_op]. unfold update. rewrite Hl. cbn [ino_of].
      exists m, u, g, t. eexists _, _. split; [reflexivity|]. rewrite lookup_set_same. cbn. reflexivity.
    + destruct k; [now left|right; left; apply Hall; cbn; lia].
    + destruct k; [now left|right; left; apply Hall; cbn; lia].
    + left. now destruct k.
Qed.

Section StepCrash.
Variable um : N.
Variable C : list entry.
Variable s0 : fs.
Hypothesis HD : Dom C s0.
Variables (P : list entry) (s : fs) (x : entry).
Hypothesis HI : Inv C s0 P s.
Hypothesis Hx : In x C.
Hypothesis Hfr : forall y, In y P -> e_loc y <> e_loc x.

Lemma nondir_step_crash merged ops merged' s1 :
  is_kdir x = false -> (forall d, In d C -> is_kdir d = true -> In d P) -> files_in merged P ->
  nondir_step um s merged x = (ops, None, merged') -> run_opt ops s = Some s1 ->
  BlockCrash s ops (e_loc x).
Proof.
  intros Hk Hdirs Hm Hst.
  apply (nondir_step_elim um C s0 HD P s x HI Hx Hfr
           (fun ops _ => run_opt ops s = Some s1 -> BlockCrash s ops (e_loc x)) merged ops merged' Hk Hm);
    [| |exact Hst].
  - intros c nc _ _ _ _ _ Hl _. now apply bc_link.
  - intros ops0 m' Hcf _.
    apply (copy_elim um C s0 HD P s x HI Hx Hfr
             (fun ops => run_opt ops s = Some s1 -> BlockCrash s ops (e_loc x)) ops0 Hk Hdirs); [| |exact Hcf].
    + intros c _ Hnew Hc Hr. eapply bc_staged; eauto.
    + intros mk s2 c Hl Hmk Hr1 Hch Hl1 Hc Hr. eapply bc_direct; eauto.
      intros q Hq. destruct (Hch q) as [E|(E & _)]; congruence.
Qed.

Lemma dir_step_crash ops :
  is_kdir x = true -> dir_step um s x = (ops, None) -> BlockCrash s ops (e_loc x).
Proof.
  intros Hk Hst.
  apply (dir_step_elim um C s0 HD P s x HI Hx Hfr (fun ops => BlockCrash s ops (e_loc x)) ops Hk); [| |exact Hst].
  - intros m u g t Hl. now apply bc_existingdir.
  - intros Hl. now apply bc_newdir.
Qed.

End StepCrash.
