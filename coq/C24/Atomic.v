(* C24/Atomic.v — the staged replacement performed by snakeoil's AtomicWriteFile, over the shared
   filesystem model (C18/Fs.v); used by C24 (CONTENTS) and C30 (world file).
   AtomicWriteFile issues   open(tmp,"w") ; chmod tmp ; chown tmp ; write tmp .. ; rename tmp p
   i.e. the permission calls come BEFORE the data and a stale regular tmp is truncated rather than
   created, so the op list is not FsLemmas.replace_ops; it is an instance of the general staged
   replacement of FsLemmas.v (Section Replace: [staged_replace], [replace_prefix]). *)
From Coq Require Import List ZArith Bool.
Import ListNotations.
From Verif Require Import C18.Fs C18.FsLemmas C24.Model_C24.

Lemma staged_mid s0 tmp mid : Forall (is_mid tmp) mid ->
  Forall (fun o => forall s s', staged s0 tmp s -> apply_op s o = Some s' -> staged s0 tmp s') mid.
Proof. intro H. eapply Forall_impl; [|exact H]. intros o Ho. apply staged_step. exact Ho. Qed.

(* tmp is never a directory in a crash prefix: it is as at the start, a file while staged, absent
   after the rename *)
Lemma prefix_tmp_not_dir s tmp p first mid k :
  tmp <> p -> (forall s1, apply_op s first = Some s1 -> staged s tmp s1) -> Forall (is_mid tmp) mid ->
  not_dir (lookup s tmp) -> not_dir (lookup (run (firstn k (first :: mid ++ [Rename tmp p])) s) tmp).
Proof.
  intros Hne Hfirst Hmid H0. pose proof (staged_mid s tmp mid Hmid) as Hstep.
  destruct (replace_prefix s tmp p first mid Hfirst Hstep k)
    as [-> | [[_ (d & m & u & g & t & i & Ht & _)] | (s2 & H2 & Hr & _)]].
  - exact H0.
  - rewrite Ht. reflexivity.
  - pose proof (staging_staged s tmp first mid Hfirst Hstep s2 H2) as Hs2.
    destruct (staged_renamed _ _ _ _ _ Hne Hs2 Hr) as (_ & -> & _). exact I.
Qed.

Lemma staged_first s tmp s1 :
  tmp_ok s tmp -> apply_op s (first_op s tmp) = Some s1 -> staged s tmp s1.
Proof.
  intros [Hn|(d & m & u & g & t & i & Ht & Hpriv)] H; unfold first_op in H.
  - rewrite Hn in H. now apply staged_create in H.
  - rewrite Ht in H. cbn in H. rewrite Ht in H.
    assert (Hst : staged s tmp s) by (split; [reflexivity|exists d, m, u, g, t, i; auto]).
    eapply staged_update; eauto using keeps_truncate.
Qed.

Lemma atomic_mid tmp perms uid gid chunks :
  Forall (is_mid tmp) (Chmod tmp perms :: Chown tmp uid gid :: appends tmp chunks).
Proof.
  constructor; [right; reflexivity|]. constructor; [right; reflexivity|].
  unfold appends. apply Forall_map. apply Forall_forall. intros d _. left. eauto.
Qed.

Lemma first_op_node s tmp s1 :
  apply_op s (first_op s tmp) = Some s1 ->
  exists m u g t i, lookup s1 tmp = Some (File [] m u g t i).
Proof.
  unfold first_op. destruct (lookup s tmp) as [n|] eqn:Ht.
  - destruct n; cbn; try (destruct (can_create s tmp); [|discriminate]; intro H; injection H as <-;
      rewrite lookup_set_same; eauto 10).
    rewrite Ht. intro H. pose proof (update_self _ _ _ _ _ H Ht) as H1. cbn in H1. eauto 10.
  - cbn. destruct (can_create s tmp); [|discriminate]. intro H; injection H as <-.
    rewrite lookup_set_same; eauto 10.
Qed.

Lemma staging_node s tmp perms uid gid chunks s2 :
  run_opt (first_op s tmp :: Chmod tmp perms :: Chown tmp uid gid :: appends tmp chunks) s = Some s2 ->
  is_file_with (concat chunks) perms (lookup s2 tmp).
Proof.
  cbn [run_opt]. destruct (apply_op s (first_op s tmp)) as [s1|] eqn:H1; [|discriminate].
  destruct (first_op_node _ _ _ H1) as (m & u & g & t & i & Ht1).
  destruct (apply_op s1 (Chmod tmp perms)) as [s1a|] eqn:H2; [|discriminate].
  destruct (apply_op s1a (Chown tmp uid gid)) as [s1b|] eqn:H3; [|discriminate].
  intro H4.
  cbn in H2. rewrite Ht1 in H2. cbn in H2.
  pose proof (update_self _ _ _ _ _ H2 Ht1) as Ht2. cbn in Ht2.
  cbn in H3. pose proof (update_self _ _ _ _ _ H3 Ht2) as Ht3. cbn in Ht3.
  unfold is_file_with. destruct (run_opt_appends_tmp _ _ _ _ _ _ _ _ _ _ Ht3 H4) as [[-> ->]|Ht4].
  - rewrite Ht3. eauto 10.
  - rewrite Ht4. eauto 10.
Qed.

Lemma chunked_fuel_concat f c d : concat (chunked_fuel f c d) = d.
Proof.
  revert d; induction f as [|f IH]; intros [|x d]; cbn [chunked_fuel concat]; try reflexivity.
  - now rewrite app_nil_r.
  - rewrite IH. apply firstn_skipn.
Qed.
Lemma chunked_concat c d : concat (chunked c d) = d.
Proof.
  destruct c; cbn [chunked]; [destruct d; cbn; [reflexivity|now rewrite app_nil_r]|].
  apply chunked_fuel_concat.
Qed.

Theorem atomic_ops_crash : forall s tmp p perms uid gid chunks k,
  tmp <> p -> tmp_ok s tmp ->
  let sk := run (firstn k (atomic_ops s tmp p perms uid gid chunks)) s in
  (forall q, q <> p -> q <> tmp -> lookup sk q = lookup s q) /\
  (lookup sk p = lookup s p \/
   (is_file_with (concat chunks) perms (lookup sk p) /\ lookup sk tmp = None /\
    length (atomic_ops s tmp p perms uid gid chunks) <= k)).
Proof.
  intros s tmp p perms uid gid chunks k Hne Hok sk. subst sk. unfold atomic_ops.
  destruct (staged_replace s tmp p (first_op s tmp) _ Hne (fun s1 => staged_first s tmp s1 Hok)
              (staged_mid s tmp _ (atomic_mid tmp perms uid gid chunks)) k) as [Hfr Hp].
  split; [exact Hfr|].
  destruct Hp as [Hp|(s2 & Hs2 & Hp & Hg & Hk)]; [now left|right].
  split; [|split; assumption]. rewrite Hp. eapply staging_node; eauto.
Qed.

Theorem atomic_ops_complete : forall s tmp p perms uid gid chunks s',
  tmp <> p -> tmp_ok s tmp ->
  run_opt (atomic_ops s tmp p perms uid gid chunks) s = Some s' ->
  is_file_with (concat chunks) perms (lookup s' p) /\ lookup s' tmp = None /\
  (forall q, q <> p -> q <> tmp -> lookup s' q = lookup s q).
Proof.
  intros s tmp p perms uid gid chunks s' Hne Hok H. unfold atomic_ops in H.
  rewrite app_comm_cons, run_opt_app in H.
  destruct (run_opt _ s) as [s2|] eqn:H2 in H; [|discriminate].
  cbn [run_opt] in H. destruct (apply_op s2 (Rename tmp p)) as [s3|] eqn:Hr; [|discriminate].
  injection H as <-.
  pose proof (staging_staged s tmp _ _ (fun s1 => staged_first s tmp s1 Hok)
                (staged_mid s tmp _ (atomic_mid tmp perms uid gid chunks)) s2 H2) as Hs2.
  destruct (staged_renamed _ _ _ _ _ Hne Hs2 Hr) as (Hp & Hgone & _).
  split; [|split; [exact Hgone|now apply (staged_rename _ _ _ _ _ Hne Hs2 Hr)]].
  rewrite Hp. eapply staging_node; eauto.
Qed.

Lemma unlink_frame s tmp q : q <> tmp -> lookup (run [Unlink tmp] s) q = lookup s q.
Proof.
  intro Hq. cbn. destruct (lookup s tmp) as [n|]; [|reflexivity].
  destruct (is_dir_node n); [reflexivity|]. now apply lookup_remove_other.
Qed.

Lemma unlink_gone s tmp : not_dir (lookup s tmp) -> lookup (run [Unlink tmp] s) tmp = None.
Proof.
  unfold not_dir. cbn. destruct (lookup s tmp) as [n|] eqn:Ht; [|now rewrite Ht].
  intros ->. apply lookup_remove_same.
Qed.

(* an I/O error at op k >= 1 followed by discard() (unlink tmp); before the first op the object is
   not initialised and discard() does not run *)
Theorem atomic_ops_eio : forall s tmp p perms uid gid chunks k,
  tmp <> p -> tmp_ok s tmp -> 1 <= k ->
  let sk := fault_state s tmp (atomic_ops s tmp p perms uid gid chunks) k true in
  (forall q, q <> p -> q <> tmp -> lookup sk q = lookup s q) /\
  (lookup sk p = lookup s p \/ is_file_with (concat chunks) perms (lookup sk p)) /\
  lookup sk tmp = None.
Proof.
  intros s tmp p perms uid gid chunks k Hne Hok Hk sk. subst sk. unfold fault_state.
  replace (true && Nat.leb 1 k) with true by (symmetry; apply Nat.leb_le; exact Hk).
  destruct (atomic_ops_crash s tmp p perms uid gid chunks k Hne Hok) as [Hfr Hp].
  assert (Hp' : p <> tmp) by congruence.
  split; [|split].
  - intros q Hq1 Hq2. rewrite unlink_frame by exact Hq2. now apply Hfr.
  - rewrite unlink_frame by exact Hp'. destruct Hp as [Hp|[Hp _]]; [now left|now right].
  - apply unlink_gone. apply prefix_tmp_not_dir; [exact Hne|exact (fun s1 => staged_first s tmp s1 Hok)|apply atomic_mid|].
    destruct Hok as [Hn|(d & m & u & g & t & i & Ht & _)]; [now rewrite Hn|now rewrite Ht].
Qed.
