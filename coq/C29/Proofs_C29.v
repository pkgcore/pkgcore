(* C29/Proofs_C29.v — crash consistency of the repository updates of Model_C29.
   A view reads [visible] paths only; an op that names none of a set P of paths ([avoids P]) leaves
   every lookup in P unchanged, provided no file has a second name ([nolinks], kept by every op
   but Link).  So an update  pre ++ mid ++ post  whose pre and post avoid the visible paths is
   old-or-new at every crash point outside mid ([window]); with one commit op that is everywhere. *)
From Coq Require Import List ZArith Bool Lia.
Import ListNotations.
From Verif Require Import Base.Val C18.Fs C18.FsLemmas C29.Model_C29 C29.Spec_C29.

Lemma some_ex {A} (o : option A) : (if o then true else false) = true -> exists t, o = Some t.
Proof. destruct o as [t|]; [now exists t|discriminate]. Qed.

Lemma nodupb_NoDup {A} (eqb : A -> A -> bool) l :
  (forall x, eqb x x = true) -> nodupb eqb l = true -> NoDup l.
Proof.
  intro Hr. induction l as [|x l IH]; cbn; [constructor|].
  intro H. apply andb_true_iff in H as [H1 H2]. constructor; [|auto].
  intro Hin. apply negb_true_iff in H1.
  assert (existsb (eqb x) l = true) by (apply existsb_exists; now exists x). congruence.
Qed.

Lemma listed_true_iff cat_ok skip as_dir loc s c x :
  listed cat_ok skip as_dir loc s c x = true <->
  cat_ok c = true /\ skip x = false /\ node_listed as_dir (lookup s (loc ++ [c; x])) = true.
Proof. unfold listed. rewrite !andb_true_iff, negb_true_iff. tauto. Qed.


Lemma In_set_node s p n r x : In (r, x) (set_node s p n) -> (r, x) = (p, n) \/ In (r, x) s.
Proof.
  induction s as [|[q m] s IH]; cbn.
  - intros [H|[]]; auto.
  - destruct (path_eq_dec p q) as [->|].
    + intros [H|H]; auto.
    + intros [H|H]; auto. destruct (IH H); auto.
Qed.
Lemma In_remove s p r x : In (r, x) (remove s p) -> In (r, x) s /\ r <> p.
Proof.
  induction s as [|[q m] s IH]; cbn; [tauto|].
  destruct (path_eq_dec p q) as [->|Hn].
  - intro H. destruct (IH H). auto.
  - intros [H|H].
    + injection H as -> ->. split; auto.
    + destruct (IH H). auto.
Qed.
Lemma In_on_ino i f s r x :
  In (r, x) (on_ino i f s) -> exists x0, In (r, x0) s /\ (x = x0 \/ x = f x0).
Proof.
  unfold on_ino, map_nodes. rewrite in_map_iff. intros [[r0 x0] [E H]]. cbn in E.
  injection E as <- <-. exists x0. split; [exact H|].
  destruct (ino_of x0); auto. destruct (N.eqb n i); auto.
Qed.
Lemma In_rename_dir s a b r x :
  In (r, x) (rename_dir s a b) -> exists r0, In (r0, x) s /\ r = rebase a b r0.
Proof.
  unfold rename_dir. rewrite in_map_iff. intros [[r0 x0] [E H]]. cbn in E.
  injection E as <- <-. exists r0. apply In_remove in H. tauto.
Qed.
Lemma fresh_ino_gt_In s q m i : In (q, m) s -> ino_of m = Some i -> (i < fresh_ino s)%N.
Proof.
  intros H Hi. unfold fresh_ino. rewrite N.add_1_r. apply N.lt_succ_r.
  induction s as [|[r x] s IH]; cbn; [destruct H|].
  destruct H as [H|H].
  - injection H as -> ->. rewrite Hi. apply N.le_max_l.
  - destruct (ino_of x); [etransitivity; [|apply N.le_max_r]|]; auto.
Qed.

Lemma inos_nolinks s : nodupb N.eqb (inos s) = true -> nolinks s.
Proof.
  intro H. apply (nodupb_NoDup _ _ N.eqb_refl) in H.
  induction s as [|[r x] s IH]; intros p q n m i H1 H2 I1 I2; [destruct H1|].
  unfold inos in H. cbn [flat_map fst snd] in H. fold (inos s) in H.
  assert (Hfresh : forall p' n', In (p', n') s -> ino_of n' = Some i -> ino_of x = Some i -> False).
  { intros p' n' Hin Hi Hx. rewrite Hx in H. inversion H as [|? ? Hnotin _]; subst. apply Hnotin.
    unfold inos. apply in_flat_map. exists (p', n'). cbn. rewrite Hi. split; [exact Hin|now left]. }
  assert (Hs : NoDup (inos s)) by (destruct (ino_of x); [now inversion H|exact H]).
  destruct H1 as [H1|H1], H2 as [H2|H2]; try (injection H1 as <- <-); try (injection H2 as <- <-).
  - reflexivity.
  - destruct (Hfresh _ _ H2 I2 I1).
  - destruct (Hfresh _ _ H1 I1 I2).
  - exact (IH Hs p q n m i H1 H2 I1 I2).
Qed.

Lemma nolinks_new s p n : ino_of n = None -> nolinks s -> nolinks (set_node s p n).
Proof.
  intros Hn H p1 p2 n1 n2 i H1 H2 I1 I2.
  apply In_set_node in H1. apply In_set_node in H2.
  destruct H1 as [H1|H1], H2 as [H2|H2]; try (injection H1 as -> ->); try (injection H2 as -> ->);
    try congruence. eapply H; eauto.
Qed.
Lemma nolinks_remove s p : nolinks s -> nolinks (remove s p).
Proof.
  intros H p1 p2 n1 n2 i H1 H2. apply In_remove in H1. apply In_remove in H2. eapply H; tauto.
Qed.
Lemma nolinks_update s p f s' :
  (forall n, ino_of (f n) = ino_of n) -> update s p f = Some s' -> nolinks s -> nolinks s'.
Proof.
  intros Hf. unfold update. destruct (lookup s p) as [n|] eqn:Hp; [|discriminate].
  destruct (ino_of n) as [i|] eqn:Hi; intros E H; injection E as <-.
  - intros p1 p2 n1 n2 j H1 H2 I1 I2.
    apply In_on_ino in H1 as [x1 [H1 E1]]. apply In_on_ino in H2 as [x2 [H2 E2]].
    assert (ino_of n1 = ino_of x1) by (destruct E1; subst; [reflexivity|apply Hf]).
    assert (ino_of n2 = ino_of x2) by (destruct E2; subst; [reflexivity|apply Hf]).
    apply (H p1 p2 x1 x2 j); auto; congruence.
  - apply nolinks_new; [rewrite Hf; exact Hi|exact H].
Qed.
Lemma nolinks_move s a b n : In (a, n) s -> nolinks s -> nolinks (set_node (remove s a) b n).
Proof.
  intros Ha H p1 p2 n1 n2 i H1 H2 I1 I2.
  apply In_set_node in H1. apply In_set_node in H2.
  destruct H1 as [H1|H1], H2 as [H2|H2]; try (injection H1 as -> ->); try (injection H2 as -> ->);
    try reflexivity.
  - apply In_remove in H2 as [H2 Hne]. exfalso. apply Hne. symmetry. eapply H; eauto.
  - apply In_remove in H1 as [H1 Hne]. exfalso. apply Hne. symmetry. eapply H; eauto.
  - apply In_remove in H1 as [H1 _]. apply In_remove in H2 as [H2 _]. eapply H; eauto.
Qed.

Definition plain (o : op) : Prop := match o with Link _ _ => False | _ => True end.

Lemma nolinks_create s p m : nolinks s -> nolinks (set_node s p (File [] m ME ME NOW (fresh_ino s))).
Proof.
  intros H p1 p2 n1 n2 i H1 H2 I1 I2. apply In_set_node in H1. apply In_set_node in H2.
  destruct H1 as [H1|H1], H2 as [H2|H2]; try (injection H1 as -> ->); try (injection H2 as -> ->);
    try reflexivity.
  - cbn in I1. injection I1 as <-. pose proof (fresh_ino_gt_In _ _ _ _ H2 I2). lia.
  - cbn in I2. injection I2 as <-. pose proof (fresh_ino_gt_In _ _ _ _ H1 I1). lia.
  - eapply H; eauto.
Qed.

Lemma nolinks_rename s a b s' : nolinks s -> apply_op s (Rename a b) = Some s' -> nolinks s'.
Proof.
  intros H E. cbn [apply_op] in E.
  destruct (lookup s a) as [n|] eqn:Hs; [|discriminate]. destruct b as [|d0 b]; [discriminate|].
  set (bb := d0 :: b) in *.
  destruct (path_eq_dec a bb); [now injection E as <-|].
  destruct (negb (isdir s (parent bb))); [discriminate|].
  assert (Hmv : nolinks (set_node (remove s a) bb n)) by (apply nolinks_move; [now apply lookup_In|exact H]).
  assert (Hdir : nolinks (rename_dir s a bb)).
  { intros p1 p2 n1 n2 i H1 H2 I1 I2.
    apply In_rename_dir in H1 as [r1 [H1 ->]]. apply In_rename_dir in H2 as [r2 [H2 ->]].
    f_equal. eapply H; eauto. }
  destruct (is_dir_node n).
  - destruct (is_prefix a bb); [discriminate|].
    destruct (lookup s bb) as [m|]; [destruct (is_dir_node m && negb (has_child s bb)); [|discriminate]|];
      now injection E as <-.
  - destruct (lookup s bb) as [m|]; [|now injection E as <-].
    destruct (is_dir_node m); [discriminate|].
    destruct (ino_of n) as [i1|], (ino_of m) as [i2|]; try (now injection E as <-).
    destruct (N.eqb i1 i2); now injection E as <-.
Qed.

Lemma nolinks_step s o s' : plain o -> nolinks s -> apply_op s o = Some s' -> nolinks s'.
Proof.
  destruct o; cbn [plain]; intros Hp H E; try contradiction; try exact (nolinks_rename _ _ _ _ H E);
    cbn [apply_op] in E;
    (* a new node: without an inode, or (Create) with a fresh one *)
    try (destruct (can_create s p); [|discriminate]; injection E as <-;
         first [now apply nolinks_new|now apply nolinks_create]).
  - destruct (lookup s p) as [[]|]; try discriminate. eapply nolinks_update; eauto. now intros [].
  - destruct (lookup s p) as [[]|]; try discriminate.
    destruct (Nat.leb off (length data)); [|discriminate]. eapply nolinks_update; eauto. now intros [].
  - destruct (lookup s p) as [[]|]; try discriminate. eapply nolinks_update; eauto. now intros [].
  - destruct (lookup s p) as [n|]; [|discriminate]. destruct (is_dir_node n); [discriminate|].
    injection E as <-. now apply nolinks_remove.
  - destruct (lookup s p) as [n|]; [|discriminate].
    destruct (is_dir_node n && negb (has_child s p)); [|discriminate].
    injection E as <-. now apply nolinks_remove.
  - destruct (lookup s p) as [n|]; [|discriminate]. destruct (is_sym_node n); [discriminate|].
    eapply nolinks_update; eauto. now intros [].
  - eapply nolinks_update; eauto. now intros [].
  - destruct (lookup s p) as [n|]; [|discriminate]. destruct (is_sym_node n); [discriminate|].
    eapply nolinks_update; eauto. now intros [].
Qed.

Lemma nolinks_run_opt l : Forall plain l -> forall s s', nolinks s -> run_opt l s = Some s' -> nolinks s'.
Proof.
  intros H s s' Hs E. apply run_opt_run in E. subst s'. revert s Hs. apply run_inv.
  eapply Forall_impl; [|exact H]. intros o Ho s s'. now apply nolinks_step.
Qed.

Section Avoid.
  Variable P : path -> Prop.

  (* a rename may move a whole subtree: it keeps away from P when nothing at or below its two
     names is in P *)
  Definition avoids (o : op) : Prop :=
    match o with
    | Mkdir p _ | Create p _ | Append p _ | Truncate p | Chmod p _ | Chown p _ _ | Utime p _
    | Unlink p | Rmdir p => ~ P p
    | Rename a b => forall r, is_prefix a r = true \/ is_prefix b r = true -> ~ P r
    | _ => False
    end.
  Lemma avoids_plain o : avoids o -> plain o.
  Proof. destruct o; cbn; auto. Qed.

  Lemma avoids_frame s o s' q :
    nolinks s -> avoids o -> apply_op s o = Some s' -> P q -> lookup s' q = lookup s q.
  Proof.
    intros Hn Ho E Hq. eapply apply_op_frame; [exact E|].
    (* without hard links an update through p reaches no other path *)
    assert (Hsh : forall p, ~ P p -> ~ (q = p \/ shares_ino s p q)).
    { intros p Hp [->|[n [m [i [H1 [H2 [I1 I2]]]]]]]; [auto|].
      apply lookup_In in H1. apply lookup_In in H2.
      assert (p = q) by (eapply Hn; eauto). subst. auto. }
    destruct o; cbn [avoids affects op_paths] in *; try contradiction; auto;
      try (intros [<-|[]]; auto).
    intro H. exact (Ho q H Hq).
  Qed.

  Lemma avoids_run l : Forall avoids l ->
    forall s q, nolinks s -> P q -> lookup (run l s) q = lookup s q.
  Proof.
    induction 1 as [|o l Ho Hl IH]; intros s q Hs Hq; cbn; [reflexivity|].
    destruct (apply_op s o) as [s'|] eqn:E; [|reflexivity].
    rewrite IH by eauto using nolinks_step, avoids_plain. eapply avoids_frame; eauto.
  Qed.
  Lemma avoids_run_opt l s s' : Forall avoids l -> nolinks s -> run_opt l s = Some s' ->
    nolinks s' /\ forall q, P q -> lookup s' q = lookup s q.
  Proof.
    intros Hl Hs E. split.
    - eapply nolinks_run_opt; [|exact Hs|exact E]. eapply Forall_impl; [apply avoids_plain|exact Hl].
    - intros q Hq. rewrite <- (run_opt_run _ _ _ E). now apply avoids_run.
  Qed.

  (* crash prefixes of  pre ++ post : while only ops that avoid P have run, P is as at the start;
     once all that remains avoids P, P is as at the end *)
  Lemma before_kept pre post s k q :
    nolinks s -> Forall avoids pre -> k <= length pre -> P q ->
    lookup (run (firstn k (pre ++ post)) s) q = lookup s q.
  Proof.
    intros Hn Hpre Hk Hq. rewrite firstn_app. replace (k - length pre) with 0 by lia.
    cbn. rewrite app_nil_r. apply avoids_run; auto using Forall_firstn.
  Qed.
  Lemma after_final pre post s k q :
    nolinks s -> Forall plain pre -> Forall avoids post -> length pre <= k -> P q ->
    lookup (run (firstn k (pre ++ post)) s) q = lookup (run (pre ++ post) s) q.
  Proof.
    intros Hn Hpre Hpost Hk Hq. rewrite firstn_app, firstn_all2, !run_app by lia.
    destruct (run_opt pre s) as [t|] eqn:E; [|reflexivity].
    rewrite !avoids_run; eauto using Forall_firstn, nolinks_run_opt.
  Qed.

  Lemma ensure_avoids s p : ~ P p -> Forall avoids (ensure_dir s p).
  Proof. intro H. unfold ensure_dir. destruct (bound s p); repeat constructor; exact H. Qed.
  Lemma open_w_avoids s p m : ~ P p -> avoids (open_w s p m).
  Proof. intro H. unfold open_w. destruct (bound s p); exact H. Qed.
  Lemma put_avoids p ch : ~ P p -> Forall avoids (put p ch).
  Proof. intro H. unfold put. apply Forall_forall. intros o Ho. apply in_map_iff in Ho as [d [<- _]]. exact H. Qed.
  Lemma rmdir_if_empty_avoids s p : ~ P p -> Forall avoids (rmdir_if_empty s p).
  Proof. intro H. unfold rmdir_if_empty. destruct (has_child s p); repeat constructor. exact H. Qed.

  (* one staged file: its ops name the file itself and, for CONTENTS, the .update. sibling *)
  Lemma item_avoids s d it :
    (forall n r, n = item_name it \/ n = UPDATE ++ CONTENTS -> ~ P (d ++ n :: r)) ->
    Forall avoids (item_ops s d it).
  Proof.
    intro H. assert (T : forall n, n = item_name it \/ n = UPDATE ++ CONTENTS -> ~ P (d ++ [n])) by auto.
    destruct it as [n ch|ch]; cbn [item_ops item_name] in *.
    - constructor; [apply open_w_avoids|apply put_avoids]; auto.
    - constructor; [apply open_w_avoids; auto|]. constructor; [cbn; auto|]. constructor; [cbn; auto|].
      apply Forall_app. split; [apply put_avoids; auto|]. repeat constructor.
      intros r [E|E]; apply is_prefix_inv in E as [r' ->]; rewrite <- app_assoc; apply H; auto.
  Qed.
  Lemma items_avoid s d items :
    (forall it n r, In it items -> n = item_name it \/ n = UPDATE ++ CONTENTS -> ~ P (d ++ n :: r)) ->
    Forall avoids (flat_map (item_ops s d) items).
  Proof.
    intro H. induction items as [|it items IH]; cbn; [constructor|]. apply Forall_app. split.
    - apply item_avoids. intros n r. apply H. now left.
    - apply IH. intros it' n r Hin. apply H. now right.
  Qed.

  Fixpoint rm_avoids (t : rt) : forall d, (forall r, ~ P (d ++ r)) -> Forall avoids (rm_ops d t).
  Proof.
    destruct t as [n|n ch]; intros d Hd.
    - repeat constructor. cbn. apply Hd.
    - cbn [rm_ops]. apply Forall_app. split; [|repeat constructor; cbn; apply Hd].
      assert (Hdn : forall r, ~ P ((d ++ [n]) ++ r)) by (intro r; rewrite <- app_assoc; apply Hd).
      induction ch as [|t' ch IHc]; [constructor|]. apply Forall_app. split; [now apply rm_avoids|exact IHc].
  Qed.
  Lemma rmtree_avoids d tree : (forall r, ~ P (d ++ r)) -> Forall avoids (rmtree_ops d tree).
  Proof.
    intro Hd. unfold rmtree_ops. apply Forall_app. split.
    - induction tree as [|t tree IH]; cbn; [constructor|]. apply Forall_app. split; [now apply rm_avoids|exact IH].
    - repeat constructor. cbn. rewrite <- (app_nil_r d). apply Hd.
  Qed.
End Avoid.

Lemma avoids_mono (P Q : path -> Prop) o : (forall q, P q -> Q q) -> avoids Q o -> avoids P o.
Proof. intro H. destruct o; cbn; auto. intros Ho r Hr Hp. exact (Ho r Hr (H r Hp)). Qed.

(* avoiding the empty set of paths is being [plain]: this way the [avoids] lemmas also give that
   an op list keeps [nolinks] *)
Lemma rmtree_plain d tree : Forall plain (rmtree_ops d tree).
Proof.
  eapply Forall_impl; [apply avoids_plain|]. apply (rmtree_avoids (fun _ => False)). auto.
Qed.

Section Generic.
  Variable cat_ok : str -> bool.
  Variable skip : str -> bool.
  Variable as_dir : bool.
  Variable loc : path.
  Notation visible := (visible cat_ok skip loc).
  Notation view_eq := (view_eq cat_ok skip as_dir loc).

  Lemma agree_view_eq a b : (forall q, visible q -> lookup a q = lookup b q) -> view_eq a b.
  Proof.
    intros H c x. unfold listed, content, read_file.
    destruct (cat_ok c) eqn:Hc; cbn; [|split; [reflexivity|discriminate]].
    destruct (skip x) eqn:Hx; cbn; [split; [reflexivity|discriminate]|].
    split.
    - rewrite (H (loc ++ [c; x])); [reflexivity|]. now exists c, x, [].
    - intros _ rest. rewrite (H (loc ++ c :: x :: rest)); [reflexivity|]. now exists c, x, rest.
  Qed.

  (* an op that names invisible paths only.  The statement of [window] uses this definition; it is
     [avoids visible] written out, and the proofs below use the two interchangeably *)
  Definition outside (o : op) : Prop :=
    match o with
    | Mkdir p _ | Create p _ | Append p _ | Truncate p | Chmod p _ | Chown p _ _ | Utime p _
    | Unlink p | Rmdir p => ~ visible p
    | Rename a b => forall r, is_prefix a r = true \/ is_prefix b r = true -> ~ visible r
    | _ => False
    end.

  Lemma outside_avoids o : outside o = avoids visible o.
  Proof. reflexivity. Qed.

  Theorem window pre mid post s :
    nolinks s -> Forall outside pre -> Forall plain mid -> Forall outside post ->
    crash_consistent_outside cat_ok skip as_dir loc (length pre) (length pre + length mid)
                             (pre ++ mid ++ post) s.
  Proof.
    intros Hn Hpre Hmid Hpost k [Hk|Hk]; [left|right]; apply agree_view_eq; intros q Hq.
    - now apply (before_kept visible).
    - rewrite app_assoc. apply (after_final visible); auto; [|rewrite app_length; lia].
      apply Forall_app. split; [|exact Hmid]. eapply Forall_impl; [|exact Hpre]. apply (avoids_plain visible).
  Qed.

  (* one commit op: every crash point *)
  Corollary single_commit pre c post s :
    nolinks s -> Forall outside pre -> plain c -> Forall outside post ->
    crash_consistent cat_ok skip as_dir loc (pre ++ c :: post) s.
  Proof.
    intros Hn Hpre Hc Hpost k.
    apply (window pre [c] post s Hn Hpre (Forall_cons _ Hc (Forall_nil _)) Hpost k). cbn. lia.
  Qed.

  Lemma invisible_loc : ~ visible loc.
  Proof.
    intros [c [x [rest [E _]]]]. apply (f_equal (@length _)) in E. rewrite app_length in E. cbn in E. lia.
  Qed.
  Lemma invisible_cat c : ~ visible (loc ++ [c]).
  Proof.
    intros [c' [x [rest [E _]]]]. apply app_inv_head in E. discriminate.
  Qed.
  Lemma invisible_skipped c x r : skip x = true -> ~ visible (loc ++ c :: x :: r).
  Proof.
    intros Hx [c' [x' [rest [E [_ Hs]]]]]. apply app_inv_head in E. injection E as <- <- <-. congruence.
  Qed.
  Lemma invisible_badcat c r : cat_ok c = false -> ~ visible (loc ++ c :: r).
  Proof.
    intros Hc [c' [x' [rest [E [Hc' _]]]]]. apply app_inv_head in E. injection E as <- _. congruence.
  Qed.
End Generic.

Lemma startswith_app p s : startswith p (p ++ s) = true.
Proof. induction p as [|x p IH]; cbn; [reflexivity|]. now rewrite N.eqb_refl. Qed.
Lemma vdb_skip_tmp pf : vdb_skip (TMP ++ pf) = true.
Proof. unfold vdb_skip. now rewrite startswith_app. Qed.

Section Vdb.
  Variable loc : path.
  Notation vis := (visible vdb_cat_ok vdb_skip loc).
  Notation out := (outside vdb_cat_ok vdb_skip loc).

  (* nothing at or below a .tmp. entry of a category is visible: the staging directory of an
     install, the directory a package is moved aside to *)
  Lemma under_hidden_invisible cat x r : ~ vis ((loc ++ [cat; TMP ++ x]) ++ r).
  Proof. rewrite <- app_assoc. apply invisible_skipped, vdb_skip_tmp. Qed.

  Lemma stage_out s cat pf items : Forall out (vdb_stage s loc cat pf items).
  Proof.
    unfold vdb_stage. repeat (apply Forall_app; split).
    - apply (ensure_avoids vis), invisible_cat.
    - apply (ensure_avoids vis). rewrite <- (app_nil_r (tmpdir loc cat pf)). apply under_hidden_invisible.
    - repeat constructor. cbn. apply invisible_loc.
    - apply (items_avoid vis). intros it n r _ _. apply (under_hidden_invisible cat pf (n :: r)).
  Qed.
  Lemma vdb_replace_ops_split s cat old pf tree items :
    vdb_replace_ops s loc cat old pf tree items
    = (vdb_stage s loc cat pf items ++ [Utime loc NOW])
      ++ (rmtree_ops (pkgdir loc cat old) tree ++ [Utime loc NOW; Rename (tmpdir loc cat pf) (pkgdir loc cat pf)])
      ++ [Utime loc NOW].
  Proof. unfold vdb_replace_ops, vdb_unmerge, vdb_commit. now rewrite <- !app_assoc. Qed.
  Lemma utime_loc_out : out (Utime loc NOW).
  Proof. apply invisible_loc. Qed.
  Lemma rmdir_if_empty_out s cat : Forall out (rmdir_if_empty s (loc ++ [cat])).
  Proof. apply (rmdir_if_empty_avoids vis), invisible_cat. Qed.
End Vdb.

Section Bin.
  Variable base : path.
  Notation vis := (visible bin_cat_ok bin_skip base).
  Notation out := (outside bin_cat_ok bin_skip base).

  Lemma under_bin_tmp_invisible cat pid pf r : ~ vis (bin_tmp base cat pid pf ++ r).
  Proof.
    unfold bin_tmp. rewrite <- app_assoc. apply invisible_skipped.
    unfold bin_skip. rewrite startswith_app. now rewrite !orb_true_r.
  Qed.
  Lemma cat_ok_pk : bin_cat_ok PACKAGES = false. Proof. reflexivity. Qed.

  Lemma bin_stage_out s cat pid pf chunks : Forall out (bin_stage s base cat pid pf chunks).
  Proof.
    assert (T : ~ vis (bin_tmp base cat pid pf))
      by (rewrite <- (app_nil_r (bin_tmp _ _ _ _)); apply under_bin_tmp_invisible).
    unfold bin_stage. apply Forall_app. split; [apply (ensure_avoids vis), invisible_cat|].
    constructor; [now apply (open_w_avoids vis)|]. apply Forall_app. split; [now apply (put_avoids vis)|].
    repeat constructor. exact T.
  Qed.
  Lemma bin_cache_out s cache : Forall out (bin_cache s base cache).
  Proof.
    assert (U : forall r, ~ vis (base ++ (UPDATE ++ PACKAGES) :: r)) by (intro r; now apply invisible_badcat).
    unfold bin_cache. constructor; [apply (open_w_avoids vis), U|].
    apply Forall_app. split; [apply (put_avoids vis), U|]. repeat constructor.
    intros r [H|H]; apply is_prefix_inv in H as [r' ->]; rewrite <- app_assoc; [apply U|].
    apply invisible_badcat, cat_ok_pk.
  Qed.
End Bin.

Definition vdb_replace_full : Prop :=
  forall loc s cat old pf tree items,
    nolinks s -> vdb_consistent loc (vdb_replace_ops s loc cat old pf tree items) s.
Definition vdb_uninstall_full : Prop :=
  forall loc s cat old tree,
    nolinks s -> vdb_consistent loc (vdb_uninstall_ops s loc cat old tree) s.

Module Ex.
  Definition v : str := s2l "v"%bs.
  Definition c : str := s2l "c"%bs.
  Definition p1 : str := s2l "p-1"%bs.
  Definition p2 : str := s2l "p-2"%bs.
  Definition SLOT : str := s2l "SLOT"%bs.
  Definition EAPI : str := s2l "EAPI"%bs.
  Definition d0 : list N := [48; 10]%N.
  Definition d1 : list N := [49; 10]%N.
  (* a vdb at /v holding c/p-1 with two metadata files *)
  Definition s0 : fs :=
    [([v], Dir 493 0 0 5); ([v; c], Dir 493 0 0 5); ([v; c; p1], Dir 493 0 0 5);
     ([v; c; p1; SLOT], File d0 420 0 0 5 1); ([v; c; p1; EAPI], File [56; 10]%N 420 0 0 5 2)].
  Definition tree : list rt := [RF SLOT; RF EAPI].
  Definition items : list item := [W SLOT [d1]; WC [[100; 10]%N]].
  Definition replace_ops := vdb_replace_ops s0 [v] c p1 p2 tree items.
  Definition uninstall_ops := vdb_uninstall_ops s0 [v] c p1 tree.
  Definition install_ops := vdb_install_ops s0 [v] c p2 items.

  Lemma s0_nolinks : nolinks s0.
  Proof. now apply inos_nolinks. Qed.
End Ex.

(* non-vacuity: every op of the three example updates succeeds, the completed install lists the
   new package with its files, the completed replace lists only the new one *)
Example ex_ops_succeed :
  (exists t, run_opt Ex.install_ops Ex.s0 = Some t)
  /\ (exists t, run_opt Ex.replace_ops Ex.s0 = Some t)
  /\ (exists t, run_opt Ex.uninstall_ops Ex.s0 = Some t).
Proof. repeat split; apply some_ex; vm_compute; reflexivity. Qed.
Example ex_install_complete :
  vdb_view (run Ex.install_ops Ex.s0) [Ex.v]
  = VL [VL [VS Ex.c; VS Ex.p1; VL [VNone; VS [48%N]; VS [56%N]; VNone; VNone; VNone; VNone; VNone; VNone; VNone; VNone; VNone; VNone]];
        VL [VS Ex.c; VS Ex.p2; VL [VNone; VS [49%N]; VNone; VNone; VNone; VNone; VNone; VNone; VNone; VNone; VS [100; 10]%N; VNone; VNone]]].
Proof. vm_compute. reflexivity. Qed.
Example ex_replace_final :
  vdb_view (run Ex.replace_ops Ex.s0) [Ex.v]
  = VL [VL [VS Ex.c; VS Ex.p2; VL [VNone; VS [49%N]; VNone; VNone; VNone; VNone; VNone; VNone; VNone; VNone; VS [100; 10]%N; VNone; VNone]]].
Proof. vm_compute. reflexivity. Qed.
Example ex_replace_window :
  replace_lo [Ex.v] Ex.s0 Ex.c Ex.p2 Ex.items = 10
  /\ replace_hi [Ex.v] Ex.s0 Ex.c Ex.p1 Ex.p2 Ex.tree Ex.items = 15.
Proof. vm_compute. split; reflexivity. Qed.

Section Differ.
  Variables (cat_ok skip : str -> bool) (as_dir : bool) (loc : path) (a b : fs) (c x : str).
  Lemma listed_differs :
    listed cat_ok skip as_dir loc a c x <> listed cat_ok skip as_dir loc b c x ->
    ~ view_eq cat_ok skip as_dir loc a b.
  Proof. intros H E. apply H, E. Qed.
  Lemma content_differs rest :
    listed cat_ok skip as_dir loc a c x = true -> content loc a c x rest <> content loc b c x rest ->
    ~ view_eq cat_ok skip as_dir loc a b.
  Proof. intros Hl H E. apply H, E, Hl. Qed.
  Lemma not_consistent ops k :
    ~ view_eq cat_ok skip as_dir loc (run (firstn k ops) a) a ->
    ~ view_eq cat_ok skip as_dir loc (run (firstn k ops) a) (run ops a) ->
    ~ crash_consistent cat_ok skip as_dir loc ops a.
  Proof. intros Ho Hn H. destruct (H k); auto. Qed.
End Differ.

(* crash point 11 of the example replace: inside rmtree(old) — the old package is still listed
   but its SLOT file is gone: a partially removed package *)
Lemma replace_k11_not_old : ~ vdb_view_eq [Ex.v] (run (firstn 11 Ex.replace_ops) Ex.s0) Ex.s0.
Proof.
  apply (content_differs vdb_cat_ok vdb_skip true _ _ _ Ex.c Ex.p1 [Ex.SLOT]); vm_compute; [reflexivity|discriminate].
Qed.
Lemma replace_k11_not_new :
  ~ vdb_view_eq [Ex.v] (run (firstn 11 Ex.replace_ops) Ex.s0) (run Ex.replace_ops Ex.s0).
Proof. apply (listed_differs vdb_cat_ok vdb_skip true _ _ _ Ex.c Ex.p1). vm_compute. discriminate. Qed.
(* crash point 14: rmtree(old) done, rename(new) not yet — neither package is listed *)
Lemma replace_k14_neither : ~ vdb_consistent [Ex.v] Ex.replace_ops Ex.s0.
Proof.
  apply (not_consistent vdb_cat_ok vdb_skip true _ _ _ 14).
  - apply (listed_differs _ _ _ _ _ _ Ex.c Ex.p1). vm_compute. discriminate.
  - apply (listed_differs _ _ _ _ _ _ Ex.c Ex.p2). vm_compute. discriminate.
Qed.
(* uninstall, crash point 2: after the first unlink of rmtree *)
Lemma uninstall_k2_neither : ~ vdb_consistent [Ex.v] Ex.uninstall_ops Ex.s0.
Proof.
  apply (not_consistent vdb_cat_ok vdb_skip true _ _ _ 2).
  - apply (content_differs _ _ _ _ _ _ Ex.c Ex.p1 [Ex.SLOT]); vm_compute; [reflexivity|discriminate].
  - apply (listed_differs _ _ _ _ _ _ Ex.c Ex.p1). vm_compute. discriminate.
Qed.
