(* Prop_C28.v — the property theorems of C28, each followed by the audit of its assumptions. *)
From Coq Require Import List ZArith Permutation Lia.
Import ListNotations.
From Verif Require Import Base.Val C18.Fs C28.Model_C28 C28.Spec_C28 C28.Proofs_C28.

(* a generated Manifest parses back (parse_manifest) to exactly the covered files and distfiles with
   their sizes and checksums; well-formed inputs never fail *)
Theorem parse_render : forall thin scan fetch,
  wf_update thin scan fetch = true ->
  match update_text thin scan fetch with
  | Ok (Some t) => parse_text t = Some (expected_pm thin scan fetch)
  | Ok None => thin = true /\ fetch = []
  | Fail _ => False
  end.
Proof.
  intros thin scan fetch H. pose proof (text_roundtrip thin scan fetch H) as W.
  destruct (update_text thin scan fetch) as [[t|]|]; [apply W|exact W|exact W].
Qed.
Print Assumptions parse_render.

(* ... where the expected content of a class is the covered entries themselves (as a multiset), each
   with its size and its other checksums and nothing else *)
Theorem canon_sec_exact : forall l,
  Permutation (canon_sec l) (map (fun e => (fst e, canon_chks (snd e))) l).
Proof. intro l. apply Permutation_map, sort_by_permutation. Qed.
Print Assumptions canon_sec_exact.
Theorem canon_chks_exact : forall ck,
  Permutation (canon_chks ck)
              ((SIZE, Z.of_N (size_of ck)) :: map (fun e => (fst e, Z.of_N (snd e))) (filter not_size ck)).
Proof. intro ck. constructor. apply Permutation_map, sort_by_permutation. Qed.
Print Assumptions canon_chks_exact.

(* the text does not depend on the directory listing order nor on the order of the distfiles *)
Theorem order_independent : forall thin scan scan' fetch fetch',
  Permutation scan scan' -> NoDup (map s_loc scan) ->
  Permutation fetch fetch' -> NoDup (map fst fetch) ->
  update_text thin scan fetch = update_text thin scan' fetch'.
Proof.
  intros thin scan scan' fetch fetch' Hs Hns Hf Hnf. apply update_text_ext.
  - now apply Permutation_length.
  - now apply existsb_perm.
  - now apply sort_by_order_irrelevant.
  - intros f pre Hpre. now apply (sorted_picks f pre).
Qed.
Print Assumptions order_independent.

(* regenerating an up-to-date Manifest writes nothing *)
Theorem up_to_date_no_ops : forall i s old t,
  update_text (u_thin i) (u_scan i) (u_fetch i) = Ok (Some t) ->
  file_data s P = Some old -> read_nl old = t ->
  update_ops i s = Ok (false, []).
Proof.
  intros i s old t Ht Hd Hr. unfold update_ops, update_with. now rewrite Ht, Hd, Hr, str_eqb_refl.
Qed.
Print Assumptions up_to_date_no_ops.

(* ... in particular right after a completed update (text without carriage returns) *)
Theorem idempotent : forall i s wr ops s',
  tmp_private s ->
  update_ops i s = Ok (wr, ops) -> run_opt ops s = Some s' ->
  (forall text, update_text (u_thin i) (u_scan i) (u_fetch i) = Ok (Some text) -> ~ In 13%N text) ->
  update_ops i s' = Ok (false, []).
Proof.
  intros i s wr ops s' Hpriv H Hr Hcr.
  destruct (update_ops_cases i s wr ops H) as [[-> ->]|(text & Ht & -> & ->)].
  - injection Hr as <-. exact H.
  - apply (up_to_date_no_ops i s' text text Ht (write_ops_complete _ _ _ _ _ Hpriv Hr)).
    apply read_nl_id, Hcr, Ht.
Qed.
Print Assumptions idempotent.

(* ... for every well-formed input *)
Theorem idempotent_wf : forall i s wr ops s',
  tmp_private s -> wf_update (u_thin i) (u_scan i) (u_fetch i) = true ->
  update_ops i s = Ok (wr, ops) -> run_opt ops s = Some s' ->
  update_ops i s' = Ok (false, []).
Proof.
  intros i s wr ops s' Hpriv Hwf H Hr. apply (idempotent i s wr ops s' Hpriv H Hr).
  intros text Ht. pose proof (text_roundtrip _ _ _ Hwf) as W. rewrite Ht in W. apply W.
Qed.
Print Assumptions idempotent_wf.

(* interrupted at ANY call k, the Manifest node is the old one or a file holding the complete new
   text (and then every call was issued); nothing but the Manifest and its temporary changes *)
Theorem update_atomic : forall i s wr ops k,
  tmp_private s ->
  update_ops i s = Ok (wr, ops) ->
  let sk := run (firstn k ops) s in
  (forall q, q <> P -> q <> TMP -> lookup sk q = lookup s q) /\
  (lookup sk P = lookup s P \/
   exists text, update_text (u_thin i) (u_scan i) (u_fetch i) = Ok (Some text) /\
                file_data sk P = Some text /\ (length ops <= k)%nat).
Proof.
  intros i s wr ops k Hpriv H sk. subst sk.
  destruct (update_ops_cases i s wr ops H) as [[-> ->]|(text & Ht & -> & ->)].
  - rewrite firstn_nil. cbn. auto.
  - destruct (write_ops_atomic s (u_mode i) (u_chunk i) text k Hpriv) as [Hfr [Hp|[Hp Hk]]]; eauto 6.
Qed.
Print Assumptions update_atomic.

(* an OSError at any call leaves the old Manifest *)
Theorem update_eio_keeps_old : forall i s wr ops k,
  tmp_private s -> update_ops i s = Ok (wr, ops) -> (k < length ops)%nat ->
  lookup (run (eio_ops ops k) s) P = lookup s P.
Proof.
  intros i s wr ops k Hpriv H Hk. apply eio_keeps_manifest.
  destruct (update_atomic i s wr ops k Hpriv H) as [_ [Hp|(t & _ & _ & Hle)]]; [exact Hp|lia].
Qed.
Print Assumptions update_eio_keeps_old.

(* an update whose calls all succeed leaves the new text *)
Theorem update_completes : forall i s ops s',
  tmp_private s -> update_ops i s = Ok (true, ops) -> run_opt ops s = Some s' ->
  exists text, update_text (u_thin i) (u_scan i) (u_fetch i) = Ok (Some text) /\ file_data s' P = Some text.
Proof.
  intros i s ops s' Hpriv H Hr.
  destruct (update_ops_cases i s true ops H) as [[E _]|(text & Ht & _ & ->)]; [discriminate|].
  exists text. split; [exact Ht|exact (write_ops_complete _ _ _ _ _ Hpriv Hr)].
Qed.
Print Assumptions update_completes.

(* the write of the unrepaired code (open(path, "w")) is not atomic *)
Theorem inplace_not_atomic_refuted :
  exists i s wr ops k text,
    tmp_private s /\ update_ops_inplace i s = Ok (wr, ops) /\
    update_text (u_thin i) (u_scan i) (u_fetch i) = Ok (Some text) /\
    lookup (run (firstn k ops) s) P <> lookup s P /\
    file_data (run (firstn k ops) s) P <> Some text.
Proof.
  (* a crash right after open(path, "w") leaves an empty Manifest *)
  exists new_in, old_fs. eexists. eexists. exists 1%nat. eexists.
  split; [exact I|]. split; [vm_compute; reflexivity|]. split; [vm_compute; reflexivity|].
  split; vm_compute; discriminate.
Qed.
Print Assumptions inplace_not_atomic_refuted.
