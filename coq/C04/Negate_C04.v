(* Negate_C04.v — atoms built with negate_vers=True (atom(..., negate_vers=True)): the version
   clause of the operators <,<=,=,>=,>,~ is inverted; `=*` and unversioned atoms ignore the flag
   (atom.restrictions passes negate only to VersionMatch). *)
From Coq Require Import List NArith Bool Lia.
Import ListNotations.
From Verif Require Import Base.Val C01.Model_C01 C04.Model_C04 C04.Spec_C04 C04.Proofs_C04.

Section Spec.
Variable vc : str -> option N -> str -> option N -> Z.

Definition ver_ok_nv (a : atom) (p : package) : bool :=
  if a_negate_vers a && N.ltb (a_op a) 6 then negb (ver_ok vc a p) else ver_ok vc a p.

Definition pms_match_nv (a : atom) (p : package) : bool :=
  str_eqb (a_cat a) (p_cat p) && str_eqb (a_pkg a) (p_pkg p)
  && ver_ok_nv a p
  && opt_eq (a_slot a) (p_slot p) && opt_eq (a_subslot a) (p_subslot p)
  && opt_eq (a_repo a) (p_repo p)
  && use_ok a p.
End Spec.

Lemma pms_match_nv_plain vc a p : a_negate_vers a = false -> pms_match_nv vc a p = pms_match vc a p.
Proof. intro H. unfold pms_match_nv, ver_ok_nv, pms_match. rewrite H. reflexivity. Qed.

Definition with_negate (a : atom) (n : bool) : atom :=
  {| a_cat := a_cat a; a_pkg := a_pkg a; a_op := a_op a; a_ver := a_ver a; a_rev := a_rev a;
     a_fullver := a_fullver a; a_slot := a_slot a; a_subslot := a_subslot a; a_slotop := a_slotop a;
     a_repo := a_repo a; a_use := a_use a; a_blocks := a_blocks a; a_strong := a_strong a;
     a_negate_vers := n |}.

Lemma ver_clause_nv vc a p :
  sign_valued vc -> wf_atom a = true -> known_glob a p = false ->
  ver_clause vc a p = ver_ok_nv vc a p.
Proof.
  intros Hs Hwf Kg. apply wf_atom_inv in Hwf as [Hop [Hfv _]].
  unfold ver_clause, ver_ok_nv, known_glob in *. destruct (a_fullver a) as [fv|] eqn:Efv.
  - assert (N7 : a_op a <> 7%N) by (intro E; apply Hfv in E; discriminate).
    destruct (N.eqb_spec (a_op a) 6) as [E6|N6].
    + (* `=*`: a string prefix outside K1 is a component prefix, and conversely *)
      unfold ver_ok. rewrite E6, Efv, andb_false_r. cbn in Kg.
      destruct (startswith (p_fullver p) fv) eqn:Esw.
      * apply negb_false_iff in Kg. symmetry. exact Kg.
      * destruct (comp_prefix fv (p_fullver p)) eqn:Ecp; [|reflexivity].
        apply comp_prefix_startswith in Ecp. congruence.
    + rewrite vmatch_xor, (vmatch_ver_ok vc a p Hs) by lia.
      replace (N.ltb (a_op a) 6) with true by (symmetry; apply N.ltb_lt; lia).
      destruct (a_negate_vers a); [apply xorb_true_r|apply xorb_false_r].
  - unfold ver_ok. rewrite (proj1 Hfv eq_refl), andb_false_r. reflexivity.
Qed.

(* non-vacuity: atom('<a/b-1.1', negate_vers=True) matches a/b-10 and not a/b-1 *)
Example negate_example :
  let a := with_negate (mk_atom 0 [49; 46; 49]%N (Some [49; 46; 49]%N) None) true in
  atom_match ver_cmp a (mk_pkg [49; 48]%N [] []) = true /\ atom_match ver_cmp a (mk_pkg [49]%N [] []) = false.
Proof. vm_compute. repeat split. Qed.

(* comparison (B) inside Coq for every atom, negated or not *)
Definition spec_match_bad_nv (i : atom * package) (res : val) : bool :=
  negb (val_eqb res (VB (pms_match_nv ver_cmp (fst i) (snd i)))).
