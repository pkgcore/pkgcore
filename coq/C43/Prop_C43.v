From Coq Require Import List Lia.
Import ListNotations.
From Verif Require Import C43.Model_C43 C43.Spec_C43 C43.Proofs_C43.

(* a successful collapse gives, for the class and for every key, the value of the nearest
   definition in breadth-first (level) order of the inheritance tree — [nearest] quantifies over
   every value v, so the nearest definition is returned regardless of what the value is
   (empty string, False, empty list included) *)
Theorem nearest_definition : forall e name c cfg,
  collapse e name = inr (c, cfg) ->
  exists order, LevelOrder e [root e name] order
    /\ nearest s_class order (Some c)
    /\ forall k, nearest (fun s => assoc k (s_keys s)) order (cfg k).
Proof.
  intros e name c cfg H. apply collapse_inv in H as [order [B [C ->]]].
  exists order. split; [eapply bfs_level_order, B|]. split.
  - rewrite <- C. apply first_some_nearest.
  - intro k. apply (first_some_nearest (fun s => assoc k (s_keys s))).
Qed.
Print Assumptions nearest_definition.

(* in particular the section's own setting is returned whatever its value (falsy or not) *)
Theorem own_setting_wins : forall e name c cfg k v,
  collapse e name = inr (c, cfg) ->
  assoc k (s_keys (head_sec (root e name))) = Some v -> cfg k = Some v.
Proof.
  intros e name c cfg k v H A. apply collapse_inv in H as [order [B [_ ->]]].
  apply bfs_Qrel in B as [o [-> Q]]. cbn [app].
  inversion Q as [|x q o' Q' E1 E2]; subst. cbn [first_some]. now rewrite A.
Qed.
Print Assumptions own_setting_wins.

(* the worklist visits the sections level by level, left to right (any fuel, any start entry) *)
Theorem bfs_order_characterisation : forall e fuel name st order,
  bfs fuel e [(name, st)] [name] [] = inr order -> LevelOrder e [(name, st)] order.
Proof. exact bfs_level_order. Qed.
Print Assumptions bfs_order_characterisation.

(* later config sources override earlier ones for the same name; a self-inherit continues below *)
Theorem source_override : forall e src n s,
  assoc n src = Some s -> stack_of (e ++ [src]) n = s :: stack_of e n.
Proof. intros e src n s H. rewrite stack_of_app. unfold stack_of at 1. cbn. now rewrite H. Qed.
Print Assumptions source_override.

Theorem cycle_reported : forall e name, has_cycle e name -> exists x, collapse e name = inl x.
Proof.
  intros e name [x [z [y [Rx [Rz [Hy [Ny Ey]]]]]]].
  destruct (collapse e name) as [er|[c cfg]] eqn:C; [eauto|]. exfalso.
  apply collapse_inv in C as [order [B _]].
  assert (I : forall w, In w [root e name] -> In (fst w) [name]) by (intros w [<-|[]]; now left).
  exact (proj2 (proj2 (bfs_tree e _ _ _ _ _ B I _ (or_introl eq_refl) x Rx) z Rz y Hy Ny) Ey).
Qed.
Print Assumptions cycle_reported.

Theorem missing_reported : forall e name, has_missing e name -> exists x, collapse e name = inl x.
Proof.
  intros e name [z [i [R [Hi Hm]]]].
  destruct (collapse e name) as [er|[c cfg]] eqn:C; [eauto|]. exfalso.
  apply collapse_inv in C as [order [B _]].
  assert (I : forall w, In w [root e name] -> In (fst w) [name]) by (intros w [<-|[]]; now left).
  destruct (bfs_tree e _ _ _ _ _ B I _ (or_introl eq_refl) z R) as [Rs _].
  destruct (Rs i Hi) as [R1 R2].
  destruct Hm as [[Ne Em]|[Ee Et]]; [exact (R1 Ne Em) | exact (R2 Ee Et)].
Qed.
Print Assumptions missing_reported.

Theorem success_is_tree : forall e name c cfg,
  collapse e name = inr (c, cfg) -> ~ has_cycle e name /\ ~ has_missing e name.
Proof.
  intros e name c cfg H. split; intro X;
    [apply cycle_reported in X as [x Hx] | apply missing_reported in X as [x Hx]]; congruence.
Qed.
Print Assumptions success_is_tree.

(* the model's fuel is never the reason for an error: the worklist terminates within it *)
Theorem never_out_of_fuel : forall e name, collapse e name <> inl EFuel.
Proof.
  intros e name H. apply collapse_fuel in H as B. revert B. apply root_fuel_enough.
  intro S. unfold collapse in H. now rewrite S in H.
Qed.
Print Assumptions never_out_of_fuel.

Theorem errors_are_reported : forall e name,
  has_cycle e name \/ has_missing e name -> exists x, collapse e name = inl x /\ x <> EFuel.
Proof.
  intros e name H. assert (X : exists x, collapse e name = inl x)
    by (destruct H; [now apply cycle_reported | now apply missing_reported]).
  destruct X as [x Hx]. exists x. split; [exact Hx|]. intros ->. exact (never_out_of_fuel e name Hx).
Qed.
Print Assumptions errors_are_reported.

(* the executable level order used for comparison B is the declarative one *)
Theorem levels_is_level_order : forall e l o,
  LevelOrder e l o -> forall d, length o < d -> levels d e l = o.
Proof.
  induction 1 as [|l o N L IH]; intros d Hd; [now destruct d|].
  destruct d as [|d]; [lia|]. cbn [levels]. destruct l as [|x l]; [congruence|].
  rewrite IH; [reflexivity|]. rewrite app_length in Hd. cbn in Hd. lia.
Qed.
Print Assumptions levels_is_level_order.
