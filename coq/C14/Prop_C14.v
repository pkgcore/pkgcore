(* [step] is the REPAIRED wrapper (fixes/C14-cache-invalidation.patch); V and E (what evaluating
   an attribute under a USE set computes) are universally quantified. *)
From Coq Require Import List NArith.
From Verif Require Import C14.Model_C14 C14.Spec_C14 C14.Proofs_C14.

(* after every history of requests, rollbacks, commits and reads, a read of attribute a returns
   E a (current USE set), and does not touch the USE set *)
Theorem reads_current : forall (V : Type) (E : N -> list N -> V)
    (use locked : list N) (ops : list op) (a : N),
  let s := run V (step V E) ops (init V use locked) in
  fst (step V E (Read a) s) = RV (E a (current_use s))
  /\ current_use (snd (step V E (Read a) s)) = current_use s.
Proof. intros V E use locked ops a s. apply read_step, run_coherent, coherent_init. Qed.
Print Assumptions reads_current.

(* the same for every read in the middle of a history *)
Theorem all_reads_current : forall (V : Type) (E : N -> list N -> V)
    (use locked : list N) (ops : list op) (i : nat) (a : N) r s',
  nth_error ops i = Some (Read a) ->
  nth_error (exec V (step V E) ops (init V use locked)) i = Some (r, s') ->
  r = RV (E a (current_use s')).
Proof. intros V E use locked ops i a r s'. apply exec_nth, coherent_init. Qed.
Print Assumptions all_reads_current.

(* a request answered False leaves the USE set as it was *)
Theorem refused_unchanged : forall (V : Type) (E : N -> list N -> V)
    (use locked : list N) (ops : list op) (o : op),
  let s := run V (step V E) ops (init V use locked) in
  is_request o -> fst (step V E o s) = RB false ->
  same_set (current_use (snd (step V E o s))) (current_use s).
Proof. intros V E use locked ops o s Ho Hr. apply (step_refused V E o s Ho Hr). Qed.
Print Assumptions refused_unchanged.

(* ... and also the pins and the change count, from ANY state *)
Theorem refused_restores_changeset : forall (V : Type) en vals (s s' : st V),
  request V en vals s = (RB false, s') ->
  same_set (current_use s') (current_use s)
  /\ same_set (changed (cfg s')) (changed (cfg s))
  /\ count (cfg s') = count (cfg s).
Proof.
  intros V en vals s s' H. destruct (refused_restores V _ _ _ _ H) as (Hn & Hc & Ho).
  unfold count. rewrite Ho. auto.
Qed.
Print Assumptions refused_restores_changeset.

(* a request is always answered (True or False), it never raises *)
Theorem requests_answered : forall (V : Type) (E : N -> list N -> V)
    (use locked : list N) (ops : list op) (o : op),
  let s := run V (step V E) ops (init V use locked) in
  is_request o -> exists b, fst (step V E o s) = RB b.
Proof. intros V E use locked ops o s. apply step_answered. Qed.
Print Assumptions requests_answered.

(* a request answered True leaves every requested flag in the requested state *)
Theorem accepted_effect : forall (V : Type) en vals (s s' : st V),
  request V en vals s = (RB true, s') ->
  forall x, In x vals -> mem x (current_use s') = en.
Proof.
  intros V en vals s s' H x Hx.
  destruct (request_cases V en vals s) as [(l & Hq & Hall)|(l & Hq & _)];
    rewrite Hq in H; inversion H; subst. now apply Hall.
Qed.
Print Assumptions accepted_effect.

(* the pinned wrapper: true for histories of enables, rollbacks and reads only *)
Theorem reads_current_pinned_partial : forall (V : Type) (E : N -> list N -> V)
    (use locked : list N) (ops : list op) (a : N),
  Forall no_commit_no_disable ops ->
  let s := run V (step_pinned V E) ops (init V use locked) in
  fst (step_pinned V E (Read a) s) = RV (E a (current_use s)).
Proof.
  intros V E use locked ops a Hops s.
  apply (read_step V E a s), runp_coherent, coherent_init. exact Hops.
Qed.
Print Assumptions reads_current_pinned_partial.

(* ... and refuted beyond (witnesses replayed on the implementation by the harness) *)
Theorem pinned_refuted :
  ~ reads_current_stmt _ Eid (step_pinned _ Eid)
  /\ ~ refused_unchanged_stmt _ (step_pinned _ Eid)
  /\ ~ requests_answered_stmt _ (step_pinned _ Eid).
Proof.
  exact (conj pinned_reads_current_refuted_disable
           (conj pinned_refused_unchanged_refuted pinned_requests_answered_refuted)).
Qed.
Print Assumptions pinned_refuted.

(* several configured packages (fresh wrappers of shared raw packages), ops interleaved in any
   order: a read on a wrapper yields the attribute of ITS raw package under ITS current USE set *)
Theorem multi_reads_current : forall (V : Type) (Er : N -> N -> list N -> V)
    (locked : list N) (cfgs : list (N * list N)) (ops : list (nat * op))
    (w : nat) (a : N) (raw : N) (s : st V),
  let ws := mrun V Er ops (minit V locked cfgs) in
  nth_error ws w = Some (raw, s) ->
  fst (mstep_at V Er w (Read a) ws) = Some (RV (Er raw a (current_use s))).
Proof.
  intros V Er locked cfgs ops w a raw s ws Hn.
  destruct (mstep_at_self V Er ws w (Read a) raw s Hn) as [-> _].
  destruct (read_step V (Er raw) a s (mrun_nth V Er _ _ _ _ _ _ Hn)) as [-> _]. reflexivity.
Qed.
Print Assumptions multi_reads_current.

(* an op addressed to one wrapper leaves every other wrapper as it was *)
Theorem multi_isolated : forall (V : Type) (Er : N -> N -> list N -> V)
    (ws : list (wst V)) (w w' : nat) (o : op),
  w' <> w -> nth_error (snd (mstep_at V Er w o ws)) w' = nth_error ws w'.
Proof. intros V Er ws w w' o. apply mstep_at_other. Qed.
Print Assumptions multi_isolated.

(* a request answered False leaves the USE set of the wrapper it was addressed to as it was *)
Theorem multi_refused_unchanged : forall (V : Type) (Er : N -> N -> list N -> V)
    (ws : list (wst V)) (w : nat) (o : op) (raw : N) (s : st V),
  nth_error ws w = Some (raw, s) -> is_request o ->
  fst (mstep_at V Er w o ws) = Some (RB false) ->
  exists s', nth_error (snd (mstep_at V Er w o ws)) w = Some (raw, s')
             /\ same_set (current_use s') (current_use s).
Proof.
  intros V Er ws w o raw s Hn Ho Hr.
  destruct (mstep_at_self V Er ws w o raw s Hn) as [Hf Hs]. rewrite Hf in Hr. injection Hr as Hr.
  exists (snd (step V (Er raw) o s)). split; [exact Hs | apply (step_refused V (Er raw) o s Ho Hr)].
Qed.
Print Assumptions multi_refused_unchanged.
