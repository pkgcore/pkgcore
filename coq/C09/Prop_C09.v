From Coq Require Import List NArith Bool.
Import ListNotations.
From Verif Require Import C09.Model_C09 C09.Spec_C09 C09.Proofs_C09 C09.Proofs2_C09.

(* every token list the grammar derives is accepted, with the tree the grammar assigns ... *)
Theorem grammar_accepted : forall c lf toks d, items c lf toks d -> parse c lf toks = Some d.
Proof.
  intros c lf toks d H. apply runs_run. rewrite <- (app_nil_r toks).
  apply (proj1 (gram_run c lf) toks d H); [intros _; exact I | apply R_end].
Qed.
Print Assumptions grammar_accepted.

(* ... and nothing else is accepted: whatever DepSet.parse accepts is a sentence of the grammar *)
Theorem accepted_grammatical : forall c lf, arrow_reserved c lf ->
  forall toks d, parse c lf toks = Some d -> items c lf toks d.
Proof. exact accepted_grammatical_proof. Qed.
Print Assumptions accepted_grammatical.

(* str(parse(s)) parses again, to the SAME tree (hence to an equal DepSet), for every operator
   set / rename setting, given an element parser that reads back what it renders *)
Theorem parse_print_roundtrip : forall c lf, arrow_reserved c lf -> lf_good c lf ->
  forall toks d, parse c lf toks = Some d -> parse c lf (print d) = Some d.
Proof.
  intros c lf AR LG toks d H. apply grammar_accepted, items_of_forall.
  exact (proj1 (print_gram c lf LG) _ _ (accepted_grammatical c lf AR _ _ H)).
Qed.
Print Assumptions parse_print_roundtrip.

(* by attribute kind: LICENSE, RESTRICT/PROPERTIES, SRC_URI with renames, REQUIRED_USE (EAPI>=5
   and EAPI 4) — no premise left *)
Theorem roundtrip_by_kind : forall kd toks d, (2 <= kd)%N ->
  parse (cfg_of kd) (lf_of kd []) toks = Some d ->
  parse (cfg_of kd) (lf_of kd []) (print d) = Some d.
Proof.
  intros kd toks d K. destruct (kind_premises kd K) as (AR & LG & _).
  exact (parse_print_roundtrip _ _ AR LG toks d).
Qed.
Print Assumptions roundtrip_by_kind.

(* unmatched "(" / ")" and operators or conditionals not followed by "(" are rejected *)
Theorem unbalanced_rejected : forall c lf, renames c = false -> forall toks,
  balance 0 toks = false \/ dangling c toks = true -> parse c lf toks = None.
Proof.
  intros c lf NR toks H. apply unbalanced_rejected_all_proof. rewrite (skel_id c toks NR). tauto.
Qed.
Print Assumptions unbalanced_rejected.

(* PMS 8.3.4: a use-dep atom a[x?] / a[!x?] / a[x=] / a[!x=] read under a USE set (its expansion
   into use-conditional groups over plain atoms) is the plain atom evaluation computes *)
Theorem transitive_use_expansion : forall use S l, leaf_sat use S l = S (ev_leaf use l).
Proof. exact transitive_use_expansion_proof. Qed.
Print Assumptions transitive_use_expansion.

(* evaluate_depset(use) is conditional-free and is satisfied by exactly the token sets that
   satisfy the original read under use — for every tree, USE set and token set *)
Theorem evaluate_preserves_meaning : forall c use d,
  forallb leaves_wf d = true ->
  (tua c = true \/ existsb has_trans d = false) ->
  forallb cond_free (evaluate c use d) = true /\
  forall S use', sat_all use' S (evaluate c use d) = sat_all use S d.
Proof.
  intros c use d W P. apply evaluate_indep; [exact W|].
  destruct (existsb has_trans d) eqn:T; [left | right; reflexivity].
  destruct P as [P|P]; [|discriminate]. unfold node_conds. rewrite P, T. apply orb_true_r.
Qed.
Print Assumptions evaluate_preserves_meaning.

(* str.split() undoes " ".join() on tokens (non-empty, whitespace-free) *)
Theorem split_join : forall toks, forallb tok_ok toks = true -> split_ws (join_sp toks) = toks.
Proof. exact split_join_proof. Qed.
Print Assumptions split_join.

(* str(DepSet.parse(s)) parses again, to the same tree — stated on the strings themselves *)
Theorem parse_print_roundtrip_str : forall c lf, lf_good c lf -> lf_tok lf -> arrow_reserved c lf ->
  forall s d, parse_str c lf s = Some d -> parse_str c lf (print_str d) = Some d.
Proof.
  intros c lf LG LT AR s d H. unfold parse_str.
  rewrite (print_str_split c lf LG LT AR s d H). exact (parse_print_roundtrip c lf AR LG _ d H).
Qed.
Print Assumptions parse_print_roundtrip_str.

Theorem roundtrip_str_by_kind : forall kd s d, (2 <= kd)%N ->
  parse_str (cfg_of kd) (lf_of kd []) s = Some d ->
  parse_str (cfg_of kd) (lf_of kd []) (print_str d) = Some d.
Proof.
  intros kd s d K. destruct (kind_premises kd K) as (AR & LG & LT).
  exact (parse_print_roundtrip_str _ _ LG LT AR s d).
Qed.
Print Assumptions roundtrip_str_by_kind.

(* ---------------------------------------------------------------- rejection, clause by clause,
   every configuration (with renames the clauses speak about the structural positions [skel]) *)
Theorem unbalanced_rejected_all : forall c lf toks,
  balance 0 (skel c toks) = false \/ dangling c (skel c toks) = true \/ empty_group (skel c toks) = true ->
  parse c lf toks = None.
Proof. exact unbalanced_rejected_all_proof. Qed.
Print Assumptions unbalanced_rejected_all.

(* an operator or a conditional as the last structural token *)
Theorem dangling_at_end_rejected : forall c lf toks pre k,
  skel c toks = pre ++ [k] -> classify c k = TGroup -> parse c lf toks = None.
Proof.
  intros c lf toks pre k E G. apply unbalanced_rejected_all_proof. right; left.
  rewrite E. apply dangling_end, G.
Qed.
Print Assumptions dangling_at_end_rejected.

(* "( )" anywhere *)
Theorem empty_group_rejected : forall c lf t1 t2, renames c = false ->
  parse c lf (t1 ++ s_open :: s_close :: t2) = None.
Proof.
  intros c lf t1 t2 NR. apply unbalanced_rejected_all_proof. right; right.
  rewrite (skel_id c _ NR). apply empty_group_mid.
Qed.
Print Assumptions empty_group_rejected.

(* ---------------------------------------------------------------- evaluation, every configuration:
   no use-conditional group is left and, read under the same flags, nothing changed; with nothing
   conditional for the parser the structure is handed back as it is (use-dep atoms left alone);
   otherwise the result is conditional-free and means the same under any flags *)
Theorem evaluate_any_config : forall c use d,
  forallb leaves_wf d = true ->
  no_cond (evaluate c use d) = true /\
  (forall S, sat_all use S (evaluate c use d) = sat_all use S d) /\
  (node_conds c d = false -> evaluate c use d = d) /\
  (node_conds c d = true \/ existsb has_trans d = false ->
   forallb cond_free (evaluate c use d) = true /\
   forall S use', sat_all use' S (evaluate c use d) = sat_all use S d).
Proof.
  intros c use d W. split; [apply evaluate_no_cond, W|].
  split; [intro S; apply evaluate_same_use, W|].
  split; [|apply evaluate_indep, W].
  intro NC. unfold evaluate. rewrite NC. reflexivity.
Qed.
Print Assumptions evaluate_any_config.

(* flag-independence of the result is false exactly in the left-alone case *)
Theorem evaluate_left_alone_refuted :
  exists c use use' S d, forallb leaves_wf d = true /\ node_conds c d = false /\
    sat_all use' S (evaluate c use d) <> sat_all use S d.
Proof.
  (* a/b[x?] parsed without transitive_use_atoms, evaluated under {x}, then read under {}: asks
     for a/b, not for a/b[x] *)
  exists (cfg_of 1), [fx], [], (only [97;47;98;91;120;93]), [L (atom_with [[120;63]])].
  split; [reflexivity|]. split; [reflexivity|]. vm_compute. discriminate.
Qed.
Print Assumptions evaluate_left_alone_refuted.
