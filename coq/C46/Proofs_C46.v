From Coq Require Import List ZArith Bool.
Import ListNotations.
From Verif Require Import Base.Val Base.Lists C46.Model_C46 C46.Spec_C46.

Lemma memN_In x l : memN x l = true <-> In x l.
Proof. apply existsb_N_In. Qed.

Lemma memN_false x l : memN x l = false <-> ~ In x l.
Proof.
  rewrite <- memN_In. destruct (memN x l); split; intro H; try reflexivity; try discriminate.
  exfalso. apply H. reflexivity.
Qed.

Lemma is_nil_true {A} (l : list A) : is_nil l = true <-> l = [].
Proof. destruct l; cbn; split; intro H; congruence. Qed.

Lemma is_nil_false {A} (l : list A) : is_nil l = false <-> l <> [].
Proof. destruct l; cbn; split; intro H; congruence. Qed.

Lemma insert_In f g l : In g (insert f l) <-> g = f \/ In g l.
Proof.
  induction l as [|h r IH]; cbn.
  - split; intros [H|H]; auto; contradiction.
  - destruct (f_id f <=? f_id h)%N; cbn.
    + split; intros [H|H]; subst; auto.
    + rewrite IH. split; intros [H|[H|H]]; subst; auto.
Qed.

Lemma sort_files_In g l : In g (sort_files l) <-> In g l.
Proof.
  induction l as [|h r IH]; cbn; [tauto|].
  rewrite insert_In, IH. split; intros [H|H]; auto.
Qed.

Lemma matches_true ps p : matches ps p = true <-> exists x, In x ps /\ In x (p_pats p).
Proof.
  unfold matches. rewrite existsb_exists. split; intros [x [H1 H2]]; exists x; split; auto;
    apply memN_In; exact H2.
Qed.

Section WithSel.
  Variable scan : opts -> bool.
  Variable selected : file -> bool.

  Lemma removed_In o w f :
    In f (removed scan selected o w) <->
    In f (w_all w) /\ memN (f_id f) (target_files selected o w) = true
    /\ memN (f_id f) (saving scan o w) = false /\ passes o f = true.
  Proof.
    unfold removed. split.
    - intro H. apply filter_In in H as [H Hp]. apply filter_In in H as [H Hb].
      apply (proj1 (sort_files_In _ _)) in H.
      apply andb_true_iff in Hb as [Ht Hs]. apply negb_true_iff in Hs. auto.
    - intros (Ha & Ht & Hs & Hp). apply filter_In. split; [|exact Hp].
      apply filter_In. split; [now apply sort_files_In|]. now rewrite Ht, Hs.
  Qed.

  Lemma passes_spec o f : passes o f = true <-> passes_filters o f.
  Proof.
    unfold passes, passes_filters. rewrite andb_true_iff.
    destruct (o_mod o) as [t|], (o_size o) as [s|]; rewrite ?Z.ltb_lt; split; intros [H1 H2]; split;
      auto; intros x E; try discriminate; injection E as <-; assumption.
  Qed.

  Lemma has_restrict_true o : has_restrict o = true <-> targets_in_force o.
  Proof using.
    unfold has_restrict, targets_in_force. rewrite orb_true_iff, !negb_true_iff, !is_nil_false.
    split; intros [H|H]; [right|left|right|left]; exact H.
  Qed.

  Lemma target_files_In o w x :
    In x (target_files selected o w) ->
    In x (all_ids w) /\
    (targets_in_force o -> selected x = true /\ exists p, In p (w_repo w) /\ restrict_match o p = true).
  Proof using.
    unfold target_files. destruct (has_restrict o) eqn:Hr.
    - destruct (filter (restrict_match o) (w_repo w)) as [|p r] eqn:Hf; [contradiction|].
      rewrite filter_In. intros [H1 H2]. split; [exact H1|]. intros _. split; [exact H2|].
      exists p. apply filter_In. rewrite Hf. left. reflexivity.
    - intro H. split; [exact H|]. intro Ht. apply has_restrict_true in Ht. congruence.
  Qed.

  Lemma saving_In o w x :
    In x (saving scan o w) <->
    In x (installed_dist o w) \/ In x (exists_dist scan o w) \/ In x (excludes_dist o w) \/ In x (restricted_dist scan o w).
  Proof. unfold saving. now rewrite !in_app_iff. Qed.

  Lemma saved_not_removed o w f :
    In (f_id f) (saving scan o w) -> ~ In f (removed scan selected o w).
  Proof.
    intros Hs Hr. apply removed_In in Hr as [_ [_ [Hn _]]]. apply memN_false in Hn. exact (Hn Hs).
  Qed.

  (* a needed file is among the saved ones; the two clauses that rest on the scan of the whole
     repository need that scan *)
  Lemma needed_saved o w x :
    needed_installed o w x \/ (needed_existing o w x /\ scan o = true)
    \/ (needed_fetch_restricted o w x /\ scan o = true) \/ needed_excluded o w x ->
    In x (saving scan o w).
  Proof.
    rewrite saving_In. unfold installed_dist, exists_dist, restricted_dist, excludes_dist.
    intros [[Ho [l Hl]]|[[[Ho [p Hp]] Hs]|[[[Ho [p [Hp [Hfr Hf]]]] Hs]|[p [y [Hp [Hy1 [Hy2 Hf]]]]]]]].
    - rewrite Ho. left. apply in_concat. eauto.
    - rewrite Hs. right. left. apply in_or_app. left. apply in_flat_map. eauto.
    - rewrite Hs. right. right. right. apply in_flat_map. exists p. rewrite filter_In. auto.
    - right. right. left. destruct (o_excl o) as [|e es] eqn:He; [contradiction|]. cbn [is_nil].
      apply in_flat_map. exists p. rewrite filter_In, matches_true. eauto.
  Qed.

  Lemma never_needed_gen o w f :
    (o_exists o = true -> scan o = true) -> (o_fetch o = true -> scan o = true) ->
    needed o w (f_id f) -> ~ In f (removed scan selected o w).
  Proof.
    intros H1 H2 Hn. apply saved_not_removed, needed_saved.
    destruct Hn as [H|[H|[H|H]]]; auto; [right; left|right; right; left]; (split; [exact H|]);
      destruct H as [Ho _]; auto.
  Qed.
End WithSel.

Lemma scan_fixed_exists o : o_exists o = true -> scan_fixed o = true.
Proof. unfold scan_fixed. intros ->. apply orb_true_r. Qed.
Lemma scan_fixed_fetch o : o_fetch o = true -> scan_fixed o = true.
Proof. unfold scan_fixed. intros ->. reflexivity. Qed.
Lemma scan_old_fetch o : o_fetch o = true -> scan_old o = true.
Proof. unfold scan_old. intros ->. reflexivity. Qed.

Definition C46_full_statement (scan : opts -> bool) : Prop :=
  forall selected o w f, needed o w (f_id f) -> ~ In f (removed scan selected o w).

(* pclean dist -E app/foo; repository: foo-1.0 {1: foo-1.0.tar.gz}, foo-bar-1.0 {2: foo-bar-1.0.tar.gz};
   pattern 1 = "app/foo" matches only foo; the regex (foo)(\W\w+)+… selects both names *)
Definition wit_o : opts :=
  {| o_inst := false; o_exists := true; o_fetch := false; o_pretend := false;
     o_excl := []; o_targets := [1%N]; o_mod := None; o_size := None |}.
Definition wit_w : world :=
  {| w_all := [ {| f_id := 1%N; f_age := 0%Z; f_size := 1%Z |}; {| f_id := 2%N; f_age := 0%Z; f_size := 1%Z |} ];
     w_repo := [ {| p_files := [1%N]; p_fetch := false; p_pats := [1%N] |};
                 {| p_files := [2%N]; p_fetch := false; p_pats := [] |} ];
     w_inst := [] |}.
Definition wit_f : finfo := {| f_id := 2%N; f_age := 0%Z; f_size := 1%Z |}.

(* with the scan under -E the same input removes nothing *)
Example repaired_keeps_witness : removed scan_fixed (fun _ => true) wit_o wit_w = [].
Proof. reflexivity. Qed.

(* known class of the old behaviour: -E together with targets/exclusions and without -f *)
Definition old_known_class (o : opts) : bool := o_exists o && has_restrict o && negb (o_fetch o).

Lemma scan_old_exists o : old_known_class o = false -> o_exists o = true -> scan_old o = true.
Proof.
  unfold old_known_class, scan_old. intros Hk He. rewrite He in *.
  destruct (has_restrict o), (o_fetch o); cbn in *; congruence.
Qed.

(* everything the options protect: the needed files, plus (documented over-approximation of
   the code) every repository distfile whenever -f is given *)
Definition protected (o : opts) (w : world) (f : file) : Prop :=
  needed o w f \/ (o_fetch o = true /\ exists p, In p (w_repo w) /\ In f (p_files p)).

Definition target_selected (selected : file -> bool) (o : opts) (w : world) (f : file) : Prop :=
  targets_in_force o ->
  selected f = true /\ exists p, In p (w_repo w) /\ restrict_match o p = true.

(* under -f or -E every distfile of the repositories is protected *)
Lemma repo_protected o w x p :
  o_fetch o || o_exists o = true -> In p (w_repo w) -> In x (p_files p) -> protected o w x.
Proof.
  intros E Hp Hf. destruct (o_fetch o) eqn:Ef; [right; eauto|]. left. right. left. split; [exact E|eauto].
Qed.

Lemma saving_fixed_In o w x : In x (saving scan_fixed o w) <-> protected o w x.
Proof.
  split.
  - rewrite saving_In. unfold installed_dist, exists_dist, restricted_dist, excludes_dist, scan_fixed.
    rewrite in_app_iff. intros [H|[[H|H]|[H|H]]].
    + destruct (o_inst o) eqn:Ei; [|contradiction]. apply in_concat in H. left. left. now split.
    + destruct (o_fetch o || o_exists o) eqn:E; [|contradiction].
      apply in_flat_map in H as [p [Hp Hf]]. now apply (repo_protected o w x p).
    + destruct (has_restrict o && o_exists o) eqn:E; [|contradiction].
      apply andb_true_iff in E as [_ E]. apply in_flat_map in H as [p [Hp Hf]].
      apply filter_In in Hp as [Hp _]. apply (repo_protected o w x p); auto. rewrite E. apply orb_true_r.
    + destruct (o_excl o) as [|e es] eqn:He; [contradiction|]. cbn [is_nil] in H.
      apply in_flat_map in H as [p [Hp Hf]]. apply filter_In in Hp as [Hp Hm].
      apply matches_true in Hm as [y [Hy1 Hy2]]. left. right. right. right. exists p, y. rewrite He. auto.
    + destruct (o_fetch o || o_exists o) eqn:E; [|contradiction].
      apply in_flat_map in H as [p [Hp Hf]]. apply filter_In in Hp as [Hp _]. now apply (repo_protected o w x p).
  - intros [[H|[H|[H|H]]]|[Ho [p Hp]]].
    + apply needed_saved. now left.
    + apply needed_saved. right. left. split; [exact H|]. apply scan_fixed_exists, H.
    + apply needed_saved. right. right. left. split; [exact H|]. apply scan_fixed_fetch, H.
    + apply needed_saved. now repeat right.
    + apply saving_In. right. left. unfold exists_dist, scan_fixed. rewrite Ho.
      apply in_or_app. left. apply in_flat_map. eauto.
Qed.

Lemma target_files_iff selected o w x :
  In x (target_files selected o w) <-> In x (all_ids w) /\ target_selected selected o w x.
Proof.
  split.
  - intro H. exact (target_files_In selected o w x H).
  - intros [Ha Ht]. unfold target_files, target_selected in *.
    destruct (has_restrict o) eqn:Hr; [|exact Ha].
    apply has_restrict_true in Hr. destruct (Ht Hr) as [Hs [p [Hp Hm]]].
    destruct (filter (restrict_match o) (w_repo w)) as [|q r] eqn:Hf.
    + assert (Hin : In p (filter (restrict_match o) (w_repo w))) by (apply filter_In; tauto).
      rewrite Hf in Hin. contradiction.
    + apply filter_In. tauto.
Qed.

(* non-vacuity: a world in which something is removed and something needed is kept *)
Example something_removed :
  map f_id (removed scan_fixed (fun _ => true)
              {| o_inst := true; o_exists := false; o_fetch := false; o_pretend := false;
                 o_excl := []; o_targets := []; o_mod := Some 86400%Z; o_size := None |}
              {| w_all := [ {| f_id := 3%N; f_age := 90000%Z; f_size := 1%Z |};
                            {| f_id := 1%N; f_age := 90000%Z; f_size := 1%Z |};
                            {| f_id := 2%N; f_age := 100%Z; f_size := 1%Z |} ];
                 w_repo := []; w_inst := [[3%N]] |}) = [1%N].
Proof. reflexivity. Qed.

Lemma digits_spec s : forall acc any v rest,
  digits s acc any = Some (v, rest) ->
  exists ds, s = ds ++ rest /\ Forall (fun c => is_digit c = true) ds
    /\ (any = false -> ds <> [])
    /\ v = fold_left (fun a c => a * 10 + Z.of_N (c - 48))%Z ds acc
    /\ match rest with c :: _ => is_digit c = false | [] => True end.
Proof.
  induction s as [|c r IH]; intros acc any v rest H; cbn in H.
  - destruct any; [|discriminate]. injection H as <- <-. exists []. cbn.
    repeat split; auto. intro; discriminate.
  - destruct (is_digit c) eqn:Ed.
    + apply IH in H as [ds [E1 [E2 [_ [E4 E5]]]]]. exists (c :: ds). cbn. subst r.
      repeat split; auto. intros _; discriminate.
    + destruct any; [|discriminate]. injection H as <- <-. exists []. cbn.
      repeat split; auto. intro; discriminate.
Qed.

(* the four case splits peel the binary digits of the newline character 10 *)
Lemma strip_nl_spec s : s = strip_nl s \/ s = strip_nl s ++ [10%N].
Proof.
  unfold strip_nl. destruct (rev s) as [|c r] eqn:E; [left; reflexivity|].
  assert (Hs : s = rev r ++ [c]) by (rewrite <- (rev_involutive s), E; reflexivity).
  destruct c as [|p]; [left; reflexivity|].
  destruct p as [p|p|]; try (left; reflexivity).
  destruct p as [p|p|]; try (left; reflexivity).
  destruct p as [p|p|]; try (left; reflexivity).
  destruct p as [p|p|]; try (left; reflexivity).
  right. exact Hs.
Qed.

Example parse_time_1y : parse_qty time_units [49;121]%N = Some 31536000%Z.      (* "1y" *)
Proof. reflexivity. Qed.
Example parse_time_10min : parse_qty time_units [49;48;109;105;110]%N = Some 600%Z.   (* "10min" *)
Proof. reflexivity. Qed.
Example parse_time_2m : parse_qty time_units [50;109]%N = Some 5184000%Z.       (* "2m" = 60 days *)
Proof. reflexivity. Qed.
Example parse_size_100M : parse_qty size_units [49;48;48;77]%N = Some 104857600%Z.    (* "100M" *)
Proof. reflexivity. Qed.
Example parse_size_bad : parse_qty size_units [49;48;107]%N = None.               (* "10k" *)
Proof. reflexivity. Qed.

(* the parser loop computes the declarative reading of the command line: both are folds over
   the tokens, compared one token at the end at a time *)
Lemma parse_toks_snoc ts t : forall o0,
  parse_toks (ts ++ [t]) o0 = match parse_toks ts o0 with Some o => parse_toks [t] o | None => None end.
Proof.
  induction ts as [|a ts IH]; intro o0; [reflexivity|]. cbn [app parse_toks].
  destruct a; try apply IH; destruct (parse_qty _ _); auto.
Qed.

(* how spec_opts reads the last -m / -s value *)
Definition qty (tbl : list (str * Z)) (s : option str) : option (option Z) :=
  match s with
  | None => Some None
  | Some s' => match parse_qty tbl s' with Some z => Some (Some z) | None => None end
  end.

Lemma flag_given_snoc f ts t : flag_given f (ts ++ [t]) = if f t then true else flag_given f ts.
Proof.
  unfold flag_given. rewrite existsb_app. cbn. destruct (f t); [apply orb_true_r|now rewrite !orb_false_r].
Qed.

Lemma spec_opts_snoc ts t o1 :
  spec_opts ts = Some o1 -> spec_opts (ts ++ [t]) = parse_toks [t] o1.
Proof.
  unfold spec_opts.
  fold (qty time_units (last_mod ts)) (qty size_units (last_size ts))
       (qty time_units (last_mod (ts ++ [t]))) (qty size_units (last_size (ts ++ [t]))).
  rewrite !flag_given_snoc. unfold last_excl, all_targets, last_mod, last_size.
  rewrite !fold_left_app, flat_map_app.
  destruct (qty time_units _) as [m|] eqn:Em; [|discriminate].
  destruct (qty size_units _) as [s|] eqn:Es; [|discriminate].
  intro H; injection H as <-.
  destruct t; cbn [fold_left flat_map parse_toks is_inst is_exists is_fetch is_pretend
                   o_inst o_exists o_fetch o_pretend o_excl o_targets o_mod o_size];
    rewrite ?Em, ?Es, ?app_nil_r; try reflexivity.
  all: unfold qty at 1; destruct (parse_qty _ s0); rewrite ?Em, ?Es; reflexivity.
Qed.

Lemma parse_toks_spec ts : forall o, parse_toks ts opts0 = Some o -> spec_opts ts = Some o.
Proof.
  induction ts as [|t ts IH] using rev_ind; intros o H.
  - injection H as <-. reflexivity.
  - rewrite parse_toks_snoc in H. destruct (parse_toks ts opts0) as [o1|]; [|discriminate].
    now rewrite (spec_opts_snoc ts t o1 (IH _ eq_refl)).
Qed.

(* what the runner keeps and prints, in terms of the removal list: either the list is carried out
   (files gone, nothing printed) or it is only printed *)
Lemma outcome_removed scan i o kept printed :
  parse_argv (i_argv i) = POk o -> outcome scan i = Some (kept, printed) ->
  let ids := map f_id (w_all (i_world i)) in
  let rm := map f_id (removed scan (fun y => memN y (i_sel i)) o (i_world i)) in
  forall x, (In x ids -> ~ In x rm -> In x kept) /\ (In x ids -> ~ In x kept -> In x rm)
            /\ (In x printed -> In x rm).
Proof.
  intros Hp H ids rm x. unfold outcome in H. rewrite Hp in H. fold rm in H.
  assert (Hev : In x ids -> In x (map f_id (sort_files (w_all (i_world i))))).
  { unfold ids. rewrite !in_map_iff. intros [g [Hg1 Hg2]]. exists g. now rewrite sort_files_In. }
  destruct (i_tty i && negb (o_pretend o)); injection H as <- <-.
  - split; [|split; [|intros []]]; intros Hx Hn.
    + apply filter_In. split; [auto|]. now apply negb_true_iff, memN_false.
    + destruct (memN x rm) eqn:Em; [now apply memN_In|].
      destruct Hn. apply filter_In. split; [auto|]. now rewrite Em.
  - split; [auto|]. split; [|auto]. intros Hx Hn. destruct (Hn (Hev Hx)).
Qed.

Theorem run_error_removes_nothing_proof i :
  outcome scan_fixed i = None ->
  run i = VL [match parse_argv (i_argv i) with PCrash => crash_error | _ => usage_error end;
              enc_ids (everything i); enc_ids []].
Proof. unfold run. intros ->. reflexivity. Qed.
