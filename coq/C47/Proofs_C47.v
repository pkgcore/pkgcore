From Coq Require Import List NArith Bool.
Import ListNotations.
From Verif Require Import Base.Val C18.Fs C18.FsLemmas C47.Model_C47 C47.Spec_C47.

Lemma steps_opt_app a b s :
  run_opt (a ++ b) s = match run_opt a s with Some s' => run_opt b s' | None => None end.
Proof.
  revert s; induction a as [|o r IH]; cbn; intro s; [reflexivity|].
  destruct (apply_step s o); [apply IH|reflexivity].
Qed.

Lemma steps_opt_run l s s' : run_opt l s = Some s' -> run l s = s'.
Proof.
  revert s; induction l as [|o r IH]; cbn; intros s H; [congruence|].
  destruct (apply_step s o); [now apply IH|discriminate].
Qed.

Lemma crash_of_cons o l s s' :
  crash_of (o :: l) s s' ->
  s' = s \/ mid_step s o s' \/ exists s1, apply_step s o = Some s1 /\ crash_of l s1 s'.
Proof. intro H. inversion H; subst; eauto. Qed.

Lemma crash_of_app a b s s' :
  crash_of (a ++ b) s s' ->
  crash_of a s s' \/ exists s1, run_opt a s = Some s1 /\ crash_of b s1 s'.
Proof.
  revert s; induction a as [|o r IH]; cbn; intros s H; [eauto|].
  apply crash_of_cons in H as [->|[Hm|(s1 & Ha & Hc)]].
  - left. constructor.
  - left. now apply crash_mid.
  - rewrite Ha. apply IH in Hc as [Hc|Hc]; [left; eapply crash_later|]; eauto.
Qed.

Lemma crash_of_firstn k l s : crash_of l s (run (firstn k l) s).
Proof.
  revert l s. induction k as [|k IH]; intros l s; [constructor|]. destruct l as [|o l]; cbn; [constructor|].
  destruct (apply_step s o) eqn:E; [eapply crash_later; eauto|constructor].
Qed.
Lemma crash_of_run l s : crash_of l s (run l s).
Proof. rewrite <- (firstn_all l) at 2. apply crash_of_firstn. Qed.

(* an invariant preserved by every step of the list (completed or interrupted) holds in every
   crash state *)
Definition preserves (P : st -> Prop) (o : step) : Prop :=
  (forall s s1, P s -> apply_step s o = Some s1 -> P s1) /\
  (forall s s', P s -> mid_step s o s' -> P s').

Lemma crash_inv (P : st -> Prop) l :
  Forall (preserves P) l -> forall s s', P s -> crash_of l s s' -> P s'.
Proof.
  intros HF s s' HP Hc. induction Hc as [l s|o l s s' Hmid|o l s s1 s' Happ Hc IH].
  - exact HP.
  - inversion HF as [|? ? Ho Hl]; subst. destruct Ho as [_ Hm]. eapply Hm; eauto.
  - inversion HF as [|? ? Ho Hl]; subst. destruct Ho as [Ha _]. apply IH; [assumption|]. eapply Ha; eauto.
Qed.

Lemma run_opt_inv (P : st -> Prop) l :
  Forall (preserves P) l -> forall s s', P s -> run_opt l s = Some s' -> P s'.
Proof.
  intros HF s s' HP H. apply steps_opt_run in H. subst. eapply crash_inv; eauto using crash_of_run.
Qed.

Lemma slot_ok_dir t : slot_ok (Some (SDir t)).
Proof. right. eauto. Qed.
Lemma slot_ok_none : slot_ok None.
Proof. now left. Qed.
#[local] Hint Resolve slot_ok_dir slot_ok_none : c47.

Lemma recoverable_set w v s : recoverable s -> slot_ok v -> recoverable (set w v s).
Proof. intros (Hb & Hu & Ho) Hv. destruct w; cbn; repeat split; assumption. Qed.

Lemma recoverable_get w s : recoverable s -> slot_ok (get w s).
Proof. intros (Hb & Hu & Ho). destruct w; assumption. Qed.

Lemma step_recoverable o : preserves recoverable o.
Proof.
  split.
  - (* the steps on the two temporary files touch no slot; the others set slots to directories
       or to nothing *)
    intros s s1 HR H. destruct o; cbn in H;
      try (destruct (tf s); try discriminate; injection H as <-; exact HR);
      try (destruct (dl s); try discriminate; injection H as <-; exact HR).
    + destruct (get w s); [discriminate|]. injection H as <-. apply recoverable_set; auto with c47.
    + destruct (get a s) as [[|t]|]; try discriminate.
      assert (Hok : recoverable (set b (Some (SDir t)) (set a None s)))
        by (apply recoverable_set; [apply recoverable_set|]; auto with c47).
      destruct (get b s) as [[|t']|]; try discriminate; [destruct (is_empty_tree t'); [|discriminate]|];
        injection H as <-; exact Hok.
    + destruct (get w s) as [[|t]|]; injection H as <-; try exact HR. apply recoverable_set; auto with c47.
    + destruct (upd s) as [[|t0]|]; try discriminate. destruct (is_empty_tree t0); [|discriminate].
      injection H as <-. apply (recoverable_set Upd); auto with c47.
    + destruct (base s) as [[|t]|]; try discriminate.
      destruct (lookup t [name]) as [[]|]; try discriminate; injection H as <-;
        apply (recoverable_set Base); auto with c47.
    + destruct (base s) as [[|t]|]; try discriminate.
      destruct (lookup t [name]) as [[]|]; try discriminate; injection H as <-;
        apply (recoverable_set Base); auto with c47.
  - intros s s' HR H. destruct o; cbn in H; try contradiction;
      destruct H as (ta & tb & _ & ->); [|apply (recoverable_set Upd)]; auto using recoverable_set with c47.
Qed.

Lemma recoverable_fresh s : recoverable s -> recoverable (fresh s).
Proof. intros H; exact H. Qed.

Lemma crash_recoverable l s s' : recoverable s -> crash_of l s s' -> recoverable s'.
Proof.
  apply crash_inv. apply Forall_forall. intros o _. apply step_recoverable.
Qed.

(* the step does not write the repository slot *)
Definition no_base (o : step) : bool :=
  match o with
  | CreateT | CreateDl | WriteDl _ | CommitDl | DiscardDl | UnlinkT | Extract _ _ => true
  | MkDir w | RmTree w => match w with Base => false | _ => true end
  | RenameDir _ _ | OpenMeta _ | AppendMeta _ _ => false
  end.

Lemma no_base_preserves o b : no_base o = true -> preserves (fun s => base s = b) o.
Proof.
  intro Hn. split.
  - intros s s1 HP H. destruct o; try discriminate; cbn in H;
      try (destruct (tf s); try discriminate; injection H as <-; exact HP);
      try (destruct (dl s); try discriminate; injection H as <-; exact HP).
    + destruct w; [discriminate| |]; cbn in H;
        [destruct (upd s)|destruct (old s)]; try discriminate; injection H as <-; exact HP.
    + destruct w; [discriminate| |]; cbn in H;
        [destruct (upd s) as [[|t]|]|destruct (old s) as [[|t]|]]; injection H as <-; exact HP.
    + destruct (upd s) as [[|t0]|]; try discriminate.
      destruct (is_empty_tree t0); [|discriminate]. injection H as <-. exact HP.
  - intros s s' HP H. destruct o; try discriminate; cbn in H; try contradiction;
      destruct H as (ta & tb & _ & ->); [destruct w; [discriminate| |]|]; exact HP.
Qed.

Lemma forallb_app' {A} (f : A -> bool) a b : forallb f (a ++ b) = forallb f a && forallb f b.
Proof. apply forallb_app. Qed.

Lemma crash_no_base l s s' : forallb no_base l = true -> crash_of l s s' -> base s' = base s.
Proof.
  intros H Hc. refine (crash_inv (fun x => base x = base s) l _ s s' eq_refl Hc).
  apply Forall_forall. intros o Ho. apply no_base_preserves. rewrite forallb_forall in H. now apply H.
Qed.
Lemma run_no_base l s : forallb no_base l = true -> base (run l s) = base s.
Proof. intro H. eapply crash_no_base; eauto using crash_of_run. Qed.

Lemma no_base_exit s : forallb no_base (exit_steps s) = true.
Proof.
  unfold exit_steps. rewrite !forallb_app.
  destruct (is_dir (old s)), (is_dir (upd s)), (tf s), (dl s); reflexivity.
Qed.

Lemma no_base_recover s b : base s = Some b -> forallb no_base (recover_steps s) = true.
Proof.
  intro Hb. unfold recover_steps. rewrite Hb. cbn.
  destruct (is_dir (upd s)), (is_dir (old s)); reflexivity.
Qed.

Lemma no_base_download b cs : b <> None -> forallb no_base (download_steps b cs) = true.
Proof.
  intro Hb. unfold download_steps. destruct b; [|congruence]. cbn. induction cs; cbn; auto.
Qed.

Lemma sync_no_base fixed force sv tar chunk s0 b :
  base s0 = Some b ->
  snd (sync fixed force sv tar chunk s0) <> Updated ->
  forallb no_base (fst (sync fixed force sv tar chunk s0)) = true.
Proof.
  intros Hb. unfold sync. cbv zeta.
  set (sf := fresh s0). set (p1 := CreateT :: (if fixed then recover_steps sf else [])).
  assert (Hp1 : forallb no_base p1 = true).
  { unfold p1. destruct fixed; cbn; [now apply no_base_recover with b|reflexivity]. }
  assert (Hfin : forall l o, forallb no_base l = true -> forallb no_base (fst (finish l sf o)) = true).
  { intros l o Hl. unfold finish. cbn [fst]. now rewrite forallb_app, Hl, no_base_exit. }
  destruct (negb (N.eqb (sv_status sv) 200)); [intros _; now apply Hfin|].
  destruct ((sv_inm sv && _) || _); [intros _; now apply Hfin|].
  destruct (negb force && _); [intros _; now apply Hfin|].
  rewrite run_no_base by exact Hp1. change (base sf) with (base s0). rewrite Hb.
  assert (Hdl : forallb no_base (download_steps (Some b) (sv_chunks sv)) = true)
    by (apply no_base_download; discriminate).
  destruct b as [|t]; [intros _; now apply Hfin|].
  destruct (negb (sv_complete sv)); [intros _; apply Hfin; now rewrite forallb_app, Hp1, Hdl|].
  destruct (upd (run p1 sf)); [intros _; apply Hfin; now rewrite !forallb_app, Hp1, Hdl|].
  destruct (old (run p1 sf)); [intros _; apply Hfin; now rewrite !forallb_app, Hp1, Hdl|].
  destruct (negb (snd tar)); [intros _; apply Hfin; now rewrite !forallb_app, Hp1, Hdl|].
  intro H. now destruct H.
Qed.

Lemma run_writes cs : forall s d, dl s = Some d ->
  run_opt (map WriteDl cs) s = Some (set_dl (Some (d ++ cs)) s).
Proof.
  induction cs as [|c cs IH]; cbn; intros s d Hd.
  - rewrite app_nil_r. destruct s; cbn in *; subst; reflexivity.
  - rewrite Hd. rewrite (IH _ (d ++ [c])); [|reflexivity].
    destruct s; cbn. now rewrite <- app_assoc.
Qed.

(* the bookkeeping writes: only base/name changes, and it stays a regular file *)
Definition file_or_none (o : option node) : Prop :=
  o = None \/ exists d m u g t i, o = Some (File d m u g t i).

Lemma append_metas name ds : forall t u o f d,
  (exists d0 m ow g tm i, lookup t [name] = Some (File d0 m ow g tm i)) ->
  exists t', run_opt (map (AppendMeta name) ds) (mkst (Some (SDir t)) u o f d) = Some (mkst (Some (SDir t')) u o f d)
             /\ (forall q, q <> [name] -> lookup t' q = lookup t q)
             /\ file_or_none (lookup t' [name]).
Proof.
  induction ds as [|x ds IH]; intros t u o f d Hf.
  - exists t. repeat split; auto. now right.
  - destruct Hf as (d0 & m & ow & g & tm & i & Hl). cbn [map run_opt apply_step base]. rewrite Hl.
    destruct (IH (set_node t [name] (meta_node (d0 ++ x) m)) u o f d) as (t' & Hr & Hfr & Hf).
    { rewrite lookup_set_same. unfold meta_node. eauto 10. }
    exists t'. split; [exact Hr|]. split; [|exact Hf].
    intros q Hq. rewrite Hfr by exact Hq. now apply lookup_set_other.
Qed.

(* open(.., "w") leaves an empty regular file *)
Lemma open_meta name t u o f d :
  file_or_none (lookup t [name]) ->
  exists m, apply_step (mkst (Some (SDir t)) u o f d) (OpenMeta name)
            = Some (mkst (Some (SDir (set_node t [name] (meta_node [] m)))) u o f d).
Proof. intros [H|(d0 & m & ow & g & tm & i & H)]; cbn; rewrite H; eexists; reflexivity. Qed.

Lemma run_meta chunk name v t u o f d :
  file_or_none (lookup t [name]) ->
  exists t', run_opt (meta_steps chunk name v) (mkst (Some (SDir t)) u o f d) = Some (mkst (Some (SDir t')) u o f d)
             /\ (forall q, q <> [name] -> lookup t' q = lookup t q)
             /\ file_or_none (lookup t' [name]).
Proof.
  intro Hf. unfold meta_steps. destruct v as [[|c x]|]; try (exists t; now repeat split).
  cbn [run_opt]. destruct (open_meta name t u o f d Hf) as [m ->].
  destruct (append_metas name (chunks_of (S (length (c :: x))) chunk (c :: x))
              (set_node t [name] (meta_node [] m)) u o f d) as (t' & Hr & Hfr & Hff).
  { rewrite lookup_set_same. unfold meta_node. eauto 10. }
  exists t'. split; [exact Hr|]. split; [|exact Hff].
  intros q Hq. rewrite Hfr by exact Hq. now apply lookup_set_other.
Qed.

Lemma no_meta_is_base o : no_base o = true -> True.
Proof. trivial. Qed.

(* the bookkeeping steps keep "the directory agrees with tnew off the bookkeeping names" *)
Definition is_meta_step (o : step) : bool :=
  match o with
  | OpenMeta n | AppendMeta n _ => str_eqb n etag_name || str_eqb n modified_name
  | _ => false
  end.

Lemma meta_step_preserves tnew o :
  is_meta_step o = true -> preserves (holds_new tnew) o.
Proof.
  intro Hm. split.
  - intros s s1 (t' & Hb & Hn) H.
    assert (Hset : forall name nd, str_eqb name etag_name || str_eqb name modified_name = true ->
                    holds_new tnew (set Base (Some (SDir (set_node t' [name] nd))) s)).
    { intros name nd Hname. exists (set_node t' [name] nd). split; [reflexivity|].
      intros q Hq. rewrite lookup_set_other; [now apply Hn|].
      intro Heq; subst q. apply Hq. apply orb_true_iff in Hname as [E|E]; apply str_eqb_eq in E; subst.
      - now left.
      - now right. }
    destruct o; cbn in Hm, H; try discriminate; rewrite Hb in H;
      destruct (lookup t' [name]) as [[]|]; try discriminate; injection H as <-; now apply Hset.
  - intros s s' _ H. destruct o; cbn in Hm, H; try discriminate; contradiction.
Qed.

Lemma is_meta_steps chunk name v :
  str_eqb name etag_name || str_eqb name modified_name = true ->
  forallb is_meta_step (meta_steps chunk name v) = true.
Proof.
  intro Hn. unfold meta_steps. destruct v as [[|c d]|]; try reflexivity.
  cbn [forallb is_meta_step]. rewrite Hn. apply forallb_forall. intros o Ho.
  apply in_map_iff in Ho as [x [<- _]]. exact Hn.
Qed.

Lemma no_base_holds_new tnew o : no_base o = true -> preserves (holds_new tnew) o.
Proof.
  intro Hn. split; intros s s1 (t' & Hb & Hnw) H; exists t'; (split; [|exact Hnw]).
  - exact (proj1 (no_base_preserves o (Some (SDir t')) Hn) s s1 Hb H).
  - exact (proj2 (no_base_preserves o (Some (SDir t')) Hn) s s1 Hb H).
Qed.

(* the steps between the download and the two renames *)
Definition stage4 (tar : tree * bool) : list step :=
  [CommitDl; MkDir Upd; MkDir Old; Extract (fst tar) (snd tar)].

(* the state _pre_download leaves when started in s: the repository back at its path, nothing at
   the staging paths, a fresh temporary file *)
Definition pre_ok (s s1 : st) : Prop :=
  base s1 = logical s /\ upd s1 = None /\ old s1 = None /\ tf s1 = Some [] /\ dl s1 = None
  /\ slot_ok (base s1).

Lemma pre_state s :
  recoverable s ->
  exists s1, run_opt (CreateT :: recover_steps (fresh s)) (fresh s) = Some s1 /\ pre_ok s s1.
Proof.
  unfold pre_ok.
  intros (Hb & Hu & Ho). destruct s as [b u o t d]. cbn in Hb, Hu, Ho.
  destruct Hb as [->|[tb ->]], Hu as [->|[tu ->]], Ho as [->|[to ->]];
    cbn; eexists; (split; [reflexivity|]); cbn; repeat split; auto with c47.
Qed.

(* the repaired sync, started in a recoverable state, is a five-way decision: _pre_download
   leaves nothing at the two staging paths, so neither mkdir can fail; [unch] stands for the two
   "not modified" tests *)
Lemma sync_fixed force sv tar chunk s :
  recoverable s ->
  exists s1 (unch : bool),
    let s0 := fresh s in
    let p1 := CreateT :: recover_steps s0 in
    let dls := download_steps (base s1) (sv_chunks sv) in
    run_opt p1 s0 = Some s1 /\ pre_ok s s1 /\
    sync true force sv tar chunk s =
      if negb (N.eqb (sv_status sv) 200) then finish p1 s0 (Failed 1)
      else if unch then finish p1 s0 Unchanged
      else if negb (sv_complete sv) then finish (p1 ++ dls) s0 (Failed 3)
      else if negb (snd tar) then finish (p1 ++ dls ++ stage4 tar) s0 (Failed 5)
      else finish ((p1 ++ dls ++ stage4 tar) ++ install_steps chunk sv) s0 Updated.
Proof.
  intros HR. destruct (pre_state s HR) as (s1 & Hr1 & Hpre).
  pose proof Hpre as (Hb & Hu & Ho & Ht & Hd & Hok).
  exists s1. unfold sync. cbv zeta. rewrite (steps_opt_run _ _ _ Hr1), Hu, Ho.
  match goal with |- context [if ?a then finish _ _ Unchanged else if ?b then finish _ _ Unchanged else _] =>
    exists (a || b); destruct a, b end;
    (split; [exact Hr1|]); (split; [exact Hpre|]); destruct (negb (N.eqb (sv_status sv) 200)); try reflexivity;
    destruct Hok as [E|[tb E]]; rewrite E; reflexivity.
Qed.

Lemma staged_state s1 cs tar :
  upd s1 = None -> old s1 = None -> tf s1 = Some [] -> dl s1 = None -> slot_ok (base s1) ->
  run_opt (download_steps (base s1) cs ++ stage4 tar) s1
  = Some (mkst (match base s1 with None => Some (SDir []) | b => b end)
               (Some (SDir (fst tar))) (Some (SDir [])) (Some cs) None).
Proof.
  intros Hu Ho Ht Hd Hb. destruct s1 as [b u o t d]. cbn in *. subst.
  unfold download_steps, stage4.
  destruct Hb as [->|[tb ->]]; cbn [app run_opt apply_step get set base upd old tf dl set_dl set_tf];
    rewrite steps_opt_app; erewrite run_writes by reflexivity; reflexivity.
Qed.

Definition meta_free (t : tree) : Prop :=
  lookup t [etag_name] = None /\ lookup t [modified_name] = None.

Lemma install_state chunk sv b0 tnew cs :
  slot_ok b0 -> b0 <> None -> meta_free tnew ->
  let sA := mkst b0 (Some (SDir tnew)) (Some (SDir [])) (Some cs) None in
  exists t' told, b0 = Some (SDir told) /\
    run_opt (install_steps chunk sv) sA = Some (mkst (Some (SDir t')) None (Some (SDir told)) (Some cs) None)
    /\ newish t' tnew.
Proof.
  intros Hb Hne (Hfe & Hfm) sA. destruct Hb as [->|[told ->]]; [congruence|].
  unfold install_steps. cbn [app run_opt apply_step get set base upd old tf dl is_empty_tree sA].
  rewrite steps_opt_app.
  destruct (run_meta chunk etag_name (sv_etag sv) tnew None (Some (SDir told)) (Some cs) None)
    as (t1 & -> & Hf1 & Hn1); [now left|].
  destruct (run_meta chunk modified_name (sv_mod sv) t1 None (Some (SDir told)) (Some cs) None)
    as (t2 & -> & Hf2 & Hn2); [left; rewrite Hf1; [exact Hfm|discriminate]|].
  exists t2, told. split; [reflexivity|]. split; [reflexivity|].
  intros q Hq. rewrite Hf2, Hf1; [reflexivity| |]; intro E; apply Hq; [now left|now right].
Qed.

Lemma updated_runs force sv tar chunk s :
  recoverable s -> meta_free (fst tar) -> snd (sync true force sv tar chunk s) = Updated ->
  exists s1 t' told,
    let p1 := CreateT :: recover_steps (fresh s) in
    let A := p1 ++ download_steps (base s1) (sv_chunks sv) ++ stage4 tar in
    let b0 := match base s1 with None => Some (SDir []) | b => b end in
    let sA := mkst b0 (Some (SDir (fst tar))) (Some (SDir [])) (Some (sv_chunks sv)) None in
    let s5 := mkst (Some (SDir t')) None (Some (SDir told)) (Some (sv_chunks sv)) None in
    base s1 = logical s /\ b0 = Some (SDir told) /\
    run_opt A (fresh s) = Some sA /\
    run_opt (install_steps chunk sv) sA = Some s5 /\ newish t' (fst tar) /\
    fst (sync true force sv tar chunk s) = (A ++ install_steps chunk sv) ++ [RmTree Old; UnlinkT].
Proof.
  intros HR Hmf. destruct (sync_fixed force sv tar chunk s HR)
    as (s1 & unch & Hr1 & (Hb & Hu & Ho & Ht & Hd & Hok) & ->).
  destruct (negb (N.eqb (sv_status sv) 200)); [discriminate|]. destruct unch; [discriminate|].
  destruct (negb (sv_complete sv)); [discriminate|]. destruct (negb (snd tar)); [discriminate|]. intros _.
  pose (b0 := match base s1 with None => Some (SDir []) | b => b end).
  assert (Hb0ok : slot_ok b0) by (unfold b0; destruct Hok as [->|[tb ->]]; auto with c47).
  assert (Hb0ne : b0 <> None) by (unfold b0; destruct (base s1); discriminate).
  destruct (install_state chunk sv b0 (fst tar) (sv_chunks sv) Hb0ok Hb0ne Hmf)
    as (t' & told & Eb0 & Hri & Hnew).
  exists s1, t', told. cbv zeta.
  assert (HA : run_opt ((CreateT :: recover_steps (fresh s)) ++
                        download_steps (base s1) (sv_chunks sv) ++ stage4 tar) (fresh s)
               = Some (mkst b0 (Some (SDir (fst tar))) (Some (SDir [])) (Some (sv_chunks sv)) None)).
  { rewrite steps_opt_app, Hr1. now apply staged_state. }
  repeat (split; [assumption|]). unfold finish. cbn [fst]. f_equal.
  erewrite steps_opt_run; [|rewrite steps_opt_app, HA; exact Hri]. reflexivity.
Qed.

Lemma updated_final force sv tar chunk s :
  recoverable s -> meta_free (fst tar) -> snd (sync true force sv tar chunk s) = Updated ->
  exists sf, run_opt (fst (sync true force sv tar chunk s)) (fresh s) = Some sf
             /\ clean sf /\ holds_new (fst tar) sf.
Proof.
  intros HR Hmf Hout.
  destruct (updated_runs force sv tar chunk s HR Hmf Hout) as (s1 & t' & told & _ & _ & HA & Hi & Hnew & ->).
  eexists. split.
  - rewrite steps_opt_app, steps_opt_app, HA, Hi. reflexivity.
  - split; [split; reflexivity|]. exists t'. split; [reflexivity|exact Hnew].
Qed.

Lemma unchanged_final force sv tar chunk s :
  recoverable s -> snd (sync true force sv tar chunk s) = Unchanged ->
  exists sf, run_opt (fst (sync true force sv tar chunk s)) (fresh s) = Some sf
             /\ clean sf /\ base sf = logical s.
Proof.
  intros HR. destruct (sync_fixed force sv tar chunk s HR)
    as (s1 & unch & Hr1 & (Hb & Hu & Ho & Ht & Hd & Hok) & ->).
  destruct (negb (N.eqb (sv_status sv) 200)); [discriminate|]. destruct unch.
  - intros _. unfold finish. cbn [fst]. rewrite (steps_opt_run _ _ _ Hr1).
    unfold exit_steps. rewrite Hu, Ho, Ht, Hd, steps_opt_app, Hr1. cbn. rewrite Ht.
    eexists. split; [reflexivity|]. cbn. repeat split; assumption.
  - destruct (negb (sv_complete sv)); [discriminate|]. destruct (negb (snd tar)); discriminate.
Qed.

Lemma good_sync_outcome force sv tar chunk s :
  recoverable s -> good_srv sv -> snd tar = true ->
  snd (sync true force sv tar chunk s) = Updated \/ snd (sync true force sv tar chunk s) = Unchanged.
Proof.
  intros HR [Hst Hc] Htar. destruct (sync_fixed force sv tar chunk s HR) as (s1 & unch & _ & _ & ->).
  rewrite Hst, Hc, Htar. destruct unch; auto.
Qed.

Lemma install_crash chunk sv t0 tnew cs s' :
  crash_of (install_steps chunk sv) (mkst (Some (SDir t0)) (Some (SDir tnew)) (Some (SDir [])) (Some cs) None) s' ->
  base s' = Some (SDir t0) \/ window t0 tnew s' \/ holds_new tnew s'.
Proof.
  intro Hc. unfold install_steps in Hc. cbn [app] in Hc.
  apply crash_of_cons in Hc as [->|[[]|(s2 & Ha & Hc)]]; [now left|]. cbn in Ha. injection Ha as <-.
  apply crash_of_cons in Hc as [->|[[]|(s3 & Ha & Hc)]]; [right; left; repeat split|]. cbn in Ha. injection Ha as <-.
  right. right. refine (crash_inv (holds_new tnew) _ _ _ s' _ Hc).
  - apply Forall_forall. intros o Ho. apply meta_step_preserves. revert o Ho. apply forallb_forall.
    rewrite forallb_app. now rewrite !is_meta_steps.
  - exists tnew. split; [reflexivity|]. intros q _. reflexivity.
Qed.

(* the full statement (every crash state holds the old or the new tree at the path) *)
Definition crash_old_or_new_statement : Prop :=
  forall force sv tar chunk s0 t0 s',
    recoverable s0 -> base s0 = Some (SDir t0) -> meta_free (fst tar) ->
    snd (sync true force sv tar chunk s0) = Updated ->
    crash_of (fst (sync true force sv tar chunk s0)) (fresh s0) s' ->
    old_or_new (Some (SDir t0)) (fst tar) s'.

Definition ex_old : tree := [([[111%N]], File [1%N] 420 0 0 NOW 0)].
Definition ex_new : tree := [([[110%N]], File [2%N] 420 0 0 NOW 0)].
Definition ex_s0 : st := mkst (Some (SDir ex_old)) None None None None.
Definition ex_srv : srv := mksrv 200 true false (Some [34;49;34]%N) None [7%N] true.
Definition ex_window : st := mkst None (Some (SDir ex_new)) (Some (SDir ex_old)) (Some [7%N]) None.

Lemma ex_window_reachable :
  crash_of (fst (sync true false ex_srv (ex_new, true) 0 ex_s0)) (fresh ex_s0) ex_window.
Proof. exact (crash_of_firstn 8 _ _). Qed.

(* a history of interrupted syncs: each link is a crash state of a sync (any server, tarball,
   flags) started in the state the previous one left *)
Inductive attempts (fixed : bool) : st -> st -> Prop :=
| att_nil : forall s, attempts fixed s s
| att_more : forall s force sv tar chunk s' s'',
    crash_of (fst (sync fixed force sv tar chunk s)) (fresh s) s' ->
    attempts fixed s' s'' -> attempts fixed s s''.

Lemma attempts_recoverable fixed s s' : recoverable s -> attempts fixed s s' -> recoverable s'.
Proof.
  intros HR Ha. induction Ha as [|s force sv tar chunk s' s'' Hc _ IH]; [exact HR|].
  apply IH. eapply crash_recoverable; [|exact Hc]. exact HR.
Qed.

(* the statement "after interruptions at any points the next sync completes", for either code *)
Definition next_sync_statement (fixed : bool) : Prop :=
  forall s0 s force sv tar chunk,
    recoverable s0 -> attempts fixed s0 s ->
    good_srv sv -> snd tar = true -> meta_free (fst tar) ->
    exists sf, run_opt (fst (sync fixed force sv tar chunk s)) (fresh s) = Some sf /\ clean sf /\
      ((snd (sync fixed force sv tar chunk s) = Updated /\ holds_new (fst tar) sf) \/
       (snd (sync fixed force sv tar chunk s) = Unchanged /\ base sf = logical s)).

(* without the recovery in _pre_download ([fixed = false]): one crash after the staging mkdir and
   every later sync fails with "failed creating repo update dirs" *)
Definition ex_stale : st := mkst (Some (SDir ex_old)) (Some (SDir [])) None (Some [7%N]) None.

Lemma ex_stale_reachable : attempts false ex_s0 ex_stale.
Proof.
  apply att_more with (force := false) (sv := ex_srv) (tar := (ex_new, true)) (chunk := 0%nat) (s' := ex_stale);
    [|apply att_nil].
  (* stop after MkDir Upd *) exact (crash_of_firstn 5 _ _).
Qed.

Example ex_updated : snd (sync true false ex_srv (ex_new, true) 0 ex_s0) = Updated.
Proof. reflexivity. Qed.
Example ex_updated_steps :
  map step_tag (fst (sync true false ex_srv (ex_new, true) 0 ex_s0)) = [1;3;4;5;6;7;8;9;10;12;13;16;18]%N.
Proof. reflexivity. Qed.
Example ex_failed_unpack : snd (sync true false ex_srv (ex_new, false) 0 ex_s0) = Failed 5.
Proof. reflexivity. Qed.
Example ex_failed_fetch :
  snd (sync true false (mksrv 404 true false None None [] true) (ex_new, true) 0 ex_s0) = Failed 1.
Proof. reflexivity. Qed.
Example ex_recoverable : recoverable ex_s0 /\ recoverable ex_window /\ recoverable ex_stale.
Proof. unfold recoverable; cbn; repeat split; auto with c47. Qed.
Example ex_meta_free : meta_free ex_new.
Proof. split; reflexivity. Qed.
(* the repaired sync started in the window state puts the old tree back before anything else *)
Example ex_window_recovers :
  base (run [CreateT; RenameDir Old Base] (fresh ex_window)) = Some (SDir ex_old)
  /\ map step_tag (firstn 3 (fst (sync true false ex_srv (ex_new, true) 0 ex_window))) = [1;11;17]%N.
Proof. split; reflexivity. Qed.
(* ... and a follow-up sync from the window state ends with the new tree and no staging dirs *)
Example ex_window_then_sync :
  let r := sync true true ex_srv (ex_new, true) 0 ex_window in
  snd r = Updated /\ holds_new_b ex_new (run (fst r) (fresh ex_window)) = true
  /\ clean_b (run (fst r) (fresh ex_window)) = true.
Proof. vm_compute. repeat split. Qed.
