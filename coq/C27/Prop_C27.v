(* Prop_C27.v — the property theorems of C27, each followed by the audit of its assumptions. *)
From Coq Require Import List ZArith.
Import ListNotations.
From Verif Require Import C18.Fs C27.Model_C27 C27.Spec_C27 C27.Roundtrip_C27 C27.Proofs_C27 C27.Faults_C27.

(* storing an entry and reading it back: every known key, the eclass data and the validation
   value are the ones stored (plain values modulo trailing blanks), nothing else appears *)
Theorem cache_roundtrip : forall lay e c,
  wf_entry e -> chf e = Some c ->
  exists content d,
    serialize lay e = Some content /\ parse lay content = inl d /\
    forall k, dget k d = expected_value lay e k.
Proof.
  intros lay e c Hwf Hc. destruct (serialize lay e) as [content|] eqn:Hs.
  - destruct (parse_serialize lay e c content Hwf Hc Hs) as (d & Hp & Hd). eauto.
  - apply serialize_none_proof in Hs. congruence.
Qed.
Print Assumptions cache_roundtrip.

(* The store is the system-call list store_ops: mkdirs; create staging file; the flushes [chunks]
   of the buffered text (any schedule; concat chunks is the text); chown; chmod; rename.
   At every crash point k of a store, every path other than the target and the staging file
   is untouched (or is a directory the store created), and the target holds its old node or
   the complete new file *)
Theorem store_frame : forall s loc pid gid cpv chunks k,
  cpv <> [] ->
  let tmp := tmp_path loc pid cpv in
  let target := target_path loc cpv in
  let ops := store_ops s loc pid gid cpv chunks in
  let sk := run (firstn k ops) s in
  (forall q, q <> target -> q <> tmp ->
     lookup sk q = lookup s q \/ (lookup s q = None /\ is_dir_opt (lookup sk q))) /\
  (lookup sk target = lookup s target \/
   (exists i, lookup sk target = Some (new_node (concat chunks) gid i)) /\ lookup sk tmp = None /\ (length ops <= k)%nat).
Proof.
  (* store_ops is store_ops_with for the calls of perm_ops, which stage new_node (by computation) *)
  intros s loc pid gid cpv chunks k Hne.
  exact (crash_frame_any_perms s loc pid cpv chunks _ k Hne (perm_ops_ok _ gid)).
Qed.
Print Assumptions store_frame.

(* readers of the entry being stored see the previous result or the complete new one *)
Theorem store_atomic : forall lay s loc pid gid cpv chunks k,
  cpv <> [] ->
  let ops := store_ops s loc pid gid cpv chunks in
  let sk := run (firstn k ops) s in
  read_entry lay sk loc cpv = read_entry lay s loc cpv \/
  ((length ops <= k)%nat /\ read_entry lay sk loc cpv = parse lay (concat chunks)).
Proof.
  intros lay s loc pid gid cpv chunks k Hne ops sk. unfold read_entry.
  destruct (store_frame s loc pid gid cpv chunks k Hne) as [_ [H|[[i H] [_ Hk]]]];
    fold ops sk in H; rewrite H; auto.
Qed.
Print Assumptions store_atomic.

(* readers of any other existing entry are unaffected *)
Theorem store_others : forall lay s loc pid gid cpv chunks k cpv',
  cpv <> [] -> cpv' <> cpv -> target_path loc cpv' <> tmp_path loc pid cpv ->
  lookup s (target_path loc cpv') <> None ->
  let sk := run (firstn k (store_ops s loc pid gid cpv chunks)) s in
  read_entry lay sk loc cpv' = read_entry lay s loc cpv'.
Proof. intros. eapply framed_others; eauto using framed_store_ops. Qed.
Print Assumptions store_others.

(* the listing (with the '.update.' filter) never reports a partial entry: every key listed at
   a crash point was listed before the store, or is the stored cpv with its complete new entry *)
Theorem listing_no_partial : forall lay s loc pid gid cpv chunks k,
  cpv <> [] ->
  let sk := run (firstn k (store_ops s loc pid gid cpv chunks)) s in
  listing_ok lay s sk loc cpv (parse lay (concat chunks)).
Proof. intros. eapply framed_listing, framed_store_ops. assumption. Qed.
Print Assumptions listing_no_partial.

(* and no key listed before the store disappears from the listing at any crash point *)
Theorem listing_keeps_committed : forall s loc pid gid cpv chunks k key,
  cpv <> [] ->
  let sk := run (firstn k (store_ops s loc pid gid cpv chunks)) s in
  In key (keys s loc) -> In key (keys sk loc).
Proof. intros s loc pid gid cpv chunks k key Hne sk. eapply framed_keeps, framed_store_ops, Hne. Qed.
Print Assumptions listing_keeps_committed.

(* without the filter (the pinned tree) the listing statement is false *)
Theorem listing_unrepaired_refuted : ~ listing_ok_unrepaired.
Proof.
  intro H. destruct ex_staging_listed as (key & H1 & H2 & H3).
  destruct (H ex_fs LOC 4242%N 250%N ex_cpv (chunks_per_char ex_content) 20%nat ltac:(discriminate) key H1)
    as [H4|H4]; [exact (H2 H4)|exact (H3 H4)].
Qed.
Print Assumptions listing_unrepaired_refuted.

(* FAULTS: a system call of the store raises OSError (EIO, ENOSPC, EXDEV, EACCES ...) instead of
   being performed and _setitem's error handling runs (eio_ops: a failing rename removes the
   STAGING file; a failing chown (which also skips the chmod) or chmod is ignored; everything else
   propagates).  For every
   faulted call k, every flush schedule and every filesystem state: *)
Theorem eio_framed : forall s loc pid gid cpv chunks k,
  cpv <> [] ->
  framed s (run (eio_ops s loc pid gid cpv chunks k) s)
         (tmp_path loc pid cpv) (target_path loc cpv) (concat chunks).
Proof.
  intros s loc pid gid cpv chunks k Hne.
  destruct (eio_ops_cases s loc pid gid cpv chunks k) as [-> | [-> | (perms & Hp & ->)]].
  - now apply framed_store_ops.
  - apply framed_unlink; [apply tmp_ne_target|now apply framed_store_ops].
  - rewrite <- (firstn_all (store_ops_with s loc pid cpv chunks perms)). now apply framed_any_perms.
Qed.
Print Assumptions eio_framed.

(* readers of the entry see the previous result or the complete new one *)
Theorem store_fault_atomic : forall lay s loc pid gid cpv chunks k,
  cpv <> [] ->
  let sk := run (eio_ops s loc pid gid cpv chunks k) s in
  read_entry lay sk loc cpv = read_entry lay s loc cpv \/
  read_entry lay sk loc cpv = parse lay (concat chunks).
Proof. intros. eapply framed_read. now apply eio_framed. Qed.
Print Assumptions store_fault_atomic.

Theorem store_fault_others : forall lay s loc pid gid cpv chunks k cpv',
  cpv <> [] -> cpv' <> cpv -> target_path loc cpv' <> tmp_path loc pid cpv ->
  lookup s (target_path loc cpv') <> None ->
  read_entry lay (run (eio_ops s loc pid gid cpv chunks k) s) loc cpv' = read_entry lay s loc cpv'.
Proof. intros. eapply framed_others; eauto using eio_framed. Qed.
Print Assumptions store_fault_others.

(* the listing reports no partial entry and loses no committed one *)
Theorem fault_listing : forall lay s loc pid gid cpv chunks k,
  cpv <> [] ->
  let sk := run (eio_ops s loc pid gid cpv chunks k) s in
  listing_ok lay s sk loc cpv (parse lay (concat chunks)) /\
  forall key, In key (keys s loc) -> In key (keys sk loc).
Proof.
  intros lay s loc pid gid cpv chunks k Hne sk. pose proof (eio_framed s loc pid gid cpv chunks k Hne) as F.
  split; [eapply framed_listing; exact F|intros key; eapply framed_keeps; exact F].
Qed.
Print Assumptions fault_listing.
