(* Lemmas_C27.v — numerals, strings and dict lemmas used by the proofs of C27. *)
From Coq Require Import List ZArith Bool Permutation.
From Coq Require Decimal Hexadecimal DecimalN DecimalPos HexadecimalN HexadecimalPos.
Import ListNotations.
From Verif Require Import Base.Val Base.Lists C27.Model_C27.
Local Open Scope N_scope.

Lemma str_uint_uint_str u : str_uint (uint_str u) = Some u.
Proof. induction u; cbn [uint_str str_uint]; try rewrite IHu; reflexivity. Qed.

Lemma dec_not_nil n : dec n <> [].
Proof.
  unfold dec. destruct n as [|p]; [discriminate|]. cbn [N.to_uint].
  pose proof (DecimalPos.Unsigned.to_uint_nonnil p). destruct (Pos.to_uint p); [congruence|..]; discriminate.
Qed.

Lemma parse_num_dec n : parse_num (dec n) = Some n.
Proof.
  unfold parse_num. pose proof (dec_not_nil n) as H. destruct (dec n) eqn:E; [congruence|].
  rewrite <- E. unfold dec. rewrite str_uint_uint_str. f_equal. apply DecimalN.Unsigned.of_to.
Qed.

Lemma str_hex_hex_str u : str_hex (hex_str u) = Some u.
Proof. induction u; cbn [hex_str str_hex]; try rewrite IHu; reflexivity. Qed.

Lemma hex_not_nil n : hex n <> [].
Proof.
  unfold hex. destruct n as [|p]; [discriminate|]. cbn [N.to_hex_uint].
  pose proof (HexadecimalPos.Unsigned.to_uint_nonnil p). destruct (Pos.to_hex_uint p); [congruence|..]; discriminate.
Qed.

(* k leading zero digits: what the rjust(32, "0") of hex32 adds to the numeral *)
Fixpoint pad0 (k : nat) (u : Hexadecimal.uint) : Hexadecimal.uint :=
  match k with O => u | S k' => Hexadecimal.D0 (pad0 k' u) end.

Lemma str_hex_pad k s u : str_hex s = Some u -> str_hex (repeat 48 k ++ s) = Some (pad0 k u).
Proof. intro H. induction k as [|k IH]; cbn [repeat app str_hex pad0]; [exact H|]. rewrite IH. reflexivity. Qed.

Lemma of_hex_pad k u : N.of_hex_uint (pad0 k u) = N.of_hex_uint u.
Proof. induction k as [|k IH]; cbn [pad0]; [reflexivity|]. exact IH. Qed.

Lemma parse_hex_hex32 n : parse_hex (hex32 n) = Some n.
Proof.
  unfold parse_hex, hex32. pose proof (hex_not_nil n) as H.
  set (k := (32 - length (hex n))%nat).
  destruct (repeat 48 k ++ hex n) eqn:E.
  - apply app_eq_nil in E as [_ E]. congruence.
  - rewrite <- E. unfold hex at 1. rewrite (str_hex_pad k _ _ (str_hex_hex_str _)).
    rewrite of_hex_pad. f_equal. apply HexadecimalN.Unsigned.of_to.
Qed.

Lemma hex32_not_nil n : hex32 n <> [].
Proof. unfold hex32. intro E. apply app_eq_nil in E as [_ E]. eapply hex_not_nil; eauto. Qed.

Definition no_nl (s : str) : bool := forallb (fun c => negb (c =? c_nl) && negb (c =? c_cr)) s.
Definition no_eq (s : str) : bool := forallb (fun c => negb (c =? c_eq)) s.
Definition no_tab (s : str) : bool := forallb (fun c => negb (c =? c_tab)) s.
Definition no_space (s : str) : bool := forallb (fun c => negb (is_space c)) s.
Definition starts_nonspace (s : str) : bool := match s with c :: _ => negb (is_space c) | [] => false end.

Lemma dec_no_space n : no_space (dec n) = true.
Proof. unfold dec. induction (N.to_uint n); [reflexivity|..]; assumption. Qed.
Lemma hex32_no_space n : no_space (hex32 n) = true.
Proof.
  unfold hex32, no_space. rewrite forallb_app. apply andb_true_iff. split.
  - induction (32 - length (hex n))%nat; [reflexivity|assumption].
  - unfold hex. induction (N.to_hex_uint n); [reflexivity|..]; assumption.
Qed.

Lemma no_space_no_nl s : no_space s = true -> no_nl s = true.
Proof.
  apply forallb_impl. intros c _ H.
  destruct (N.eqb_spec c c_nl) as [->|_]; [discriminate H|]. destruct (N.eqb_spec c c_cr) as [->|_]; [discriminate H|reflexivity].
Qed.
Lemma no_space_no_tab s : no_space s = true -> no_tab s = true.
Proof. apply forallb_impl. intros c _ H. destruct (N.eqb_spec c c_tab) as [->|_]; [discriminate H|reflexivity]. Qed.

Lemma rstrip_cons_nonspace c r : is_space c = false -> rstrip (c :: r) = c :: rstrip r.
Proof. intro H. cbn [rstrip]. destruct (rstrip r); [rewrite H|]; reflexivity. Qed.

Lemma rstrip_app a b : rstrip b <> [] -> rstrip (a ++ b) = a ++ rstrip b.
Proof.
  intro H. induction a as [|c a IH]; cbn [app rstrip]; [reflexivity|].
  rewrite IH. destruct (a ++ rstrip b) eqn:E; [|reflexivity].
  apply app_eq_nil in E as [_ E]. congruence.
Qed.

Lemma rstrip_no_space s : no_space s = true -> rstrip s = s.
Proof.
  unfold no_space. induction s as [|c s IH]; cbn [forallb]; [reflexivity|]. intro H.
  apply andb_true_iff in H as [Hc Hs]. apply negb_true_iff in Hc.
  rewrite rstrip_cons_nonspace by assumption. rewrite IH by assumption. reflexivity.
Qed.

Lemma lstrip_starts s : starts_nonspace s = true -> lstrip s = s.
Proof. destruct s as [|c s]; cbn; [discriminate|]. intro H. apply negb_true_iff in H. rewrite H. reflexivity. Qed.

Lemma strip_line k v : starts_nonspace k = true ->
  strip (k ++ c_eq :: v) = k ++ c_eq :: rstrip v.
Proof.
  intro H. unfold strip. rewrite lstrip_starts by (destruct k; [discriminate|exact H]).
  assert (E : rstrip (c_eq :: v) = c_eq :: rstrip v) by (apply rstrip_cons_nonspace; reflexivity).
  rewrite rstrip_app; rewrite E; [reflexivity|discriminate].
Qed.

Lemma split_eq_line k v : no_eq k = true -> split_eq (k ++ c_eq :: v) = Some (k, v).
Proof.
  unfold no_eq. induction k as [|c k IH]; cbn [app split_eq forallb]; intro H.
  - rewrite N.eqb_refl. reflexivity.
  - apply andb_true_iff in H as [Hc Hk]. apply negb_true_iff in Hc. rewrite Hc, IH by assumption. reflexivity.
Qed.

Lemma split_lines_line l rest : no_nl l = true ->
  split_lines_ false (l ++ c_nl :: rest) = l :: split_lines_ false rest.
Proof.
  unfold no_nl. induction l as [|c l IH]; cbn [app split_lines_ forallb]; intro H.
  - rewrite N.eqb_refl. reflexivity.
  - apply andb_true_iff in H as [Hc Hl]. apply andb_true_iff in Hc as [H1 H2].
    apply negb_true_iff in H1, H2. rewrite H1, H2, IH by assumption. reflexivity.
Qed.

Lemma no_nl_app a b : no_nl (a ++ b) = no_nl a && no_nl b.
Proof. apply forallb_app. Qed.

Definition enc_line (kv : str * str) : str := fst kv ++ c_eq :: snd kv.

Lemma split_lines_content (l : list (str * str)) :
  Forall (fun kv => no_nl (fst kv) = true /\ no_nl (snd kv) = true) l ->
  split_lines (flat_map line l) = map enc_line l.
Proof.
  unfold split_lines. induction 1 as [|kv l [Hk Hv] _ IH]; cbn [flat_map map]; [reflexivity|].
  unfold line at 1.
  replace ((fst kv ++ c_eq :: snd kv ++ [c_nl]) ++ flat_map line l)
    with ((fst kv ++ c_eq :: snd kv) ++ c_nl :: flat_map line l)
    by (rewrite <- !app_assoc; cbn; rewrite <- app_assoc; reflexivity).
  rewrite split_lines_line, IH; [reflexivity|].
  rewrite no_nl_app, Hk. cbn. exact Hv.
Qed.

Lemma split_on_plain sep s : forallb (fun c => negb (c =? sep)) s = true -> split_on sep s = [s].
Proof.
  induction s as [|c s IH]; cbn [split_on forallb]; [reflexivity|]. intro H.
  apply andb_true_iff in H as [Hc Hs]. apply negb_true_iff in Hc. rewrite Hc, IH by assumption. reflexivity.
Qed.
Lemma split_on_app sep s rest : forallb (fun c => negb (c =? sep)) s = true ->
  split_on sep (s ++ sep :: rest) = s :: split_on sep rest.
Proof.
  induction s as [|c s IH]; cbn [app split_on forallb]; intro H.
  - rewrite N.eqb_refl. reflexivity.
  - apply andb_true_iff in H as [Hc Hs]. apply negb_true_iff in Hc. rewrite Hc, IH by assumption. reflexivity.
Qed.
Lemma split_join sep items : items <> [] ->
  Forall (fun s => forallb (fun c => negb (c =? sep)) s = true) items ->
  split_on sep (join_on sep items) = items.
Proof.
  intros Hne H. induction H as [|x r Hx Hr IH]; [congruence|].
  destruct r as [|y r].
  - cbn. apply split_on_plain. exact Hx.
  - change (join_on sep (x :: y :: r)) with (x ++ sep :: join_on sep (y :: r)).
    rewrite split_on_app by exact Hx. rewrite IH by discriminate. reflexivity.
Qed.
Lemma join_on_snoc sep l x : l <> [] -> join_on sep (l ++ [x]) = join_on sep l ++ sep :: x.
Proof.
  induction l as [|a l IH]; [congruence|]. intros _. destruct l as [|b l].
  - reflexivity.
  - change ((a :: b :: l) ++ [x]) with (a :: (b :: l) ++ [x]).
    change (join_on sep (a :: (b :: l) ++ [x])) with (a ++ sep :: join_on sep ((b :: l) ++ [x])).
    rewrite IH by discriminate.
    change (join_on sep (a :: b :: l)) with (a ++ sep :: join_on sep (b :: l)).
    rewrite <- app_assoc. reflexivity.
Qed.

Section DictLemmas.
  Context {V : Type}.
  Implicit Types d l : list (str * V).

  Lemma dget_dset k k0 (v : V) d :
    dget k (dset k0 v d) = if str_eqb k k0 then Some v else dget k d.
  Proof.
    induction d as [|[k' v'] d IH]; cbn [dset dget]; [reflexivity|].
    destruct (str_eqb k0 k') eqn:E0; cbn [dget].
    - apply str_eqb_eq in E0. subst k'. destruct (str_eqb k k0); reflexivity.
    - destruct (str_eqb k k') eqn:E1.
      + apply str_eqb_eq in E1. subst k'. rewrite str_eqb_sym, E0. reflexivity.
      + exact IH.
  Qed.

  Lemma dget_none k d : ~ In k (map fst d) -> dget k d = None.
  Proof.
    induction d as [|[k' v'] d IH]; cbn; intro H; [reflexivity|].
    destruct (str_eqb_spec k k') as [->|_]; [tauto|apply IH; tauto].
  Qed.

  Lemma dget_in k (v : V) d : dget k d = Some v -> In (k, v) d.
  Proof.
    induction d as [|[k' v'] d IH]; cbn; [discriminate|].
    destruct (str_eqb_spec k k') as [->|_]; intro H; [injection H as ->; now left|right; auto].
  Qed.

  Lemma in_dget k (v : V) d : NoDup (map fst d) -> In (k, v) d -> dget k d = Some v.
  Proof.
    induction d as [|[k' v'] d IH]; cbn; intros Hn H; [destruct H|].
    inversion Hn as [|? ? Hni Hn']; subst.
    destruct H as [H|H]; [injection H as -> ->; now rewrite str_eqb_refl|].
    destruct (str_eqb_spec k k') as [->|_]; [|auto]. destruct Hni. exact (in_map fst _ _ H).
  Qed.

  Lemma dget_perm k d d' : NoDup (map fst d) -> Permutation d d' -> dget k d = dget k d'.
  Proof.
    intros Hn Hp.
    assert (Hn' : NoDup (map fst d')) by (eapply Permutation_NoDup; [apply Permutation_map; exact Hp|exact Hn]).
    destruct (dget k d) as [v|] eqn:E.
    - symmetry. apply in_dget; [exact Hn'|]. eapply Permutation_in; [exact Hp|]. now apply dget_in.
    - destruct (dget k d') as [v|] eqn:E'; [|reflexivity].
      apply dget_in in E'. apply Permutation_sym in Hp. eapply Permutation_in in E'; [|exact Hp].
      apply in_dget in E'; [congruence|exact Hn].
  Qed.

  Lemma keys_dset k (v : V) d :
    map fst (dset k v d) = if existsb (str_eqb k) (map fst d) then map fst d else map fst d ++ [k].
  Proof.
    induction d as [|[k' v'] d IH]; cbn [dset map existsb fst]; [reflexivity|].
    destruct (str_eqb k k') eqn:E; cbn [map fst orb]; [reflexivity|].
    rewrite IH. destruct (existsb (str_eqb k) (map fst d)); reflexivity.
  Qed.

  Lemma nodup_dset k (v : V) d : NoDup (map fst d) -> NoDup (map fst (dset k v d)).
  Proof.
    intro H. rewrite keys_dset. destruct (existsb (str_eqb k) (map fst d)) eqn:E; [exact H|].
    eapply Permutation_NoDup; [apply Permutation_cons_append|].
    constructor; [|exact H]. intro Hin. apply existsb_str_In in Hin. congruence.
  Qed.

  Lemma forall_dset (P : str * V -> Prop) k (v : V) d :
    P (k, v) -> Forall P d -> Forall P (dset k v d).
  Proof.
    intros Hk H. induction H as [|[k' v'] d Hx Hd IH]; cbn [dset]; [constructor; [exact Hk|constructor]|].
    destruct (str_eqb_spec k k') as [<-|_]; constructor; assumption.
  Qed.

  Lemma insert_sorted_perm (e : str * V) l : Permutation (insert_sorted e l) (e :: l).
  Proof.
    induction l as [|x l IH]; cbn [insert_sorted]; [reflexivity|].
    destruct (str_ltb (fst x) (fst e)); [|reflexivity].
    rewrite IH. apply perm_swap.
  Qed.
  Lemma sort_items_perm d : Permutation (sort_items d) d.
  Proof.
    unfold sort_items. induction d as [|x d IH]; cbn [fold_right]; [reflexivity|].
    rewrite insert_sorted_perm. now constructor.
  Qed.
End DictLemmas.

Lemma dget_map_snd {V W} (f : V -> W) k (d : list (str * V)) :
  dget k (map (fun kv => (fst kv, f (snd kv))) d) = option_map f (dget k d).
Proof.
  induction d as [|[k' v'] d IH]; cbn; [reflexivity|].
  destruct (str_eqb k k'); [reflexivity|exact IH].
Qed.

Lemma parse_lines_spec lay : forall (l acc : list (str * str)),
  Forall (fun kv => no_eq (fst kv) = true) l -> NoDup (map fst l) ->
  exists acc', parse_lines lay (map enc_line l) acc = Some acc' /\
    forall k, dget k acc' = match dget k l with
                            | Some v => if known lay k then Some v else dget k acc
                            | None => dget k acc
                            end.
Proof.
  induction l as [|[k0 v0] l IH]; intros acc Hf Hn; cbn [map parse_lines].
  - exists acc. split; [reflexivity|]. intro k. reflexivity.
  - inversion Hf as [|? ? Hk0 Hf']; subst. inversion Hn as [|? ? Hni Hn']; subst.
    unfold enc_line at 1. cbn [fst snd] in *. rewrite split_eq_line by exact Hk0.
    destruct (IH (if known lay k0 then dset k0 v0 acc else acc) Hf' Hn') as [acc' [Hp Hg]].
    exists acc'. split; [exact Hp|]. intro k. rewrite Hg. cbn [dget].
    destruct (str_eqb k k0) eqn:E.
    + apply str_eqb_eq in E. subst k. rewrite (dget_none k0 l Hni).
      destruct (known lay k0); [rewrite dget_dset, str_eqb_refl|]; reflexivity.
    + destruct (dget k l) as [v|]; [destruct (known lay k); [reflexivity|]|];
        (destruct (known lay k0); [rewrite dget_dset, E|]; reflexivity).
Qed.
