From Coq Require Import List NArith Bool.
Import ListNotations.
From Verif Require Import Base.Val Base.Lists C12.Model_C12 C12.Spec_C12.

Lemma str_eqb_neq a b : str_eqb a b = false <-> a <> b.
Proof. apply Lists.str_eqb_neq. Qed.

Lemma mem_In x s : mem x s = true <-> In x s.
Proof. apply existsb_str_In. Qed.

Lemma mem_false_In x s : mem x s = false <-> ~ In x s.
Proof. rewrite <- mem_In. destruct (mem x s); intuition congruence. Qed.

Lemma mem_same_set a b : same_set a b -> forall y, mem y a = mem y b.
Proof. intros H y. apply eq_true_iff_eq. rewrite !mem_In. apply H. Qed.

Lemma mem_cons y x s : mem y (x :: s) = str_eqb y x || mem y s.
Proof. reflexivity. Qed.

Lemma mem_app y a b : mem y (a ++ b) = mem y a || mem y b.
Proof. unfold mem. apply existsb_app. Qed.

Lemma mem_rev y l : mem y (rev l) = mem y l.
Proof. apply mem_same_set. intro z. symmetry. apply in_rev. Qed.

Lemma mem_filter y p s : mem y (filter p s) = mem y s && p y.
Proof. apply eq_true_iff_eq. rewrite andb_true_iff, !mem_In, filter_In. tauto. Qed.

Lemma mem_sadd y x s : mem y (sadd x s) = str_eqb y x || mem y s.
Proof.
  unfold sadd. destruct (mem x s) eqn:M.
  - destruct (str_eqb y x) eqn:E; [|reflexivity].
    apply str_eqb_eq in E. subst. cbn. exact M.
  - rewrite mem_app. cbn. rewrite orb_false_r. apply orb_comm.
Qed.

Lemma mem_sdel y x s : mem y (sdel x s) = mem y s && negb (str_eqb y x).
Proof. unfold sdel. rewrite mem_filter. rewrite (str_eqb_sym x y). reflexivity. Qed.

Lemma mem_sdiff y s l : mem y (sdiff s l) = mem y s && negb (mem y l).
Proof. unfold sdiff. apply mem_filter. Qed.

Lemma mem_sunion y l : forall s, mem y (sunion s l) = mem y s || mem y l.
Proof.
  induction l as [|z l IH]; intro s.
  - unfold sunion. simpl. rewrite orb_false_r. reflexivity.
  - change (sunion s (z :: l)) with (sunion (sadd z s) l).
    rewrite IH, mem_sadd, mem_cons. destruct (str_eqb y z), (mem y s), (mem y l); reflexivity.
Qed.

Lemma mem_sunion_nil y l : mem y (sunion [] l) = mem y l.
Proof. rewrite mem_sunion. reflexivity. Qed.

Section ReadingFacts.
  Variable A D : str -> str -> bool.

  Lemma sem_fold_ext ts : forall S1 S2, (forall x, S1 x = S2 x) ->
    forall x, sem_fold A D ts S1 x = sem_fold A D ts S2 x.
  Proof.
    induction ts as [|t r IH]; intros S1 S2 H x; cbn; [apply H|].
    apply IH. intro y. unfold sem_step. rewrite H. reflexivity.
  Qed.

  Lemma last_writer_app r1 r2 x b :
    last_writer A D (r1 ++ r2) x b = last_writer A D r1 x (last_writer A D r2 x b).
  Proof. induction r1 as [|t r IH]; cbn; [reflexivity | now rewrite IH]. Qed.
  Lemma last_writer_rev_app a b x d :
    last_writer A D (rev (a ++ b)) x d = last_writer A D (rev b) x (last_writer A D (rev a) x d).
  Proof. rewrite rev_app_distr. apply last_writer_app. Qed.

  Lemma sem_fold_last_writer ts : forall S x,
    sem_fold A D ts S x = last_writer A D (rev ts) x (S x).
  Proof.
    induction ts as [|t r IH]; intros S x; cbn; [reflexivity|].
    unfold sem_fold in IH. rewrite IH, last_writer_app. unfold sem_step. cbn.
    destruct (A t x), (D t x), (S x); reflexivity.
  Qed.

  (* last writer wins, stated with positions; [b] stands for membership in the original set.  By
     induction from the first token, which is the innermost of the reversed stream *)
  Lemma last_writer_positions ts x : forall b,
    last_writer A D (rev ts) x b = true <->
    (exists l1 t l2, ts = l1 ++ t :: l2 /\ A t x = true /\ forall u, In u l2 -> D u x = false)
    \/ (b = true /\ forall u, In u ts -> D u x = false).
  Proof.
    induction ts as [|t r IH]; intro b; cbn [rev].
    - cbn. split; [intro H; right; split; [exact H | intros u []]|].
      intros [(l1 & t & l2 & E & _) | [H _]]; [destruct l1; discriminate | exact H].
    - rewrite last_writer_app, IH. cbn [last_writer]. split.
      + intros [(l1 & t' & l2 & -> & H) | [Hb H]].
        * left. exists (t :: l1), t', l2. auto.
        * destruct (A t x) eqn:At; [left; exists [], t, r; auto|].
          destruct (D t x) eqn:Dt; [discriminate|]. right. split; [exact Hb|]. intros u [<- | Hu]; auto.
      + intros [([|u l1] & t' & l2 & E & At & H) | [Hb H]].
        * injection E as <- ->. rewrite At. right. auto.
        * injection E as <- ->. left. exists l1, t', l2. auto.
        * right. rewrite (H t (or_introl eq_refl)), Hb. destruct (A t x); split; auto; intros u Hu; apply H; right; exact Hu.
  Qed.

  Lemma last_writer_survives ts orig x :
    last_writer A D (rev ts) x (mem x orig) = true <-> survives A D ts orig x.
  Proof. rewrite last_writer_positions, mem_In. reflexivity. Qed.

  (* a stepwise set transformer that implements the per-token meaning implements the fold *)
  Variable stepf : str -> list str -> res.
  Fixpoint run_steps (ts : list str) (s : list str) : res :=
    match ts with
    | [] => Ok s
    | t :: r => match stepf t s with Ok s' => run_steps r s' | Fail e => Fail e end
    end.
  Hypothesis stepf_sem : forall t s s', stepf t s = Ok s' ->
    forall x, mem x s' = sem_step A D t (fun y => mem y s) x.

  Lemma run_sem ts : forall s s', run_steps ts s = Ok s' ->
    forall x, mem x s' = sem_fold A D ts (fun y => mem y s) x.
  Proof.
    induction ts as [|t r IH]; intros s s' H x; cbn in *.
    - injection H as <-. reflexivity.
    - destruct (stepf t s) as [s1|e] eqn:St; [|discriminate].
      rewrite (IH _ _ H x). apply sem_fold_ext. intro y. apply (stepf_sem _ _ _ St).
  Qed.
  Lemma run_mem ts s s' : run_steps ts s = Ok s' ->
    forall x, mem x s' = last_writer A D (rev ts) x (mem x s).
  Proof. intros H x. rewrite (run_sem ts s s' H x). apply sem_fold_last_writer. Qed.

  Lemma run_readings ts s s' : run_steps ts s = Ok s' ->
    forall x, (In x s' <-> sem_fold A D ts (fun y => mem y s) x = true)
           /\ (In x s' <-> survives A D ts s x).
  Proof.
    intros H x. rewrite <- last_writer_survives, <- (run_mem ts s s' H x), <- (run_sem ts s s' H x), mem_In.
    split; reflexivity.
  Qed.

  Variable bad : str -> option err.
  Hypothesis stepf_bad : forall t s, match bad t with
                                     | Some e => stepf t s = Fail e
                                     | None => exists s', stepf t s = Ok s'
                                     end.
  Lemma run_fail ts : forall s,
    match first_bad bad ts with
    | Some e => run_steps ts s = Fail e
    | None => exists s', run_steps ts s = Ok s'
    end.
  Proof.
    induction ts as [|t r IH]; intro s; cbn.
    - exists s. reflexivity.
    - pose proof (stepf_bad t s) as B. destruct (bad t) as [e|].
      + rewrite B. reflexivity.
      + destruct B as [s1 ->]. apply IH.
  Qed.
End ReadingFacts.

Lemma first_bad_none k ts : first_bad k ts = None <-> forall t, In t ts -> k t = None.
Proof.
  induction ts as [|t r IH]; cbn; [tauto|]. destruct (k t) eqn:E.
  - split; [discriminate|]. intro H. rewrite <- E. apply H. now left.
  - rewrite IH. split; [intros H u [<- | Hu]; auto | intros H u Hu; apply H; now right].
Qed.

Lemma expand_is_run fin ts : forall s, expand fin ts s = run_steps (step fin) ts s.
Proof. induction ts as [|t r IH]; intro s; cbn; [reflexivity|]. destruct (step fin t s); [apply IH | reflexivity]. Qed.

Lemma dash_eqb c : N.eqb c DASH = true -> c = DASH.
Proof. apply N.eqb_eq. Qed.

Lemma step_neg fin i s : i <> [] ->
  step fin (DASH :: i) s
  = Ok (if fin then (if str_eqb i [STAR] then [] else sdel i s)
        else sadd (DASH :: i) (if str_eqb i [STAR] then [] else sdel i s)).
Proof. destruct i; [contradiction | reflexivity]. Qed.

Lemma step_pos fin c i s : N.eqb c DASH = false ->
  step fin (c :: i) s = Ok (sadd (c :: i) (sdel (DASH :: c :: i) s)).
Proof. intro H. unfold step. rewrite H. reflexivity. Qed.

Lemma adds_neg fin i x : adds fin (DASH :: i) x = str_eqb (DASH :: i) x && negb fin.
Proof. reflexivity. Qed.
Lemma dels_neg fin i x :
  dels fin (DASH :: i) x = negb (adds fin (DASH :: i) x) && (str_eqb i [STAR] || str_eqb i x).
Proof. reflexivity. Qed.
Lemma adds_pos fin c i x : N.eqb c DASH = false -> adds fin (c :: i) x = str_eqb (c :: i) x.
Proof. intro H. unfold adds, positive. rewrite H. cbn [negb orb]. apply andb_true_r. Qed.
Lemma dels_pos fin c i x : N.eqb c DASH = false ->
  dels fin (c :: i) x = negb (adds fin (c :: i) x) && str_eqb x (DASH :: c :: i).
Proof. intro H. unfold dels, positive. rewrite H. reflexivity. Qed.

Lemma step_sem fin t s s' : step fin t s = Ok s' ->
  forall x, mem x s' = sem_step (adds fin) (dels fin) t (fun y => mem y s) x.
Proof.
  destruct t as [|c i]; [discriminate|].
  destruct (N.eqb c DASH) eqn:Ec.
  - apply dash_eqb in Ec. subst c. destruct (list_eq_dec N.eq_dec i []) as [->|Hi]; [discriminate|].
    rewrite (step_neg _ _ _ Hi). intros H x. injection H as <-.
    unfold sem_step. rewrite dels_neg, adds_neg.
    destruct (str_eqb i [STAR]) eqn:Estar; destruct fin; cbn [negb orb andb];
      rewrite ?mem_sadd, ?mem_sdel, ?(str_eqb_sym x (DASH :: i)), ?(str_eqb_sym x i), ?andb_false_r, ?andb_true_r.
    + reflexivity.
    + destruct (str_eqb (DASH :: i) x), (mem x s); reflexivity.
    + reflexivity.
    + destruct (str_eqb (DASH :: i) x), (str_eqb i x), (mem x s); reflexivity.
  - rewrite (step_pos _ _ _ _ Ec). intros H x. injection H as <-.
    unfold sem_step. rewrite (dels_pos _ _ _ _ Ec), (adds_pos _ _ _ _ Ec).
    rewrite mem_sadd, mem_sdel, (str_eqb_sym x (c :: i)).
    destruct (str_eqb (c :: i) x), (str_eqb x (DASH :: c :: i)), (mem x s); reflexivity.
Qed.

Lemma step_bad fin t s :
  match bad_inc t with
  | Some e => step fin t s = Fail e
  | None => exists s', step fin t s = Ok s'
  end.
Proof.
  unfold bad_inc, step. destruct t as [|c [|d g]]; cbn [is_nil str_eqb]; [reflexivity | |];
    destruct (N.eqb c DASH); cbn [andb]; try reflexivity; eexists; reflexivity.
Qed.

Lemma expand_mem fin ts orig s : expand fin ts orig = Ok s ->
  forall x, mem x s = last_writer (adds fin) (dels fin) (rev ts) x (mem x orig).
Proof. rewrite expand_is_run. apply run_mem, step_sem. Qed.

Lemma expand_rejects_proof : forall fin ts orig,
  match first_bad bad_inc ts with
  | Some e => expand fin ts orig = Fail e
  | None => exists s, expand fin ts orig = Ok s
  end.
Proof.
  intros fin ts orig. rewrite expand_is_run. apply run_fail. apply step_bad.
Qed.

Lemma expand_license_is_run lics groups ts : forall s,
  expand_license_from lics groups ts s = run_steps (step_license lics groups) ts s.
Proof.
  induction ts as [|t r IH]; intro s; cbn; [reflexivity|].
  destruct (step_license lics groups t s); [apply IH | reflexivity].
Qed.

Lemma lic_dels_pos lics groups c i x : N.eqb c DASH = false -> lic_dels lics groups (c :: i) x = false.
Proof. intro H. unfold lic_dels. destruct i; [reflexivity | rewrite H; reflexivity]. Qed.

Lemma step_license_sem lics groups t s s' : step_license lics groups t s = Ok s' ->
  forall x, mem x s' = sem_step (lic_adds lics groups) (lic_dels lics groups) t (fun y => mem y s) x.
Proof.
  unfold step_license, sem_step, lic_adds. destruct t as [|c i]; [discriminate|].
  destruct (N.eqb c DASH) eqn:Ec.
  - unfold lic_dels. rewrite Ec. destruct i as [|d g]; [discriminate|]. cbn [andb orb].
    destruct (str_eqb (d :: g) [STAR]) eqn:Es.
    + intros H x. injection H as <-. cbn. rewrite andb_false_r. reflexivity.
    + destruct (N.eqb d AT) eqn:Ed.
      * destruct g as [|g0 g']; [discriminate|]. intros H x. injection H as <-.
        rewrite mem_sdiff. reflexivity.
      * intros H x. injection H as <-. rewrite mem_sdel, (str_eqb_sym x). reflexivity.
  - intros H x. rewrite (lic_dels_pos _ _ _ _ _ Ec), andb_true_r. revert H.
    destruct (N.eqb c AT) eqn:Ea.
    + destruct i as [|d g]; [discriminate|]. intro H. injection H as <-.
      rewrite mem_sunion. apply orb_comm.
    + destruct (str_eqb (c :: i) [STAR]) eqn:Es; intro H; injection H as <-.
      * rewrite mem_sunion. apply orb_comm.
      * rewrite mem_sadd, (str_eqb_sym x). reflexivity.
Qed.

Lemma step_license_bad lics groups t s :
  match bad_license t with
  | Some e => step_license lics groups t s = Fail e
  | None => exists s', step_license lics groups t s = Ok s'
  end.
Proof.
  unfold bad_license, step_license.
  destruct t as [|c [|d g]]; cbn [is_nil str_eqb]; [reflexivity | |].
  - destruct (N.eqb c DASH); [reflexivity|]. destruct (N.eqb c AT); cbn [andb]; [reflexivity|].
    destruct (N.eqb c STAR); eexists; reflexivity.
  - rewrite !andb_false_r. destruct (N.eqb c DASH); cbn [andb].
    + destruct (N.eqb_spec d AT) as [E|E]; cbn [andb].
      * subst d. destruct g; cbn; [reflexivity | eexists; reflexivity].
      * destruct (N.eqb d STAR && str_eqb g []); eexists; reflexivity.
    + destruct (N.eqb c AT); eexists; reflexivity.
Qed.

Lemma expand_license_mem lics groups ts s : expand_license lics groups ts = Ok s ->
  forall x, mem x s = last_writer (lic_adds lics groups) (lic_dels lics groups) (rev ts) x false.
Proof. unfold expand_license. rewrite expand_license_is_run. apply (run_mem _ _ _ (step_license_sem lics groups)). Qed.

Lemma license_rejects_proof : forall lics groups ts,
  match first_bad bad_license ts with
  | Some e => expand_license lics groups ts = Fail e
  | None => exists s, expand_license lics groups ts = Ok s
  end.
Proof.
  intros. unfold expand_license. rewrite expand_license_is_run. apply run_fail. apply step_license_bad.
Qed.

Lemma positive_not_neg x i : positive x = true -> str_eqb x (DASH :: i) = false.
Proof.
  destruct x as [|c x']; [discriminate|]. unfold positive. intro H. cbn.
  destruct (N.eqb c DASH); [discriminate | reflexivity].
Qed.
Lemma positive_not_clear x : positive x = true -> str_eqb x CLEAR = false.
Proof. apply positive_not_neg. Qed.
Lemma neg_not_positive c i y : N.eqb c DASH = false -> str_eqb (DASH :: y) (c :: i) = false.
Proof.
  intro H. change (str_eqb (DASH :: y) (c :: i)) with (N.eqb DASH c && str_eqb y i).
  rewrite N.eqb_sym, H. reflexivity.
Qed.
Lemma positive_cons c i : N.eqb c DASH = false -> positive (c :: i) = true.
Proof. intro H. unfold positive. rewrite H. reflexivity. Qed.

Lemma res_cons_ok t r out : res_cons t r = Ok out -> exists o, r = Ok o /\ out = t :: o.
Proof. destruct r; cbn; [|discriminate]. intro H. injection H as <-. eexists; split; reflexivity. Qed.

(* the scan, token by token: "" and "-" are errors, "-*" ends it, and any other token is about
   one name, its key (x for x and for -x), emitted unless that name is finalized already *)
Definition token_key (t : str) : str := if is_neg t then tl t else t.

Lemma token_cases t : t = [] \/ t = [DASH] \/ t = CLEAR \/ (wf t = true /\ str_eqb t CLEAR = false).
Proof.
  unfold wf. destruct t as [|c i]; [auto|]. cbn [is_nil negb andb].
  destruct (str_eqb (c :: i) [DASH]) eqn:E1; [apply str_eqb_eq in E1; auto|].
  destruct (str_eqb (c :: i) CLEAR) eqn:E2; [apply str_eqb_eq in E2|]; auto.
Qed.

Lemma opt_scan_clear strict r fin :
  opt_scan strict (CLEAR :: r) fin = if strict && mem [DASH] r then Fail EBareNeg else Ok [CLEAR].
Proof. reflexivity. Qed.

Lemma opt_scan_keyed strict t r fin : wf t = true -> str_eqb t CLEAR = false ->
  opt_scan strict (t :: r) fin
  = if mem (token_key t) fin then opt_scan strict r fin else res_cons t (opt_scan strict r (token_key t :: fin)).
Proof.
  destruct t as [|c i]; [discriminate|]. unfold token_key, is_neg. cbn [opt_scan tl].
  destruct (N.eqb c DASH) eqn:Ec; [|reflexivity].
  apply dash_eqb in Ec. subst c. destruct i as [|d g]; [discriminate|]. intros _ NC.
  change (str_eqb (DASH :: d :: g) CLEAR) with (str_eqb (d :: g) [STAR]) in NC. rewrite NC. reflexivity.
Qed.

Lemma keyed_lw t r x b : wf t = true -> str_eqb t CLEAR = false -> positive x = true ->
  last_writer (adds true) (dels true) (t :: r) x b
  = if str_eqb (token_key t) x then positive t else last_writer (adds true) (dels true) r x b.
Proof.
  destruct t as [|c i]; [discriminate|]. intros W NC Px. unfold token_key, is_neg. cbn [last_writer tl].
  change (positive (c :: i)) with (negb (N.eqb c DASH)). destruct (N.eqb c DASH) eqn:Ec.
  - apply dash_eqb in Ec. subst c. rewrite dels_neg, !adds_neg. cbn [negb]. rewrite !andb_false_r.
    change (str_eqb (DASH :: i) CLEAR) with (str_eqb i [STAR]) in NC. rewrite NC. reflexivity.
  - rewrite (dels_pos _ _ _ _ Ec), !(adds_pos _ _ _ _ Ec), (positive_not_neg _ _ Px), andb_false_r.
    destruct (str_eqb (c :: i) x); reflexivity.
Qed.
Lemma keyed_eqb t x : wf t = true -> positive x = true ->
  str_eqb x t = positive t && str_eqb (token_key t) x
  /\ str_eqb (DASH :: x) t = negb (positive t) && str_eqb (token_key t) x.
Proof.
  destruct t as [|c i]; [discriminate|]. intros _ Px. unfold token_key, is_neg. cbn [tl].
  change (positive (c :: i)) with (negb (N.eqb c DASH)). destruct (N.eqb c DASH) eqn:Ec; cbn [negb andb].
  - apply dash_eqb in Ec. subst c. split; [apply positive_not_neg, Px|].
    change (str_eqb (DASH :: x) (DASH :: i)) with (str_eqb x i). apply str_eqb_sym.
  - split; [apply str_eqb_sym | apply neg_not_positive, Ec].
Qed.
Lemma clear_lw r x b : last_writer (adds true) (dels true) (CLEAR :: r) x b = false.
Proof. cbn [last_writer]. unfold CLEAR. rewrite dels_neg, !adds_neg. cbn. rewrite andb_false_r. reflexivity. Qed.

Lemma scan_inv strict rs : forall fin out, opt_scan strict rs fin = Ok out ->
  (forall t, In t out -> In t rs /\ wf t = true)
  /\ (forall x, positive x = true -> mem x fin = true -> mem x out = false).
Proof.
  induction rs as [|t r IH]; intros fin out H.
  - cbn in H. injection H as <-. split; [intros t [] | reflexivity].
  - destruct (token_cases t) as [->|[->|[->|[W NC]]]]; try discriminate.
    + rewrite opt_scan_clear in H. destruct (strict && mem [DASH] r); [discriminate|]. injection H as <-.
      split; [intros t [<- | []]; split; [left|]; reflexivity|].
      intros x Px _. rewrite mem_cons, (positive_not_clear _ Px). reflexivity.
    + rewrite (opt_scan_keyed _ _ _ _ W NC) in H. destruct (mem (token_key t) fin) eqn:Mk.
      * destruct (IH _ _ H) as [I1 I2]. split; [|exact I2].
        intros u Hu. destruct (I1 u Hu). split; [right|]; assumption.
      * apply res_cons_ok in H as [o [Ho ->]]. destruct (IH _ _ Ho) as [I1 I2]. split.
        -- intros u [<- | Hu]; [split; [left; reflexivity | exact W]|].
           destruct (I1 u Hu). split; [right|]; assumption.
        -- intros x Px Hx. rewrite mem_cons, (proj1 (keyed_eqb t x W Px)), I2; auto.
           ++ destruct (str_eqb (token_key t) x) eqn:E; [|rewrite andb_false_r; reflexivity].
              apply str_eqb_eq in E. congruence.
           ++ rewrite mem_cons, Hx. apply orb_true_r.
Qed.

(* the semantic content of the scan: for a flag x not yet finalized, "x is emitted, or x was
   set before and neither -* nor -x is emitted" is exactly last-writer-wins over the scanned part *)
Lemma scan_sem strict rs : forall fin out, opt_scan strict rs fin = Ok out ->
  forall x, positive x = true -> mem x fin = false -> forall b,
    mem x out || (b && negb (mem CLEAR out) && negb (mem (DASH :: x) out))
    = last_writer (adds true) (dels true) rs x b.
Proof.
  induction rs as [|t r IH]; intros fin out H x Px Hx b.
  - cbn in H. injection H as <-. cbn. rewrite !andb_true_r. reflexivity.
  - destruct (token_cases t) as [->|[->|[->|[W NC]]]]; try discriminate.
    + rewrite opt_scan_clear in H. destruct (strict && mem [DASH] r); [discriminate|]. injection H as <-.
      rewrite clear_lw, mem_cons, (positive_not_clear _ Px). cbn. rewrite andb_false_r. reflexivity.
    + rewrite (opt_scan_keyed _ _ _ _ W NC) in H. rewrite (keyed_lw _ _ _ _ W NC Px).
      destruct (str_eqb (token_key t) x) eqn:E.
      * (* the last token about x: it is emitted, and nothing else about x is *)
        apply str_eqb_eq in E. rewrite E, Hx in H. apply res_cons_ok in H as [o [Ho ->]].
        destruct (keyed_eqb t x W Px) as [E1 E2]. rewrite E, str_eqb_refl, andb_true_r in E1, E2.
        rewrite !mem_cons, E1, E2. destruct (positive t); cbn [orb negb]; [reflexivity|].
        destruct (scan_inv _ _ _ _ Ho) as [_ I2]. rewrite I2, !andb_false_r; auto.
        rewrite mem_cons, str_eqb_refl. reflexivity.
      * assert (Hx' : mem x (token_key t :: fin) = false) by (rewrite mem_cons, (str_eqb_sym x), E; exact Hx).
        destruct (mem (token_key t) fin); [exact (IH _ _ H x Px Hx b)|].
        apply res_cons_ok in H as [o [Ho ->]].
        destruct (keyed_eqb t x W Px) as [E1 E2]. rewrite E, andb_false_r in E1, E2.
        rewrite !mem_cons, E1, E2, (str_eqb_sym CLEAR), NC. exact (IH _ _ Ho x Px Hx' b).
Qed.

Lemma split_negations_sem S : (forall t, In t S -> wf t = true) ->
  exists neg pos, split_negations S = Some (neg, pos)
    /\ (forall y, mem y neg = mem (DASH :: y) S)
    /\ (forall y, mem y pos = mem y S && positive y).
Proof.
  induction S as [|t r IH]; intro W.
  - exists [], []. repeat split.
  - assert (Wr : forall u, In u r -> wf u = true) by (intros u Hu; apply W; right; exact Hu).
    destruct (IH Wr) as [neg [pos [E [Hn Hp]]]].
    pose proof (W t (or_introl eq_refl)) as Wt.
    destruct t as [|c i]; [discriminate|]. cbn [split_negations]. rewrite E.
    destruct (N.eqb c DASH) eqn:Ec.
    + apply dash_eqb in Ec. subst c. destruct i as [|d g]; [discriminate|].
      exists ((d :: g) :: neg), pos. split; [reflexivity|]. split.
      * intro y. rewrite !mem_cons, Hn. reflexivity.
      * intro y. rewrite mem_cons, Hp. destruct (positive y) eqn:Py.
        -- rewrite (positive_not_neg _ _ Py). reflexivity.
        -- rewrite !andb_false_r. reflexivity.
    + exists neg, ((c :: i) :: pos). split; [reflexivity|]. split.
      * intro y. rewrite mem_cons, Hn, (neg_not_positive _ _ _ Ec). reflexivity.
      * intro y. rewrite !mem_cons, Hp. destruct (str_eqb y (c :: i)) eqn:E'; [|reflexivity].
        apply str_eqb_eq in E'. subst y. rewrite (positive_cons _ _ Ec). reflexivity.
Qed.

Lemma glob_fold_id neg : forall s, (forall f, In f neg -> ends_us_star f = false) ->
  fold_left (fun s flag => if ends_us_star flag
                           then filter (fun f => negb (startswith (drop_last2 flag) f)) s
                           else s) neg s = s.
Proof.
  induction neg as [|f r IH]; intros s H; cbn; [reflexivity|].
  rewrite (H f (or_introl eq_refl)). apply IH. intros g Hg. apply H. right. exact Hg.
Qed.

Lemma consume_sem S orig :
  (forall t, In t S -> wf t = true) -> (forall t, In t S -> glob_neg t = false) ->
  exists s, consume S orig = Some s /\
    forall x, positive x = true ->
      mem x s = mem x S || (mem x orig && negb (mem CLEAR S) && negb (mem (DASH :: x) S)).
Proof.
  intros W G. destruct (split_negations_sem S W) as [neg [pos [E [Hn Hp]]]].
  unfold consume. rewrite E.
  assert (Gn : forall f, In f neg -> ends_us_star f = false).
  { intros f Hf. apply mem_In in Hf. rewrite Hn in Hf. apply mem_In in Hf.
    specialize (G _ Hf). unfold glob_neg in G. exact G. }
  assert (Main : forall x, positive x = true ->
            mem x (chunk_apply neg pos orig)
            = mem x S || (mem x orig && negb (mem CLEAR S) && negb (mem (DASH :: x) S))).
  { intros x Px. unfold chunk_apply. rewrite mem_sunion, mem_sdiff, (glob_fold_id _ _ Gn).
    rewrite Hp, !Hn, Px, andb_true_r. change (DASH :: [STAR]) with CLEAR.
    destruct (mem CLEAR S); cbn [negb andb].
    - rewrite andb_false_r. cbn. rewrite orb_false_r. reflexivity.
    - rewrite andb_true_r. apply orb_comm. }
  destruct neg as [|n0 neg'], pos as [|p0 pos']; try (eexists; split; [reflexivity | exact Main]).
  (* nothing to apply: the set is left alone, which is what applying nothing gives *)
  exists orig. split; [reflexivity|]. intros x Px. rewrite <- (Main x Px). unfold chunk_apply.
  rewrite mem_sunion, mem_sdiff. cbn. rewrite orb_false_r, andb_true_r. reflexivity.
Qed.

Lemma optimize_consume strict ts out : optimize strict ts = Ok out ->
  (forall t, In t ts -> glob_neg t = false) ->
  forall stored, same_set stored out ->
  forall orig, exists s, consume stored orig = Some s
    /\ forall x, positive x = true ->
         mem x s = last_writer (adds true) (dels true) (rev ts) x (mem x orig).
Proof.
  intros H G stored Hs orig. unfold optimize in H.
  destruct (scan_inv _ _ _ _ H) as [I1 _].
  destruct (consume_sem stored orig) as [s [Ec Hm]].
  - intros t Ht. apply Hs in Ht. apply (I1 t Ht).
  - intros t Ht. apply Hs in Ht. apply G. apply in_rev. apply (I1 t Ht).
  - exists s. split; [exact Ec|]. intros x Px.
    rewrite (Hm x Px), !(mem_same_set _ _ Hs). apply (scan_sem _ _ _ _ H x Px eq_refl).
Qed.

Lemma scan_reject (rs : list str) : (forall t, In t rs -> t <> []) -> forall fin,
  if mem [DASH] rs then opt_scan true rs fin = Fail EBareNeg
  else exists out, opt_scan true rs fin = Ok out.
Proof.
  induction rs as [|t r IH]; intros NE fin; [cbn; eexists; reflexivity|].
  assert (NEr : forall u, In u r -> u <> []) by (intros u Hu; apply NE; right; exact Hu).
  destruct (token_cases t) as [->|[->|[->|[W NC]]]].
  - exfalso. apply (NE [] (or_introl eq_refl)). reflexivity.
  - reflexivity.
  - rewrite opt_scan_clear. change (mem [DASH] (CLEAR :: r)) with (mem [DASH] r).
    destruct (mem [DASH] r); [reflexivity | eexists; reflexivity].
  - rewrite (opt_scan_keyed _ _ _ _ W NC), mem_cons.
    replace (str_eqb [DASH] t) with false
      by (unfold wf in W; rewrite (str_eqb_sym [DASH]); destruct (str_eqb t [DASH]); [rewrite andb_false_r in W; discriminate | reflexivity]).
    destruct (mem (token_key t) fin); [apply IH; exact NEr|].
    specialize (IH NEr (token_key t :: fin)). cbn [orb]. destruct (mem [DASH] r).
    + rewrite IH. reflexivity.
    + destruct IH as [o ->]. eexists; reflexivity.
Qed.

Lemma first_bad_inc_nonempty (ts : list str) : (forall t, In t ts -> t <> []) ->
  first_bad bad_inc ts = if mem [DASH] ts then Some EBareNeg else None.
Proof.
  induction ts as [|t r IH]; intro NE; [reflexivity|].
  assert (NEr : forall u, In u r -> u <> []) by (intros u Hu; apply NE; right; exact Hu).
  cbn [first_bad mem existsb]. unfold bad_inc.
  destruct t as [|c i]; [exfalso; apply (NE [] (or_introl eq_refl)); reflexivity|].
  cbn [is_nil]. rewrite (str_eqb_sym [DASH]).
  destruct (str_eqb (c :: i) [DASH]); [reflexivity | apply IH; exact NEr].
Qed.

Lemma optimize_rejects (ts : list str) : (forall t, In t ts -> t <> []) ->
  match first_bad bad_inc ts with
  | Some e => optimize true ts = Fail e
  | None => exists out, optimize true ts = Ok out
  end.
Proof.
  intro NE. rewrite (first_bad_inc_nonempty ts NE), <- mem_rev.
  assert (NEr : forall t, In t (rev ts) -> t <> []) by (intros t Ht; apply NE, in_rev, Ht).
  generalize (scan_reject (rev ts) NEr []). unfold optimize. destruct (mem [DASH] (rev ts)); trivial.
Qed.

Lemma scan_pinned_agrees rs : forall fin out,
  opt_scan true rs fin = Ok out -> opt_scan false rs fin = Ok out.
Proof.
  induction rs as [|t r IH]; intros fin out H; [exact H|].
  destruct (token_cases t) as [->|[->|[->|[W NC]]]]; try discriminate.
  - rewrite opt_scan_clear in *. destruct (mem [DASH] r); [discriminate H | exact H].
  - rewrite (opt_scan_keyed true _ _ _ W NC) in H. rewrite (opt_scan_keyed false _ _ _ W NC).
    destruct (mem (token_key t) fin); [apply IH; exact H|].
    apply res_cons_ok in H as [o [Ho ->]]. rewrite (IH _ _ Ho). reflexivity.
Qed.

Lemma last_writer_positive ts x : (forall t, In t ts -> positive t = true) ->
  last_writer (adds true) (dels true) (rev ts) x false = mem x ts.
Proof.
  rewrite <- (mem_rev x ts). intro P.
  assert (Pr : forall t, In t (rev ts) -> positive t = true) by (intros t Ht; apply P, in_rev, Ht).
  induction (rev ts) as [|t r IH]; [reflexivity|].
  pose proof (Pr t (or_introl eq_refl)) as Pt. destruct t as [|c i]; [discriminate|].
  assert (Ec : N.eqb c DASH = false).
  { unfold positive in Pt. destruct (N.eqb c DASH); [discriminate | reflexivity]. }
  cbn [last_writer]. rewrite (dels_pos _ _ _ _ Ec), !(adds_pos _ _ _ _ Ec), mem_cons, (str_eqb_sym x (c :: i)).
  destruct (str_eqb (c :: i) x) eqn:E; [reflexivity|]. cbn [negb andb orb].
  assert (IH' := IH (fun u Hu => Pr u (or_intror Hu))).
  destruct (str_eqb x (DASH :: c :: i)) eqn:E2; [|exact IH'].
  apply str_eqb_eq in E2. subst x. symmetry. apply mem_false_In. intro Hin.
  specialize (Pr _ (or_intror Hin)). discriminate.
Qed.

Lemma last_writer_true_in ts y :
  last_writer (adds true) (dels true) (rev ts) y false = true -> In y ts /\ positive y = true.
Proof.
  rewrite last_writer_positions. intros [(l1 & t & l2 & -> & At & _) | [H _]]; [|discriminate].
  unfold adds in At. apply andb_true_iff in At as [E1 P]. apply str_eqb_eq in E1. subst t.
  rewrite orb_false_r in P. split; [apply in_elt | exact P].
Qed.
Lemma expand_true_positive ts d : expand true ts [] = Ok d -> forall y, In y d -> positive y = true.
Proof.
  intros H y Hy. apply mem_In in Hy. rewrite (expand_mem _ _ _ _ H) in Hy. apply (last_writer_true_in _ _ Hy).
Qed.

Lemma pull_data_mem srcs pre s ts :
  (forall t, In t pre -> positive t = true) ->
  pull_data true srcs pre = Ok s -> pull_stream true srcs pre = Some ts ->
  forall x, mem x s = last_writer (adds true) (dels true) (rev ts) x false.
Proof.
  intros Ppre Hp Hs x. unfold pull_data, pull_stream in *.
  set (cc := collapse srcs) in *. destruct (defaults true cc) as [d|e] eqn:Ed; [|discriminate].
  injection Hs as <-. cbn [res_bind] in Hp.
  assert (Pd : forall y, In y d -> positive y = true).
  { unfold defaults in Ed. destruct (is_nil (c_always cc)).
    - injection Ed as <-. intros y [].
    - apply (expand_true_positive _ _ Ed). }
  rewrite !last_writer_rev_app, (last_writer_positive pre x Ppre).
  destruct pre as [|p0 pre']; cbn [is_nil res_bind] in Hp.
  - (* no pre_defaults: the negations are filtered out of the defaults, and there are none *)
    rewrite (expand_mem _ _ _ _ Hp), mem_filter. cbn [mem existsb]. rewrite (last_writer_positive d x Pd).
    f_equal. destruct (mem x d) eqn:My; [|reflexivity]. apply mem_In in My. specialize (Pd _ My).
    destruct x as [|c0 x']; [discriminate|]. unfold positive in Pd. unfold is_neg.
    destruct (N.eqb c0 DASH); [discriminate | reflexivity].
  - destruct (expand true d (sunion [] (p0 :: pre'))) as [s0|e] eqn:E0; [|discriminate].
    cbn [res_bind] in Hp. rewrite (expand_mem _ _ _ _ Hp), (expand_mem _ _ _ _ E0), mem_sunion_nil. reflexivity.
Qed.

Lemma license_accept_spec groups stream : first_bad bad_license stream = None ->
  forall alts, license_accept groups stream alts = BOk (accepted_by_stream groups stream alts).
Proof.
  intros FB alts. induction alts as [|alt r IH]; [reflexivity|].
  cbn [license_accept]. pose proof (license_rejects_proof alt groups stream) as R.
  rewrite FB in R. destruct R as [s Hs]. rewrite Hs.
  unfold accepted_by_stream, superset. cbn [existsb].
  rewrite <- (forallb_ext_in _ _ alt (fun x _ => expand_license_mem _ _ _ _ Hs x)).
  destruct (forallb (fun x => mem x s) alt); [reflexivity | exact IH].
Qed.

Lemma closure_step raw n g x :
  In x (closure raw (S n) g) <->
  (In x (lookup g raw) /\ is_ref x = false) \/ (exists h, In (AT :: h) (lookup g raw) /\ In x (closure raw n h)).
Proof.
  cbn [closure]. rewrite in_flat_map. split.
  - intros [m [Hm Hx]]. destruct m as [|c h].
    + destruct Hx as [<- | []]. left. split; [exact Hm | reflexivity].
    + destruct (N.eqb c AT) eqn:Ec.
      * apply N.eqb_eq in Ec. subst c. right. exists h. split; assumption.
      * destruct Hx as [<- | []]. left. split; [exact Hm | exact Ec].
  - intros [[Hin Hr] | [h [Hin Hx]]].
    + exists x. split; [exact Hin|]. destruct x as [|c h]; [left; reflexivity|].
      cbn in Hr. rewrite Hr. left. reflexivity.
    + exists (AT :: h). split; [exact Hin|]. rewrite N.eqb_refl. exact Hx.
Qed.

Local Notation a := [97%N].  Local Notation b := [98%N].  Local Notation c := [99%N].
Local Notation na := [DASH; 97%N].  Local Notation nc := [DASH; 99%N].
(* a -* b -a a  over {c}:  c and the first a are cleared, b stays, a is re-added last *)
Example expand_example : expand true [a; CLEAR; b; na; a] [c] = Ok [b; a].
Proof. reflexivity. Qed.
Example expand_unfinalized_example : expand false [a; CLEAR; b; nc] [c] = Ok [CLEAR; b; nc].
Proof. reflexivity. Qed.
(* the condensed form of  a -* b -c  and what its consumer makes of it over {a, c, z} *)
Example optimize_example : optimize true [a; CLEAR; b; nc] = Ok [nc; b; CLEAR].
Proof. reflexivity. Qed.
Example consume_example :
  consume [b; CLEAR; nc] [a; c; [122%N]] = Some [b]
  /\ expand true [a; CLEAR; b; nc] [a; c; [122%N]] = Ok [b].
Proof. split; reflexivity. Qed.
(* without -* the original set shows through, minus the negated flag *)
Example consume_example2 :
  consume [nc; b] [a; c] = Some [a; b] /\ expand true [b; nc] [a; c] = Ok [a; b].
Proof. split; reflexivity. Qed.
(* why "-prefix_*" tokens are excluded from optimize_sound: the chunk consumer gives them the
   USE_EXPAND wildcard meaning (C11), the expansion treats them as a plain name *)
Example glob_outside :
  let abx := [97;98;95;120]%N in let aby := [97;98;95;121]%N in
  let nglob := [45;97;98;95;42]%N in
  glob_neg nglob = true
  /\ optimize true [abx; nglob] = Ok [nglob; abx]
  /\ consume [nglob; abx] [aby] = Some [abx]
  /\ expand true [abx; nglob] [aby] = Ok [aby; abx].
Proof. repeat split; reflexivity. Qed.
(* licenses: @G -a * -@H over package licenses {a, z}, G = {a, b}, H = {z}, M undefined *)
Example license_example :
  let z := [122%N] in let G := [71%N] in let H := [72%N] in
  expand_license [a; z] [(G, [a; b]); (H, [z])]
                 [AT :: G; na; [STAR]; DASH :: AT :: H; AT :: [77%N]] = Ok [b; a].
Proof. reflexivity. Qed.
Example license_rejected_example :
  expand_license [a] [] [a; [DASH; AT]] = Fail EBareNegGroup
  /\ expand_license [a] [] [[AT]; [DASH]] = Fail EBareGroup.
Proof. split; reflexivity. Qed.
(* defaults {a}, a matching category entry "-a b", a non-matching package entry, a matching atom "c",
   and AlwaysTrue data arriving after the atom (its negations are replayed behind the atom) *)
Example pull_example :
  let srcs := [(BAlways true, true, [a]); (BCat, true, [na; b]); (BPkg, false, [c]);
               (BAtom true, true, [c]); (BAlways true, true, [nc])] in
  pull_data true srcs [[122%N]] = Ok [[122%N]; b]
  /\ pull_stream true srcs [[122%N]] = Some [[122%N]; a; na; b; c; nc].
Proof. split; reflexivity. Qed.
Example license_filter_example :
  let FREE := [70%N] in let EULA := [69%N] in let mit := [109%N] in let eu := [101%N] in
  let groups := [(FREE, [mit]); (EULA, [eu])] in
  (* ACCEPT_LICENSE="-* @FREE"; package.license: "x @EULA", "y -*" *)
  license_filter_seq [CLEAR; AT :: FREE] [[AT :: EULA]; [CLEAR]] groups
    [([false; false], [[eu]]); ([true; false], [[eu]]); ([false; false], [[eu]]);
     ([false; true], [[mit]]); ([false; false], [[mit]; [eu]])]
  = [BOk false; BOk true; BOk false; BOk false; BOk true].
Proof. reflexivity. Qed.
(* EVERYTHING -> @FREE -> @COPYLEFT defined top-down: the outer group still gets the innermost members *)
Example closure_example :
  let E := [69%N] in let F := [70%N] in let C := [67%N] in
  let gpl := [103%N] in let mit := [109%N] in
  map (fun kv => (fst kv, canon (snd kv)))
      (close_groups [(E, [AT :: F; [120%N]]); (F, [AT :: C; mit; AT :: [77%N]]); (C, [gpl; AT :: C])])
  = [(E, [gpl; mit; [120%N]]); (F, [gpl; mit]); (C, [gpl])].
Proof. reflexivity. Qed.
