(* Proofs_C26.v — lemmas about the byte-level model: struct, the written segment, the reader on
   a written segment and on arbitrary files; the property theorems are in Prop_C26.v. *)
From Coq Require Import List ZArith Bool Lia.
Import ListNotations.
From Verif Require Import Base.Val Base.Lists gen.Tables_xpak C26.Model_C26 C26.Spec_C26 C26.Utf8_C26.
Local Open Scope N_scope.

Lemma len_app {A} (a b : list A) : len (a ++ b) = len a + len b.
Proof. unfold len. rewrite app_length. lia. Qed.
Lemma len_nil {A} : len (@nil A) = 0.
Proof. reflexivity. Qed.
Lemma to_nat_len {A} (a : list A) : N.to_nat (len a) = length a.
Proof. unfold len. lia. Qed.

Lemma skipn_app_plus {A} (a b : list A) n : skipn (length a + n) (a ++ b) = skipn n b.
Proof. induction a; cbn; [reflexivity | assumption]. Qed.

Lemma read_at_app (a b c : bytes) : read_at (a ++ b ++ c) (len a) (len b) = b.
Proof. unfold read_at. rewrite !to_nat_len, skipn_app_exact, firstn_app_exact. reflexivity. Qed.

Lemma read_at_app_end (a b : bytes) : read_at (a ++ b) (len a) (len b) = b.
Proof. rewrite <- (app_nil_r b) at 1. rewrite read_at_app. reflexivity. Qed.

Lemma len_be32 n : len (be32 n) = 4.
Proof. reflexivity. Qed.

Lemma be32_digits n : be32 n = [n / 256 / 256 / 256 mod 256; n / 256 / 256 mod 256; n / 256 mod 256; n mod 256].
Proof. unfold be32. rewrite !N.div_div by discriminate. reflexivity. Qed.

Lemma unbe32_be32_proof n : n < 4294967296 -> unbe32 (be32 n) = n.
Proof.
  intro H. rewrite be32_digits. unfold unbe32.
  destruct (div_mod_digits 256 n ltac:(discriminate)) as (n1 & d0 & E0 & L0 & -> & ->).
  destruct (div_mod_digits 256 n1 ltac:(discriminate)) as (n2 & d1 & E1 & L1 & -> & ->).
  destruct (div_mod_digits 256 n2 ltac:(discriminate)) as (n3 & d2 & E2 & L2 & -> & ->).
  rewrite (N.mod_small n3) by lia. lia.
Qed.

Lemma digit256 q r : r < 256 -> (q * 256 + r) / 256 = q /\ (q * 256 + r) mod 256 = r.
Proof.
  intro H. rewrite N.add_comm, N.div_add, N.mod_add, N.div_small, N.mod_small by (assumption || discriminate).
  split; reflexivity.
Qed.

Lemma be32_unbe32_digits a b c d :
  a < 256 -> b < 256 -> c < 256 -> d < 256 -> be32 (((a * 256 + b) * 256 + c) * 256 + d) = [a; b; c; d].
Proof.
  intros Ha Hb Hc Hd. rewrite be32_digits.
  destruct (digit256 ((a * 256 + b) * 256 + c) d Hd) as [-> ->].
  destruct (digit256 (a * 256 + b) c Hc) as [-> ->], (digit256 a b Hb) as [-> ->].
  rewrite N.mod_small by assumption. reflexivity.
Qed.

Lemma be32_shift_mask n :
  be32 n = [N.land (N.shiftr n 24) 255; N.land (N.shiftr n 16) 255; N.land (N.shiftr n 8) 255; N.land n 255].
Proof.
  unfold be32. rewrite !N.shiftr_div_pow2.
  change 255 with (N.ones 8). rewrite !N.land_ones. reflexivity.
Qed.

Lemma be32_length n : length (be32 n) = 4%nat.
Proof. reflexivity. Qed.

Lemma be32_bytes n : Forall (fun b => b < 256) (be32 n).
Proof. unfold be32. repeat constructor; apply N.mod_lt; discriminate. Qed.

Lemma firstn4_be32 n (r : bytes) : firstn 4 (be32 n ++ r) = be32 n.
Proof. reflexivity. Qed.
Lemma skipn4_be32 n (r : bytes) : skipn 4 (be32 n ++ r) = r.
Proof. reflexivity. Qed.
Lemma skipn8_be32 a b (r : bytes) : skipn 8 (be32 a ++ be32 b ++ r) = r.
Proof. reflexivity. Qed.
Lemma skipn16_header a b (r : bytes) : skipn 16 (lit_XPAKPACK ++ be32 a ++ be32 b ++ r) = r.
Proof. reflexivity. Qed.
(* from here on be32 is used through the lemmas above only: opaque, so that cbn, reflexivity and
   lia in later proofs (also in Prop_C26) never unfold it into its divisions *)
Global Opaque be32.

Lemma fit_exact n b : len b = n -> fit n b = b.
Proof.
  intro H. unfold fit. subst n. rewrite to_nat_len, Nat.sub_diag. cbn [repeat].
  rewrite app_nil_r. apply firstn_all.
Qed.

Lemma unpack_pack_proof : forall fmt args b,
  pack fmt args = Some b -> args_exact fmt args -> unpack fmt b = Some args.
Proof.
  induction fmt as [|[n|] f IH]; intros args b Hp Hx.
  - destruct args; [|discriminate]. cbn in Hp. injection Hp as <-. reflexivity.
  - destruct args as [|[s|v] a]; try discriminate. cbn [pack] in Hp.
    destruct (pack f a) as [r|] eqn:Er; [|discriminate]. injection Hp as <-.
    destruct Hx as [Hl Hx]. rewrite (fit_exact _ _ Hl).
    cbn [unpack]. rewrite len_app, ltb_false by lia.
    subst n. rewrite to_nat_len, skipn_app_exact, firstn_app_exact.
    rewrite (IH a r Er Hx). reflexivity.
  - destruct args as [|[s|v] a]; try discriminate. cbn [pack] in Hp.
    destruct (v <? 4294967296) eqn:Ev; [|discriminate].
    destruct (pack f a) as [r|] eqn:Er; [|discriminate]. injection Hp as <-.
    cbn [unpack]. rewrite len_app, len_be32, ltb_false by lia.
    rewrite skipn4_be32, firstn4_be32, (IH a r Er Hx).
    rewrite unbe32_be32_proof by (apply N.ltb_lt; assumption). reflexivity.
Qed.

(* packing arguments of exactly the format's shape: the strings as they are, the numbers as
   be32, and it succeeds exactly when every number fits 32 bits *)
Definition arg_bytes (a : arg) : bytes := match a with AS b => b | AL n => be32 n end.
Definition arg_fits (a : arg) : Prop := match a with AS _ => True | AL n => n < 4294967296 end.

Lemma pack_exact_some : forall fmt args b, args_exact fmt args ->
  pack fmt args = Some b -> b = concat (map arg_bytes args) /\ Forall arg_fits args.
Proof.
  induction fmt as [|[n|] f IH]; intros [|[s|v] a] b Hx Hp; try contradiction; cbn [pack] in Hp.
  - injection Hp as <-. split; [reflexivity | constructor].
  - destruct Hx as [Hl Hx]. destruct (pack f a) as [r|] eqn:Er; [|discriminate]. injection Hp as <-.
    destruct (IH a r Hx Er) as [-> Hf]. rewrite (fit_exact _ _ Hl). split; [reflexivity | constructor; [exact I | exact Hf]].
  - destruct (N.ltb_spec v 4294967296) as [Hv|]; [|discriminate].
    destruct (pack f a) as [r|] eqn:Er; [|discriminate]. injection Hp as <-.
    destruct (IH a r Hx Er) as [-> Hf]. split; [reflexivity | constructor; [exact Hv | exact Hf]].
Qed.

Lemma pack_exact_fits : forall fmt args, args_exact fmt args -> Forall arg_fits args ->
  pack fmt args = Some (concat (map arg_bytes args)).
Proof.
  induction fmt as [|[n|] f IH]; intros [|[s|v] a] Hx Hf; try contradiction; cbn [pack]; [reflexivity| |];
    inversion Hf as [|? ? Hv Hf']; subst.
  - destruct Hx as [Hl Hx]. rewrite (IH a Hx Hf'), (fit_exact _ _ Hl). reflexivity.
  - rewrite (IH a Hx Hf'), (proj2 (N.ltb_lt _ _) Hv). reflexivity.
Qed.

Lemma entry_exact (k : bytes) pos (v : bytes) :
  args_exact [None; Some (len k); None; None] [AL (len k); AS k; AL pos; AL (len v)].
Proof. cbn. auto. Qed.

Lemma enc_entries_fmt : forall kvs pos idx,
  enc_entries kvs pos = Some idx -> idx = fmt_index kvs pos.
Proof.
  induction kvs as [|[k v] r IH]; intros pos idx H.
  - injection H as <-. reflexivity.
  - cbn [enc_entries] in H.
    destruct (pack _ _) as [e|] eqn:Ee; [|discriminate].
    destruct (enc_entries r (pos + len v)) as [i|] eqn:Ei; [|discriminate].
    injection H as <-. apply (pack_exact_some _ _ _ (entry_exact k pos v)) in Ee as [-> _].
    rewrite (IH _ _ Ei). cbn [fmt_index map concat arg_bytes]. rewrite <- !app_assoc. reflexivity.
Qed.

Lemma enc_entries_ok : forall kvs pos,
  len (fmt_index kvs pos) < 4294967296 -> pos + len (fmt_data kvs) < 4294967296 ->
  enc_entries kvs pos = Some (fmt_index kvs pos).
Proof.
  induction kvs as [|[k v] r IH]; intros pos Hi Hd.
  - reflexivity.
  - cbn [fmt_index fmt_data map concat snd] in *. fold (fmt_data r) in *.
    rewrite !len_app in *. rewrite !len_be32 in *.
    cbn [enc_entries]. rewrite (pack_exact_fits _ _ (entry_exact k pos v)), IH
      by (repeat constructor; cbn; lia).
    cbn [map concat arg_bytes]. rewrite <- !app_assoc. reflexivity.
Qed.

Lemma encode_is_format_proof kvs e : encode kvs = Some e -> e = xpak_format kvs /\ fits kvs.
Proof.
  unfold encode. destruct (enc_entries kvs 0) as [idx|] eqn:Ei; [|discriminate].
  destruct (pack header_fmt _) as [h|] eqn:Eh; [|discriminate].
  destruct (pack trailer_fmt _) as [t|] eqn:Et; [|discriminate].
  intro H. injection H as <-. apply enc_entries_fmt in Ei. subst idx.
  apply pack_exact_some in Eh as [-> _]; [|cbn; auto].
  apply pack_exact_some in Et as [-> Hs]; [|cbn; auto].
  apply Forall_cons_iff in Hs as [_ Hs]. apply Forall_cons_iff in Hs as [Hs _].
  unfold xpak_format, fits, enc_data, fmt_data, arg_fits in *.
  change (fmt_size trailer_fmt) with 16 in *. cbn [map concat arg_bytes]. split; [|lia].
  rewrite <- !app_assoc, !app_nil_r, <- N.add_assoc. reflexivity.
Qed.

Lemma fits_encode_proof kvs : fits kvs -> encode kvs = Some (xpak_format kvs).
Proof.
  unfold fits. intro H. unfold encode.
  rewrite enc_entries_ok by lia.
  change (fmt_size trailer_fmt) with 16. fold (fmt_data kvs).
  rewrite !pack_exact_fits by (cbn; repeat constructor; cbn; unfold enc_data, fmt_data in *; lia).
  unfold xpak_format, enc_data, fmt_data. cbn [map concat arg_bytes].
  rewrite <- !app_assoc, !app_nil_r, <- N.add_assoc. reflexivity.
Qed.

Lemma check_magic_segment pre idx dat il dl :
  il < 4294967296 -> dl < 4294967296 -> len idx + len dat + 24 < 4294967296 ->
  check_magic (pre ++ lit_XPAKPACK ++ be32 il ++ be32 dl ++ idx ++ dat
                   ++ lit_XPAKSTOP ++ be32 (len idx + len dat + 24) ++ lit_STOP)
  = Ok (len pre, il, dl).
Proof.
  intros Hi Hd Hs.
  pose (h := lit_XPAKPACK ++ be32 il ++ be32 dl).
  pose (t := lit_XPAKSTOP ++ be32 (len idx + len dat + 24) ++ lit_STOP).
  replace (pre ++ _) with (pre ++ h ++ idx ++ dat ++ t) by (subst h; rewrite <- !app_assoc; reflexivity).
  assert (Uh : unpack header_fmt h = Some [AS header_pre_magic; AL (unbe32 (be32 il)); AL (unbe32 (be32 dl))])
    by reflexivity.
  assert (Ut : unpack trailer_fmt t
               = Some [AS trailer_pre_magic; AL (unbe32 (be32 (len idx + len dat + 24))); AS trailer_post_magic])
    by reflexivity.
  rewrite (unbe32_be32_proof il), (unbe32_be32_proof dl) in Uh by assumption.
  rewrite unbe32_be32_proof in Ut by assumption.
  assert (Lh : len h = 16) by reflexivity. assert (Lt : len t = 16) by reflexivity.
  unfold check_magic. change (fmt_size trailer_fmt) with 16. change (fmt_size header_fmt) with 16.
  assert (Lf : len (pre ++ h ++ idx ++ dat ++ t) = len (pre ++ h ++ idx ++ dat) + 16)
    by (rewrite !len_app; lia).
  rewrite Lf, ltb_false, N.add_sub by lia.
  assert (Rt : read_at (pre ++ h ++ idx ++ dat ++ t) (len (pre ++ h ++ idx ++ dat)) 16 = t).
  { rewrite <- Lt. replace (pre ++ h ++ idx ++ dat ++ t) with ((pre ++ h ++ idx ++ dat) ++ t)
      by (rewrite <- !app_assoc; reflexivity). apply read_at_app_end. }
  rewrite Rt.
  rewrite Ut, !str_eqb_refl. cbn [andb].
  rewrite !len_app, Lh, ltb_false by lia.
  replace (len pre + (16 + (len idx + len dat)) + 16 - (len idx + len dat + 24 + 8)) with (len pre) by lia.
  replace (read_at (pre ++ h ++ idx ++ dat ++ t) (len pre) 16) with h by (rewrite <- Lh, read_at_app; reflexivity).
  rewrite Uh, str_eqb_refl. reflexivity.
Qed.

(* the dict keys_dict builds from the index of kvs, starting from acc *)
Fixpoint index_dict (kvs : list kv) (pos ds : N) (acc : dict) : dict :=
  match kvs with
  | [] => acc
  | (k, v) :: r => index_dict r (pos + len v) ds (od_set acc (rw k) (ds + pos, len v, is_text (rw k)))
  end.

Lemma ascii_forallb k : ascii k -> forallb (fun b => b <? 128) k = true.
Proof.
  intro H. apply forallb_forall. intros x Hx. apply N.ltb_lt.
  unfold ascii in H. rewrite Forall_forall in H. apply H. exact Hx.
Qed.

Lemma walk_step f (k : bytes) pos (v : bytes) rest ilen ds acc :
  len k < 4294967296 -> pos < 4294967296 -> len v < 4294967296 -> ascii k -> ilen <> 0%Z ->
  walk (S f) (be32 (len k) ++ k ++ be32 pos ++ be32 (len v) ++ rest) ilen ds acc
  = walk f rest (ilen - Z.of_N (len k + 12)) ds (od_set acc (rw k) (ds + pos, len v, is_text (rw k))).
Proof.
  intros Hk Hp Hv Ha Hi. cbn [walk].
  apply Z.eqb_neq in Hi. rewrite Hi.
  rewrite len_app, len_be32, ltb_false by lia.
  rewrite firstn4_be32, skipn4_be32, unbe32_be32_proof by assumption.
  rewrite len_app, ltb_false by lia.
  rewrite to_nat_len, firstn_app_exact, skipn_app_exact.
  rewrite (ascii_forallb k Ha). cbn [negb].
  rewrite !len_app, !len_be32, ltb_false by lia.
  rewrite firstn4_be32, skipn4_be32, firstn4_be32, skipn8_be32.
  rewrite !unbe32_be32_proof by assumption. reflexivity.
Qed.

(* fuel: one unit per index entry is enough, so any fuel >= the number of entries works *)
Lemma walk_index : forall kvs pos tail fuel ds acc,
  len (fmt_index kvs pos) < 4294967296 -> pos + len (fmt_data kvs) < 4294967296 ->
  keys_ascii kvs -> (length kvs <= fuel)%nat ->
  walk fuel (fmt_index kvs pos ++ tail) (Z.of_N (len (fmt_index kvs pos))) ds acc
  = Ok (index_dict kvs pos ds acc).
Proof.
  induction kvs as [|[k v] r IH]; intros pos tail fuel ds acc Hi Hd Ha Hf.
  - destruct fuel; reflexivity.
  - destruct fuel as [|f]; [cbn in Hf; lia|].
    inversion Ha as [|x l Hak Har]; subst.
    cbn [fmt_index fmt_data map concat snd index_dict length] in *. fold (fmt_data r) in *.
    rewrite !len_app, !len_be32 in *. rewrite <- !app_assoc.
    rewrite walk_step by (assumption || lia).
    replace (Z.of_N (4 + (len k + (4 + (4 + len (fmt_index r (pos + len v)))))) - Z.of_N (len k + 12))%Z
      with (Z.of_N (len (fmt_index r (pos + len v)))) by lia.
    apply IH; (assumption || lia).
Qed.

Lemma fmt_index_count : forall kvs pos, (length kvs <= length (fmt_index kvs pos))%nat.
Proof.
  induction kvs as [|[k v] r IH]; intro pos; cbn [fmt_index length]; [lia|].
  rewrite !app_length. specialize (IH (pos + len v)).
  rewrite be32_length. lia.
Qed.

Lemma parse_segment pre kvs :
  fits kvs -> keys_ascii kvs ->
  parse (pre ++ xpak_format kvs)
  = Ok (len pre, index_dict kvs 0 (len pre + 16 + len (fmt_index kvs 0)) []).
Proof.
  unfold fits, xpak_format. intros Hf Ha.
  set (i := fmt_index kvs 0) in *. set (d := fmt_data kvs) in *.
  unfold parse. rewrite check_magic_segment by lia.
  change (fmt_size header_fmt) with 16.
  replace (N.to_nat (len pre + 16)) with (length pre + 16)%nat by (unfold len; lia).
  rewrite skipn_app_plus, skipn16_header. subst i.
  rewrite walk_index; [reflexivity | lia | fold d; lia | exact Ha |].
  pose proof (fmt_index_count kvs 0). rewrite app_length. lia.
Qed.

(* what index_dict adds to acc when the rewritten keys are new and distinct (index_dict_nodup) *)
Fixpoint index_list (kvs : list kv) (pos ds : N) : dict :=
  match kvs with
  | [] => []
  | (k, v) :: r => (rw k, (ds + pos, len v, is_text (rw k))) :: index_list r (pos + len v) ds
  end.

Lemma od_set_fresh : forall d k v, ~ In k (map fst d) -> od_set d k v = d ++ [(k, v)].
Proof.
  induction d as [|[k' v'] r IH]; intros k v H; [reflexivity|].
  cbn [od_set map fst] in *. apply not_in_cons in H as [Hk H].
  rewrite (proj2 (str_eqb_neq k' k)), (IH _ _ H) by congruence. reflexivity.
Qed.

Lemma index_dict_nodup : forall kvs pos ds acc,
  NoDup (map fst acc ++ map rw (map fst kvs)) ->
  index_dict kvs pos ds acc = acc ++ index_list kvs pos ds.
Proof.
  induction kvs as [|[k v] r IH]; intros pos ds acc H.
  - cbn. rewrite app_nil_r. reflexivity.
  - cbn [index_dict index_list]. cbn [map fst] in H.
    rewrite od_set_fresh by (apply NoDup_remove_2 in H; rewrite in_app_iff in H; tauto).
    rewrite IH, <- app_assoc; [reflexivity|].
    rewrite map_app, <- app_assoc. exact H.
Qed.

Lemma get_data_segment (A D0 v R : bytes) txt :
  get_data (A ++ D0 ++ v ++ R) (len A + len D0, len v, txt) = finish (txt, v).
Proof.
  destruct v as [|x v]; [reflexivity|]. unfold get_data, finish. cbn [fst snd].
  rewrite (proj2 (N.eqb_neq _ 0)) by (unfold len; cbn [length]; lia).
  rewrite (proj2 (N.leb_le _ _)) by (rewrite !len_app; lia).
  rewrite app_assoc, <- len_app, read_at_app. reflexivity.
Qed.

Lemma get_all_segment : forall kvs (A D0 T : bytes),
  get_all (A ++ D0 ++ fmt_data kvs ++ T) (index_list kvs (len D0) (len A)) = finish_all (expect_rw kvs).
Proof.
  induction kvs as [|[k v] r IH]; intros A D0 T; [reflexivity|].
  cbn [index_list expect_rw map fst snd get_all finish_all].
  unfold fmt_data. cbn [map snd concat]. fold (fmt_data r).
  rewrite <- (app_assoc v), get_data_segment.
  destruct (finish (is_text (rw k), v)) as [i|e]; [|reflexivity].
  specialize (IH A (D0 ++ v) T). rewrite len_app, <- !app_assoc in IH. rewrite IH. reflexivity.
Qed.

Lemma decode_segment pre kvs :
  fits kvs -> keys_ascii kvs -> NoDup (map rw (map fst kvs)) ->
  decode (pre ++ xpak_format kvs)
  = match finish_all (expect_rw kvs) with Ok l => Ok (len pre, l) | Err x => Err x end.
Proof.
  intros Hf Ha Hn. unfold decode. rewrite (parse_segment pre kvs Hf Ha), index_dict_nodup by exact Hn.
  cbn [app]. unfold xpak_format.
  set (i := fmt_index kvs 0). set (d := fmt_data kvs).
  set (A := pre ++ lit_XPAKPACK ++ be32 (len i) ++ be32 (len d) ++ i).
  replace (pre ++ _) with (A ++ [] ++ d ++ lit_XPAKSTOP ++ be32 (len i + len d + 24) ++ lit_STOP)
    by (subst A; rewrite <- !app_assoc; reflexivity).
  replace (len pre + 16 + len i) with (len A) by (subst A; rewrite !len_app, !len_be32; change (len lit_XPAKPACK) with 8; lia).
  change 0 with (len (@nil N)) at 1. subst d. rewrite get_all_segment. reflexivity.
Qed.

Lemma aliased_is_repo k : aliased k = true <-> k = [114;101;112;111].    (* "repo" *)
Proof.
  unfold aliased, key_rewrites. cbn [assoc].
  destruct (str_eqb [114;101;112;111] k) eqn:E.
  - apply str_eqb_eq in E. subst. split; reflexivity.
  - apply str_eqb_neq in E. split; [discriminate | intro; subst; contradiction].
Qed.

Lemma rw_not_aliased k : aliased k = false -> rw k = k.
Proof. unfold aliased, rw. destruct (assoc k key_rewrites); [discriminate | reflexivity]. Qed.

Lemma known_class_false kvs :
  known_class kvs = false -> map rw (map fst kvs) = map fst kvs /\ expect_rw kvs = expect_b kvs.
Proof.
  unfold known_class, expect_rw, expect_b. induction kvs as [|[k v] r IH]; intro H; [split; reflexivity|].
  cbn [map fst existsb] in H. apply orb_false_iff in H as [Hk Hr].
  destruct (IH Hr) as [I1 I2]. cbn [map fst snd]. rewrite (rw_not_aliased k Hk), I1, I2.
  split; reflexivity.
Qed.

Lemma check_magic_cases file :
  match check_magic file with
  | Ok (s, _, _) => s <= len file
  | Err e => e = EOS \/ e = EMalformed
  end.
Proof.
  unfold check_magic. destruct (len file <? 16); [auto|].
  destruct (unpack trailer_fmt _) as [[|[pre|] [|[|size] [|[post|] [|]]]]|]; auto.
  destruct (str_eqb pre trailer_pre_magic && str_eqb post trailer_post_magic); [|auto].
  destruct (len file <? size + 8) eqn:E; [auto|].
  destruct (unpack header_fmt _) as [[|[hpre|] [|[|il] [|[|dl] [|]]]]|]; auto.
  destruct (str_eqb hpre header_pre_magic); [|auto]. lia.
Qed.

Lemma walk_cases : forall fuel rest ilen ds acc,
  (length rest < fuel)%nat ->
  match walk fuel rest ilen ds acc with
  | Ok _ => True
  | Err e => e = EStruct \/ e = EUnicodeDec \/ e = EMalformed
  end.
Proof.
  induction fuel as [|f IH]; intros rest ilen ds acc Hl; [lia|].
  cbn [walk]. destruct (ilen =? 0)%Z; [exact I|].
  destruct (len rest <? 4) eqn:E4; [auto|].
  destruct (negb (forallb _ _)); [auto|].
  destruct (len (skipn 4 rest) <? unbe32 (firstn 4 rest)); [auto|].
  destruct (len (skipn (N.to_nat (unbe32 (firstn 4 rest))) (skipn 4 rest)) <? 8); [auto|].
  apply IH. rewrite !skipn_length. apply N.ltb_ge in E4. unfold len in E4. lia.
Qed.

Lemma parse_cases file :
  match parse file with
  | Ok (s, _) => s <= len file
  | Err e => e = EOS \/ e = EMalformed \/ e = EStruct \/ e = EUnicodeDec
  end.
Proof.
  unfold parse. pose proof (check_magic_cases file) as C.
  destruct (check_magic file) as [[[s i] d]|e]; [|tauto].
  match goal with |- context [walk ?f ?r ?i ?d ?a] => pose proof (walk_cases f r i d a) as W end.
  destruct (walk _ _ _ _ _); [exact C | specialize (W ltac:(lia)); tauto].
Qed.

(* where write_xpak cuts the file: at the old segment's start when the file parses, at its end
   when the reader finds no segment *)
Lemma probe_start_cases file :
  match probe_start (Some file) with
  | Ok s => s <= len file /\
            ((exists d, parse file = Ok (s, d)) \/
             ((parse file = Err EOS \/ parse file = Err EMalformed) /\ s = len file))
  | Err e => parse file = Err e /\ (e = EStruct \/ e = EUnicodeDec)
  end.
Proof.
  unfold probe_start. pose proof (parse_cases file) as P.
  destruct (parse file) as [[s d]|e]; [eauto|].
  destruct P as [-> | [-> | [-> | ->]]]; auto using N.le_refl.
Qed.

Lemma last_default {A} : forall (l : list A) x a b, last (x :: l) a = last (x :: l) b.
Proof. induction l as [|y l IH]; intros x a b; [reflexivity|]. exact (IH y a b). Qed.

Lemma firstn_firstn_app {A} s (l m : list A) :
  s <= len l -> firstn (N.to_nat s) (firstn (N.to_nat s) l ++ m) = firstn (N.to_nat s) l.
Proof.
  intro H. rewrite firstn_app, firstn_firstn, Nat.min_id, firstn_length_le by (unfold len in H; lia).
  rewrite Nat.sub_diag, app_nil_r. reflexivity.
Qed.

Lemma py_encode_ascii_key k kb : ascii (key_str k) -> py_encode k = Some kb -> kb = key_str k.
Proof.
  destruct k as [c|b]; cbn [key_str py_encode]; intros Ha H.
  - rewrite (utf8_encode_ascii c Ha) in H. injection H as <-. reflexivity.
  - injection H as <-. reflexivity.
Qed.

Lemma is_text_is_env k : is_text k = negb (is_env k).
Proof. reflexivity. Qed.

Lemma finish_spec_item k v vb i :
  py_encode v = Some vb -> spec_item k v = Some i -> finish (negb (is_env k), vb) = Ok i.
Proof.
  unfold spec_item, finish. cbn [fst snd]. intros Ev Ei. destruct (is_env k); cbn [negb].
  - rewrite Ev in Ei. injection Ei as <-. reflexivity.
  - destruct v as [c|b]; cbn [py_encode] in Ev.
    + rewrite (utf8_roundtrip_proof c vb Ev). injection Ei as <-. reflexivity.
    + injection Ev as <-. destruct (utf8_decode b); [|discriminate]. injection Ei as <-. reflexivity.
Qed.

Lemma to_bytes_spec : forall data kvs items,
  to_bytes data = Some kvs -> spec_items data = Some items ->
  Forall (fun x => ascii (key_str (fst x))) data ->
  map fst kvs = map (fun x => key_str (fst x)) data /\ finish_all (expect_b kvs) = Ok items.
Proof.
  induction data as [|[k v] r IH]; intros kvs items Ht Hs Ha.
  - injection Ht as <-. injection Hs as <-. split; reflexivity.
  - cbn [to_bytes spec_items] in Ht, Hs.
    destruct (py_encode v) as [vb|] eqn:Ev; [|discriminate].
    destruct (py_encode k) as [kb|] eqn:Ek; [|discriminate].
    destruct (to_bytes r) as [r'|]; [|discriminate]. injection Ht as <-.
    destruct (spec_item (key_str k) v) as [i|] eqn:Ei; [|discriminate].
    destruct (spec_items r) as [t|]; [|discriminate]. injection Hs as <-.
    inversion Ha as [|x l Hk Hr]; subst. cbn [fst] in Hk.
    destruct (IH r' t eq_refl eq_refl Hr) as [I1 I2].
    apply (py_encode_ascii_key k kb Hk) in Ek. subst kb.
    unfold expect_b in *. cbn [map fst snd finish_all].
    rewrite I1, I2, (finish_spec_item _ _ _ _ Ev Ei). split; reflexivity.
Qed.

Lemma typed_dom_bytes data kvs :
  typed_dom data -> map fst kvs = map (fun x => key_str (fst x)) data ->
  keys_ascii kvs /\ NoDup (map fst kvs) /\ known_class kvs = false.
Proof.
  intros (Ha & Hn & Hk) E. split; [|split].
  - unfold keys_ascii. apply Forall_forall. intros x Hx.
    assert (In (fst x) (map fst kvs)) as Hi by (apply in_map; exact Hx).
    rewrite E in Hi. apply in_map_iff in Hi as [y [Ey Hy]]. rewrite <- Ey.
    rewrite Forall_forall in Ha. apply Ha. exact Hy.
  - rewrite E. exact Hn.
  - unfold known_class, kv, bytes in *. rewrite E.
    apply not_true_is_false. intro X.
    apply existsb_exists in X as [y [Hy Hal]]. apply in_map_iff in Hy as [z [Ez Hz]].
    rewrite Forall_forall in Hk. specialize (Hk z Hz). rewrite Ez in Hk. congruence.
Qed.

Lemma write_xpak_rewrite file data kvs out :
  to_bytes data = Some kvs -> rewrite (Some file) kvs = Ok out -> write_xpak (Some file) data = Ok out.
Proof.
  intros Ht Hr. unfold write_xpak. rewrite Ht.
  destruct (probe_start (Some file)) eqn:P; [exact Hr|].
  unfold rewrite in Hr. rewrite P in Hr. discriminate.
Qed.

Lemma ends_with_app (s a : bytes) : ends_with s (a ++ s) = true.
Proof.
  induction a as [|x a IH]; cbn [app].
  - destruct s; cbn [ends_with]; rewrite str_eqb_refl; reflexivity.
  - cbn [ends_with]. rewrite IH. apply orb_true_r.
Qed.

Lemma unpack_trailer (T : bytes) :
  length T = 16%nat ->
  unpack trailer_fmt T = Some [AS (firstn 8 T); AL (unbe32 (firstn 4 (skipn 8 T))); AS (skipn 12 T)].
Proof.
  intro H. do 16 (destruct T as [|? T]; [discriminate|]). destruct T; [reflexivity | discriminate].
Qed.

Lemma check_magic_no_stop file :
  ends_with lit_STOP file = false -> check_magic file = Err EOS \/ check_magic file = Err EMalformed.
Proof.
  intro He. unfold check_magic.
  destruct (len file <? 16) eqn:E16; [left; reflexivity|]. right.
  apply N.ltb_ge in E16. change (fmt_size trailer_fmt) with 16.
  unfold read_at. set (n := N.to_nat (len file - 16)).
  assert (Hl : length (skipn n file) = 16%nat) by (rewrite skipn_length; unfold n, len in *; lia).
  rewrite firstn_all2, (unpack_trailer _ Hl) by (rewrite Hl; reflexivity).
  destruct (str_eqb (firstn 8 _) trailer_pre_magic); [|reflexivity].
  destruct (str_eqb (skipn 12 _) trailer_post_magic) eqn:Eq; [|reflexivity].
  apply str_eqb_eq in Eq. exfalso.
  rewrite <- (firstn_skipn n file), <- (firstn_skipn 12 (skipn n file)), Eq, app_assoc, ends_with_app in He.
  discriminate.
Qed.

(* non-vacuity: a typed mapping with text, binary and environment values that meets every hypothesis,
   and a rewrite that shrinks the segment *)
Definition ex_data : list (pystr * pystr) :=
  [(PS [67;65;84], PS [233; 8364; 128512]);                       (* "CAT" -> "é€😀" *)
   (PS [101;110;118;105;114;111;110;109;101;110;116;46;98;122;50], PB [255; 0; 128]);   (* environment.bz2 *)
   (PB [83;76;79;84], PB [48])].                                  (* b"SLOT" -> b"0" *)
Example ex_roundtrip :
  typed_dom ex_data /\
  exists kvs items, to_bytes ex_data = Some kvs /\ fits kvs /\ spec_items ex_data = Some items
    /\ decode ([1;2;3] ++ xpak_format kvs) = Ok (3, items)
    /\ items = [([67;65;84], IText [233; 8364; 128512]);
                ([101;110;118;105;114;111;110;109;101;110;116;46;98;122;50], IBytes [255; 0; 128]);
                ([83;76;79;84], IText [48])].
Proof.
  split.
  - split; [|split].
    + repeat constructor; cbn; lia.
    + repeat constructor; cbn; intuition discriminate.
    + repeat constructor.
  - eexists. eexists. split; [reflexivity|]. split; [vm_compute; reflexivity|].
    split; [reflexivity|]. split; vm_compute; reflexivity.
Qed.

Example ex_rewrite_shrinks :
  exists big small, fits big /\ fits small /\ keys_ascii big
    /\ (length (xpak_format small) < length (xpak_format big))%nat
    /\ rewrite (Some ([9;9] ++ xpak_format big)) small = Ok ([9;9] ++ xpak_format small).
Proof.
  exists [([65], [1;2;3;4;5;6;7;8]); ([66], [9])], [([67], [])].
  split; [vm_compute; reflexivity|]. split; [vm_compute; reflexivity|].
  split; [repeat constructor; cbn; lia|]. split; vm_compute; [lia | reflexivity].
Qed.
