From Coq Require Import List NArith Lia.
Import ListNotations.
From Verif Require Import C49.Model_C49 C49.Spec_C49 C49.Proofs_C49.

(* IUSE, REQUIRED_USE, *DEPEND (and PROPERTIES/RESTRICT from EAPI 8) = the ebuild's own value
   followed by the value of every sourcing in the inherit tree, for ALL programs and inherit
   trees in which no sourced eclass unsets the variable (the recorded known class) *)
Theorem accumulates_partial : forall eapi v p,
  (eapi <= 9)%N -> pms_accumulated eapi v = true -> known_class eapi v p = false ->
  final_value eapi v p = spec_accumulated eapi v p.
Proof.
  intros eapi v p He. apply accumulates_tables; auto using table_accum_pr, table_rdepend_default.
Qed.
Print Assumptions accumulates_partial.

(* ... and without that restriction the statement is false of the faithful model *)
Theorem accumulates_refuted : ~ (forall eapi v p,
  (eapi <= 9)%N -> pms_accumulated eapi v = true -> final_value eapi v p = spec_accumulated eapi v p).
Proof.
  intros H. specialize (H 7%N vDEPEND witness_dup). destruct witness_dup_values as [E1 E2].
  rewrite E1, E2 in H. discriminate H; [lia|reflexivity].
Qed.
Print Assumptions accumulates_refuted.

(* every other key takes the final value of the whole execution (no restriction) *)
Theorem others_final : forall eapi v p,
  (eapi <= 9)%N -> pms_accumulated eapi v = false -> final_value eapi v p = spec_final v p.
Proof.
  intros eapi v p He. apply others_final_tables; auto using table_accum_pr.
Qed.
Print Assumptions others_final.

(* the emitted metadata mapping as a whole *)
Theorem metadata_spec : forall eapi p,
  (eapi <= 9)%N ->
  (forall v, In v (metadata_keys eapi) -> pms_accumulated eapi v = true -> known_class eapi v p = false) ->
  metadata eapi p =
  filter (fun kv => negb (is_nil (snd kv))) (map (fun v => (v, spec_value eapi v p)) (metadata_keys eapi)).
Proof.
  intros eapi p He H. unfold metadata. f_equal. apply map_ext_in. intros v Hv.
  f_equal. unfold spec_value. destruct (pms_accumulated eapi v) eqn:E.
  - apply accumulates_partial; auto.
  - apply others_final; auto.
Qed.
Print Assumptions metadata_spec.

(* INHERITED (pkg.inherited) names every eclass sourced, directly or indirectly, once *)
Theorem inherited_all_sourced : forall p,
  NoDup (inherited p) /\ forall n, In n (inherited p) <-> sourced n p.
Proof.
  intros p. split; [apply dedup_from_NoDup|].
  intros n. unfold inherited, sourced. rewrite dedup_In, (proj1 (proj2 inherited_sourcings)). tauto.
Qed.
Print Assumptions inherited_all_sourced.

(* DEFINED_PHASES lists exactly the phases whose function the ebuild or a sourced eclass defines, '-' when none *)
Theorem defined_phases_exact : forall eapi p,
  (forall s, In s (defined_phases eapi p) <-> exists f, In (s, f) (phases eapi) /\ defines f p)
  /\ (defined_phases eapi p = [] -> defined_phases_key eapi p = [dash])
  /\ (defined_phases eapi p <> [] -> defined_phases_key eapi p = defined_phases eapi p).
Proof.
  intros eapi p. split; [apply defined_phases_In|]. unfold defined_phases_key.
  destruct (defined_phases eapi p); split; congruence.
Qed.
Print Assumptions defined_phases_exact.
