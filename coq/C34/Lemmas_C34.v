(* Lemmas_C34.v — what each walker of the scanner does on rendered tokens, values and definition heads. *)
From Coq Require Import List NArith Arith Bool Lia.
Import ListNotations.
From Verif Require Import Base.Val Base.Lists C34.Model_C34 C34.Spec_C34.
Local Open Scope N_scope.

Lemma slice_app (a s : str) : slice (a ++ s) s = a.
Proof.
  unfold slice. rewrite app_length.
  replace (length a + length s - length s)%nat with (length a) by lia.
  rewrite firstn_app, Nat.sub_diag, firstn_all. cbn. apply app_nil_r.
Qed.

Lemma slice_self s : slice s s = [].
Proof. unfold slice. now rewrite Nat.sub_diag. Qed.

(* the character before the position reached after consuming [a] *)
Definition lastp (p : option N) (a : str) : option N := fold_left (fun _ x => Some x) a p.
Lemma lastp_app p a b : lastp p (a ++ b) = lastp (lastp p a) b.
Proof. unfold lastp. apply fold_left_app. Qed.
Lemma lastp_cons p x a : lastp p (x :: a) = lastp (Some x) a.
Proof. reflexivity. Qed.

(* One-step unfolding equations of the scanner.  [cbn]/[simpl] on the nine-way mutual fixpoint does not
   fold the calls to the other functions back and leaves their whole bodies in the goal; rewriting with
   these equations (each holds by computation) unfolds exactly one step. *)
Section Eqs.
Variable g : str.
Lemma walk_escaped_S n c endc :
  walk_escaped g (S n) c endc =
  match suf c with
  | [] => Ok c
  | ch :: rest =>
      if ch =? endc then Ok c
      else if ch =? cBS then walk_escaped g n (adv1 (adv1 c)) endc
      else if ch =? cLB then
        if negb (endc =? cDQ) then do c1 <- walk_escaped g n (adv1 c) cRB; walk_escaped g n (adv1 c1) endc
        else walk_escaped g n (adv1 c) endc
      else if ch =? cLP then
        if negb (endc =? cDQ) then do c1 <- walk_escaped g n (adv1 c) cRP; walk_escaped g n (adv1 c1) endc
        else walk_escaped g n (adv1 c) endc
      else if (ch =? cBQ) || (ch =? cDQ) then
        do c1 <- walk_escaped g n (adv1 c) ch; walk_escaped g n (adv1 c1) endc
      else if (ch =? cSQ) && negb (endc =? cDQ) then
        walk_escaped g n (adv1 (walk_no_parsing g (adv1 c) cSQ)) endc
      else if ch =? cDOL then
        do c1 <- walk_dollar g n (adv1 c) endc (endc =? cDQ); walk_escaped g n c1 endc
      else if (ch =? cHASH) && negb (endc =? cDQ) then
        walk_escaped g n (walk_pound g c (Some endc)) endc
      else walk_escaped g n (adv1 c) endc
  end.
Proof. reflexivity. Qed.

Lemma walk_dollar_S n c endc dq :
  walk_dollar g (S n) c endc dq =
  match suf c with
  | [] => EIndex
  | ch :: rest =>
      if ch =? cLP then
        do r <- process_scope g n (adv1 c) cRP None None (suf (adv1 c)) None []; Ok (adv1 (fst r))
      else if (ch =? cSQ) && negb dq then Ok (adv1 (walk_dollared (adv1 c) cSQ))
      else if negb (ch =? cLB) then
        if ch =? cDOL then Ok (adv1 c) else dollar_name g n c endc
      else dollar_brace g n (adv1 c) endc
  end.
Proof. reflexivity. Qed.

Lemma dollar_brace_S n c endc :
  dollar_brace g (S n) c endc =
  match suf c with
  | [] => Ok c
  | ch :: rest =>
      if ch =? cRB then Ok (adv1 c)
      else if ch =? cDOL then do c1 <- walk_dollar g n (adv1 c) endc false; dollar_brace g n c1 endc
      else dollar_brace g n (adv1 c) endc
  end.
Proof. reflexivity. Qed.

Lemma dollar_name_S n c endc :
  dollar_name g (S n) c endc =
  match suf c with
  | [] => Ok c
  | ch :: rest =>
      if ch =? endc then Ok c
      else if isspace ch then Ok c
      else if ch =? cDOL then walk_dollar g n (adv1 c) endc false
      else if negb (isalnum ch) && negb (ch =? cUS) then Ok c
      else dollar_name g n (adv1 c) endc
  end.
Proof. reflexivity. Qed.

Lemma walk_here_lt n p X :
  walk_here g (S n) (mkcur p (cLT :: cLT :: X)) = Ok (mkcur (Some cLT) X).
Proof. reflexivity. Qed.

Lemma walk_complex_S n c endc level first :
  walk_complex g (S n) c endc level first =
  match suf c with
  | [] => Ok c
  | ch :: rest =>
      if ch =? endc then
        if negb (endc =? cRB) then Ok c
        else if first then Ok c
        else if (match prev c with Some x => (x =? cSEMI) || (x =? cNL) | None => false end) then Ok c
        else walk_complex g n (adv1 c) endc level false
      else if (level && ((ch =? cSEMI) || (ch =? cNL))) || (negb level && isspace ch) then Ok c
      else if ch =? cBS then walk_complex g n (adv1 (adv1 c)) endc level false
      else if ch =? cLT then
        if level && (match rest with x :: _ => x =? cLT | [] => false end) then
          do c1 <- walk_here g n (adv1 c); walk_complex g n c1 endc level false
        else walk_complex g n (adv1 c) endc level false
      else if ch =? cHASH then
        if first || (match prev c with Some x => isspace x || (x =? cSEMI) | None => false end)
        then walk_complex g n (walk_pound g c None) endc level false
        else walk_complex g n (adv1 c) endc level false
      else if ch =? cDOL then
        do c1 <- walk_dollar g n (adv1 c) endc false; walk_complex g n c1 endc level false
      else if ch =? cLB then
        do c1 <- walk_escaped g n (adv1 c) cRB; walk_complex g n (adv1 c1) endc level false
      else if (ch =? cLP) && level then
        do c1 <- walk_escaped g n (adv1 c) cRP; walk_complex g n (adv1 c1) endc level false
      else if (ch =? cBQ) || (ch =? cDQ) then
        do c1 <- walk_escaped g n (adv1 c) ch; walk_complex g n (adv1 c1) endc level false
      else if (ch =? cSQ) && negb (endc =? cDQ) then
        walk_complex g n (adv1 (walk_no_parsing g (adv1 c) cSQ)) endc level false
      else walk_complex g n (adv1 c) endc level false
  end.
Proof. reflexivity. Qed.

Lemma env_value_S n c endc :
  env_value g (S n) c endc =
  match suf c with
  | [] => Ok c
  | ch :: rest =>
      if isspace ch || (ch =? cSEMI) then Ok c
      else if ch =? cSQ then env_value g n (adv1 (walk_no_parsing g (adv1 c) cSQ)) endc
      else if (ch =? cDQ) || (ch =? cBQ) then
        do c1 <- walk_escaped g n (adv1 c) ch; env_value g n (adv1 c1) endc
      else if ch =? cLP then
        do c1 <- walk_escaped g n (adv1 c) cRP; env_value g n (adv1 c1) endc
      else if ch =? cDOL then
        match rest with
        | [] => Ok (adv1 c)
        | _ :: _ => do c1 <- walk_dollar g n (adv1 c) endc false; env_value g n c1 endc
        end
      else do c1 <- walk_complex g n c cSP SPACE true; env_value g n c1 endc
  end.
Proof. reflexivity. Qed.

Lemma process_scope_S n c endc vm fm ws we out :
  process_scope g (S n) c endc vm fm ws we out =
  match suf c with
  | [] => Ok (c, out ++ slice ws (match we with Some e => e | None => suf c end))
  | ch :: rest =>
    if ch =? endc then Ok (c, out ++ slice ws (match we with Some e => e | None => suf c end))
    else
      let out1 := match we with Some e => out ++ slice ws e | None => out end in
      let ws1 := match we with Some _ => suf c | None => ws end in
      let com_start := suf c in
      if isspace ch then process_scope g n (adv1 c) endc vm fm ws1 None out1
      else if ch =? cHASH then process_scope g n (walk_pound g c (Some endc)) endc vm fm ws1 None out1
      else
        match is_function c with
        | Some (name, c1) =>
            do r <- process_scope g n c1 cRB None None (suf c1) None [];
            let c2 := fst r in
            let we1 := match fm with
                       | Some f => if f name then Some com_start else None
                       | None => None end in
            process_scope g n (adv1 c2) endc vm fm ws1 we1 out1
        | None =>
            match is_envvar c with
            | None =>
                do c1 <- walk_complex g n c endc COMMAND true;
                let c2 := match hd_ c1 with
                          | Some x => if x =? endc then c1 else adv1 c1
                          | None => c1 end in
                process_scope g n c2 endc vm fm ws1 None out1
            | Some (name, c1) =>
                let we1 := match vm with
                           | Some f => if f name then Some com_start else None
                           | None => None end in
                match suf c1 with
                | [] => Ok (c1, out1)
                | _ :: _ =>
                    do c2 <- env_value g n c1 endc;
                    process_scope g n c2 endc vm fm ws1 we1 out1
                end
            end
        end
  end.
Proof. reflexivity. Qed.

(* a character that passes every test of a walker is stepped over; the tests are listed once, so
   that which characters pass is decided on a small term *)
Definition plain_complex (endc : N) (level : bool) (c : N) : bool :=
  negb ((c =? endc) || ((level && ((c =? cSEMI) || (c =? cNL))) || (negb level && isspace c))
        || (c =? cBS) || (c =? cLT) || (c =? cHASH) || (c =? cDOL) || (c =? cLB) || ((c =? cLP) && level)
        || ((c =? cBQ) || (c =? cDQ)) || ((c =? cSQ) && negb (endc =? cDQ))).
Lemma walk_complex_plain n p c X endc level first :
  plain_complex endc level c = true ->
  walk_complex g (S n) (mkcur p (c :: X)) endc level first
  = walk_complex g n (mkcur (Some c) X) endc level false.
Proof.
  unfold plain_complex. intro H. apply negb_true_iff in H. repeat (apply orb_false_iff in H as [H ?]).
  rewrite walk_complex_S. cbn [suf].
  repeat match goal with E : _ = false |- _ => rewrite E; clear E end. reflexivity.
Qed.

Definition plain_escaped (endc c : N) : bool :=
  negb ((c =? endc) || (c =? cBS) || (c =? cLB) || (c =? cLP) || ((c =? cBQ) || (c =? cDQ))
        || ((c =? cSQ) && negb (endc =? cDQ)) || (c =? cDOL) || ((c =? cHASH) && negb (endc =? cDQ))).
Lemma walk_escaped_plain n p c X endc :
  plain_escaped endc c = true ->
  walk_escaped g (S n) (mkcur p (c :: X)) endc = walk_escaped g n (mkcur (Some c) X) endc.
Proof.
  unfold plain_escaped. intro H. apply negb_true_iff in H. repeat (apply orb_false_iff in H as [H ?]).
  rewrite walk_escaped_S. cbn [suf].
  repeat match goal with E : _ = false |- _ => rewrite E; clear E end. reflexivity.
Qed.
End Eqs.

Lemma adv1_cons p x r : adv1 (mkcur p (x :: r)) = mkcur (Some x) r.
Proof. reflexivity. Qed.

Lemma find_from_app ch a : forall p r,
  forallb (fun x => negb (x =? ch)) a = true ->
  find_from ch p (a ++ ch :: r) = Some (mkcur (lastp p a) (ch :: r)).
Proof.
  induction a as [|x a IH]; intros p r H; cbn.
  - now rewrite N.eqb_refl.
  - cbn in H. apply andb_true_iff in H as [H1 H2]. apply negb_true_iff in H1. rewrite H1.
    now rewrite IH.
Qed.

Lemma walk_no_parsing_app g ch a p r :
  forallb (fun x => negb (x =? ch)) a = true ->
  walk_no_parsing g (mkcur p (a ++ ch :: r)) ch = mkcur (lastp p a) (ch :: r).
Proof. intros H. unfold walk_no_parsing, find_char. cbn [prev suf]. now rewrite find_from_app. Qed.

Lemma skip_while_app f a : forall p x r,
  forallb f a = true -> f x = false ->
  skip_while f p (a ++ x :: r) = Some (mkcur (lastp p a) (x :: r)).
Proof.
  induction a as [|y a IH]; intros p x r H Hx; cbn.
  - now rewrite Hx.
  - cbn in H. apply andb_true_iff in H as [H1 H2]. rewrite H1. now apply IH.
Qed.

Lemma render_pairs_cons b c l :
  render_pairs ((b, c) :: l) = (if b then [cBS; c] else [c]) ++ render_pairs l.
Proof. reflexivity. Qed.

Lemma walk_dollared_app l : forall p r,
  forallb ansi_pair l = true ->
  walk_dollared_from cSQ p (render_pairs l ++ cSQ :: r) = mkcur (lastp p (render_pairs l)) (cSQ :: r).
Proof.
  induction l as [|[b c] l IH]; intros p r H.
  - reflexivity.
  - cbn [forallb] in H. apply andb_true_iff in H as [H1 H2]. unfold ansi_pair in H1. cbn [fst snd] in H1.
    apply andb_true_iff in H1 as [_ H1].
    rewrite render_pairs_cons. destruct b.
    + change (walk_dollared_from cSQ p (([cBS; c] ++ render_pairs l) ++ cSQ :: r))
        with (walk_dollared_from cSQ (Some c) (render_pairs l ++ cSQ :: r)).
      rewrite IH by assumption. reflexivity.
    + cbn [orb] in H1. apply andb_true_iff in H1 as [Ha Hb].
      apply negb_true_iff in Ha. apply negb_true_iff in Hb.
      change (([c] ++ render_pairs l) ++ cSQ :: r) with (c :: (render_pairs l ++ cSQ :: r)).
      cbn [walk_dollared_from]. rewrite Ha, Hb. rewrite IH by assumption. reflexivity.
Qed.

(* decide every test "x =? constant" on a variable character; branches that contradict the
   boolean side condition H (computed on the constant) are closed *)
Ltac ctest H :=
  repeat match goal with
  | |- context [N.eqb ?x ?c] =>
      is_var x; destruct (N.eqb_spec x c);
      [ first [exfalso; subst x; cbv in H; discriminate H | subst x] | ]
  end.
Ltac lastp_norm := unfold lastp; cbn [fold_left]; rewrite ?fold_left_app; cbn [fold_left]; try reflexivity.

Lemma tok_ind2 (P : tok -> Prop) :
  (forall c, P (TLit c)) -> (forall c, P (TEsc c)) -> (forall s, P (TSq s)) ->
  (forall l, P (TDq l)) -> (forall s, P (TPE s)) -> (forall l, P (TAnsi l)) ->
  (forall s, P (TVar s)) -> (forall l, Forall P l -> P (TArith l)) -> (forall l, Forall P l -> P (TDqx l)) ->
  P THs -> (forall l, P (TSub l)) ->
  (forall l, Forall P l -> P (TBr l)) -> (forall l, Forall P l -> P (TPar l)) ->
  forall t, P t.
Proof.
  intros H1 H2 H3 H4 H5 H5' Hv Ha Hd Hh Hsu H6 H7. fix IH 1. intros [c|c|s|l|s|l|s|l|l| |l|l|l].
  - apply H1.
  - apply H2.
  - apply H3.
  - apply H4.
  - apply H5.
  - apply H5'.
  - apply Hv.
  - apply Ha. induction l as [|t l IHl]; constructor; [apply IH | exact IHl].
  - apply Hd. induction l as [|t l IHl]; constructor; [apply IH | exact IHl].
  - apply Hh.
  - apply Hsu.
  - apply H6. induction l as [|t l IHl]; constructor; [apply IH | exact IHl].
  - apply H7. induction l as [|t l IHl]; constructor; [apply IH | exact IHl].
Qed.

Lemma ident_facts c : is_ident c = true ->
  isspace c = false /\ isblank c = false /\ name_stop c = false /\ envvar_stop c = false
  /\ (c =? cEQ) = false /\ (c =? cHASH) = false /\ (c =? cNUL) = false.
Proof.
  unfold is_ident. intros H.
  repeat split;
    match goal with |- ?f = false => destruct f eqn:E; [|reflexivity] end; exfalso;
    unfold isspace, isblank, name_stop, envvar_stop, mem in E; cbn [existsb] in E;
    repeat (apply orb_true_iff in E as [E|E]); try discriminate E;
    repeat (apply andb_true_iff in E as [? E]);
    repeat match goal with Hq : (_ =? _) = true |- _ => apply N.eqb_eq in Hq; subst; cbv in H; discriminate H end;
    repeat match goal with Hq : (_ <=? _) = true |- _ => apply N.leb_le in Hq end;
    repeat (apply orb_true_iff in H as [H|H]); repeat (apply andb_true_iff in H as [? H]);
    repeat match goal with Hq : (_ <=? _) = true |- _ => apply N.leb_le in Hq end;
    repeat match goal with Hq : (_ =? _) = true |- _ => apply N.eqb_eq in Hq end; unfold cUS in *; lia.
Qed.

Lemma ident_alnum c : is_ident c = true -> negb (isalnum c) && negb (c =? cUS) = false.
Proof.
  unfold is_ident, isalnum. intros H.
  destruct ((48 <=? c) && (c <=? 57)), ((65 <=? c) && (c <=? 90)), ((97 <=? c) && (c <=? 122));
    cbn in *; try reflexivity.
  rewrite H. now rewrite andb_false_r.
Qed.

Lemma is_function_lp p X : is_function (mkcur p (cLP :: X)) = None.
Proof.
  unfold is_function. cbn [prev suf skip_while]. change (isblank cLP) with false. cbn [opt_bind prev suf].
  change (starts_with kw_function (cLP :: X)) with false. cbn [prev suf skip_while].
  change (isspace cLP) with false. cbn [opt_bind prev suf skip_while].
  change (name_stop cLP) with true. cbn [negb opt_bind suf]. now rewrite slice_self.
Qed.
Lemma is_envvar_lp p X : is_envvar (mkcur p (cLP :: X)) = None.
Proof. reflexivity. Qed.

Section W2.
Variable g : str.

Lemma walk_dq l : forall n p rest,
  forallb dq_pair l = true -> (n > length (render_pairs l))%nat ->
  walk_escaped g n (mkcur p (render_pairs l ++ cDQ :: rest)) cDQ
  = Ok (mkcur (lastp p (render_pairs l)) (cDQ :: rest)).
Proof.
  induction l as [|[b c] l IH]; intros n p rest H Hn.
  - destruct n as [|n]; [cbn in Hn; lia|]. reflexivity.
  - cbn [forallb] in H. apply andb_true_iff in H as [H1 H2].
    rewrite render_pairs_cons in *. rewrite app_length in Hn.
    destruct n as [|n]; [lia|].
    destruct b.
    + change (([cBS; c] ++ render_pairs l) ++ cDQ :: rest) with (cBS :: c :: (render_pairs l ++ cDQ :: rest)).
      rewrite walk_escaped_S. cbn [suf].
      change (cBS =? cDQ) with false. change (cBS =? cBS) with true. cbn iota.
      rewrite !adv1_cons. rewrite IH; [|assumption|cbn in Hn; lia].
      lastp_norm.
    + change (([c] ++ render_pairs l) ++ cDQ :: rest) with (c :: (render_pairs l ++ cDQ :: rest)).
      rewrite walk_escaped_S. cbn [suf].
      change (cDQ =? cDQ) with true. cbn [negb].
      ctest H1; cbn [orb andb negb]; rewrite ?adv1_cons;
        (rewrite IH; [|assumption|cbn in Hn; lia]); lastp_norm.
Qed.

Lemma dollar_brace_app s : forall n p rest endc,
  forallb pe_char s = true -> (n > length s)%nat ->
  dollar_brace g n (mkcur p (s ++ cRB :: rest)) endc = Ok (mkcur (Some cRB) rest).
Proof.
  induction s as [|c s IH]; intros n p rest endc H Hn; (destruct n as [|n]; [cbn in Hn; lia|]).
  - reflexivity.
  - cbn [forallb] in H. apply andb_true_iff in H as [H1 H2].
    change ((c :: s) ++ cRB :: rest) with (c :: (s ++ cRB :: rest)).
    rewrite dollar_brace_S. cbn [suf].
    ctest H1. rewrite adv1_cons. apply IH; [assumption|cbn in Hn; lia].
Qed.

Lemma walk_dollar_pe s n p rest endc dq :
  forallb pe_char s = true -> (n > S (length s))%nat ->
  walk_dollar g n (mkcur p (cLB :: s ++ cRB :: rest)) endc dq = Ok (mkcur (Some cRB) rest).
Proof.
  intros H Hn. destruct n as [|n]; [lia|]. rewrite walk_dollar_S. cbn [suf].
  change (cLB =? cLP) with false. change (cLB =? cSQ) with false. change (cLB =? cLB) with true.
  cbn [andb negb]. rewrite adv1_cons. apply dollar_brace_app; [assumption|lia].
Qed.
Lemma walk_dollar_ansi l n p rest endc :
  forallb ansi_pair l = true -> (n > 0)%nat ->
  walk_dollar g n (mkcur p (cSQ :: render_pairs l ++ cSQ :: rest)) endc false = Ok (mkcur (Some cSQ) rest).
Proof.
  intros H Hn. destruct n as [|n]; [lia|]. rewrite walk_dollar_S. cbn [suf].
  change (cSQ =? cLP) with false. change (cSQ =? cSQ) with true. cbn [andb negb].
  rewrite adv1_cons. unfold walk_dollared. cbn [prev suf]. rewrite walk_dollared_app by assumption.
  reflexivity.
Qed.


Definition weak_follow (c : N) : bool := negb (isalnum c) && negb (c =? cUS) && negb (c =? cDOL).

Lemma dollar_name_app s : forall n p c Y endc,
  forallb is_ident s = true -> is_ident endc = false -> weak_follow c = true -> (n > length s)%nat ->
  dollar_name g n (mkcur p (s ++ c :: Y)) endc = Ok (mkcur (lastp p s) (c :: Y)).
Proof.
  induction s as [|x s IH]; intros n p c Y endc Hs He Hc Hn; (destruct n as [|n]; [cbn in Hn; lia|]).
  - cbn [app]. rewrite dollar_name_S. cbn [suf]. unfold weak_follow in Hc.
    apply andb_true_iff in Hc as [Hc H3]. apply negb_true_iff in H3.
    destruct (c =? endc); [reflexivity|]. destruct (isspace c); [reflexivity|]. rewrite H3, Hc. reflexivity.
  - cbn [forallb] in Hs. apply andb_true_iff in Hs as [Hx Hs].
    destruct (ident_facts x Hx) as (Hsp&_&_&_&_&_&_).
    cbn [app]. rewrite dollar_name_S. cbn [suf].
    destruct (N.eqb_spec x endc) as [->|_]; [congruence|].
    rewrite Hsp. rewrite (ident_alnum x Hx).
    assert (x =? cDOL = false) as ->.
    { destruct (N.eqb_spec x cDOL) as [->|]; [cbv in Hx; discriminate|reflexivity]. }
    rewrite adv1_cons. rewrite IH; auto. cbn in Hn; lia.
Qed.

Lemma walk_dollar_var s n p c Y endc dq :
  forallb is_ident s = true -> is_ident endc = false -> var_follow s c = true -> (n > S (length s))%nat ->
  walk_dollar g n (mkcur p (s ++ c :: Y)) endc dq = Ok (mkcur (lastp p s) (c :: Y)).
Proof.
  intros Hs He Hc Hn. destruct n as [|n]; [lia|].
  unfold var_follow in Hc. apply andb_true_iff in Hc as [Hw Hstrict].
  rewrite walk_dollar_S. destruct s as [|x s].
  - cbn [app suf]. cbn [nonempty orb] in Hstrict.
    assert (Hd : c =? cDOL = false).
    { unfold weak_follow in *. apply andb_true_iff in Hw as [_ Hw]. now apply negb_true_iff in Hw. }
    assert (c =? cLP = false /\ c =? cLB = false /\ c =? cSQ = false) as (E1&E2&E3).
    { unfold mem in Hstrict; cbn [existsb] in Hstrict. apply negb_true_iff in Hstrict.
      repeat (apply orb_false_iff in Hstrict as [? Hstrict]). auto. }
    rewrite E1, E3. cbn [andb]. rewrite E2. cbn [negb]. rewrite Hd.
    apply (dollar_name_app [] n p c Y endc); auto; cbn; lia.
  - cbn [app suf]. assert (Hx : is_ident x = true) by (cbn [forallb] in Hs; now apply andb_true_iff in Hs as [Hx _]).
    assert (x =? cLP = false /\ x =? cSQ = false /\ x =? cLB = false /\ x =? cDOL = false) as (E1&E2&E3&E4).
    { repeat split; match goal with |- (x =? ?k) = false => destruct (N.eqb_spec x k) as [->|]; [cbv in Hx; discriminate|reflexivity] end. }
    rewrite E1, E2. cbn [andb]. rewrite E3. cbn [negb]. rewrite E4.
    apply (dollar_name_app (x :: s) n p c Y endc); auto. cbn in *; lia.
Qed.
End W2.

Lemma forallb_neq_sq s : forallb sq_char s = true -> forallb (fun x => negb (x =? cSQ)) s = true.
Proof.
  induction s as [|x s IH]; cbn; [reflexivity|]. intros H. apply andb_true_iff in H as [H1 H2].
  unfold sq_char in H1. apply andb_true_iff in H1 as [H1 _]. rewrite H1. now apply IH.
Qed.

Lemma isblank_isspace c : isblank c = true -> isspace c = true.
Proof.
  unfold isblank. intros H. apply orb_true_iff in H as [H|H]; apply N.eqb_eq in H; subst; reflexivity.
Qed.

Lemma no_eq_app a b : no_eq_before_stop a = true -> no_eq_before_stop (a ++ b) = true.
Proof.
  induction a as [|c a IH]; cbn [no_eq_before_stop app]; [discriminate|].
  destruct (envvar_stop c); [reflexivity|]. destruct (c =? cEQ); [discriminate|]. exact IH.
Qed.
Lemma first_nonblank_app a b d : first_nonblank a = Some d -> first_nonblank (a ++ b) = Some d.
Proof.
  induction a as [|c a IH]; cbn [first_nonblank app]; [discriminate|]. destruct (isblank c); [exact IH|auto].
Qed.
Lemma word_then_app a b d : word_then a = Some d -> word_then (a ++ b) = Some d.
Proof.
  induction a as [|c a IH]; cbn [word_then app]; [discriminate|].
  destruct (name_stop c); [|exact IH].
  intros H. change (c :: a ++ b) with ((c :: a) ++ b). now apply first_nonblank_app.
Qed.
Lemma diverges_app w a b : diverges w a = true -> starts_with w (a ++ b) = false.
Proof.
  revert a; induction w as [|x w IH]; intros [|y a]; cbn; try discriminate.
  destruct (x =? y); [|reflexivity]. intros H. rewrite IH by assumption. reflexivity.
Qed.

Lemma envvar_scan_none s : forall f p, no_eq_before_stop s = true -> envvar_scan f p s = None.
Proof.
  induction s as [|c s IH]; intros f p; cbn [no_eq_before_stop envvar_scan]; [discriminate|].
  destruct (envvar_stop c); [reflexivity|]. destruct (c =? cEQ); [discriminate|]. apply IH.
Qed.

Lemma skip_blank_spec t : forall p,
  match skip_while isblank p t with
  | None => first_nonblank t = None
  | Some c => exists x r, suf c = x :: r /\ first_nonblank t = Some x
  end.
Proof.
  induction t as [|d t IH]; intros p; cbn [skip_while first_nonblank]; [reflexivity|].
  destruct (isblank d); [apply IH|]. cbn [suf]. eauto.
Qed.

Lemma word_then_skip s : forall p,
  match skip_while (fun x => negb (name_stop x)) p s with
  | None => word_then s = None
  | Some c => word_then s = first_nonblank (suf c)
  end.
Proof.
  induction s as [|c s IH]; intros p; cbn [skip_while word_then]; [reflexivity|].
  destruct (name_stop c); cbn [negb]; [reflexivity|apply IH].
Qed.

Lemma is_envvar_none p c r :
  isspace c = false -> no_eq_before_stop (c :: r) = true -> is_envvar (mkcur p (c :: r)) = None.
Proof.
  intros Hc H. unfold is_envvar. cbn [prev suf skip_while].
  destruct (isblank c) eqn:E; [apply isblank_isspace in E; congruence|].
  cbn [opt_bind prev suf]. now rewrite envvar_scan_none.
Qed.

Lemma is_function_none p c r d :
  isspace c = false -> starts_with kw_function (c :: r) = false ->
  word_then (c :: r) = Some d -> (d =? cLP) = false ->
  is_function (mkcur p (c :: r)) = None.
Proof.
  intros Hc Hk Hw Hd. unfold is_function. cbn [prev suf skip_while].
  destruct (isblank c) eqn:E; [apply isblank_isspace in E; congruence|].
  cbn [opt_bind prev suf]. rewrite Hk. cbn [prev suf skip_while]. rewrite Hc. cbn [opt_bind prev suf].
  pose proof (word_then_skip (c :: r) p) as W.
  destruct (skip_while (fun x => negb (name_stop x)) p (c :: r)) as [c4|]; [|reflexivity].
  cbn [opt_bind]. destruct (slice (c :: r) (suf c4)); [reflexivity|].
  rewrite Hw in W.
  pose proof (skip_blank_spec (suf c4) (prev c4)) as B.
  destruct (skip_while isblank (prev c4) (suf c4)) as [c5|]; [|reflexivity].
  cbn [opt_bind]. destruct B as (x & r5 & E5 & F). rewrite E5.
  rewrite F in W. injection W as ->. rewrite Hd. reflexivity.
Qed.

Lemma is_function_stop p c r :
  isspace c = false -> starts_with kw_function (c :: r) = false -> name_stop c = true ->
  is_function (mkcur p (c :: r)) = None.
Proof.
  intros Hc Hk Hs. unfold is_function. cbn [prev suf skip_while].
  destruct (isblank c) eqn:E; [apply isblank_isspace in E; congruence|].
  cbn [opt_bind prev suf]. rewrite Hk. cbn [prev suf skip_while]. rewrite Hc. cbn [opt_bind prev suf skip_while].
  rewrite Hs. cbn [negb opt_bind suf]. now rewrite slice_self.
Qed.

(* The balanced walker (walk_escaped) and the statement walker (walk_complex) meet the tokens of a
   rendered body in four settings: the inside of {..} (..) $((..)), the inside of "..", the command
   of $(..), and a statement at function level.  What they do on the first character of a token
   is the same in all four up to which characters are plain; [passes] records exactly that, and
   [tok_pass] walks one token for any walker that satisfies it. *)
Section Walk.
Variable g : str.

Definition walker := nat -> cur -> res cur.

Lemma render_toks_cons t l : render_toks (t :: l) = render_tok t ++ render_toks l.
Proof. reflexivity. Qed.

(* Fuel: a walker spends one unit per token at its own level and hands the same amount to the walker
   of the token's inside; 3 per character is a bound with room to spare that adds up over
   concatenation, and the 8 of [Sub] and [walk_dollar_arith] covers the fixed detour through
   walk_dollar_expansion and process_scope around $(..) and $((..)). *)
Definition walks (W : bool -> walker) (cl : N -> Prop) (l : list tok) : Prop :=
  forall first n p e rest, cl e -> (n > 3 * length (render_toks l))%nat ->
  W first n (mkcur p (render_toks l ++ e :: rest)) = Ok (mkcur (lastp p (render_toks l)) (e :: rest)).
(* [W first]: walk_complex's flag, set on the first character only *)
Definition passes1 (W : bool -> walker) (t : tok) (X : str) : Prop :=
  forall first n p, (S n > 3 * length (render_tok t))%nat ->
  W first (S n) (mkcur p (render_tok t ++ X)) = W false n (mkcur (lastp p (render_tok t)) X).

Lemma render_tok_pos t : (0 < length (render_tok t))%nat.
Proof. destruct t; cbn; rewrite ?app_length; cbn; lia. Qed.

Lemma walks_cons W (cl : N -> Prop) t l :
  (forall e rest, cl e -> passes1 W t (render_toks l ++ e :: rest)) -> walks W cl l -> walks W cl (t :: l).
Proof.
  intros Ht IH first n p e rest He Hn. rewrite render_toks_cons, app_length in *.
  pose proof (render_tok_pos t). destruct n as [|n]; [lia|].
  rewrite <- app_assoc, (Ht e rest He), IH by (assumption || lia). rewrite lastp_app. reflexivity.
Qed.

Definition WEc (l : list tok) : Prop :=
  forall endc, endc = cRB \/ endc = cRP -> walks (fun _ n c => walk_escaped g n c endc) (eq endc) l.
Definition WDc : list tok -> Prop := walks (fun _ n c => walk_escaped g n c cDQ) (eq cDQ).
(* "$(" one simple command ")" *)
Definition Sub (l : list tok) : Prop :=
  forall n p rest endc dq, (n > 3 * length (render_toks l) + 8)%nat ->
  walk_dollar g n (mkcur p (cLP :: render_toks l ++ cRP :: rest)) endc dq = Ok (mkcur (Some cRP) rest).

(* what walking a token takes for granted about the token lists inside it *)
Definition inner (t : tok) : Prop :=
  match t with
  | TArith l | TBr l | TPar l => WEc l
  | TDqx l => WDc l
  | TSub l => Sub l
  | _ => True
  end.

(* the first character of each kind of token, for a walker in which the characters [lit] are
   plain, that calls walk_dollar_expansion with end character [endc], and in which quotes and
   brackets open nested walks ([q]; not so inside "..") *)
Record passes (W : bool -> walker) (lit : N -> bool) (q : bool) (endc : N) : Prop := {
  p_lit : forall f n p c X, lit c = true -> W f (S n) (mkcur p (c :: X)) = W false n (mkcur (Some c) X);
  p_esc : forall f n p c X, W f (S n) (mkcur p (cBS :: c :: X)) = W false n (mkcur (Some c) X);
  p_dol : forall f n p X,
    W f (S n) (mkcur p (cDOL :: X)) = (do c1 <- walk_dollar g n (mkcur (Some cDOL) X) endc (negb q); W false n c1);
  p_sq : q = true -> forall f n p X,
    W f (S n) (mkcur p (cSQ :: X)) = W false n (adv1 (walk_no_parsing g (mkcur (Some cSQ) X) cSQ));
  p_dq : q = true -> forall f n p X,
    W f (S n) (mkcur p (cDQ :: X)) = (do c1 <- walk_escaped g n (mkcur (Some cDQ) X) cDQ; W false n (adv1 c1));
  p_lb : q = true -> forall f n p X,
    W f (S n) (mkcur p (cLB :: X)) = (do c1 <- walk_escaped g n (mkcur (Some cLB) X) cRB; W false n (adv1 c1));
  p_lp : q = true -> forall f n p X,
    W f (S n) (mkcur p (cLP :: X)) = (do c1 <- walk_escaped g n (mkcur (Some cLP) X) cRP; W false n (adv1 c1))
}.

Definition tok_fits (lit : N -> bool) (q : bool) (t : tok) : bool :=
  match t with
  | TLit c => lit c
  | TEsc _ => true
  | TPE s => forallb pe_char s
  | TVar s => forallb is_ident s
  | TArith _ | TSub _ => true
  | TSq s => q && forallb sq_char s
  | TDq l => q && forallb dq_pair l
  | TAnsi l => q && forallb ansi_pair l
  | TDqx _ | TBr _ | TPar _ => q
  | THs => false
  end.

Lemma walk_dollar_arith l n p rest endc dq :
  WEc l -> (n > 3 * length (render_toks l) + 8)%nat ->
  walk_dollar g n (mkcur p (cLP :: cLP :: render_toks l ++ cRP :: cRP :: rest)) endc dq
  = Ok (mkcur (Some cRP) rest).
Proof.
  intros Hl Hn. destruct n as [|n]; [lia|]. rewrite walk_dollar_S. cbn [suf].
  change (cLP =? cLP) with true. cbn iota. rewrite adv1_cons.
  destruct n as [|n]; [lia|]. rewrite process_scope_S. cbn [suf].
  change (cLP =? cRP) with false. change (isspace cLP) with false. change (cLP =? cHASH) with false. cbn iota.
  rewrite is_function_lp, is_envvar_lp.
  destruct n as [|n]; [lia|]. rewrite walk_complex_S. cbn [suf].
  cbn -[walk_escaped walk_complex process_scope]. rewrite ?adv1_cons.
  rewrite (Hl cRP) by (auto || lia). cbn [bind]. rewrite adv1_cons.
  destruct n as [|n]; [lia|]. rewrite walk_complex_S. cbn [suf].
  change (cRP =? cRP) with true. cbn -[process_scope].
  destruct n as [|n']; [lia|].
  rewrite process_scope_S. cbn [suf]. change (cRP =? cRP) with true. cbn iota. cbn [bind fst]. rewrite adv1_cons.
  reflexivity.
Qed.

Lemma tok_pass W lit q endc t X :
  passes W lit q endc -> is_ident endc = false ->
  tok_fits lit q t = true -> inner t ->
  (forall s, t = TVar s -> exists c Y, X = c :: Y /\ var_follow s c = true) ->
  passes1 W t X.
Proof.
  intros HW He Hok Hin Hv first n p Hn.
  destruct t as [c|c|s|l|s|l|s|l|l| |l|l|l]; cbn [tok_fits] in Hok; cbn [inner] in Hin;
    try (apply andb_true_iff in Hok as [-> Hok]); try subst q; cbn [render_tok] in *;
    try fold (render_toks l) in *; rewrite ?app_length in Hn; cbn [length] in Hn;
    rewrite <- ?app_assoc; cbn [app].
  - apply (p_lit _ _ _ _ HW). exact Hok.
  - apply (p_esc _ _ _ _ HW).
  - rewrite (p_sq _ _ _ _ HW eq_refl), walk_no_parsing_app by (apply forallb_neq_sq; exact Hok).
    rewrite adv1_cons. lastp_norm.
  - rewrite (p_dq _ _ _ _ HW eq_refl), walk_dq by (assumption || lia).
    cbn [bind]. rewrite adv1_cons. lastp_norm.
  - rewrite (p_dol _ _ _ _ HW), walk_dollar_pe by (assumption || lia). cbn [bind]. lastp_norm.
  - rewrite (p_dol _ _ _ _ HW), walk_dollar_ansi by (assumption || lia). cbn [bind]. lastp_norm.
  - destruct (Hv s eq_refl) as (c & Y & -> & Hc).
    rewrite (p_dol _ _ _ _ HW), walk_dollar_var by (assumption || lia). reflexivity.
  - rewrite (p_dol _ _ _ _ HW), walk_dollar_arith by (assumption || lia). cbn [bind]. lastp_norm.
  - rewrite (p_dq _ _ _ _ HW eq_refl), (Hin false) by (reflexivity || lia).
    cbn [bind]. rewrite adv1_cons. lastp_norm.
  - discriminate Hok.
  - rewrite (p_dol _ _ _ _ HW), Hin by lia. cbn [bind]. lastp_norm.
  - rewrite (p_lb _ _ _ _ HW eq_refl), (Hin cRB (or_introl eq_refl) false) by (reflexivity || lia).
    cbn [bind]. rewrite adv1_cons. lastp_norm.
  - rewrite (p_lp _ _ _ _ HW eq_refl), (Hin cRP (or_intror eq_refl) false) by (reflexivity || lia).
    cbn [bind]. rewrite adv1_cons. lastp_norm.
Qed.

Lemma walks_all W (cl : N -> Prop) l :
  (forall f n p e X, cl e -> W f (S n) (mkcur p (e :: X)) = Ok (mkcur p (e :: X))) ->
  (forall s e, cl e -> var_follow s e = true) ->
  Forall (fun t => forall X, (forall s, t = TVar s -> exists c Y, X = c :: Y /\ var_follow s c = true) ->
                    passes1 W t X) l ->
  follows l = true -> walks W cl l.
Proof.
  intros Hstop Hcl. induction 1 as [|t l Ht _ IH]; intro Hf.
  - intros f n p e X He Hn. destruct n as [|n]; [cbn in Hn; lia|]. apply Hstop, He.
  - cbn [follows] in Hf. apply andb_true_iff in Hf as [Hf1 Hf2].
    apply walks_cons; [|exact (IH Hf2)]. intros e rest He. apply Ht. intros s ->.
    unfold follow_ok in Hf1. destruct (render_toks l) as [|c Y]; cbn [app]; eauto.
Qed.

Definition We (endc : N) : bool -> walker := fun _ n c => walk_escaped g n c endc.
Definition Wc (endc : N) : bool -> walker := fun f n c => walk_complex g n c endc COMMAND f.
Definition lit_inner (c : N) : bool := lit_char c || ((c =? cSEMI) || (c =? cNL) || (c =? cLT)).
Definition lit_stmt (c : N) : bool := lit_char c || (c =? cRP).

Lemma We_passes endc : endc = cRB \/ endc = cRP -> passes (We endc) lit_inner true endc.
Proof.
  intro He. unfold We.
  constructor; intros; try (destruct He; subst endc; reflexivity).
  apply walk_escaped_plain. unfold plain_escaped, lit_inner in *.
  destruct He; subst endc; ctest H; reflexivity.
Qed.
Lemma Wdq_passes : passes (We cDQ) dq_char false cDQ.
Proof.
  unfold We. constructor; intros; try discriminate; try reflexivity.
  rewrite walk_escaped_S. cbn [suf]. unfold dq_char in H. ctest H; reflexivity.
Qed.
Lemma Wc_passes endc lit :
  (endc = cRP /\ lit = lit_char) \/ (endc = cRB /\ lit = lit_stmt) -> passes (Wc endc) lit true endc.
Proof.
  intro He. unfold Wc.
  constructor; intros; try (destruct He as [[-> ->]|[-> ->]]; reflexivity).
  apply walk_complex_plain. unfold plain_complex.
  destruct He as [[-> ->]|[-> ->]]; unfold lit_stmt in *; ctest H; reflexivity.
Qed.

Lemma var_follow_closer s c : mem c [cRB; cRP; cDQ; cSEMI; cNL] = true -> var_follow s c = true.
Proof.
  unfold mem. cbn [existsb]. intros H.
  repeat (apply orb_true_iff in H as [H|H]); try discriminate H;
    apply N.eqb_eq in H; subst c; unfold var_follow; cbn; now rewrite orb_true_r.
Qed.

Lemma flat_fits t : flat_tok t = true -> tok_fits lit_char true t = true /\ inner t.
Proof. destruct t; intro H; try discriminate H; cbn; auto. Qed.

(* one iteration of process_scope on the start of a statement (the text is neither a function
   header nor an assignment): the statement is walked as a command *)
Lemma ps_stmt_step endc text0 rest n p ws out :
  stmt_start_ok text0 = true ->
  match text0 with c :: _ => negb (c =? endc) | [] => false end = true ->
  process_scope g (S n) (mkcur p (text0 ++ rest)) endc None None ws None out =
    (do c1 <- walk_complex g n (mkcur p (text0 ++ rest)) endc COMMAND true;
     process_scope g n (match hd_ c1 with
                        | Some x => if x =? endc then c1 else adv1 c1
                        | None => c1 end) endc None None ws None out).
Proof.
  intros H He. destruct text0 as [|c r]; [discriminate|]. unfold stmt_start_ok in H.
  apply andb_true_iff in H as [H HG]. apply andb_true_iff in H as [H HF].
  apply andb_true_iff in H as [H HE]. apply andb_true_iff in H as [H HD].
  apply andb_true_iff in H as [H HC]. apply andb_true_iff in H as [HA HB].
  apply negb_true_iff in HA, HB, HD, He.
  cbn [app]. rewrite process_scope_S. cbn [suf]. rewrite He, HA, HB.
  assert (HF' : is_function (mkcur p (c :: r ++ rest)) = None).
  { destruct (name_stop c) eqn:Ens.
    - apply is_function_stop; auto.
      change (c :: r ++ rest) with ((c :: r) ++ rest). now apply diverges_app.
    - cbn [orb] in HG. destruct (word_then (c :: r)) as [d|] eqn:W; [|discriminate].
      apply negb_true_iff in HG. apply (is_function_none p c (r ++ rest) d); auto.
      + change (c :: r ++ rest) with ((c :: r) ++ rest). now apply diverges_app.
      + change (c :: r ++ rest) with ((c :: r) ++ rest). now apply word_then_app. }
  rewrite HF'. rewrite is_envvar_none; auto.
  change (c :: r ++ rest) with ((c :: r) ++ rest). now apply no_eq_app.
Qed.

(* walk_dollar_expansion hands the text of $(..) to process_scope, which finds neither a function
   nor an assignment at its start and walks it as a command *)
Lemma walk_dollar_sub l : sub_ok l = true -> Sub l.
Proof.
  unfold sub_ok. intros H n p rest endc dq Hn. apply andb_true_iff in H as [H Hne].
  apply andb_true_iff in H as [H Hst]. apply andb_true_iff in H as [Hfl Hfo].
  assert (Hl : walks (Wc cRP) (eq cRP) l).
  { apply walks_all; [intros f n0 p0 e X <-; reflexivity | intros s e <-; apply var_follow_closer; reflexivity | | exact Hfo].
    apply Forall_forall. intros t Hin X. rewrite forallb_forall in Hfl.
    destruct (flat_fits t (Hfl t Hin)) as [Ht Hi].
    apply (tok_pass (Wc cRP) lit_char true cRP); auto using Wc_passes. }
  destruct n as [|n]; [lia|]. rewrite walk_dollar_S. cbn [suf].
  change (cLP =? cLP) with true. cbn iota. rewrite ?adv1_cons.
  destruct n as [|n]; [lia|].
  replace (render_toks l ++ cRP :: rest) with ((render_toks l ++ [cRP]) ++ rest) by (rewrite <- app_assoc; reflexivity).
  rewrite ps_stmt_step; [|assumption|destruct (render_toks l); [discriminate|exact Hne]].
  replace ((render_toks l ++ [cRP]) ++ rest) with (render_toks l ++ cRP :: rest) by (rewrite <- app_assoc; reflexivity).
  unfold walks, Wc in Hl. rewrite (Hl true) by (reflexivity || lia). cbn [bind hd_ suf]. change (cRP =? cRP) with true. cbn iota.
  destruct n as [|n]; [lia|]. rewrite process_scope_S. cbn [suf]. change (cRP =? cRP) with true. cbn iota.
  cbn [fst]. rewrite ?adv1_cons. reflexivity.
Qed.

(* the token lists inside a well-formed token are walked by the balanced walker *)
Definition dtok_ok (d : tok) : bool :=
  match d with
  | TLit c => dq_char c
  | TEsc c => negb (c =? cNUL)
  | TPE s => forallb pe_char s
  | TVar s => forallb is_ident s
  | TArith l2 => forallb (tok_ok true) l2
  | TSub l2 => sub_ok l2
  | _ => false
  end.

Lemma ok_fits t : tok_ok true t = true -> tok_fits lit_inner true t = true.
Proof. destruct t; cbn [tok_ok tok_fits andb]; auto. Qed.
Lemma dtok_fits t : dtok_ok t = true -> tok_fits dq_char false t = true.
Proof. destruct t; cbn [dtok_ok tok_fits]; auto. Qed.

Definition Nested (t : tok) : Prop := tok_ok true t = true -> deep_follow t = true -> inner t.

Lemma WEc_from l :
  Forall Nested l -> forallb (tok_ok true) l = true -> forallb deep_follow l = true -> follows l = true ->
  WEc l.
Proof.
  intros HN Hok Hdf Hfo endc He.
  apply walks_all; [intros f n p e X <-; unfold We; rewrite walk_escaped_S; cbn [suf]; now rewrite N.eqb_refl
                   | intros s e <-; destruct He; subst; apply var_follow_closer; reflexivity | | exact Hfo].
  rewrite Forall_forall in *. rewrite forallb_forall in Hok, Hdf. intros t Hin X.
  apply (tok_pass (We endc) lit_inner true endc); auto using We_passes, ok_fits.
  - destruct He; subst; reflexivity.
  - apply HN; auto.
Qed.

Lemma WDc_from l :
  Forall Nested l -> forallb dtok_ok l = true -> forallb deep_follow l = true -> follows l = true -> WDc l.
Proof.
  intros HN Hok Hdf Hfo.
  apply walks_all; [intros f n p e X <-; reflexivity
                   | intros s e <-; apply var_follow_closer; reflexivity | | exact Hfo].
  rewrite Forall_forall in *. rewrite forallb_forall in Hok, Hdf. intros t Hin X.
  apply (tok_pass (We cDQ) dq_char false cDQ); auto using Wdq_passes, dtok_fits.
  specialize (HN t Hin). specialize (Hok t Hin). specialize (Hdf t Hin).
  destruct t; try exact I; try discriminate Hok; exact (HN Hok Hdf).
Qed.

Lemma all_nested : forall t, Nested t.
Proof.
  apply tok_ind2; try (intros; exact (fun _ _ => I)); intros l; unfold Nested; cbn [tok_ok deep_follow inner].
  - intros HF Hok Hdf. apply andb_true_iff in Hdf as [D1 D2]. apply WEc_from; assumption.
  - intros HF Hok Hdf. apply andb_true_iff in Hdf as [D1 D2]. apply WDc_from; assumption.
  - intros Hok _. apply walk_dollar_sub, Hok.
  - intros HF Hok Hdf. apply andb_true_iff in Hdf as [D1 D2]. apply WEc_from; assumption.
  - intros HF Hok Hdf. apply andb_true_iff in Hdf as [D1 D2]. apply WEc_from; assumption.
Qed.

Lemma WEc_all l :
  forallb (tok_ok true) l = true -> forallb deep_follow l = true -> follows l = true -> WEc l.
Proof. apply WEc_from, Forall_forall. intros t _. apply all_nested. Qed.

(* the statement walker (function level, COMMAND_PARSING, endchar "}") over one statement *)
Definition WCc : list tok -> Prop := walks (Wc cRB) (fun sep => sep = cSEMI \/ sep = cNL).

Lemma WCc_all l :
  forallb tok_ok1 l = true -> forallb deep_follow l = true -> follows l = true -> WCc l.
Proof.
  intros Hok Hdf Hfo.
  apply walks_all; [intros f n p e X [->| ->]; reflexivity
                   | intros s e [->| ->]; apply var_follow_closer; reflexivity | | exact Hfo].
  rewrite Forall_forall. rewrite forallb_forall in Hok, Hdf. intros t Hin X.
  specialize (Hok t Hin). specialize (Hdf t Hin).
  destruct (tok_fits lit_stmt true t) eqn:Ht.
  - apply (tok_pass (Wc cRB) lit_stmt true cRB); auto using Wc_passes.
    pose proof (all_nested t) as N. destruct t; try exact I; exact (N Hok Hdf).
  - (* the here-string operator *)
    destruct t; try discriminate Ht; try (unfold lit_stmt in Ht; cbn [tok_ok1 tok_ok tok_fits andb] in *; congruence).
    intros _ first n p Hn. unfold Wc. cbn [render_tok app]. rewrite walk_complex_S. cbn [suf].
    cbn -[walk_here walk_complex]. rewrite ?adv1_cons.
    destruct n as [|n]; [cbn in Hn; lia|]. rewrite walk_here_lt. reflexivity.
Qed.
End Walk.

Section Body.
Variable g : str.

Lemma ps_ws w : forall n p T endc vm fm ws out,
  forallb isspace w = true -> isspace endc = false ->
  process_scope g (length w + n) (mkcur p (w ++ T)) endc vm fm ws None out
  = process_scope g n (mkcur (lastp p w) T) endc vm fm ws None out.
Proof.
  induction w as [|c w IH]; intros n p T endc vm fm ws out H He; [reflexivity|].
  cbn [forallb] in H. apply andb_true_iff in H as [H1 H2].
  cbn [length plus app]. rewrite process_scope_S. cbn [suf].
  destruct (N.eqb_spec c endc) as [->|_]; [congruence|].
  rewrite H1. cbn iota. rewrite adv1_cons. now rewrite IH.
Qed.

Lemma stmt_start_not_rb text : stmt_start_ok text = true ->
  match text with c :: _ => negb (c =? cRB) | [] => false end = true.
Proof.
  destruct text; [discriminate|]. unfold stmt_start_ok. intro H.
  do 4 (apply andb_true_iff in H as [H _]). apply andb_true_iff in H as [_ H]. exact H.
Qed.

Lemma body_walk b : forall n p rest ws out,
  body_ok b = true -> (n > 3 * length (render_body b))%nat ->
  exists out', process_scope g n (mkcur p (render_body b ++ cRB :: rest)) cRB None None ws None out
               = Ok (mkcur (lastp p (render_body b)) (cRB :: rest), out').
Proof.
  induction b as [|s b IH]; intros n p rest ws out Hb Hn.
  - destruct n as [|n]; [cbn in Hn; lia|]. rewrite process_scope_S. cbn [render_body flat_map app suf].
    change (cRB =? cRB) with true. cbn iota. eauto.
  - cbn [body_ok] in Hb. apply andb_true_iff in Hb as [Hs Hb]. unfold stmt_ok in Hs.
    apply andb_true_iff in Hs as [Hs Hst]. apply andb_true_iff in Hs as [Hs Hw].
    apply andb_true_iff in Hs as [Hs H1].
    destruct s as [toks sep sws]. cbn [s_toks s_sep s_ws] in *.
    change (render_body ({| s_toks := toks; s_sep := sep; s_ws := sws |} :: b))
      with (render_stmt {| s_toks := toks; s_sep := sep; s_ws := sws |} ++ render_body b) in *.
    unfold render_stmt in *. cbn [s_toks s_sep s_ws] in *.
    rewrite !app_length in Hn. cbn [length] in Hn.
    destruct n as [|n]; [lia|].
    replace (((render_toks toks ++ [sep] ++ sws) ++ render_body b) ++ cRB :: rest)
      with (((render_toks toks ++ [sep] ++ sws) ++ render_body b ++ [cRB]) ++ rest)
      by (rewrite <- !app_assoc; reflexivity).
    rewrite ps_stmt_step by (exact Hst || exact (stmt_start_not_rb _ Hst)).
    replace (((render_toks toks ++ [sep] ++ sws) ++ render_body b ++ [cRB]) ++ rest)
      with (render_toks toks ++ sep :: (sws ++ render_body b ++ cRB :: rest))
      by (rewrite <- !app_assoc; reflexivity).
    assert (Hsep : sep = cSEMI \/ sep = cNL).
    { apply orb_true_iff in H1 as [E|E]; apply N.eqb_eq in E; auto. }
    apply andb_true_iff in Hs as [Hs Hfw]. apply andb_true_iff in Hs as [Hs Hdf].
    pose proof (WCc_all g toks Hs Hdf Hfw) as HW. unfold WCc, walks, Wc in HW.
    rewrite HW by (assumption || lia). cbn [bind hd_ suf].
    assert (sep =? cRB = false) as -> by (destruct Hsep; subst; reflexivity).
    rewrite adv1_cons.
    replace n with (length sws + (n - length sws))%nat by lia.
    rewrite ps_ws by (assumption || reflexivity).
    destruct (IH (n - length sws)%nat (lastp (Some sep) sws) rest ws out Hb ltac:(lia)) as [o Ho].
    exists o. rewrite Ho. f_equal. f_equal. f_equal.
    unfold lastp. rewrite !fold_left_app. cbn [fold_left]. reflexivity.
Qed.
End Body.

Section Values.
Variable g : str.

Lemma render_vsegs_cons v l : render_vsegs (v :: l) = render_vseg v ++ render_vsegs l.
Proof. reflexivity. Qed.

(* SPACE_PARSING walk (endchar " ") over the rest of a scalar value *)
Definition WSc (l : list vseg) : Prop :=
  forall n p rest first, (n > length (render_vsegs l))%nat ->
  walk_complex g n (mkcur p (render_vsegs l ++ cNL :: rest)) cSP SPACE first
  = Ok (mkcur (lastp p (render_vsegs l)) (cNL :: rest)).

Lemma WSc_nil : WSc [].
Proof.
  intros n p rest first Hn. destruct n as [|n]; [cbn in Hn; lia|]. reflexivity.
Qed.

Lemma ws_bare s : forall m p X first,
  forallb bare_char s = true ->
  exists f', walk_complex g (length s + m) (mkcur p (s ++ X)) cSP SPACE first
             = walk_complex g m (mkcur (lastp p s) X) cSP SPACE f'.
Proof.
  induction s as [|c s IH]; intros m p X first H; [exists first; reflexivity|].
  cbn [forallb] in H. apply andb_true_iff in H as [H1 H2].
  unfold bare_char in H1. apply andb_true_iff in H1 as [Hsp Hm]. apply negb_true_iff in Hsp.
  destruct (IH m (Some c) X false H2) as [f' Hf].
  exists f'. change (lastp p (c :: s)) with (lastp (Some c) s). rewrite <- Hf.
  apply walk_complex_plain. unfold plain_complex.
  ctest Hm; try (exfalso; cbv in Hsp; discriminate Hsp); rewrite ?Hsp; reflexivity.
Qed.

Lemma WSc_cons v l : vseg_ok v = true -> WSc l -> WSc (v :: l).
Proof.
  intros Hok IH n p rest first Hn. rewrite render_vsegs_cons in *.
  destruct v as [s|s|c|pl|pl]; cbn [render_vseg vseg_ok] in *; rewrite ?app_length in Hn; cbn [length] in Hn;
    rewrite <- ?app_assoc; cbn [app].
  - apply andb_true_iff in Hok as [_ Hok].
    replace n with (length s + (n - length s))%nat by lia.
    destruct (ws_bare s (n - length s)%nat p (render_vsegs l ++ cNL :: rest) first Hok) as [f' Hf].
    rewrite Hf, lastp_app. apply IH. lia.
  - destruct n as [|n]; [lia|]. rewrite walk_complex_S. cbn [suf].
    cbn -[walk_no_parsing walk_complex]. rewrite ?adv1_cons.
    rewrite walk_no_parsing_app by (apply forallb_neq_sq; exact Hok). rewrite adv1_cons.
    (rewrite IH; [|lia]); lastp_norm.
  - destruct n as [|n]; [lia|].
    rewrite walk_complex_S. cbn [suf]. cbn. rewrite ?adv1_cons. apply IH. lia.
  - destruct n as [|n]; [lia|]. rewrite walk_complex_S. cbn [suf].
    cbn -[walk_dollar walk_complex]. rewrite ?adv1_cons.
    (rewrite walk_dollar_ansi; [|assumption|lia]). cbn [bind].
    (rewrite IH; [|lia]); lastp_norm.
  - destruct n as [|n]; [lia|]. rewrite walk_complex_S. cbn [suf].
    cbn -[walk_escaped walk_complex]. rewrite ?adv1_cons.
    (rewrite walk_dq; [|assumption|lia]). cbn [bind]. rewrite adv1_cons.
    (rewrite IH; [|lia]); lastp_norm.
Qed.

Lemma WSc_all l : forallb vseg_ok l = true -> WSc l.
Proof.
  induction l as [|v l IH]; intros H; [apply WSc_nil|].
  cbn [forallb] in H. apply andb_true_iff in H as [H1 H2]. apply WSc_cons; auto.
Qed.
End Values.

Section EnvValue.
Variable g : str.

Lemma env_value_else n p c r endc :
  isspace c = false -> mem c [cSEMI; cSQ; cDQ; cBQ; cLP; cDOL] = false ->
  env_value g (S n) (mkcur p (c :: r)) endc =
  (do c1 <- walk_complex g n (mkcur p (c :: r)) cSP SPACE true; env_value g n c1 endc).
Proof.
  intros Hs Hm. rewrite env_value_S. cbn [suf]. rewrite Hs.
  assert (Hm' : negb (mem c [cSEMI; cSQ; cDQ; cBQ; cLP; cDOL]) = true) by now rewrite Hm.
  ctest Hm'; reflexivity.
Qed.

Lemma env_value_nl n p rest endc : (n > 0)%nat ->
  env_value g n (mkcur p (cNL :: rest)) endc = Ok (mkcur p (cNL :: rest)).
Proof. intros Hn. destruct n; [lia|]. reflexivity. Qed.

Lemma scalar_walk l : forall n p rest endc,
  forallb vseg_ok l = true -> (n > length (render_vsegs l) + 1)%nat ->
  env_value g n (mkcur p (render_vsegs l ++ cNL :: rest)) endc
  = Ok (mkcur (lastp p (render_vsegs l)) (cNL :: rest)).
Proof.
  induction l as [|v l IH]; intros n p rest endc H Hn.
  - apply env_value_nl. lia.
  - assert (Hall := H). cbn [forallb] in H. apply andb_true_iff in H as [Hv Hl].
    (* a bare run or an escape hands the rest of the value to the SPACE_PARSING walk *)
    assert (Hrest : forall c r, render_vsegs (v :: l) ++ cNL :: rest = c :: r ->
              isspace c = false -> mem c [cSEMI; cSQ; cDQ; cBQ; cLP; cDOL] = false ->
              env_value g n (mkcur p (c :: r)) endc
              = Ok (mkcur (lastp p (render_vsegs (v :: l))) (cNL :: rest))).
    { intros c r E Hsp Hm. destruct n as [|n]; [lia|]. rewrite env_value_else by assumption.
      rewrite <- E, (WSc_all g _ Hall) by lia. apply env_value_nl. lia. }
    rewrite render_vsegs_cons in *.
    destruct v as [s|s|c|pl|pl]; cbn [render_vseg vseg_ok] in *; rewrite ?app_length in Hn; cbn [length] in Hn;
      rewrite <- ?app_assoc; cbn [app].
    + apply andb_true_iff in Hv as [Hne Hb]. destruct s as [|c s]; [discriminate|].
      cbn [forallb] in Hb. apply andb_true_iff in Hb as [Hc _].
      unfold bare_char in Hc. apply andb_true_iff in Hc as [Hsp Hm]. apply negb_true_iff in Hsp.
      apply (Hrest c _ (eq_sym (app_assoc _ _ _))); [exact Hsp|].
      unfold mem in *. cbn [existsb] in *. apply negb_true_iff in Hm.
      repeat (apply orb_false_iff in Hm as [? Hm]).
      repeat (apply orb_false_iff; split); assumption.
    + destruct n as [|n]; [lia|].
      rewrite env_value_S. cbn [suf]. cbn -[walk_no_parsing env_value]. rewrite ?adv1_cons.
      rewrite walk_no_parsing_app by (apply forallb_neq_sq; exact Hv). rewrite ?adv1_cons.
      (rewrite IH; [|assumption|lia]). lastp_norm.
    + apply (Hrest cBS _ eq_refl); reflexivity.
    + destruct n as [|n]; [lia|].
      rewrite env_value_S. cbn [suf]. cbn -[walk_dollar env_value]. rewrite ?adv1_cons.
      (rewrite walk_dollar_ansi; [|assumption|lia]). cbn [bind].
      (rewrite IH; [|assumption|lia]). lastp_norm.
    + destruct n as [|n]; [lia|].
      rewrite env_value_S. cbn [suf]. cbn -[walk_escaped env_value]. rewrite ?adv1_cons.
      (rewrite walk_dq; [|assumption|lia]). cbn [bind]. rewrite ?adv1_cons.
      (rewrite IH; [|assumption|lia]). lastp_norm.
Qed.
End EnvValue.

Lemma starts_with_sep w : forall n x X,
  existsb (N.eqb x) w = false -> starts_with w (n ++ x :: X) = true -> starts_with w n = true.
Proof.
  induction w as [|a w IH]; intros n x X Hx H; [destruct n; reflexivity|].
  cbn [existsb] in Hx. apply orb_false_iff in Hx as [Hxa Hx].
  destruct n as [|b n]; cbn [app starts_with] in *.
  - apply andb_true_iff in H as [H _]. rewrite N.eqb_sym in H. congruence.
  - apply andb_true_iff in H as [H1 H2]. rewrite H1. cbn. eapply IH; eauto.
Qed.


Lemma fname_facts c : fname_char c = true ->
  isspace c = false /\ isblank c = false /\ name_stop c = false /\ (c =? cHASH) = false /\ (c =? cNUL) = false.
Proof.
  unfold fname_char. intros H. destruct (is_ident c) eqn:Hi.
  - destruct (ident_facts c Hi) as (?&?&?&?&?&?&?). auto.
  - cbn [orb] in H.
    repeat (apply orb_true_iff in H as [H|H]);
      apply N.eqb_eq in H; subst; repeat split; reflexivity.
Qed.

Lemma kw_no (x : N) : x = cEQ \/ x = cSP -> existsb (N.eqb x) kw_function = false.
Proof. intros [->| ->]; reflexivity. Qed.

Lemma envvar_scan_ident n : forall p X,
  forallb is_ident n = true ->
  envvar_scan false p (n ++ cEQ :: X) = Some (mkcur (Some cEQ) X).
Proof.
  induction n as [|c n IH]; intros p X H.
  - reflexivity.
  - cbn [forallb] in H. apply andb_true_iff in H as [H1 H2].
    destruct (ident_facts c H1) as (_&_&_&Hs&He&_&_).
    cbn [app envvar_scan]. rewrite Hs, He. now apply IH.
Qed.

Lemma is_envvar_assign p n X :
  var_name_ok n = true ->
  is_envvar (mkcur p (n ++ cEQ :: X)) = Some (n, mkcur (Some cEQ) X).
Proof.
  unfold var_name_ok. intros H. apply andb_true_iff in H as [H _]. apply andb_true_iff in H as [Hne Hid].
  destruct n as [|c n]; [discriminate|]. cbn [forallb] in Hid. apply andb_true_iff in Hid as [Hc Hid].
  destruct (ident_facts c Hc) as (_&Hb&_&Hs&He&_&_).
  unfold is_envvar. cbn [prev suf app skip_while]. rewrite Hb. cbn [opt_bind prev suf envvar_scan].
  rewrite Hs, He. rewrite envvar_scan_ident by assumption. cbn [opt_bind suf].
  f_equal. f_equal. cbn [length]. rewrite app_length. cbn [length].
  replace (S (length n + S (length X)) - length X - 1)%nat with (S (length n)) by lia.
  change (c :: n ++ cEQ :: X) with ((c :: n) ++ cEQ :: X).
  rewrite firstn_app. replace (S (length n) - length (c :: n))%nat with 0%nat by (cbn; lia).
  rewrite firstn_all2 by (cbn; lia). cbn. f_equal. apply app_nil_r.
Qed.

Lemma skip_name n : forall p x X,
  forallb (fun c => negb (name_stop c)) n = true -> name_stop x = true ->
  skip_while (fun c => negb (name_stop c)) p (n ++ x :: X) = Some (mkcur (lastp p n) (x :: X)).
Proof. intros. apply skip_while_app; [assumption|]. now rewrite H0. Qed.

Lemma is_function_assign p n X :
  var_name_ok n = true -> is_function (mkcur p (n ++ cEQ :: X)) = None.
Proof.
  unfold var_name_ok. intros H. apply andb_true_iff in H as [H Hk]. apply andb_true_iff in H as [Hne Hid].
  apply negb_true_iff in Hk.
  assert (Hk' : starts_with kw_function (n ++ cEQ :: X) = false).
  { destruct (starts_with kw_function (n ++ cEQ :: X)) eqn:E; [|reflexivity].
    apply starts_with_sep in E; [congruence|]. apply kw_no; auto. }
  assert (Hns : forallb (fun c => negb (name_stop c)) n = true).
  { eapply forallb_impl; [|exact Hid]. intros x _ Hx. destruct (ident_facts x Hx) as (_&_&E&_). now rewrite E. }
  destruct n as [|c n]; [discriminate|]. cbn [forallb] in Hid. apply andb_true_iff in Hid as [Hc Hid].
  destruct (ident_facts c Hc) as (Hsp&Hb&_).
  unfold is_function. cbn [prev suf app skip_while]. rewrite Hb. cbn [opt_bind prev suf].
  change (c :: n ++ cEQ :: X) with ((c :: n) ++ cEQ :: X). rewrite Hk'.
  cbn [prev suf]. cbn [app skip_while]. rewrite Hsp. cbn [opt_bind prev suf].
  change (c :: n ++ cEQ :: X) with ((c :: n) ++ cEQ :: X).
  rewrite skip_name by (assumption || reflexivity). cbn [opt_bind suf prev].
  rewrite slice_app. cbn [skip_while]. change (isblank cEQ) with false. cbn [opt_bind suf].
  reflexivity.
Qed.

Lemma is_function_head p n Y :
  func_name_ok n = true ->
  is_function (mkcur p (func_head n ++ Y)) = Some (n, mkcur (Some cLB) Y).
Proof.
  unfold func_name_ok. intros H. apply andb_true_iff in H as [H Hk]. apply andb_true_iff in H as [Hne Hid].
  apply negb_true_iff in Hk. unfold func_head. rewrite <- app_assoc.
  set (T := [cSP; cLP; cRP; cSP; cNL; cLB] ++ Y).
  assert (Hk' : starts_with kw_function (n ++ T) = false).
  { destruct (starts_with kw_function (n ++ T)) eqn:E; [|reflexivity].
    unfold T in E. cbn [app] in E. apply starts_with_sep in E; [congruence|]. apply kw_no; auto. }
  assert (Hns : forallb (fun c => negb (name_stop c)) n = true).
  { eapply forallb_impl; [|exact Hid]. intros x _ Hx. destruct (fname_facts x Hx) as (_&_&E&_). now rewrite E. }
  destruct n as [|c n]; [discriminate|]. cbn [forallb] in Hid. apply andb_true_iff in Hid as [Hc Hid].
  destruct (fname_facts c Hc) as (Hsp&Hb&_).
  unfold is_function. cbn [prev suf app skip_while]. rewrite Hb. cbn [opt_bind prev suf].
  change (c :: n ++ T) with ((c :: n) ++ T). rewrite Hk'.
  cbn [prev suf]. cbn [app skip_while]. rewrite Hsp. cbn [opt_bind prev suf].
  change (c :: n ++ T) with ((c :: n) ++ cSP :: [cLP; cRP; cSP; cNL; cLB] ++ Y).
  rewrite skip_name by (assumption || reflexivity). cbn [opt_bind suf prev].
  rewrite slice_app. reflexivity.
Qed.
