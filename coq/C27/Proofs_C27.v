(* Proofs_C27.v — the frame of a store at every crash point (for any permission calls between
   close and rename), what the listing reports, and a worked example with the defect of the
   unfiltered listing. *)
From Coq Require Import List ZArith Bool Lia.
Import String.StringSyntax.
Import ListNotations.
From Verif Require Import Base.Val Base.Lists C18.Fs C18.FsLemmas C27.Model_C27 C27.Roundtrip_C27.
Local Open Scope N_scope.

Definition is_dir_opt (o : option node) : Prop := exists m u g t, o = Some (Dir m u g t).

Definition mkdir_in (P : path -> Prop) (o : op) : Prop := exists p m, o = Mkdir p m /\ P p.

Lemma mkdirs_run P ops : Forall (mkdir_in P) ops -> forall s q,
  lookup (run ops s) q = lookup s q \/
  (lookup s q = None /\ P q /\ is_dir_opt (lookup (run ops s) q)).
Proof.
  induction 1 as [|o r (p & m & -> & Hp) _ IH]; intros s q; [now left|].
  cbn [run apply_op]. destruct (can_create s p) eqn:Hc; [|now left].
  apply can_create_free in Hc.
  destruct (IH (set_node s p (Dir m ME ME NOW)) q) as [E|(E1 & E2 & E3)]; rewrite lookup_set_node in *.
  - rewrite E. destruct (path_eq_dec q p) as [->|_]; [|now left].
    right. split; [exact Hc|]. split; [exact Hp|]. now exists m, ME, ME, NOW.
  - destruct (path_eq_dec q p); [discriminate|]. now right.
Qed.

Lemma prefixes_len base rest p : In p (prefixes_from base rest) -> (length p <= length base + length rest)%nat.
Proof.
  revert base. induction rest as [|c r IH]; intros base H; [destruct H|]. cbn in H. destruct H as [<-|H].
  - rewrite app_length. cbn. lia.
  - apply IH in H. rewrite app_length in H. cbn in *. lia.
Qed.

Lemma mkdir_ops_spec s dir : Forall (mkdir_in (fun p => (length p <= length dir)%nat)) (mkdir_ops s dir).
Proof.
  apply Forall_forall. intros o Ho. apply in_flat_map in Ho as [p [Hp Ho]].
  destruct (lookup s p); [destruct Ho|]. destruct Ho as [<-|[]].
  exists p, MODE_DIR. split; [reflexivity|]. exact (prefixes_len _ _ _ Hp).
Qed.

Lemma parent_tmp loc pid cpv : parent (tmp_path loc pid cpv) = loc ++ removelast cpv.
Proof. unfold parent, tmp_path. rewrite app_assoc. apply removelast_last. Qed.

Lemma tmp_name_len pid n : (length n < length (tmp_name pid n))%nat.
Proof. unfold tmp_name. rewrite !app_length. cbn [length]. lia. Qed.

Lemma tmp_ne_target loc pid cpv : tmp_path loc pid cpv <> target_path loc cpv.
Proof.
  intro E. apply app_inv_head in E. apply (f_equal (fun l => last l [])) in E. rewrite last_last in E.
  pose proof (tmp_name_len pid (last cpv [])) as L. rewrite E in L. exact (Nat.lt_irrefl _ L).
Qed.

Lemma len_removelast {A} (l : list A) : l <> [] -> length l = S (length (removelast l)).
Proof. intro H. destruct (exists_last H) as [l' [a ->]]. rewrite removelast_last, app_length. cbn. lia. Qed.

(* the call list is mkdirs of proper ancestors of the staging file, then the staged replacement *)
Lemma store_ops_with_split s loc pid cpv chunks perms : cpv <> [] ->
  exists pre, Forall (mkdir_in (fun p => (length p < length loc + length cpv)%nat)) pre /\
    store_ops_with s loc pid cpv chunks perms
    = pre ++ replace_ops (tmp_path loc pid cpv) (target_path loc cpv) MODE_TMP chunks perms.
Proof.
  intro Hne. unfold store_ops_with. cbv zeta. destruct (isdir s _).
  - now exists [].
  - eexists. split; [|reflexivity]. eapply Forall_impl; [|apply mkdir_ops_spec].
    intros o (p & m & -> & Hp). exists p, m. split; [reflexivity|].
    rewrite parent_tmp, app_length in Hp. pose proof (len_removelast cpv Hne). lia.
Qed.

Lemma perm_ops_ok tmp gid : Forall (perm_on tmp) (perm_ops tmp gid).
Proof. repeat constructor. Qed.

(* the node a complete store leaves at the target *)
Definition new_node (content : str) (gid : N) (i : N) : node := File content PERMS ME gid NOW i.

(* THE FRAME of a store at every crash point k, for ANY permission calls between close and
   rename: paths other than target and staging file are untouched or directories created where
   nothing was; the target holds its old node or, after the last call, the complete staged node *)
Lemma crash_frame_any_perms s loc pid cpv chunks perms k :
  cpv <> [] -> Forall (perm_on (tmp_path loc pid cpv)) perms ->
  let tmp := tmp_path loc pid cpv in
  let target := target_path loc cpv in
  let ops := store_ops_with s loc pid cpv chunks perms in
  let sk := run (firstn k ops) s in
  (forall q, q <> target -> q <> tmp ->
     lookup sk q = lookup s q \/ (lookup s q = None /\ is_dir_opt (lookup sk q))) /\
  (lookup sk target = lookup s target \/
   (exists i, lookup sk target = Some (staged_node MODE_TMP chunks perms i)) /\
   lookup sk tmp = None /\ (length ops <= k)%nat).
Proof.
  intros Hne Hperms tmp target ops sk. subst sk ops.
  destruct (store_ops_with_split s loc pid cpv chunks perms Hne) as (pre & Hpre & ->).
  fold tmp target. set (rep := replace_ops tmp target MODE_TMP chunks perms).
  rewrite firstn_app, run_app.
  pose proof (mkdirs_run _ _ (Lists.Forall_firstn _ k _ Hpre) s) as Hmid.
  (* the mkdirs are too short to name the target *)
  assert (Hmid_tgt : lookup (run (firstn k pre) s) target = lookup s target).
  { destruct (Hmid target) as [E|(_ & Hlt & _)]; [exact E|].
    unfold target, target_path in Hlt. rewrite app_length in Hlt. lia. }
  destruct (run_opt (firstn k pre) s) as [s1|] eqn:Ero.
  - rewrite (run_opt_run _ _ _ Ero) in Hmid, Hmid_tgt.
    destruct (atomic_replace s1 tmp target MODE_TMP chunks perms (k - length pre)
                (tmp_ne_target loc pid cpv) Hperms) as [Hfr Hp]. fold rep in Hfr, Hp.
    split.
    + intros q Hq1 Hq2. rewrite (Hfr q Hq1 Hq2). destruct (Hmid q) as [E|(E1 & _ & E3)]; auto.
    + destruct Hp as [Hp|(s2 & Hs2 & Hp & Hgone & Hk)]; [left; congruence|].
      right. split; [|split; [exact Hgone|]].
      * exists (fresh_ino s1). rewrite Hp. exact (staged_complete _ _ _ _ _ _ Hperms Hs2).
      * rewrite app_length. unfold rep, replace_ops in *. cbn [length] in *. lia.
  - split; [|now left]. intros q _ _. destruct (Hmid q) as [E|(E1 & _ & E3)]; auto.
Qed.

Definition listable (b : bool) (loc p : path) (n : node) : bool :=
  is_prefix loc p && negb (is_dir_node n)
  && negb (match skipn (length loc) p with [] => true | _ => false end)
  && forallb (listed_name b) (skipn (length loc) p).

Lemma keys_gen_spec b s loc key :
  In key (keys_gen b s loc) <->
  exists p n, lookup s p = Some n /\ listable b loc p n = true /\ key = join_on c_sl (skipn (length loc) p).
Proof.
  unfold keys_gen. rewrite in_flat_map. split.
  - intros [p [_ H]]. destruct (lookup s p) as [n|] eqn:E; [|destruct H].
    fold (listable b loc p n) in H. destruct (listable b loc p n) eqn:L; [|destruct H].
    destruct H as [<-|[]]. now exists p, n.
  - intros [p [n [E [L ->]]]]. exists p. split; [exact (in_map fst _ _ (lookup_In _ _ _ E))|].
    rewrite E. fold (listable b loc p n). rewrite L. now left.
Qed.

Lemma startswith_app p r : startswith p (p ++ r) = true.
Proof. unfold startswith. rewrite firstn_app, firstn_all, Nat.sub_diag. cbn. rewrite app_nil_r. apply str_eqb_refl. Qed.

Lemma tmp_not_listable loc pid cpv n : listable true loc (tmp_path loc pid cpv) n = false.
Proof.
  unfold listable, tmp_path. rewrite skipn_app_exact, forallb_app. cbn [forallb].
  unfold listed_name at 2. unfold tmp_name. rewrite startswith_app. cbn [andb negb].
  rewrite !andb_false_r. reflexivity.
Qed.

Lemma listable_file b loc p n n' :
  listable b loc p n = true -> is_dir_node n' = false -> listable b loc p n' = true.
Proof. unfold listable. destruct (is_dir_node n); [now rewrite andb_false_r|]. now intros H ->. Qed.
Lemma dir_not_listable b loc p m u g t : listable b loc p (Dir m u g t) = false.
Proof. unfold listable. cbn. now rewrite andb_false_r. Qed.

Definition ex_entry : entry :=
  mk_entry [(lit "DESCRIPTION", lit "a tool"); (lit "EAPI", lit "8"); (lit "BOGUS", lit "x")]
           (Some [(lit "eutils", mk_e (lit "/r/eclass/eutils.eclass") 1700000000250 255)])
           (Some (mk_e (lit "/r/cat/pkg/pkg-1.ebuild") 1700000001750 4096)).
Definition ex_cpv : path := [lit "cat"; lit "pkg-1"].
Definition ex_old : str := lit "EAPI=7" ++ [c_nl] ++ lit "_mtime_=5" ++ [c_nl].
Definition ex_fs : fs := mk_fs true [(ex_cpv, ex_old); ([lit "cat"; lit "other-2"], ex_old)].
Definition ex_content : str := match serialize Flat ex_entry with Some c => c | None => [] end.
Definition ex_ops : list op := store_ops ex_fs LOC 4242 250 ex_cpv (chunks_per_char ex_content).
Definition ex_ops_buffered : list op := store_ops ex_fs LOC 4242 250 ex_cpv (chunks_at_close ex_content).

Example ex_wf : wf_entry ex_entry.
Proof.
  split; [|split; reflexivity]. cbn. repeat constructor; cbn; intuition discriminate.
Qed.
(* the complete store is visible, and is the stored entry *)
Example ex_complete :
  read_entry Flat (run ex_ops ex_fs) LOC ex_cpv = parse Flat ex_content /\
  (exists d, parse Flat ex_content = inl d /\
             dget (lit "DESCRIPTION") d = Some (PStr (lit "a tool")) /\ dget (lit "_mtime_") d = Some (PNum 1700000001) /\
             dget (lit "BOGUS") d = None) /\
  read_entry Flat ex_fs LOC ex_cpv <> parse Flat ex_content.
Proof.
  split; [vm_compute; reflexivity|]. split; [|vm_compute; discriminate].
  eexists. split; [vm_compute; reflexivity|]. vm_compute. auto.
Qed.
(* the state in the middle of the store (after 20 calls): the old tree and a staging file that holds
   the first 19 characters *)
Definition ex_mid : fs :=
  ex_fs ++ [(tmp_path LOC 4242 ex_cpv, File (firstn 19 ex_content) MODE_TMP ME ME NOW 3)].
Lemma ex_mid_eq : run (firstn 20 ex_ops) ex_fs = ex_mid.
Proof. vm_compute. reflexivity. Qed.

(* there the old entry is read and the listing is the old one *)
Example ex_midway :
  read_entry Flat (run (firstn 20 ex_ops) ex_fs) LOC ex_cpv = read_entry Flat ex_fs LOC ex_cpv /\
  keys (run (firstn 20 ex_ops) ex_fs) LOC = keys ex_fs LOC /\
  lookup (run (firstn 20 ex_ops) ex_fs) (tmp_path LOC 4242 ex_cpv) <> None.
Proof. rewrite ex_mid_eq. repeat split; vm_compute; congruence. Qed.

(* with the real buffering (one flush at close) the store is 5 system calls; after the flush but
   before the rename the old entry is still what readers see, the complete one afterwards *)
Example ex_buffered :
  length ex_ops_buffered = 5%nat /\
  read_entry Flat (run (firstn 4 ex_ops_buffered) ex_fs) LOC ex_cpv = read_entry Flat ex_fs LOC ex_cpv /\
  read_entry Flat (run ex_ops_buffered ex_fs) LOC ex_cpv = parse Flat ex_content.
Proof. repeat split; vm_compute; reflexivity. Qed.

(* the pinned tree (keys_gen false = no '.update.' filter): the same crash point lists the
   half-written staging file as a package.  This is the defect repaired by
   fixes/C27-skip-update-temp.patch.  The statement is weaker than listing_ok without the filter
   (no layout, no "complete new entry" conjunct), so refuting it refutes that one too. *)
Definition listing_ok_unrepaired : Prop :=
  forall s loc pid gid cpv chunks k, cpv <> [] ->
    forall key, In key (keys_gen false (run (firstn k (store_ops s loc pid gid cpv chunks)) s) loc) ->
      In key (keys_gen false s loc) \/ key = join_on c_sl cpv.

(* in the middle of the example store the staging file is listed: a key that was not listed
   before and is not the stored cpv *)
Lemma ex_staging_listed : exists key,
  In key (keys_gen false (run (firstn 20 ex_ops) ex_fs) LOC) /\
  ~ In key (keys_gen false ex_fs LOC) /\ key <> join_on c_sl ex_cpv.
Proof.
  (* each fact is evaluated on its boolean form; the projections of existsb_str_In are given
     explicitly because [apply] with the equivalence evaluates the listing while unifying *)
  exists (lit "cat/.update.4242.pkg-1"). rewrite ex_mid_eq. split; [|split].
  - apply (proj1 (existsb_str_In _ _)). vm_compute. reflexivity.
  - intro H. apply (proj2 (existsb_str_In _ _)) in H. revert H. vm_compute. discriminate.
  - vm_compute. discriminate.
Qed.
