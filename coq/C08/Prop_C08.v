From Coq Require Import List NArith Sorting.Sorted Sorting.Permutation.
Import ListNotations.
From Verif Require Import C06.Restr C08.Ord_C08 C08.Model_C08 C08.Spec_C08 C08.Proofs_C08 C08.Sorted_C08.

(* the candidate search never drops the key of a package the restriction matches
   (any world, repository, restriction; any object with attributes of a key the repository lists) *)
Theorem candidates_complete : forall w R r o c p cs,
  flat_atom r = true -> has_attrs o = true -> okey o = (c, p) ->
  In c (categories R) -> In p (packages_get R c) ->
  matches w r o = true -> candidates w R r = Some cs -> In (c, p) cs.
Proof. intros w R r o c p cs Hfa Hattr Hkey Hc Hp. now apply (candidates_cover w R o c p). Qed.
Print Assumptions candidates_complete.

(* ... and lists no key twice *)
Theorem candidates_nodup : forall w R r cs,
  repo_wf R -> candidates w R r = Some cs -> NoDup cs.
Proof. intros w R r cs Hwf. now apply candidates_distinct. Qed.
Print Assumptions candidates_nodup.

(* a query of any restriction answers (no exception path of the candidate search is reachable) *)
Theorem query_never_raises : forall w R m r, exists got, itermatch w R m r = Some got.
Proof. intros w R m r. unfold itermatch. destruct (candidates_total w R r) as [cs ->]. eauto. Qed.
Print Assumptions query_never_raises.

(* hence a versioned query, and an unversioned query over package objects, yields exactly the
   brute-force filter of the repository: every matching package, nothing else, each once *)
Theorem query_exact : forall w R m r got,
  repo_wf R -> flat_atom r = true -> m <> MUnvTuple ->
  itermatch w R m r = Some got -> exact_answer got (brute w R m r).
Proof. intros w R m r got Hwf. now apply itermatch_exact. Qed.
Print Assumptions query_exact.

(* a sorted query yields the same packages as the plain one, in sorter order *)
Theorem sorted_query : forall w R m r l,
  repo_wf R -> itermatch_sorted w R m r = Some l ->
  StronglySorted obj_le l /\ exists got, itermatch w R m r = Some got /\ Permutation got l.
Proof. exact sorted_query_proof. Qed.
Print Assumptions sorted_query.

(* a query over a stack of repositories is the chain of the per-repository exact answers *)
Theorem multiplex_union : forall w Rs m r got,
  Forall repo_wf Rs -> flat_atom r = true -> m <> MUnvTuple ->
  multiplex w Rs m r = Some got ->
  exists parts, got = concat parts /\
    Forall2 (fun R part => exact_answer part (brute w R m r)) Rs parts.
Proof.
  intros w Rs m r got Hwf Hfa Hm Hq. unfold multiplex in Hq.
  destruct (all_some _) as [parts|] eqn:E; [|discriminate]. injection Hq as <-.
  exists parts. split; [reflexivity|]. apply all_some_Forall2 in E.
  induction E as [|R part Rs parts H E IH]; constructor; inversion Hwf; subst; auto.
  now apply itermatch_exact.
Qed.
Print Assumptions multiplex_union.

(* ... and with a sorter it is that chain merged into sorter order *)
Theorem multiplex_sorted_union : forall w Rs m r l,
  Forall repo_wf Rs -> multiplex_sorted w Rs m r = Some l ->
  Sorted obj_le l /\ exists got, multiplex w Rs m r = Some got /\ Permutation got l.
Proof.
  intros w Rs m r l Hwf Hq. unfold multiplex_sorted in Hq. unfold multiplex.
  destruct (all_some _) as [parts|] eqn:E in Hq; [|discriminate]. injection Hq as <-.
  destruct (sorted_parts w m r Rs parts Hwf (all_some_Forall2 _ _ _ E)) as [Hs [gots [-> Hp]]].
  split; [now apply fold_merge_sorted|]. exists (concat gots). split; [reflexivity|].
  exact (Permutation_trans Hp (fold_merge_perm parts)).
Qed.
Print Assumptions multiplex_sorted_union.

(* known finding: the default unversioned call matches bare tuples, which have no attributes *)
Theorem unversioned_tuple_refuted : ~ unversioned_tuple_full.
Proof.
  intros H. apply (H ex_world ex_repo (Leaf false 0%N) [] ex_repo_wf eq_refl eq_refl (PT ex_a ex_x)).
  vm_compute. now left.
Qed.
Print Assumptions unversioned_tuple_refuted.

(* the bare tuple has no attributes, so every leaf reads "missing" *)
Theorem tuple_matches_blind : forall w r c p, matches w r (PT c p) = eval (fun _ => false) r.
Proof. reflexivity. Qed.
Print Assumptions tuple_matches_blind.

(* outside the known class (the restriction reads no package attribute) the bare-tuple query is exact *)
Theorem unversioned_tuple_partial : forall w R r got,
  repo_wf R -> tuple_class r = false -> itermatch w R MUnvTuple r = Some got ->
  forall o, In o got <-> In o (map as_tuple (brute w R MUnvCPV r)).
Proof.
  intros w R r got Hwf Hcl. apply tuple_query_leaffree; [assumption|].
  unfold tuple_class in Hcl. now destruct (leaves r).
Qed.
Print Assumptions unversioned_tuple_partial.
