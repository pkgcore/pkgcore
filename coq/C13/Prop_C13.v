From Coq Require Import List NArith Bool.
Import ListNotations.
From Verif Require Import C12.Model_C12 C13.Model_C13 C13.Spec_C13 C13.Proofs_C13.

(* THE STATEMENT: for every well-formed configuration (no incomplete token) and every package
   (LICENSE without empty groups), the filter the domain builds answers exactly
   "not masked net of unmasks, and some keyword accepted, and some LICENSE alternative accepted" *)
Theorem visible_is_spec : forall c p,
  wf_config c = true -> wf_pkg p = true -> visible c p = Visible (visible_spec c p).
Proof.
  intros c p Hc Hp. unfold wf_config in Hc. apply andb_true_iff in Hc as [Hk Hl].
  destruct (wf_accept c Hk) as [e He]. destruct (kw_conjunct_proof c p e Hk He) as [Hb Hkw].
  unfold visible, visible_with, visible_spec.
  rewrite He, Hb, Hkw, mask_conjunct_proof, (license_conjunct_proof c p Hl Hp).
  destruct (mask_spec c p); cbn [negb andb]; [|reflexivity]. destruct (kw_spec c p); reflexivity.
Qed.
Print Assumptions visible_is_spec.

(* conjunct (1): stacking repository, profile and user masks / unmasks with set operations is
   "the last mention of an atom decides", for every configuration and package *)
Theorem mask_conjunct : forall c p, mask_ok c p = mask_spec c p.
Proof. exact mask_conjunct_proof. Qed.
Print Assumptions mask_conjunct.

(* conjunct (2): default keywords, the stable/unstable split, the bucketed per-package data
   (collapsed_restrict_to_data) and the wildcard rules accept exactly the keywords the
   left-to-right reading of ACCEPT_KEYWORDS and the matching entries accepts; building the
   filter does not raise *)
Theorem keywords_conjunct : forall c p e,
  wf_kw_tokens c = true -> accept_set c = Ok e ->
  build_fails true true c (default_keys_of c e) p = false
  /\ kw_ok true true c (default_keys_of c e) p = inr (kw_spec c p).
Proof. exact kw_conjunct_proof. Qed.
Print Assumptions keywords_conjunct.

(* conjunct (3): USE evaluation + DNF alternatives + per-alternative ACCEPT_LICENSE expansion
   = the LICENSE formula under "license accepted by the token stream" *)
Theorem license_conjunct : forall c p,
  wf_lic_tokens c = true -> wf_pkg p = true -> lic_ok c p = inr (license_spec c p).
Proof. exact license_conjunct_proof. Qed.
Print Assumptions license_conjunct.

(* error mapping: the filter raises only when the configuration has an incomplete token *)
Theorem visible_raises_only_malformed : forall c p,
  wf_pkg p = true -> visible c p = Raises -> wf_config c = false.
Proof.
  intros c p Hp H. destruct (wf_config c) eqn:Hc; [|reflexivity].
  rewrite (visible_is_spec c p Hc Hp) in H. discriminate.
Qed.
Print Assumptions visible_raises_only_malformed.

(* the tree before fixes/C13-*.patch does not satisfy the statement (empty match-all entry on a
   stable system; ACCEPT_KEYWORDS wildcards without any entry) *)
Theorem pinned_refuted : ~ visible_is_spec_pinned.
Proof.
  intro H. specialize (H (cfg_plain [s_a1] [(EAlways, 0%N, [])]) (mk [] [] [s_ta1] []) eq_refl eq_refl).
  vm_compute in H. discriminate.
Qed.
Print Assumptions pinned_refuted.
Theorem pinned_refuted_wildcard :
  visible_pinned (cfg_plain [s_a1; W_ANY] []) (mk [] [] [s_tb2] []) = Visible false
  /\ visible_spec (cfg_plain [s_a1; W_ANY] []) (mk [] [] [s_tb2] []) = true.
Proof. vm_compute. split; reflexivity. Qed.
Print Assumptions pinned_refuted_wildcard.
