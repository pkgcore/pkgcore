(* C29/ViewExec_C29.v — the executable views of the correspondence (vdb_view / bin_view enumerate
   the association list) are the declarative view of the theorems (listed / content are pointwise
   lookups) on a filesystem laid out as a repository ([repo_shaped]); hence equal declarative
   views give equal executable views. *)
From Coq Require Import List Bool.
Import ListNotations.
From Verif Require Import Base.Val C18.Fs C18.FsLemmas C29.Model_C29 C29.Spec_C29 C29.Proofs_C29.

Lemma In_lookup s p n : NoDup (keys s) -> In (p, n) s -> lookup s p = Some n.
Proof.
  induction s as [|[q m] s IH]; cbn; [tauto|]. intros Hnd [H|H].
  - injection H as -> ->. destruct (path_eq_dec p p); congruence.
  - inversion Hnd as [|? ? Hq Hnd']; subst. destruct (path_eq_dec p q) as [->|].
    + exfalso. apply Hq. unfold keys. apply in_map_iff. now exists (q, n).
    + now apply IH.
Qed.

Lemma In_children s d nm n : In (nm, n) (children s d) <-> In (d ++ [nm], n) s.
Proof.
  unfold children. rewrite in_flat_map. split.
  - intros [[p m] [He H]]. cbn [fst snd] in H. destruct p as [|x p]; [destruct H|].
    destruct (path_eq_dec (parent (x :: p)) d) as [<-|]; [|destruct H].
    destruct H as [H|[]]. injection H as <- <-.
    rewrite (app_removelast_last (l := x :: p) []) in He by discriminate. exact He.
  - intro H. exists (d ++ [nm], n). split; [exact H|]. cbn [fst snd].
    destruct (d ++ [nm]) as [|x p] eqn:E; [apply app_eq_nil in E as [_ E]; discriminate|].
    rewrite <- E. unfold parent. rewrite removelast_last, last_last.
    destruct (path_eq_dec d d); [now left|congruence].
Qed.

Definition nodes_named (sel : node -> bool) (s : fs) (d : path) : list str :=
  map fst (filter (fun e => sel (snd e)) (children s d)).
Lemma In_nodes_named sel s d nm :
  NoDup (keys s) ->
  In nm (nodes_named sel s d) <-> exists n, lookup s (d ++ [nm]) = Some n /\ sel n = true.
Proof.
  intro Hnd. unfold nodes_named. rewrite in_map_iff. split.
  - intros [[nm' n] [E H]]. cbn in E. subst nm'. apply filter_In in H as [H Hs]. cbn in Hs.
    apply In_children in H. exists n. split; [now apply In_lookup|exact Hs].
  - intros [n [H Hs]]. exists (nm, n). split; [reflexivity|]. apply filter_In. split; [|exact Hs].
    apply In_children. now apply lookup_In.
Qed.

Lemma forallb_false {A} (f : A -> bool) l : forallb f l = false -> exists x, In x l /\ f x = false.
Proof.
  induction l as [|a l IH]; cbn; [discriminate|]. destruct (f a) eqn:E; cbn.
  - intro H. destruct (IH H) as [x [Hx Hf]]. exists x. auto.
  - intros _. exists a. auto.
Qed.

Definition catdir (s : fs) (loc : path) (c : str) : bool :=
  match lookup s (loc ++ [c]) with Some n => is_dir_node n | None => false end.

Section Generic.
  Variable catf : str -> bool.      (* the category filter the executable view applies *)
  Variable cat_ok : str -> bool.    (* the one of the declarative view *)
  Variable skip : str -> bool.
  Variable as_dir : bool.
  Variable loc : path.
  Let sel (n : node) : bool := if as_dir then is_dir_node n else is_file_node n.
  Notation listed := (listed cat_ok skip as_dir loc).

  Definition gen_pkgs (s : fs) : list (str * str) :=
    flat_map (fun c => map (fun x => (c, x)) (filter (fun x => negb (skip x)) (nodes_named sel s (loc ++ [c]))))
             (filter catf (nodes_named is_dir_node s loc)).

  (* the repository is laid out as one: packages sit in category directories, and the two
     category filters agree on the directories that exist *)
  Definition repo_shaped (s : fs) : Prop :=
    NoDup (keys s)
    /\ (forall c x, listed s c x = true -> catdir s loc c = true)
    /\ (forall c, catdir s loc c = true -> catf c = cat_ok c).

  Lemma In_gen_pkgs s c x : repo_shaped s -> In (c, x) (gen_pkgs s) <-> listed s c x = true.
  Proof.
    intros [Hnd [Hcat Hf]]. unfold gen_pkgs. rewrite in_flat_map. split.
    - intros [c' [Hc H]]. apply in_map_iff in H as [x' [E H]]. injection E as -> ->.
      apply filter_In in Hc as [Hc Hcf]. apply filter_In in H as [H Hs].
      apply In_nodes_named in Hc as [n [Hn Hd]]; [|exact Hnd].
      apply In_nodes_named in H as [m [Hm Hsel]]; [|exact Hnd].
      rewrite <- app_assoc in Hm. cbn in Hm.
      assert (Hcd : catdir s loc c = true) by (unfold catdir; now rewrite Hn).
      unfold Spec_C29.listed. rewrite <- (Hf c Hcd), Hcf, Hs, Hm. cbn. exact Hsel.
    - intro H. pose proof (Hcat _ _ H) as Hcd. apply listed_true_iff in H as (Hc & Hs & Hl).
      apply negb_true_iff in Hs.
      exists c. split.
      + apply filter_In. split; [|now rewrite (Hf c Hcd)].
        apply In_nodes_named; [exact Hnd|]. unfold catdir in Hcd.
        destruct (lookup s (loc ++ [c])) as [n|]; [|discriminate]. now exists n.
      + apply in_map_iff. exists x. split; [reflexivity|]. apply filter_In. split; [|exact Hs].
        apply In_nodes_named; [exact Hnd|]. rewrite <- app_assoc. cbn.
        unfold node_listed in Hl. destruct (lookup s (loc ++ [c; x])) as [m|]; [|discriminate]. now exists m.
  Qed.

  Variable okname : str -> bool.
  Variable entry : fs -> str -> str -> val.
  Definition gen_view (s : fs) : val :=
    if forallb (fun cx => okname (snd cx)) (gen_pkgs s)
    then VL (map (fun cx => entry s (fst cx) (snd cx)) (gen_pkgs s))
    else VErr INVALIDCPV.

  (* membership both ways, not list equality: the order of the executable view is that of the
     association list *)
  Definition exec_is_view (s : fs) (v : val) : Prop :=
    (v = VErr INVALIDCPV /\ exists c x, listed s c x = true /\ okname x = false)
    \/ (exists l, v = VL l /\ (forall c x, listed s c x = true -> okname x = true)
                  /\ forall e, In e l <-> exists c x, listed s c x = true /\ e = entry s c x).

  Lemma gen_view_is_view s : repo_shaped s -> exec_is_view s (gen_view s).
  Proof.
    intro Hs. unfold gen_view. destruct (forallb _ _) eqn:E.
    - right. eexists. split; [reflexivity|]. split.
      + intros c x H. rewrite forallb_forall in E. apply (E (c, x)). now apply In_gen_pkgs.
      + intro e. rewrite in_map_iff. split.
        * intros [[c x] [<- H]]. exists c, x. split; [now apply In_gen_pkgs in H|reflexivity].
        * intros [c [x [H ->]]]. exists (c, x). split; [reflexivity|now apply In_gen_pkgs].
    - left. split; [reflexivity|]. apply forallb_false in E as [[c x] [H Hf]].
      exists c, x. split; [now apply In_gen_pkgs in H|exact Hf].
  Qed.

  Hypothesis entry_ext :
    forall a b c x, listed a c x = true -> (forall rest, content loc a c x rest = content loc b c x rest) ->
                    entry a c x = entry b c x.
  Lemma gen_view_respects a b :
    repo_shaped a -> repo_shaped b -> view_eq cat_ok skip as_dir loc a b ->
    (gen_view a = VErr INVALIDCPV /\ gen_view b = VErr INVALIDCPV)
    \/ exists la lb, gen_view a = VL la /\ gen_view b = VL lb /\ forall e, In e la <-> In e lb.
  Proof.
    intros Ha Hb Hv.
    assert (Hl : forall c x, listed a c x = listed b c x) by (intros c x; apply Hv).
    assert (He : forall c x, listed a c x = true -> entry a c x = entry b c x).
    { intros c x H. apply entry_ext; [exact H|]. now apply Hv. }
    destruct (gen_view_is_view a Ha) as [[Ea [c [x [H Hn]]]]|[la [Ea [Hoka Hia]]]];
      destruct (gen_view_is_view b Hb) as [[Eb [c' [x' [H' Hn']]]]|[lb [Eb [Hokb Hib]]]].
    - left. auto.
    - rewrite Hl in H. rewrite (Hokb _ _ H) in Hn. discriminate.
    - rewrite <- Hl in H'. rewrite (Hoka _ _ H') in Hn'. discriminate.
    - right. exists la, lb. split; [exact Ea|]. split; [exact Eb|]. intro e. rewrite Hia, Hib. split.
      + intros [c [x [H ->]]]. exists c, x. split; [now rewrite <- Hl|now apply He].
      + intros [c [x [H ->]]]. exists c, x. rewrite <- Hl in H. split; [exact H|symmetry; now apply He].
  Qed.
End Generic.

Definition vdb_entry (loc : path) (s : fs) (c x : str) : val :=
  VL [VS c; VS x;
      VL (map (fun k : str * bool => match content loc s c x [fst k] with
                        | Some d => VS (if snd k then rstrip_nl d else d)
                        | None => VNone end) (vdb_keys x))].
Definition vdb_shaped (loc : path) := repo_shaped vdb_cat_ok vdb_cat_ok vdb_skip true loc.

Lemma vdb_view_gen s loc :
  vdb_view s loc = gen_view vdb_cat_ok vdb_skip true loc simple_pf (vdb_entry loc) s.
Proof.
  unfold vdb_view, gen_view, gen_pkgs, subdirs, nodes_named, vdb_entry, content, read_key.
  match goal with |- (if ?a then VL (map ?f ?l) else _) = (if ?b then VL (map ?g ?l') else _) =>
    change l' with l; change b with a; destruct a; [|reflexivity]; f_equal; apply map_ext end.
  intros [c x]. cbn [fst snd]. do 5 f_equal. apply map_ext. intro k. now rewrite <- app_assoc.
Qed.

Definition bin_catf (c : str) : bool := negb (str_eqb (lower c) ALL).
Definition bin_entry (base : path) (s : fs) (c x : str) : val :=
  VL [VS c; VS (strip_ext x); match content base s c x [] with Some d => VS d | None => VNone end].
Definition bin_shaped (base : path) := repo_shaped bin_catf bin_cat_ok bin_skip false base.
Definition bin_okname (x : str) : bool := simple_pf (strip_ext x).

Lemma bin_view_gen s base :
  bin_view s base = gen_view bin_catf bin_skip false base bin_okname (bin_entry base) s.
Proof. reflexivity. Qed.

Lemma vdb_entry_ext loc a b c x :
  (forall rest, content loc a c x rest = content loc b c x rest) -> vdb_entry loc a c x = vdb_entry loc b c x.
Proof. intro H. unfold vdb_entry. do 5 f_equal. apply map_ext. intro k. now rewrite H. Qed.
Lemma bin_entry_ext base a b c x :
  (forall rest, content base a c x rest = content base b c x rest) -> bin_entry base a c x = bin_entry base b c x.
Proof. intro H. unfold bin_entry. now rewrite H. Qed.

Lemma isdir_snoc s d c : isdir s (d ++ [c]) = catdir s d c.
Proof. unfold isdir, catdir. destruct (d ++ [c]) eqn:E; [destruct d; discriminate|reflexivity]. Qed.
(* a function of the state, so that checking it on  run ops s0  evaluates the run once *)
Definition tree_shaped_b (s : fs) : bool :=
  nodupb path_eqb (keys s) && forallb (fun e => isdir s (parent (fst e))) s.
Lemma tree_vdb_shaped loc s : tree_shaped_b s = true -> vdb_shaped loc s.
Proof.
  intro H. apply andb_prop in H as [Hnd Ht]. split; [|split; [|reflexivity]].
  - apply (nodupb_NoDup path_eqb); [|exact Hnd]. intro x. unfold path_eqb. now destruct (path_eq_dec x x).
  - intros c x Hl. apply listed_true_iff in Hl as (_ & _ & Hl). unfold node_listed in Hl.
    destruct (lookup s (loc ++ [c; x])) as [n|] eqn:E; [|discriminate]. apply lookup_In in E.
    rewrite forallb_forall in Ht. specialize (Ht _ E). cbn [fst] in Ht.
    change [c; x] with ([c] ++ [x]) in Ht. unfold parent in Ht.
    now rewrite app_assoc, removelast_last, isdir_snoc in Ht.
Qed.

(* non-vacuity: the example vdb of Proofs_C29 is repo-shaped *)
Example ex_shaped : vdb_shaped [Ex.v] Ex.s0 /\ vdb_shaped [Ex.v] (run Ex.install_ops Ex.s0).
Proof. split; apply tree_vdb_shaped; vm_compute; reflexivity. Qed.
