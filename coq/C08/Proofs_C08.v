(* Proofs_C08.v — the candidate search never loses a matching package and yields no key twice,
   hence a query is exactly the brute-force filter of the repository.  What carries the first: a
   matching package satisfies some clause of the DNF (C06: the tree implies its DNF); the prunable
   leaves of a true clause are un-negated and true; the prunable leaves of the clauses are those of
   the tree (C06: the literals of a DNF). *)
From Coq Require Import List NArith Bool.
Import ListNotations.
From Verif Require Import Base.Val Base.Lists C06.Restr C06.RestrInd C06.Model_C06 C06.Proofs_C06
  C08.Ord_C08 C08.Model_C08 C08.Spec_C08.

Lemma dedup_In s l : In s (dedup l) <-> In s l.
Proof.
  induction l as [|x l IH]; cbn; [tauto|].
  destruct (mem_str x l) eqn:E.
  - rewrite IH. apply existsb_str_In in E. split; [auto|]. intros [<-|H]; auto.
  - cbn. rewrite IH. tauto.
Qed.
Lemma dedup_NoDup l : NoDup (dedup l).
Proof.
  induction l as [|x l IH]; cbn; [constructor|].
  destruct (mem_str x l) eqn:E; [assumption|].
  constructor; [|assumption]. rewrite dedup_In, <- existsb_str_In. unfold mem_str in E. congruence.
Qed.

Lemma prefixb_refl s : prefixb s s = true.
Proof. induction s as [|x s IH]; cbn; [reflexivity|]. now rewrite N.eqb_refl. Qed.
Lemma substrb_refl s : substrb s s = true.
Proof. destruct s; cbn; [reflexivity|]. now rewrite N.eqb_refl, prefixb_refl. Qed.

Lemma assoc_in_keys {B} k (l : list (str * B)) : In k (map fst l) -> exists v, assoc k l = Some v.
Proof.
  induction l as [|[k' v] l IH]; cbn; [tauto|]. intros H.
  destruct (str_eqb k k') eqn:E; [eauto|]. destruct H as [<-|H]; [|auto].
  rewrite str_eqb_refl in E. discriminate.
Qed.
Lemma assoc_In {B} k (l : list (str * B)) v : assoc k l = Some v -> In (k, v) l.
Proof.
  induction l as [|[k' v'] l IH]; cbn; [discriminate|].
  destruct (str_eqb k k') eqn:E; [|auto]. intros [= <-].
  apply str_eqb_eq in E. subst. now left.
Qed.
Lemma assoc_nodup {B} k (l : list (str * B)) v : NoDup (map fst l) -> In (k, v) l -> assoc k l = Some v.
Proof.
  induction l as [|[k' v'] l IH]; cbn; [tauto|]. intros Hnd H. inversion Hnd as [|? ? Hnot Hnd']; subst.
  destruct H as [[= -> ->]|H]; [now rewrite str_eqb_refl|].
  destruct (str_eqb k k') eqn:E; [|auto]. apply str_eqb_eq in E. subst.
  destruct Hnot. apply (in_map fst _ _ H).
Qed.

Lemma has_cp_in R c p : In p (packages_get R c) -> has_cp R (c, p) = true.
Proof.
  unfold packages_get, has_cp. cbn [fst snd]. destruct (assoc c R) as [ps|]; [|intros []].
  intros H. now destruct (assoc_in_keys _ _ H) as [v ->].
Qed.
Lemma in_cps_of R cats c p : In c cats -> In p (packages_get R c) -> In (c, p) (cps_of R cats).
Proof. intros Hc Hp. apply in_flat_map. exists c. split; [assumption|]. now apply in_map. Qed.

Lemma pl_negs cs : flat_map (pl true) (map Neg cs) = [].
Proof. induction cs; cbn; auto. Qed.

Lemma pl_tree_lits r : forall y, In y (flat_map (pl true) (tree_lits r)) <-> In y (pl true r).
Proof.
  induction r as [| |r _|k n cs IH] using restr_ind'; intros y;
    try (cbn [tree_lits flat_map]; now rewrite app_nil_r).
  rewrite Forall_forall in IH.
  assert (Hgrp : In y (flat_map (pl true) (if n then map Neg cs else flat_map tree_lits cs))
                 <-> In y (if n then [] else flat_map (pl true) cs)).
  { destruct n; [now rewrite pl_negs|]. rewrite !in_flat_map. split.
    - intros [lit [Hl Hy]]. apply in_flat_map in Hl as [c [Hc Hl]]. exists c. split; [assumption|].
      apply IH; [assumption|]. apply in_flat_map. eauto.
    - intros [c [Hc Hy]]. apply IH in Hy; [|assumption]. apply in_flat_map in Hy as [lit [Hl Hy]].
      exists lit. split; [|assumption]. apply in_flat_map. eauto. }
  destruct k; cbn [tree_lits pl]; try (destruct n; exact Hgrp); cbn; tauto.
Qed.

Lemma dnf_leaves r s : dnf true r = inl s ->
  forall x, In x (pl true r) <-> exists cl, In cl s /\ In x (flat_map (pl true) cl).
Proof.
  intros Hs x. rewrite <- pl_tree_lits, in_flat_map. split.
  - intros [lit [Hlit Hx]]. apply (dnf_lits r s Hs), in_concat in Hlit as [cl [Hcl Hlit]].
    exists cl. split; [assumption|]. apply in_flat_map. eauto.
  - intros [cl [Hcl Hx]]. apply in_flat_map in Hx as [lit [Hlit Hx]].
    exists lit. split; [|assumption]. apply (dnf_lits r s Hs), in_concat. eauto.
Qed.

Section Fast.
  Variable w : world.
  Variable R : repo.

  (* the value restrictions collected for one attribute let the string through: none was
     collected, or one of them matches it *)
  Definition sel_ok (ms : list vmatch) (s : str) : Prop :=
    ms = [] \/ exists m, In m ms /\ vm w m s = true.

  Lemma any_match_intro ms sen s m : In m ms -> vm w m s = sen -> any_match w ms sen s = true.
  Proof.
    intros Hin Hv. apply existsb_exists. exists m. split; [assumption|]. rewrite Hv. apply eqb_reflx.
  Qed.
  Lemma any_match_app a b sen s : any_match w (a ++ b) sen s = any_match w a sen s || any_match w b sen s.
  Proof. apply existsb_app. Qed.
  Lemma exacts_In s ms : In s (exacts ms) <-> In (MExact s false) ms.
  Proof.
    unfold exacts. rewrite dedup_In, in_flat_map. split.
    - intros [[s' [|]| | |] [Hm Hs]]; try contradiction. now destruct Hs as [<-|[]].
    - intros H. exists (MExact s false). split; [assumption|now left].
  Qed.
  Lemma rest_In m ms : In m (rest ms) <-> In m ms /\ is_exact m = false.
  Proof. unfold rest. now rewrite filter_In, negb_true_iff. Qed.

  (* how _fast_identify_candidates splits them: the string is one of the exact names, or one of
     the other restrictions matches it *)
  Lemma sel_cases ms s : sel_ok ms s -> ms <> [] ->
    In s (exacts ms) \/ any_match w (rest ms) true s = true.
  Proof.
    intros [->|[m [Hin Hv]]] Hne; [congruence|]. destruct (is_exact m) eqn:E.
    - left. destruct m as [s1 [|]| | |]; try discriminate.
      cbn in Hv. rewrite xorb_false_r in Hv. apply str_eqb_eq in Hv. subst s1. now apply exacts_In.
    - right. apply (any_match_intro _ _ _ m); [now apply rest_In|assumption].
  Qed.
  Lemma sel_filter ms s : sel_ok ms s -> ms <> [] ->
    any_match w (rest ms ++ [MContain (exacts ms)]) true s = true.
  Proof.
    intros Hs Hne. rewrite any_match_app. destruct (sel_cases ms s Hs Hne) as [H| ->]; [|reflexivity].
    rewrite orb_true_iff. right. apply (any_match_intro _ _ _ (MContain (exacts ms))); [now left|].
    apply existsb_exists. exists s. split; [assumption|apply substrb_refl].
  Qed.
  Lemma exacts_ne ms x l : exacts ms = x :: l -> ms <> [].
  Proof. now intros H ->. Qed.
  Lemma rest_ne ms x l : rest ms = x :: l -> ms <> [].
  Proof. now intros H ->. Qed.

  Variables c p : str.
  Hypothesis Hc : In c (categories R).
  Hypothesis Hp : In p (packages_get R c).

  Lemma in_package_filter cats ms : In c cats -> any_match w ms true p = true ->
    In (c, p) (package_filter w R cats ms false).
  Proof.
    intros Hcat Hm. apply in_flat_map. exists c. split; [assumption|].
    apply in_map, filter_In. now split.
  Qed.
  Lemma in_cat_filter ms : any_match w ms true c = true -> In c (cat_filter w R ms false).
  Proof. intros Hm. apply filter_In. now split. Qed.

  Lemma fast_pkgs_complete pms cats : In c cats -> sel_ok pms p ->
    In (c, p) (fast_pkgs w R false cats (exacts pms) (rest pms)).
  Proof.
    intros Hcat Hsel. unfold fast_pkgs.
    destruct (exacts pms) as [|p0 pe] eqn:Ee, (rest pms) as [|m pr] eqn:Er.
    - now apply in_cps_of.
    - apply in_package_filter; [assumption|].
      destruct (sel_cases pms p Hsel (rest_ne _ _ _ Er)) as [H|H]; rewrite ?Ee, ?Er in H; [destruct H|exact H].
    - apply in_flat_map. exists c. split; [assumption|]. apply in_map.
      destruct (sel_cases pms p Hsel (exacts_ne _ _ _ Ee)) as [H|H]; rewrite ?Ee, ?Er in H; [exact H|discriminate].
    - apply in_package_filter; [assumption|]. rewrite <- Ee, <- Er.
      apply sel_filter; [assumption|exact (rest_ne _ _ _ Er)].
  Qed.

  Lemma fast_body_complete cms pms : sel_ok cms c -> sel_ok pms p ->
    In (c, p) (fast_body w R false (exacts cms) (rest cms) (exacts pms) (rest pms)).
  Proof.
    intros Hsc Hsp. unfold fast_body.
    (* the categories the exact names and the other restrictions together let through *)
    assert (Hboth : forall c0 ce, exacts cms = c0 :: ce ->
              In (c, p) (fast_pkgs w R false (cat_filter w R (rest cms ++ [MContain (exacts cms)]) false)
                                   (exacts pms) (rest pms))).
    { intros c0 ce E. apply fast_pkgs_complete; [|assumption].
      apply in_cat_filter, sel_filter; [assumption|exact (exacts_ne _ _ _ E)]. }
    destruct (exacts cms) as [|c0 ce] eqn:E1, (rest cms) as [|m cr] eqn:E2.
    - now apply fast_pkgs_complete.
    - apply fast_pkgs_complete; [|assumption]. apply in_cat_filter.
      destruct (sel_cases cms c Hsc (rest_ne _ _ _ E2)) as [H|H]; rewrite ?E1, ?E2 in H; [destruct H|exact H].
    - destruct ce as [|c1 ce]; [|exact (Hboth _ _ eq_refl)].
      destruct (sel_cases cms c Hsc (exacts_ne _ _ _ E1)) as [H|H]; rewrite ?E1, ?E2 in H; [|discriminate].
      destruct H as [->|[]].
      destruct (rest pms) as [|pm pr] eqn:E3, (exacts pms) as [|p0 [|p1 pe]] eqn:E4;
        try (rewrite <- E3, <- E4; apply fast_pkgs_complete; [now left|assumption]).
      destruct (sel_cases pms p Hsp (exacts_ne _ _ _ E4)) as [H|H]; rewrite ?E3, ?E4 in H; [|discriminate].
      destruct H as [->|[]]. rewrite (has_cp_in _ _ _ Hp). now left.
    - exact (Hboth _ _ eq_refl).
  Qed.

  Lemma fast_complete_pos r : rneg r = false ->
    sel_ok (cat_ms w (pl false r)) c -> sel_ok (pkg_ms w (pl false r)) p -> In (c, p) (fast w R r).
  Proof. intros Hn Hsc Hsp. unfold fast. rewrite Hn. now apply fast_body_complete. Qed.

  Lemma fast_complete_nocoll r : pl false r = [] -> In (c, p) (fast w R r).
  Proof. intros H. unfold fast. rewrite H. cbn. destruct (rneg r); cbn; now apply in_cps_of. Qed.
End Fast.

Lemma existsb_neq_false {A} (g : A -> bool) spec l :
  existsb (fun x => negb (Bool.eqb (g x) spec)) l = false -> forall x, In x l -> g x = spec.
Proof.
  intros H x Hx. apply (proj1 (existsb_false _ _) H), negb_false_iff in Hx. now apply eqb_prop.
Qed.
Lemma existsb_neq_true {A} (g : A -> bool) (d0 : A) l :
  existsb (fun x => negb (Bool.eqb (g x) (g d0))) l = true -> exists e, In e (d0 :: l) /\ g e = false.
Proof.
  intros H. apply existsb_exists in H as [x [Hx Hne]]. apply negb_true_iff, eqb_false_iff in Hne.
  destruct (g d0) eqn:E0.
  - exists x. split; [now right|]. destruct (g x); congruence.
  - exists d0. split; [now left|assumption].
Qed.

Lemma first_some_leaf w cat cs s : first_some (leaf_exact w cat) cs = Some s ->
  exists i, In (Leaf false i) cs /\
    info w i = (if cat then LCat (MExact s false) else LPkg (MExact s false)).
Proof.
  induction cs as [|ch cs IH]; cbn; [discriminate|].
  destruct (leaf_exact w cat ch) as [s'|] eqn:E.
  - intros [= ->]. destruct ch as [[|] i| | |]; try discriminate. cbn in E.
    exists i. split; [now left|].
    destruct (info w i) as [[s1 [|]| | |]|[s1 [|]| | |]|]; destruct cat; try discriminate; now injection E as ->.
  - intros H. destruct (IH H) as [i [Hi Hinfo]]. exists i. split; [now right|assumption].
Qed.

Section Complete.
  Variable w : world.
  Variable R : repo.
  Variable o : pobj.
  Variables c p : str.
  Hypothesis Hattr : has_attrs o = true.
  Hypothesis Hkey : okey o = (c, p).
  Hypothesis Hc : In c (categories R).
  Hypothesis Hp : In p (packages_get R c).

  Definition fcat (d : leafdesc) : list vmatch := match d with LCat m => [m] | _ => [] end.
  Definition fpkg (d : leafdesc) : list vmatch := match d with LPkg m => [m] | _ => [] end.
  Definition gms (f : leafdesc -> list vmatch) (l : list (bool * N)) : list vmatch :=
    flat_map (fun x => f (info w (snd x))) l.
  Definition csel (f : leafdesc -> list vmatch) (cl : clause) : list vmatch :=
    gms f (flat_map (pl true) cl).
  (* these are the model's collectors, spelled with the attribute as a parameter *)
  Lemma gms_cat l : gms fcat l = cat_ms w l.
  Proof. reflexivity. Qed.
  Lemma gms_pkg l : gms fpkg l = pkg_ms w l.
  Proof. reflexivity. Qed.
  Lemma clause_cp_fst cl : fst (clause_cp w cl) = csel fcat cl.
  Proof. reflexivity. Qed.
  Lemma clause_cp_snd cl : snd (clause_cp w cl) = csel fpkg cl.
  Proof. reflexivity. Qed.

  (* the value restrictions [f] picks out of a leaf are applied to the string s of o *)
  Definition reads (f : leafdesc -> list vmatch) (s : str) : Prop :=
    forall i m, In m (f (info w i)) -> base w o i = vm w m s.

  Lemma base_key i : base w o i =
    match info w i with LCat m => vm w m c | LPkg m => vm w m p | LOther k => opq w k o end.
  Proof. destruct o; try discriminate; cbn in Hkey; injection Hkey as -> ->; reflexivity. Qed.
  Lemma reads_cat : reads fcat c.
  Proof. intros i m Hm. rewrite base_key. destruct (info w i); try contradiction. now destruct Hm as [<-|[]]. Qed.
  Lemma reads_pkg : reads fpkg p.
  Proof. intros i m Hm. rewrite base_key. destruct (info w i); try contradiction. now destruct Hm as [<-|[]]. Qed.

  (* a collection all of whose leaves are un-negated and true at o *)
  Definition all_true (coll : list (bool * N)) : Prop :=
    forall x, In x coll -> fst x = false /\ base w o (snd x) = true.

  Lemma all_true_gms f s coll : reads f s -> all_true coll ->
    forall m, In m (gms f coll) -> vm w m s = true.
  Proof.
    intros Hr Ht m Hm. apply in_flat_map in Hm as [x [Hx Hm]].
    rewrite <- (Hr _ _ Hm). exact (proj2 (Ht x Hx)).
  Qed.
  Lemma all_true_sel f s coll : reads f s -> all_true coll -> sel_ok w (gms f coll) s.
  Proof.
    intros Hr Ht. destruct (gms f coll) as [|m l] eqn:E; [now left|]. right. exists m. split; [now left|].
    apply (all_true_gms f s coll Hr Ht). rewrite E. now left.
  Qed.

  Lemma fast_complete_all_true r : rneg r = false -> all_true (pl false r) -> In (c, p) (fast w R r).
  Proof.
    intros Hn Ht. apply fast_complete_pos; try assumption.
    - rewrite <- gms_cat. exact (all_true_sel fcat c _ reads_cat Ht).
    - rewrite <- gms_pkg. exact (all_true_sel fpkg p _ reads_pkg Ht).
  Qed.

  (* the queried restriction is a lone wrapper-negated leaf: the filters look for a restriction
     that does NOT match *)
  Lemma fast_complete_negleaf i : base w o i = false -> In (c, p) (fast w R (Leaf true i)).
  Proof.
    rewrite base_key. intros Hb. unfold fast. cbn [pl rneg andb cat_ms pkg_ms flat_map snd]. rewrite !app_nil_r.
    destruct (info w i) as [m|m|k]; cbn [rest filter fast_body]; [| |now apply in_cps_of];
      (destruct (is_exact m); cbn [negb fast_body fast_pkgs]; [now apply in_cps_of|]).
    - apply in_cps_of; [|assumption]. apply filter_In. split; [assumption|].
      apply (any_match_intro w _ _ _ m); [now left|assumption].
    - apply in_flat_map. exists c. split; [assumption|]. apply in_map, filter_In. split; [assumption|].
      apply (any_match_intro w _ _ _ m); [now left|assumption].
  Qed.

  Lemma clause_all_true r s cl : dnf true r = inl s -> In cl s ->
    forallb (eval (base w o)) cl = true -> all_true (flat_map (pl true) cl).
  Proof.
    intros Hs Hcl Hev x Hx. apply in_flat_map in Hx as [lit [Hlit Hx]].
    assert (Hshape : is_literal lit = true).
    { apply (tree_lits_shape r), (dnf_lits r s Hs), in_concat. eauto. }
    rewrite forallb_forall in Hev. specialize (Hev lit Hlit).
    destruct lit as [[|] i|b|r'|k n cs]; cbn [pl andb] in Hx; try contradiction.
    - destruct Hx as [<-|[]]. cbn in Hev. now rewrite xorb_false_r in Hev.
    - destruct k; try discriminate; destruct n; contradiction.
  Qed.

  Lemma true_clause_sel f s0 cl : reads f s0 -> all_true (flat_map (pl true) cl) ->
    nonempty (csel f cl) = true -> exists m, In m (csel f cl) /\ vm w m s0 = true.
  Proof.
    intros Hr Ht Hne. destruct (csel f cl) as [|m l] eqn:E; [discriminate|].
    exists m. split; [now left|]. apply (all_true_gms f s0 _ Hr Ht). fold (csel f cl). rewrite E. now left.
  Qed.

  (* [proj] is one component (categories / packages) of the clause entries d0 :: tl = dsolutions *)
  Section Side.
    Variable f : leafdesc -> list vmatch.
    Variable s0 : str.
    Variable proj : list vmatch * list vmatch -> list vmatch.
    Hypothesis Hr : reads f s0.
    Hypothesis Hproj : forall cl, proj (clause_cp w cl) = csel f cl.
    Variables (r : restr) (s : list clause) (cl : clause) (d0 : list vmatch * list vmatch) (tl : list (list vmatch * list vmatch)).
    Hypothesis Hs : dnf true r = inl s.
    Hypothesis Eds : map (clause_cp w) s = d0 :: tl.
    Hypothesis Hcl : In cl s.
    Hypothesis Ht : all_true (flat_map (pl true) cl).
    Hypothesis Hunif : existsb (fun x => negb (Bool.eqb (nonempty (proj x)) (nonempty (proj d0)))) tl = false.

    Lemma unif_all cl' : In cl' s -> nonempty (csel f cl') = nonempty (proj d0).
    Proof.
      intros H. rewrite <- Hproj. apply (in_map (clause_cp w)) in H. rewrite Eds in H.
      destruct H as [<-|H]; [reflexivity|]. exact (existsb_neq_false (fun x => nonempty (proj x)) _ _ Hunif _ H).
    Qed.

    (* every clause names this component, or none does: the tree-level collection lets s0 through *)
    Lemma tree_sel : sel_ok w (gms f (pl true r)) s0.
    Proof.
      destruct (gms f (pl true r)) as [|m0 l0] eqn:E0; [now left|]. right.
      assert (H0 : In m0 (gms f (pl true r))) by (rewrite E0; now left).
      apply in_flat_map in H0 as [x [Hx Hm0]].
      apply (dnf_leaves r s Hs) in Hx as [cl' [Hcl' Hx']].
      assert (Hspec : nonempty (proj d0) = true).
      { rewrite <- (unif_all cl' Hcl'). destruct (csel f cl') eqn:E'; [|reflexivity].
        assert (H1 : In m0 (csel f cl')) by (apply in_flat_map; eauto). rewrite E' in H1. destruct H1. }
      destruct (true_clause_sel f s0 cl Hr Ht) as [m [Hm Hv]]; [now rewrite (unif_all cl Hcl)|].
      exists m. split; [|assumption]. rewrite <- E0. apply in_flat_map in Hm as [y [Hy Hm]].
      apply in_flat_map. exists y. split; [|assumption]. apply (dnf_leaves r s Hs). eauto.
    Qed.

    (* some clause does not name the other component, so it names this one: so do all, and the
       true clause's restriction is among those handed to the filter *)
    Lemma mixed_sel (other : list vmatch * list vmatch -> list vmatch) :
      (forall x, In x (d0 :: tl) -> nonempty (other x) = true \/ nonempty (proj x) = true) ->
      existsb (fun x => negb (Bool.eqb (nonempty (other x)) (nonempty (other d0)))) tl = true ->
      exists m, In m (flat_map proj (d0 :: tl)) /\ vm w m s0 = true.
    Proof.
      intros Hnone Eo.
      destruct (existsb_neq_true (fun x => nonempty (other x)) d0 tl Eo) as [e0 [He Hef]].
      destruct (Hnone e0 He) as [H|H]; [congruence|].
      assert (Hspec : nonempty (proj d0) = true).
      { rewrite <- H. destruct He as [<-|He]; [reflexivity|]. symmetry.
        exact (existsb_neq_false (fun x => nonempty (proj x)) _ _ Hunif _ He). }
      destruct (true_clause_sel f s0 cl Hr Ht) as [m [Hm Hv]]; [now rewrite (unif_all cl Hcl)|].
      exists m. split; [|assumption]. apply in_flat_map. exists (clause_cp w cl).
      rewrite Hproj, <- Eds. split; [now apply in_map|assumption].
    Qed.
  End Side.

  Lemma identify_dnf_complete k n chs cs :
    matches w (Node k n chs) o = true -> identify_dnf w R (Node k n chs) = Some cs -> In (c, p) cs.
  Proof.
    set (r := Node k n chs). intros Hm Hid. unfold identify_dnf in Hid.
    destruct (dnf true r) as [s|] eqn:Hs; [|discriminate].
    pose proof (dnf_complete (base w o) r s Hs Hm) as Hd.
    apply existsb_exists in Hd as [cl [Hcl Hev]].
    pose proof (clause_all_true r s cl Hs Hcl Hev) as Htrue.
    destruct (existsb _ (map (clause_cp w) s)) eqn:Eall.
    { injection Hid as <-. now apply in_cps_of. }
    destruct (map (clause_cp w) s) as [|d0 tl] eqn:Eds; [discriminate|].
    assert (Hnone : forall x, In x (d0 :: tl) -> nonempty (fst x) = true \/ nonempty (snd x) = true).
    { intros x Hx. apply (proj1 (existsb_false _ _) Eall) in Hx.
      destruct (nonempty (fst x)), (nonempty (snd x)); auto; discriminate. }
    (* the two tests of Hid in turn: Ec, does some clause differ from the first in naming a category;
       Ep, the same for packages *)
    destruct (existsb _ tl) eqn:Ec in Hid; destruct (existsb _ tl) eqn:Ep in Hid; injection Hid as <-.
    - now apply in_cps_of.
    - (* some clause names no category; all name packages *)
      edestruct mixed_sel with (f := fpkg) (s0 := p) (proj := @snd (list vmatch) (list vmatch))
        (other := @fst (list vmatch) (list vmatch)) as [m [Hmin Hv]]; eauto using reads_pkg, clause_cp_snd.
      apply in_package_filter; try assumption. now apply (any_match_intro w _ _ _ m).
    - (* some clause names no package; all name categories *)
      edestruct mixed_sel with (f := fcat) (s0 := c) (proj := @fst (list vmatch) (list vmatch))
        (other := @snd (list vmatch) (list vmatch)) as [m [Hmin Hv]]; eauto using reads_cat, clause_cp_fst.
      { intros x Hx. now apply or_comm, Hnone. }
      apply in_cps_of; [|assumption]. apply in_cat_filter; try assumption. now apply (any_match_intro w _ _ _ m).
    - (* every clause names the same kinds: the fast path on the whole tree *)
      destruct n; [apply fast_complete_nocoll; try assumption; now destruct k|].
      apply fast_complete_pos; try assumption; [reflexivity| |]; change (pl false r) with (pl true r).
      + rewrite <- gms_cat.
        eapply tree_sel with (proj := @fst (list vmatch) (list vmatch)); eauto using reads_cat, clause_cp_fst.
      + rewrite <- gms_pkg.
        eapply tree_sel with (proj := @snd (list vmatch) (list vmatch)); eauto using reads_pkg, clause_cp_snd.
  Qed.

  Lemma identify_complete r cs : flat_atom r = true ->
    matches w r o = true -> identify w R r = Some cs -> In (c, p) cs.
  Proof.
    intros Hfa Hm Hid. unfold matches in Hm.
    (* an un-negated leaf that is true at o is an all-true collection *)
    assert (Hleaf : forall n i x, eval (base w o) (Leaf n i) = true -> In x (pl true (Leaf n i)) ->
              fst x = false /\ base w o (snd x) = true).
    { intros [|] i x H; [intros []|]. intros [<-|[]]. cbn in H. now rewrite xorb_false_r in H. }
    destruct r as [n i|b|r'|k n chs]; try (injection Hid as <-; now apply fast_complete_nocoll).
    - injection Hid as <-. destruct n.
      + apply fast_complete_negleaf. cbn in Hm. now destruct (base w o i).
      + apply fast_complete_all_true; [reflexivity|]. intros x. now apply Hleaf.
    - destruct k; try exact (identify_dnf_complete _ n chs cs Hm Hid).
      injection Hid as <-. destruct n; [now apply fast_complete_nocoll|].
      apply fast_complete_all_true; [reflexivity|]. cbn [pl].
      cbn [eval node_match] in Hm. rewrite and_loop_map, xorb_false_l in Hm.
      cbn [flat_atom] in Hfa. rewrite forallb_forall in Hm, Hfa.
      intros x Hx. apply in_flat_map in Hx as [ch [Hch Hx]].
      specialize (Hm ch Hch). specialize (Hfa ch Hch).
      destruct ch as [n i| | |]; try contradiction; [|discriminate]. now apply (Hleaf n i).
  Qed.

  Lemma atom_key_covers r k : matches w r o = true -> atom_key w r = Some k -> k = (c, p).
  Proof.
    intros Hm Hk. destruct r as [| | |[] [] chs]; try discriminate. cbn in Hk.
    destruct (first_some (leaf_exact w true) chs) as [c0|] eqn:Ec; [|discriminate].
    destruct (first_some (leaf_exact w false) chs) as [p0|] eqn:Ep; [|discriminate].
    injection Hk as <-. unfold matches in Hm. cbn [eval node_match] in Hm.
    rewrite and_loop_map, xorb_false_l, forallb_forall in Hm.
    destruct (first_some_leaf w true chs c0 Ec) as [i [Hi Hinfo]].
    destruct (first_some_leaf w false chs p0 Ep) as [j [Hj Hjnfo]].
    pose proof (Hm _ Hi) as H1. pose proof (Hm _ Hj) as H2. cbn in H1, H2.
    rewrite xorb_false_r, base_key in H1, H2. rewrite Hinfo in H1. rewrite Hjnfo in H2.
    cbn in H1, H2. rewrite xorb_false_r in H1, H2. apply str_eqb_eq in H1, H2. now subst.
  Qed.

  Theorem candidates_cover r cs : flat_atom r = true ->
    matches w r o = true -> candidates w R r = Some cs -> In (c, p) cs.
  Proof.
    intros Hfa Hm Hc0. unfold candidates in Hc0. destruct (atom_key w r) as [k|] eqn:Ek.
    - injection Hc0 as <-. left. exact (atom_key_covers r k Hm Ek).
    - exact (identify_complete r cs Hfa Hm Hc0).
  Qed.
End Complete.

Lemma NoDup_single {A} (a : A) : NoDup [a].
Proof. constructor; [intros []|constructor]. Qed.
Lemma NoDup_flat_map_key {A B} (f : A -> list B) (key : B -> A) l :
  NoDup l -> (forall a, NoDup (f a)) -> (forall a x, In x (f a) -> key x = a) -> NoDup (flat_map f l).
Proof.
  intros Hl Hf Hk. induction Hl as [|a l Hn Hnd IH]; cbn; [constructor|].
  apply NoDup_app. repeat split; auto. intros x Hx Hx'. apply in_flat_map in Hx' as [b [Hb Hxb]].
  apply Hk in Hx. apply Hk in Hxb. congruence.
Qed.
Lemma NoDup_pairs {A B} (f : A -> list B) l :
  NoDup l -> (forall a, NoDup (f a)) -> NoDup (flat_map (fun a => map (pair a) (f a)) l).
Proof.
  intros Hl Hf. apply (NoDup_flat_map_key _ fst); auto.
  - intros a. apply FinFun.Injective_map_NoDup; [|auto]. now intros x y [= ->].
  - intros a x H. now apply in_map_iff in H as [y [<- _]].
Qed.

(* what a query in mode m yields for the key (c, p) that has the versions vs *)
Definition mode_objs (m : mode) (c p : str) (vs : list ver) : list pobj :=
  match m with
  | MVersioned => map (PV c p) vs
  | MUnvCPV => if nonempty vs then [PU c p] else []
  | MUnvTuple => if nonempty vs then [PT c p] else []
  end.

Lemma mode_objs_key m c p vs o : In o (mode_objs m c p vs) -> okey o = (c, p).
Proof.
  destruct m; cbn; [intros H; now apply in_map_iff in H as [v [<- _]]|..];
    (destruct (nonempty vs); [now intros [<-|[]]|intros []]).
Qed.

Lemma in_universe R m o : In o (universe R m) <->
  exists c ps p vs, In (c, ps) R /\ In (p, vs) ps /\ In o (mode_objs m c p vs).
Proof.
  unfold universe. rewrite in_flat_map. split.
  - intros [[c ps] [Hc H]]. apply in_flat_map in H as [[p vs] [Hp H]].
    exists c, ps, p, vs. split; [assumption|]. split; [assumption|]. now destruct m, vs.
  - intros (c & ps & p & vs & Hc & Hp & H). exists (c, ps). split; [assumption|].
    apply in_flat_map. exists (p, vs). split; [assumption|]. now destruct m, vs.
Qed.

Lemma expand_eq R m c p : expand R m (c, p) = mode_objs m c p (versions_get R (c, p)).
Proof. reflexivity. Qed.

Lemma expand_in R m k o : In o (expand R m k) -> okey o = k /\ In o (universe R m).
Proof.
  destruct k as [c p]. rewrite expand_eq.
  intros H. split; [exact (mode_objs_key _ _ _ _ _ H)|]. apply in_universe.
  unfold versions_get in H. cbn [fst snd] in H.
  destruct (assoc c R) as [ps|] eqn:E1; [|now destruct m].
  destruct (assoc p ps) as [vs|] eqn:E2; [|now destruct m].
  exists c, ps, p, vs. auto using assoc_In.
Qed.

Section Exact.
  Variable w : world.
  Variable R : repo.
  Hypothesis Hwf : repo_wf R.

  Lemma nodup_categories : NoDup (categories R).
  Proof. exact (proj1 Hwf). Qed.
  Lemma wf_entry c ps : In (c, ps) R ->
    NoDup (map fst ps) /\ Forall (fun pvs => NoDup (snd pvs)) ps.
  Proof. intros H. destruct Hwf as [_ H2]. rewrite Forall_forall in H2. exact (H2 _ H). Qed.
  Lemma nodup_packages c : NoDup (packages_get R c).
  Proof.
    unfold packages_get. destruct (assoc c R) as [ps|] eqn:E; [|constructor].
    apply assoc_In in E. exact (proj1 (wf_entry _ _ E)).
  Qed.
  Lemma nodup_versions k : NoDup (versions_get R k).
  Proof.
    unfold versions_get. destruct (assoc (fst k) R) as [ps|] eqn:E; [|constructor].
    destruct (assoc (snd k) ps) as [vs|] eqn:E2; [|constructor].
    apply assoc_In in E. apply assoc_In in E2. destruct (wf_entry _ _ E) as [_ H].
    rewrite Forall_forall in H. exact (H _ E2).
  Qed.

  Lemma nodup_cps_of cats : NoDup cats -> NoDup (cps_of R cats).
  Proof. intros H. apply NoDup_pairs; [assumption|apply nodup_packages]. Qed.
  Lemma nodup_package_filter cats ms neg : NoDup cats -> NoDup (package_filter w R cats ms neg).
  Proof.
    intros H. apply (NoDup_pairs (fun c => filter (any_match w ms (negb neg)) (packages_get R c))); [assumption|].
    intros c. apply NoDup_filter, nodup_packages.
  Qed.
  Lemma nodup_cat_filter ms neg : NoDup (cat_filter w R ms neg).
  Proof. apply NoDup_filter, nodup_categories. Qed.

  Lemma fast_pkgs_nodup neg cats pe pr : NoDup cats -> NoDup pe -> NoDup (fast_pkgs w R neg cats pe pr).
  Proof.
    intros Hc Hp. unfold fast_pkgs. destruct pe as [|p0 pe]; destruct pr as [|m pr];
      auto using nodup_cps_of, nodup_package_filter.
    apply (NoDup_pairs (fun _ => p0 :: pe)); auto.
  Qed.
  Lemma fast_body_nodup neg ce cr pe pr : NoDup ce -> NoDup pe -> NoDup (fast_body w R neg ce cr pe pr).
  Proof.
    intros Hce Hpe. unfold fast_body.
    destruct ce as [|c0 [|c1 ce]]; destruct cr as [|m cr];
      try (apply fast_pkgs_nodup; auto using nodup_categories, nodup_cat_filter, NoDup_single).
    destruct pr as [|pm pr]; destruct pe as [|p0 [|p1 pe]];
      try (apply fast_pkgs_nodup; auto using NoDup_single).
    destruct (has_cp R (c0, p0)); [apply NoDup_single|constructor].
  Qed.
  Lemma fast_nodup r : NoDup (fast w R r).
  Proof. unfold fast. apply fast_body_nodup; destruct (rneg r); try constructor; apply dedup_NoDup. Qed.

  Theorem candidates_distinct r cs : candidates w R r = Some cs -> NoDup cs.
  Proof.
    unfold candidates. destruct (atom_key w r) as [k|]; [intros [= <-]; apply NoDup_single|].
    assert (Hd : identify_dnf w R r = Some cs -> NoDup cs).
    { unfold identify_dnf. destruct (dnf true r) as [s|]; [|discriminate].
      destruct (existsb _ (map (clause_cp w) s)).
      - intros [= <-]. apply nodup_cps_of, nodup_categories.
      - destruct (map (clause_cp w) s) as [|d0 tl]; [discriminate|].
        destruct (existsb _ tl); destruct (existsb _ tl); intros [= <-].
        + apply nodup_cps_of, nodup_categories.
        + apply nodup_package_filter, nodup_categories.
        + apply nodup_cps_of, nodup_cat_filter.
        + apply fast_nodup. }
    destruct r as [n i|b|r'|[] n chs]; cbn [identify]; try exact Hd; intros [= <-]; apply fast_nodup.
  Qed.

  (* under repo_wf the key of an object of the universe finds its versions again *)
  Lemma universe_expand m o : In o (universe R m) ->
    In o (expand R m (okey o)) /\ In (fst (okey o)) (categories R) /\
    In (snd (okey o)) (packages_get R (fst (okey o))).
  Proof.
    intros H. apply in_universe in H as [c [ps [p [vs [Hc [Hp Hm]]]]]].
    rewrite (mode_objs_key _ _ _ _ _ Hm). cbn [fst snd].
    assert (E1 : assoc c R = Some ps) by (apply assoc_nodup; [exact (proj1 Hwf)|assumption]).
    assert (E2 : assoc p ps = Some vs) by (apply assoc_nodup; [exact (proj1 (wf_entry _ _ Hc))|assumption]).
    split; [|split].
    - rewrite expand_eq. unfold versions_get. cbn [fst snd]. now rewrite E1, E2.
    - apply (in_map fst _ _ Hc).
    - unfold packages_get. rewrite E1. apply (in_map fst _ _ Hp).
  Qed.

  Lemma expand_nodup m k : NoDup (expand R m k).
  Proof.
    unfold expand. destruct m; try (destruct (nonempty _); [apply NoDup_single|constructor]).
    apply FinFun.Injective_map_NoDup; [|apply nodup_versions]. now intros x y [= ->].
  Qed.

  Theorem itermatch_exact m r got : flat_atom r = true -> m <> MUnvTuple ->
    itermatch w R m r = Some got -> exact_answer got (brute w R m r).
  Proof.
    intros Hfa Hm Hq. unfold itermatch in Hq. destruct (candidates w R r) as [cs|] eqn:Ec; [|discriminate].
    injection Hq as <-. split.
    - apply NoDup_filter, (NoDup_flat_map_key _ okey).
      + exact (candidates_distinct r cs Ec).
      + apply expand_nodup.
      + intros k x Hx. exact (proj1 (expand_in R m k x Hx)).
    - intros o. unfold brute. rewrite !filter_In. split; intros [Hin Hmatch]; (split; [|assumption]).
      + apply in_flat_map in Hin as [k [_ Hin]]. exact (proj2 (expand_in R m k o Hin)).
      + destruct (universe_expand m o Hin) as [Hexp [Hcat Hpkg]].
        apply in_flat_map. exists (okey o). split; [|assumption].
        assert (Hattr : has_attrs o = true).
        { apply in_universe in Hin as [c' [ps [p' [vs [_ [_ Ho]]]]]].
          destruct m; cbn in Ho; [now apply in_map_iff in Ho as [v [<- _]]| |congruence].
          destruct (nonempty vs); [now destruct Ho as [<-|[]]|destruct Ho]. }
        destruct (okey o) as [c p] eqn:Hk.
        exact (candidates_cover w R o c p Hattr Hk Hcat Hpkg r cs Hfa Hmatch Ec).
  Qed.
End Exact.

Theorem candidates_total w R r : exists cs, candidates w R r = Some cs.
Proof.
  unfold candidates. destruct (atom_key w r); [eauto|].
  assert (Hd : exists cs, identify_dnf w R r = Some cs).
  { unfold identify_dnf. destruct (dnf_total true r) as [s [-> Hne]].
    destruct (existsb _ (map (clause_cp w) s)); [eauto|].
    destruct s as [|cl s]; [congruence|]. cbn [map].
    destruct (existsb _ (map (clause_cp w) s)); destruct (existsb _ (map (clause_cp w) s)); eauto. }
  destruct r as [n i|b|r'|[] n chs]; cbn [identify]; eauto.
Qed.
