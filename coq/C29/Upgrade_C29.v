(* C29/Upgrade_C29.v — binpkg install next to other tarballs, and binpkg replace whose old and new
   tarball names differ (repaired code).

   replace.finalize_data = rename the new tarball in, then unlink the old one when its file name
   differs (version bump, 1.0 vs 1.0-r0).  Two names cannot be swapped atomically, so exactly one
   crash point remains at which BOTH tarballs are listed (each complete): the whole view is then
   neither the old nor the new one (known class binpkg-replace-both-listed-window), but never
   neither version and never a partial one. *)
From Coq Require Import List ZArith Bool.
Import ListNotations.
From Verif Require Import Base.Val C18.Fs C18.FsLemmas C29.Model_C29 C29.Spec_C29 C29.Proofs_C29 C29.Complete_C29.

Section BinReplace.
  Variable base : path.
  Notation vis := (visible bin_cat_ok bin_skip base).
  Notation out := (outside bin_cat_ok bin_skip base).
  (* the visible paths other than the tarball of cat/pf *)
  Notation others cat pf := (fun q => vis q /\ is_prefix (bin_final base cat pf) q = false).

  Lemma final_visible cat pf : bin_cat_ok cat = true -> bin_skip (pf ++ TBZ2) = false -> vis (bin_final base cat pf).
  Proof. intros Hc Hs. now exists cat, (pf ++ TBZ2), []. Qed.
  Lemma final_inj cat old pf : bin_final base cat old = bin_final base cat pf -> old ++ TBZ2 = pf ++ TBZ2.
  Proof. intro E. apply app_inv_head in E. now injection E. Qed.
  Lemma old_is_other cat old pf :
    bin_cat_ok cat = true -> bin_skip (old ++ TBZ2) = false -> old ++ TBZ2 <> pf ++ TBZ2 ->
    others cat pf (bin_final base cat old).
  Proof.
    intros Hc Hs Hne. split; [now apply final_visible|].
    destruct (is_prefix _ _) eqn:E; [|reflexivity]. exfalso. apply is_prefix_inv in E as [r E].
    unfold bin_final in E. rewrite <- app_assoc in E. apply app_inv_head in E. now injection E.
  Qed.

  Lemma bin_commit_others s cat pid pf chunks :
    Forall (avoids (others cat pf))
           (bin_stage s base cat pid pf chunks ++ [Rename (bin_tmp base cat pid pf) (bin_final base cat pf)]).
  Proof.
    apply Forall_app. split.
    - eapply Forall_impl; [|apply bin_stage_out]. intro o. apply avoids_mono. tauto.
    - repeat constructor. intros r [H|H] [Hv Hf]; [|congruence].
      apply is_prefix_inv in H as [r' ->]. exact (under_bin_tmp_invisible _ _ _ _ _ Hv).
  Qed.
  Lemma bin_install_others s cat pid pf chunks cache :
    Forall (avoids (others cat pf)) (bin_install_ops s base cat pid pf chunks cache).
  Proof.
    unfold bin_install_ops. rewrite app_assoc. apply Forall_app. split; [apply bin_commit_others|].
    eapply Forall_impl; [|apply bin_cache_out]. intro o. apply avoids_mono. tauto.
  Qed.

  Lemma unlink_old_avoids P s cat old pf :
    ~ P (bin_final base cat old) -> Forall (avoids P) (bin_unlink_old s base cat old pf).
  Proof.
    intro H. unfold bin_unlink_old. destruct (path_eq_dec _ _); [constructor|].
    destruct (bound _ _); repeat constructor. exact H.
  Qed.

  Lemma bin_replace_ops_split s cat pid old pf chunks cache :
    bin_replace_ops s base cat pid old pf chunks cache
    = (bin_stage s base cat pid pf chunks ++ [Rename (bin_tmp base cat pid pf) (bin_final base cat pf)])
      ++ bin_unlink_old s base cat old pf ++ bin_cache s base cache.
  Proof. unfold bin_replace_ops. now rewrite <- app_assoc. Qed.

  Lemma bin_cache_avoids_final s cat pf cache :
    bin_cat_ok cat = true -> bin_skip (pf ++ TBZ2) = false ->
    Forall (avoids (eq (bin_final base cat pf))) (bin_cache s base cache).
  Proof.
    intros Hc Hs. eapply Forall_impl; [|apply bin_cache_out]. intro o. apply avoids_mono.
    intros q <-. now apply final_visible.
  Qed.
  Lemma bin_replace_rest_avoids s cat old pf cache :
    bin_cat_ok cat = true -> bin_skip (pf ++ TBZ2) = false -> old ++ TBZ2 <> pf ++ TBZ2 ->
    Forall (avoids (eq (bin_final base cat pf))) (bin_unlink_old s base cat old pf ++ bin_cache s base cache).
  Proof.
    intros Hc Hs Hne. apply Forall_app. split; [|now apply bin_cache_avoids_final].
    apply unlink_old_avoids. intro E. symmetry in E. now apply final_inj in E.
  Qed.

  Lemma bin_replace_old_unlisted s cat pid old pf chunks cache s' :
    nolinks s -> bin_cat_ok cat = true -> bin_skip (old ++ TBZ2) = false -> old ++ TBZ2 <> pf ++ TBZ2 ->
    run_opt (bin_replace_ops s base cat pid old pf chunks cache) s = Some s' ->
    listed bin_cat_ok bin_skip false base s' cat (old ++ TBZ2) = false.
  Proof.
    intros Hn Hc Hs Hne H. unfold listed. change (lookup s' _) with (lookup s' (bin_final base cat old)).
    replace (lookup s' _) with (@None node); [apply andb_false_r|symmetry].
    rewrite bin_replace_ops_split, run_opt_app in H. step H t2 EA. rewrite run_opt_app in H. step H t3 EU.
    destruct (avoids_run_opt _ _ _ _ (bin_commit_others s cat pid pf chunks) Hn EA) as [N2 F2].
    assert (N3 : nolinks t3).
    { eapply (avoids_run_opt (fun _ => False)); [|exact N2|exact EU]. apply unlink_old_avoids. auto. }
    rewrite (proj2 (avoids_run_opt _ _ _ _ (bin_cache_out base s cache) N3 H)) by now apply final_visible.
    unfold bin_unlink_old in EU.
    destruct (path_eq_dec _ _) as [E|_]; [now apply final_inj in E|].
    unfold bound in EU. destruct (lookup s (bin_final base cat old)) eqn:Eb; cbn in EU.
    - destruct (lookup t2 _) as [m|]; [|discriminate]. destruct (is_dir_node m); [discriminate|].
      injection EU as <-. apply lookup_remove_same.
    - injection EU as <-. rewrite F2; [exact Eb|now apply old_is_other].
  Qed.
End BinReplace.

Definition bin_replace_full : Prop :=
  forall base s cat pid old pf chunks cache,
    nolinks s -> bin_consistent base (bin_replace_ops s base cat pid old pf chunks cache) s.

Module BEx.
  Definition b : str := s2l "b"%bs.
  Definition c : str := s2l "c"%bs.
  Definition pid : str := s2l "7"%bs.
  Definition p1 : str := s2l "p-1"%bs.
  Definition p2 : str := s2l "p-2"%bs.
  Definition s0 : fs :=
    [([b], Dir 493 0 0 5); ([b; c], Dir 493 0 0 5); ([b; c; p1 ++ TBZ2], File [1; 2]%N 420 0 0 5 1)].
  Definition ops := bin_replace_ops s0 [b] c pid p1 p2 [[3]%N; [4; 5]%N] [[6]%N].
  Lemma s0_nolinks : nolinks s0.
  Proof. now apply inos_nolinks. Qed.
End BEx.

Example bin_replace_example :
  (exists t, run_opt BEx.ops BEx.s0 = Some t)
  /\ bin_replace_lo BEx.s0 [BEx.b] BEx.c BEx.pid BEx.p2 [[3]%N; [4; 5]%N] = 4
  /\ bin_replace_hi BEx.s0 [BEx.b] BEx.c BEx.pid BEx.p1 BEx.p2 [[3]%N; [4; 5]%N] = 6
  /\ bin_view (run BEx.ops BEx.s0) [BEx.b] = VL [VL [VS BEx.c; VS BEx.p2; VS [3; 4; 5]%N]]
  /\ bin_view (run (firstn 5 BEx.ops) BEx.s0) [BEx.b]
     = VL [VL [VS BEx.c; VS BEx.p1; VS [1; 2]%N]; VL [VS BEx.c; VS BEx.p2; VS [3; 4; 5]%N]].
Proof. split; [apply some_ex|repeat split]; vm_compute; reflexivity. Qed.

(* crash point 5, between the rename and the unlink: both tarballs are listed *)
Lemma bin_replace_k5_neither : ~ bin_consistent [BEx.b] BEx.ops BEx.s0.
Proof.
  apply (not_consistent bin_cat_ok bin_skip false _ _ _ 5).
  - apply (listed_differs _ _ _ _ _ _ BEx.c (BEx.p2 ++ TBZ2)). vm_compute. discriminate.
  - apply (listed_differs _ _ _ _ _ _ BEx.c (BEx.p1 ++ TBZ2)). vm_compute. discriminate.
Qed.
