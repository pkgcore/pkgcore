(* Exact_C18.v — whole-merge exactness of the merge planner (Model_C18.merge) on the NoAlias
   domain: path resolution is the identity there, each step has one of a few shapes (the
   eliminators) and keeps the invariant Inv, and a successful merge is its two passes. *)
From Coq Require Import List ZArith Bool Lia.
Import ListNotations.
From Verif Require Import Base.Val Base.Lists C18.Fs C18.FsLemmas C18.Model_C18 C18.Spec_C18 C18.Proofs_C18.

(* if no symlink is met (at the last component only when it would be followed), a successful
   walk returns the path itself and every proper prefix is a directory *)
Lemma walk_ok : forall todo fuel s cur follow cp,
  walk fuel s cur todo follow = WOk cp ->
  Forall nodot todo ->
  (forall pre suf, todo = pre ++ suf -> pre <> [] -> (suf <> [] \/ follow = true) ->
     is_symo (lookup s (cur ++ pre)) = false) ->
  cp = cur ++ todo /\
  (forall pre suf, todo = pre ++ suf -> pre <> [] -> suf <> [] -> is_diro (lookup s (cur ++ pre)) = true).
Proof.
  induction todo as [|c rest IH]; intros fuel s cur follow cp Hw Hnd Hns.
  - destruct fuel; cbn in Hw; [discriminate|]. injection Hw as <-. split; [now rewrite app_nil_r|].
    intros pre suf E. destruct pre; [congruence|discriminate].
  - destruct fuel; cbn [walk] in Hw; [discriminate|].
    inversion Hnd as [|? ? [Hd1 Hd2] Hnd']; subst. rewrite Hd1, Hd2 in Hw.
    assert (Hq : is_symo (lookup s (cur ++ [c])) = false \/ (rest = [] /\ follow = false)).
    { destruct rest as [|r0 rest].
      - destruct follow; [left|now right]. apply (Hns [c] []); auto. discriminate.
      - left. apply (Hns [c] (r0 :: rest)); auto; [discriminate|left; discriminate]. }
    assert (Hrec : forall cp', walk fuel s (cur ++ [c]) rest follow = WOk cp' ->
              cp' = cur ++ c :: rest /\
              (forall pre suf, rest = pre ++ suf -> pre <> [] -> suf <> [] ->
                 is_diro (lookup s ((cur ++ [c]) ++ pre)) = true)).
    { intros cp' Hw'. destruct (IH fuel s (cur ++ [c]) follow cp' Hw' Hnd') as [E Hd].
      - intros pre suf E Hp Hs. rewrite <- app_assoc. cbn. apply (Hns (c :: pre) suf); auto.
        + cbn. now rewrite E.
        + discriminate.
      - split; [rewrite E, <- app_assoc; reflexivity|exact Hd]. }
    assert (Hfin : rest = [] -> cp = cur ++ [c] ->
              cp = cur ++ c :: rest /\
              (forall pre suf, c :: rest = pre ++ suf -> pre <> [] -> suf <> [] ->
                 is_diro (lookup s (cur ++ pre)) = true)).
    { intros -> ->. split; [reflexivity|]. intros pre suf E Hp Hs.
      destruct pre as [|p0 pre]; [congruence|]. injection E as -> E.
      destruct pre; destruct suf; try discriminate; congruence. }
    destruct (lookup s (cur ++ [c])) as [n|] eqn:Hl.
    + destruct n.
      * (* File *) destruct (is_nil rest) eqn:Hn; [|discriminate]. destruct rest; [|discriminate].
        injection Hw as <-. now apply Hfin.
      * (* Dir *) destruct (Hrec cp Hw) as [E Hd]. split; [exact E|].
        intros pre suf E' Hp Hs. destruct pre as [|p0 pre]; [congruence|]. injection E' as -> E'.
        destruct pre as [|p1 pre].
        -- cbn. rewrite Hl. reflexivity.
        -- specialize (Hd (p1 :: pre) suf E'). rewrite <- app_assoc in Hd. cbn in Hd. apply Hd; auto. discriminate.
      * (* Sym *) destruct Hq as [Hq|[-> ->]]; [cbn in Hq; discriminate|].
        cbn in Hw. injection Hw as <-. now apply Hfin.
      * destruct (is_nil rest) eqn:Hn; [|discriminate]. destruct rest; [|discriminate].
        injection Hw as <-. now apply Hfin.
      * destruct (is_nil rest) eqn:Hn; [|discriminate]. destruct rest; [|discriminate].
        injection Hw as <-. now apply Hfin.
    + destruct (is_nil rest) eqn:Hn; [|discriminate]. destruct rest; [|discriminate].
      injection Hw as <-. now apply Hfin.
Qed.


Lemma walk_complete : forall todo fuel s cur follow,
  length todo < fuel -> Forall nodot todo ->
  (forall pre suf, todo = pre ++ suf -> pre <> [] -> suf <> [] -> is_diro (lookup s (cur ++ pre)) = true) ->
  (follow = false \/ todo = [] \/ is_symo (lookup s (cur ++ todo)) = false) ->
  walk fuel s cur todo follow = WOk (cur ++ todo).
Proof.
  induction todo as [|c rest IH]; intros fuel s cur follow Hf Hnd Hd Hl.
  - destruct fuel; [cbn in Hf; lia|]. cbn. now rewrite app_nil_r.
  - destruct fuel; [cbn in Hf; lia|]. cbn [walk].
    inversion Hnd as [|? ? [Hd1 Hd2] Hnd']; subst. rewrite Hd1, Hd2.
    assert (Eq : cur ++ c :: rest = (cur ++ [c]) ++ rest) by now rewrite <- app_assoc.
    destruct rest as [|r0 rest].
    + cbn [is_nil andb]. destruct fuel; [cbn in Hf; lia|].
      destruct (lookup s (cur ++ [c])) as [[]|] eqn:El; cbn; try reflexivity.
      destruct Hl as [->|[Hl|Hl]]; [reflexivity|discriminate|]. cbn in Hl. discriminate.
    + assert (Hdq : is_diro (lookup s (cur ++ [c])) = true) by (apply (Hd [c] (r0 :: rest)); auto; discriminate).
      unfold is_diro in Hdq. destruct (lookup s (cur ++ [c])) as [[]|]; try discriminate.
      rewrite Eq. apply IH.
      * cbn in *. lia.
      * exact Hnd'.
      * intros pre suf E Hp Hs. rewrite <- app_assoc. cbn. apply (Hd (c :: pre) suf); auto; [cbn; now rewrite E|discriminate].
      * destruct Hl as [Hl|[Hl|Hl]]; [now left|discriminate|]. right; right. now rewrite <- Eq.
Qed.

Lemma canon_complete s p follow :
  length p < 120 -> Forall nodot p ->
  (forall q, pprefix q p -> is_diro (lookup s q) = true) ->
  (follow = false \/ p = [] \/ is_symo (lookup s p) = false) ->
  walk FUEL s [] p follow = WOk p.
Proof.
  intros Hl Hnd Hd Hf. apply (walk_complete p FUEL s [] follow Hl Hnd); auto.
  intros pre suf E Hp Hs. apply Hd. exists suf. auto.
Qed.

(* from here on the name resolution is used through the lemmas above only; left transparent,
   [cbn] and unification unfold [walk] over [FUEL] steps and the file does not finish compiling *)
Local Opaque walk FUEL.

(* a path whose components are ordinary names and on which no symlink is met *)
Definition plain (s : fs) (p : path) (follow : bool) : Prop :=
  Forall nodot p /\
  forall pre suf, p = pre ++ suf -> pre <> [] -> (suf <> [] \/ follow = true) -> is_symo (lookup s pre) = false.

Lemma canon_ok s p cp follow :
  walk FUEL s [] p follow = WOk cp -> plain s p follow ->
  cp = p /\ (forall q, pprefix q p -> is_diro (lookup s q) = true).
Proof.
  intros Hw [Hnd Hns]. destruct (walk_ok p FUEL s [] follow cp Hw Hnd Hns) as [E Hd].
  split; [exact E|]. intros q (suf & -> & Hq & Hs). now apply (Hd q suf).
Qed.

Lemma isdir_parent s p : p <> [] -> (forall q, pprefix q p -> is_diro (lookup s q) = true) ->
  isdir s (parent p) = true.
Proof.
  intros Hp Hd. destruct (@exists_last _ p Hp) as (l & a & ->). unfold parent. rewrite removelast_last.
  unfold isdir. destruct l as [|l0 l]; [reflexivity|].
  specialize (Hd (l0 :: l)). unfold is_diro in Hd. destruct (lookup s (l0 :: l)).
  - apply Hd. exists [a]. repeat split; discriminate.
  - assert (false = true) by (apply Hd; exists [a]; repeat split; discriminate). discriminate.
Qed.

Lemma perms_new_on' x fp : Forall (perm_on fp) (perms_new x fp).
Proof. apply perms_new_on. Qed.

Definition nondir_kind (x : entry) : Prop := is_kdir x = false.

Lemma made_for_dir x n : made_for x n -> is_dir_node n = is_kdir x.
Proof. unfold made_for, is_kdir. destruct (e_kind x), n; try contradiction; reflexivity. Qed.

(* the creating ops of a non-directory entry at a free name: a file with its data, or one op
   that binds an object without an inode *)
Lemma create_ops_free um s x fp c :
  is_kdir x = false -> lookup s fp = None -> create_ops um s x fp = (c, None) ->
  (exists d hl, e_kind x = KFile d hl /\ c = Create fp (file_create_mode um) :: appends fp (chunks1 d)) \/
  (exists o n, c = [o] /\ created_node o = Some (fp, n) /\ made_for x n).
Proof.
  intros Hk Hl Hc. unfold is_kdir in Hk. unfold made_for.
  destruct (e_kind x) as [|d hl|t| |r] eqn:Ek; [discriminate|left|right..].
  - rewrite (create_ops_file um s x d hl fp Ek Hl) in Hc. injection Hc as <-. eauto.
  - unfold create_ops in Hc. rewrite Ek, Hl in Hc. injection Hc as <-. eexists _, _. repeat split.
  - unfold create_ops in Hc. rewrite Ek, Hl in Hc. injection Hc as <-. eexists _, _. repeat split.
  - unfold create_ops in Hc. rewrite Ek, Hl in Hc. remember (N.land _ _) as m eqn:Em in Hc. clear Em.
    injection Hc as <-. eexists _, _. repeat split.
Qed.

Lemma direct_block um s x fp c s' :
  is_kdir x = false -> lookup s fp = None -> create_ops um s x fp = (c, None) ->
  run_opt (c ++ perms_new x fp) s = Some s' ->
  (exists n, lookup s' fp = Some n /\ realises x n /\ private s' fp n /\ is_dir_node n = false) /\
  (forall q, q <> fp -> lookup s' q = lookup s q).
Proof.
  intros Hk Hl Hc Hr. pose proof (perms_new_on x fp) as Hp.
  destruct (create_ops_free _ _ _ _ _ Hk Hl Hc) as [(d & hl & Ek & ->)|(o & n & -> & Ho & Hm)]; cbn [app] in Hr.
  - pose proof (staged_staging _ _ _ _ _ _ Hp Hr) as Hst.
    pose proof (staged_complete _ _ _ _ _ _ Hp Hr) as Hn.
    destruct (staged_private _ _ _ _ Hst Hn) as [Pv D]. split; [|apply Hst].
    eexists. split; [exact Hn|]. split; [|now split].
    eapply staged_node_realises; eauto using concat_chunks1.
  - destruct (new_perms_run _ _ _ _ _ _ Ho Hp Hr) as (_ & L & Pv & F). split; [|exact F].
    eexists. split; [exact L|]. split; [now apply realises_perms|]. split; [exact Pv|].
    now rewrite isdir_apply_perms, (made_for_dir _ _ Hm).
Qed.

Lemma staged_block um s x tmp cp c s' :
  is_kdir x = false -> lookup s tmp = None -> tmp <> cp -> create_ops um s x tmp = (c, None) ->
  run_opt (c ++ perms_new x tmp ++ [Rename tmp cp]) s = Some s' ->
  (exists n, lookup s' cp = Some n /\ realises x n /\ private s' cp n /\ is_dir_node n = false) /\
  lookup s' tmp = None /\
  (forall q, q <> cp -> q <> tmp -> lookup s' q = lookup s q).
Proof.
  intros Hk Hl Hne Hc Hr. rewrite app_assoc, run_opt_app in Hr.
  destruct (run_opt (c ++ perms_new x tmp) s) as [s2|] eqn:E; [|discriminate].
  destruct (direct_block _ _ _ _ _ _ Hk Hl Hc E) as [(n & L & R & P & D) F].
  cbn [run_opt] in Hr. destruct (apply_op s2 (Rename tmp cp)) as [s3|] eqn:Hr3; [|discriminate].
  injection Hr as <-.
  destruct (rename_nondir _ _ _ _ _ Hr3 L D Hne) as (K1 & K2 & K3).
  { intros i Hi m Hm. eapply P; eauto. }
  split; [|split; [exact K2|]].
  - exists n. repeat split; auto. intros i Hi q m Hq Hm.
    destruct (path_eq_dec q tmp) as [->|Hqt]; [rewrite K2 in Hm; discriminate|].
    rewrite K3 in Hm by assumption. eapply P; eauto.
  - intros q Hq1 Hq2. rewrite K3 by assumption. now apply F.
Qed.

(* a new directory: mkdir + ensure_perms twice *)
Lemma realises_newdir x m0 fp : e_kind x = KDir ->
  realises x (apply_perms (perms_new x fp ++ perms_new x fp) (Dir m0 ME ME NOW)).
Proof.
  destruct x as [loc kind mode uid gid mtime]; cbn. intros ->.
  unfold apply_perms, perms_new, realises, mode_ok, owner_ok, is_ksym; cbn.
  destruct mode, uid, gid, mtime; cbn; repeat split; reflexivity.
Qed.

Lemma newdir_block um s x cp s' :
  e_kind x = KDir ->
  run_opt (Mkdir cp (dir_create_mode um x) :: perms_new x cp ++ perms_new x cp) s = Some s' ->
  lookup s cp = None /\
  (exists n, lookup s' cp = Some n /\ realises x n /\ is_dir_node n = true) /\
  (forall q, q <> cp -> lookup s' q = lookup s q).
Proof.
  intros Hk Hr.
  assert (Hon : Forall (perm_on cp) (perms_new x cp ++ perms_new x cp))
    by (apply Forall_app; split; apply perms_new_on).
  destruct (new_perms_run s (Mkdir cp (dir_create_mode um x)) cp _ _ _ eq_refl Hon Hr) as (Hl & L & _ & F).
  split; [exact Hl|]. split; [|exact F]. eexists. split; [exact L|].
  split; [now apply realises_newdir|apply isdir_apply_perms].
Qed.

(* an existing directory: owner (if it differs), then mtime; the mode is kept *)
Lemma perms_existing_on x cp n2 : Forall (perm_on cp) (perms_existing x cp cp n2).
Proof.
  destruct (perms_existing_shape x cp cp n2) as (ch & ot & -> & _).
  apply Forall_app. split; [destruct ch|destruct ot]; repeat constructor.
Qed.

Lemma keeps_dir_perms x cp m u g t :
  keeps_dir x (Dir m u g t) (apply_perms (perms_existing x cp cp (Dir m u g t)) (Dir m u g t)).
Proof.
  assert (Hmt : forall n l, (l = [] \/ exists t', l = [Utime cp t']) ->
            keeps_dir x (Dir m u g t) n -> keeps_dir x (Dir m u g t) (apply_perms l n)).
  { intros n l [->|[t' ->]] H; [exact H|]. now destruct n. }
  unfold perms_existing. cbn [node_owner node_mtime]. unfold apply_perms. rewrite fold_left_app. apply Hmt.
  { destruct (e_mtime x) as [t0|]; [destruct (Z.eqb t0 t)|]; eauto. }
  destruct (_ && _) eqn:E; cbn; (split; [reflexivity|]); unfold owner_ok.
  - destruct (e_uid x), (e_gid x); cbn; auto.
  - (* no lchown although an owner is recorded: it is the present one *)
    intro Hs. rewrite Hs, andb_true_r in E. apply orb_false_iff in E as [E1 E2].
    apply negb_false_iff in E1, E2. unfold opt_is in E1, E2.
    destruct (e_uid x), (e_gid x); try discriminate. apply N.eqb_eq in E1, E2. now subst.
Qed.

Lemma existingdir_block s x cp m u g t s' :
  lookup s cp = Some (Dir m u g t) ->
  run_opt (perms_existing x cp cp (Dir m u g t)) s = Some s' ->
  (exists n, lookup s' cp = Some n /\ keeps_dir x (Dir m u g t) n /\ is_dir_node n = true) /\
  (forall q, q <> cp -> lookup s' q = lookup s q).
Proof.
  intros Hl Hr.
  destruct (perms_run cp _ (perms_existing_on x cp _) _ _ _ Hl (private_nonfile _ _ (Dir m u g t) eq_refl) Hr) as (K1 & K2 & _).
  split; [|exact K2]. eexists. split; [exact K1|]. split; [apply keeps_dir_perms|apply isdir_apply_perms].
Qed.

Lemma ensure_dirs_cons s done c rest :
  ensure_dirs s done (c :: rest) =
  (let q := done ++ [c] in
   match rcanon s q with
   | WOk r =>
       match node_at s r with
       | Some n => if is_dir_node n then ensure_dirs s q rest else ([], s, false)
       | None =>
           match canon s q with
           | WOk cq =>
               match lookup s cq with
               | None =>
                   let o := Mkdir cq 488 in
                   let '(ops, s2, ok) := ensure_dirs (run [o] s) q rest in (o :: ops, s2, ok)
               | Some _ => ([], s, false)
               end
           | _ => ([], s, false)
           end
       end
   | _ => ([], s, false)
   end).
Proof. reflexivity. Qed.

(* q is [done] extended by a non-empty prefix of [todo] *)
Definition under (done : path) (todo : list str) (q : path) : Prop :=
  exists pre suf, todo = pre ++ suf /\ pre <> [] /\ q = done ++ pre.

Lemma under_cons done c rest q : under (done ++ [c]) rest q -> under done (c :: rest) q.
Proof.
  intros (pre & suf & -> & _ & ->). exists (c :: pre), suf.
  repeat split; [discriminate|now rewrite <- app_assoc].
Qed.

Lemma Forall_removelast {A} (Q : A -> Prop) l : Forall Q l -> Forall Q (removelast l).
Proof.
  intro H. destruct l as [|a l]; [constructor|].
  destruct (@exists_last _ (a :: l)) as (l' & b & E); [discriminate|]. rewrite E in *. rewrite removelast_last.
  apply Forall_app in H. tauto.
Qed.

Lemma under_removelast p q : p <> [] -> under [] (removelast p) q -> pprefix q p.
Proof.
  intros Hne (pre & suf & E & Hp & ->). exists (suf ++ [last p []]). cbn [app].
  rewrite app_assoc, <- E, <- app_removelast_last by exact Hne. repeat split; auto. destruct suf; discriminate.
Qed.

Lemma ensure_dirs_ok : forall todo done s ops s1,
  ensure_dirs s done todo = (ops, s1, true) ->
  Forall nodot (done ++ todo) ->
  (forall pre suf, done ++ todo = pre ++ suf -> pre <> [] -> is_symo (lookup s pre) = false) ->
  run_opt ops s = Some s1 /\
  Forall (fun o => exists q, o = Mkdir q 488 /\ lookup s q = None /\ under done todo q) ops.
Proof.
  induction todo as [|c rest IH]; intros done s ops s1 He Hnd Hns.
  - change (ensure_dirs s done []) with (@nil op, s, true) in He. injection He as <- <-.
    split; [reflexivity|constructor].
  - rewrite ensure_dirs_cons in He. cbv zeta in He. set (q := done ++ [c]) in *.
    assert (Eq : done ++ c :: rest = q ++ rest) by (unfold q; now rewrite <- app_assoc).
    assert (Hplq : plain s q true).
    { split.
      - rewrite Eq in Hnd. apply Forall_app in Hnd. tauto.
      - intros pre suf E Hp _. apply (Hns pre (suf ++ rest)); auto. rewrite Eq, E. now rewrite app_assoc. }
    destruct (rcanon s q) as [r| |] eqn:Hrc; try (injection He as _ _ Hf; discriminate).
    destruct (canon_ok _ _ _ _ Hrc Hplq) as [-> Hqd].
    assert (Hqne : q <> []) by (unfold q; destruct done; discriminate).
    assert (Hna : node_at s q = lookup s q) by (destruct q; [congruence|reflexivity]).
    rewrite Hna in He.
    destruct (lookup s q) as [n|] eqn:Hlq.
    + destruct (is_dir_node n) eqn:Hdn; [|injection He as _ _ Hf; discriminate].
      destruct (IH q s ops s1 He) as (R1 & R2).
      * now rewrite <- Eq.
      * intros pre suf E. apply (Hns pre suf). now rewrite Eq.
      * split; [exact R1|]. eapply Forall_impl; [|exact R2].
        intros o (q' & -> & Hl' & Hu). exists q'. auto using under_cons.
    + destruct (canon s q) as [cq| |] eqn:Hcq; try (injection He as _ _ Hf; discriminate).
      assert (Hplq' : plain s q false).
      { destruct Hplq as [A B]. split; [exact A|]. intros pre suf E Hp _. apply (B pre suf E Hp). now right. }
      destruct (canon_ok _ _ _ _ Hcq Hplq') as [-> _]. rewrite Hlq in He.
      set (o := Mkdir q 488) in *.
      assert (Hap : apply_op s o = Some (set_node s q (Dir 488 ME ME NOW))).
      { cbn. unfold can_create. destruct q as [|q0 q'] eqn:Eqq; [congruence|]. rewrite <- Eqq in *. rewrite Hlq.
        rewrite (isdir_parent s q Hqne Hqd). reflexivity. }
      assert (Hrun1 : run [o] s = set_node s q (Dir 488 ME ME NOW)) by (cbn [run]; now rewrite Hap).
      rewrite Hrun1 in He. set (s' := set_node s q (Dir 488 ME ME NOW)) in *.
      destruct (ensure_dirs s' q rest) as [[ops' s2] ok] eqn:He'. injection He as <- <- ->.
      assert (Hl' : forall p, lookup s' p = if path_eq_dec p q then Some (Dir 488 ME ME NOW) else lookup s p)
        by (intro p; apply lookup_set_node).
      destruct (IH q s' ops' s2 He') as (R1 & R2).
      * now rewrite <- Eq.
      * intros pre suf E Hp. rewrite Hl'. destruct (path_eq_dec pre q); [reflexivity|]. apply (Hns pre suf); auto. now rewrite Eq.
      * split; [cbn [run_opt]; now rewrite Hap|]. constructor.
        -- exists q. repeat split; auto. exists [c], rest. repeat split; discriminate.
        -- eapply Forall_impl; [|exact R2]. intros o' (q' & -> & Hlq' & Hu).
           exists q'. rewrite Hl' in Hlq'. destruct (path_eq_dec q' q); [discriminate|]. auto using under_cons.
Qed.

Lemma opt_N_eqb_eq a b : opt_N_eqb a b = true <-> a = b.
Proof.
  destruct a, b; cbn; try (split; [discriminate|congruence]); [|tauto].
  rewrite N.eqb_eq. split; congruence.
Qed.
Lemma opt_Z_eqb_eq a b : opt_Z_eqb a b = true <-> a = b.
Proof.
  destruct a, b; cbn; try (split; [discriminate|congruence]); [|tauto].
  rewrite Z.eqb_eq. split; congruence.
Qed.

Lemma can_hl_spec c x : can_hl c x = true <->
  exists d d' i, e_kind c = KFile d (Some i) /\ e_kind x = KFile d' (Some i) /\
    e_uid c = e_uid x /\ e_gid c = e_gid x /\ e_mode c = e_mode x /\ eff_mtime c = eff_mtime x.
Proof.
  unfold can_hl. split.
  - destruct (e_kind c) as [|d [i|]|?| |?] eqn:Ec; try discriminate.
    destruct (e_kind x) as [|d' [j|]|?| |?] eqn:Ex; try discriminate.
    rewrite !andb_true_iff, N.eqb_eq, !opt_N_eqb_eq, opt_Z_eqb_eq. intros ((((-> & Hu) & Hg) & Hm) & Ht).
    exists d, d', j. auto 10.
  - intros (d & d' & i & -> & -> & Hu & Hg & Hm & Ht).
    rewrite !andb_true_iff, N.eqb_eq, !opt_N_eqb_eq, opt_Z_eqb_eq. auto.
Qed.

Definition same_data (c x : entry) : Prop :=
  match e_kind c, e_kind x with KFile d _, KFile d' _ => d = d' | _, _ => True end.

Lemma can_hl_realises c x n : can_hl c x = true -> same_data c x -> realises c n -> realises x n.
Proof.
  intros H. apply can_hl_spec in H as (d & d' & i & Ec & Ex & Hu & Hg & Hm & Ht).
  unfold same_data, realises, mode_ok, owner_ok, mtime_ok. rewrite Ec, Ex. intros <-.
  now rewrite <- Hu, <- Hg, <- Hm, <- Ht.
Qed.

Lemma realises_file_node x d hl n : e_kind x = KFile d hl -> realises x n -> is_file_node n = true.
Proof. unfold realises. intros ->. destruct n; try contradiction; reflexivity. Qed.

Section Merge.
Variable C : list entry.     (* the contents set, locations already rebased on the offset *)
Variable s0 : fs.            (* the filesystem before the merge *)

Record Dom : Prop := {
  d_nodot : forall x, In x C -> Forall nodot (e_loc x) /\ e_loc x <> [] /\ length (e_loc x) < 120;
  d_distinct : forall x y, In x C -> In y C -> e_loc x = e_loc y -> x = y;
  d_new : forall x y, In x C -> In y C ->
          sibling_new (e_loc x) <> e_loc y /\ ~ pprefix (sibling_new (e_loc x)) (e_loc y);
  d_leaf : forall x y, In x C -> In y C -> is_kdir x = false -> ~ pprefix (e_loc x) (e_loc y);
  d_nosym : forall x q, In x C -> pprefix q (e_loc x) -> is_symo (lookup s0 q) = false;
  d_nosymdir : forall x, In x C -> is_kdir x = true -> is_symo (lookup s0 (e_loc x)) = false;
  d_nostale : forall x, In x C -> is_kdir x = false -> lookup s0 (sibling_new (e_loc x)) = None;
  d_symdir : forall x, In x C -> is_ksym x = true -> is_diro (lookup s0 (e_loc x)) = false;
  d_hl : forall c x, In c C -> In x C -> e_loc c <> e_loc x -> can_hl c x = true ->
         lookup s0 (e_loc x) = None /\ same_data c x;
  d_parents : forall x q, In x C -> lookup s0 (e_loc x) <> None -> pprefix q (e_loc x) ->
              is_diro (lookup s0 q) = true
}.

(* a missing ancestor of an entry that is not itself a location of the set *)
Definition newanc (q : path) : Prop :=
  lookup s0 q = None /\ (exists x, In x C /\ pprefix q (e_loc x)) /\ (forall y, In y C -> e_loc y <> q).

Definition good (x : entry) (n : node) : Prop :=
  realises x n \/ (is_kdir x = true /\ exists n0, lookup s0 (e_loc x) = Some n0 /\ keeps_dir x n0 n).

(* P: the entries processed so far.  A missing ancestor (newanc) is outside the frame: a later
   step may have created it, as a directory, or not yet *)
Record Inv (P : list entry) (s : fs) : Prop := {
  inv_incl : incl P C;
  inv_frame : forall q, (forall y, In y P -> e_loc y <> q) -> ~ newanc q -> lookup s q = lookup s0 q;
  inv_anc : forall q, newanc q -> lookup s q = None \/ is_diro (lookup s q) = true;
  inv_good : forall y, In y P -> exists n, lookup s (e_loc y) = Some n /\ good y n
}.

Lemma inv_start : Inv [] s0.
Proof. constructor; [apply incl_nil_l|reflexivity| |intros y []]. intros q (H & _). now left. Qed.

Lemma loc_dec (L : list entry) q :
  (exists y, In y L /\ e_loc y = q) \/ (forall y, In y L -> e_loc y <> q).
Proof.
  induction L as [|z L IH]; [right; intros y []|].
  destruct (path_eq_dec (e_loc z) q) as [E|E]; [left; exists z; split; [now left|exact E]|].
  destruct IH as [(y & Hy & Ey)|H]; [left; exists y; split; [now right|exact Ey]|].
  right. intros y [<-|Hy]; auto.
Qed.

Lemma good_dir x n : is_kdir x = true -> good x n -> is_diro (Some n) = true.
Proof.
  intros Hk [R|(_ & n0 & _ & K)].
  - unfold realises in R. unfold is_kdir in Hk. destruct (e_kind x); try discriminate. destruct n; try contradiction. reflexivity.
  - unfold keeps_dir in K. destruct n0; try contradiction. destruct n; try contradiction. reflexivity.
Qed.

Lemma diro_not_symo o : is_diro o = true -> is_symo o = false.
Proof. destruct o as [[]|]; cbn; congruence. Qed.

Hypothesis HD : Dom.

Section WithInv.
Variables (P : list entry) (s : fs).
Hypothesis HI : Inv P s.

Lemma prefix_cases x q : In x C -> pprefix q (e_loc x) ->
  (exists y, In y P /\ e_loc y = q /\ is_kdir y = true /\ is_diro (lookup s q) = true) \/
  ((forall y, In y P -> e_loc y <> q) /\ ~ newanc q /\ lookup s q = lookup s0 q) \/
  (newanc q /\ (lookup s q = None \/ is_diro (lookup s q) = true)).
Proof.
  intros Hx Hq. destruct (loc_dec P q) as [(y & Hy & Ey)|Hn].
  - left. exists y. split; [exact Hy|]. split; [exact Ey|].
    assert (Hk : is_kdir y = true).
    { destruct (is_kdir y) eqn:E; [reflexivity|]. exfalso. rewrite <- Ey in Hq.
      eapply (d_leaf HD y x); eauto. now apply (inv_incl _ _ HI). }
    split; [exact Hk|]. destruct (inv_good _ _ HI y Hy) as (n & Hl & Hg). rewrite <- Ey, Hl. eapply good_dir; eauto.
  - destruct (loc_dec C q) as [(y & Hy & Ey)|HnC].
    + right; left. split; [exact Hn|]. assert (Hna : ~ newanc q) by (intros (_ & _ & H); eapply H; eauto).
      split; [exact Hna|]. now apply (inv_frame _ _ HI).
    + destruct (lookup s0 q) eqn:E0.
      * right; left. split; [exact Hn|]. assert (Hna : ~ newanc q) by (intros (H & _); congruence).
        split; [exact Hna|]. rewrite <- E0. now apply (inv_frame _ _ HI).
      * right; right. assert (Hna : newanc q) by (split; [exact E0|split; [exists x; auto|exact HnC]]).
        split; [exact Hna|]. now apply (inv_anc _ _ HI).
Qed.

Lemma L_ns x q : In x C -> pprefix q (e_loc x) -> is_symo (lookup s q) = false.
Proof.
  intros Hx Hq. destruct (prefix_cases x q Hx Hq) as [(y & _ & _ & _ & Hd)|[(_ & _ & E)|(_ & [E|E])]].
  - now apply diro_not_symo.
  - rewrite E. eapply (d_nosym HD); eauto.
  - now rewrite E.
  - now apply diro_not_symo.
Qed.

Lemma L_dirs x q : In x C -> pprefix q (e_loc x) -> is_diro (lookup s0 q) = true -> is_diro (lookup s q) = true.
Proof.
  intros Hx Hq H0. destruct (prefix_cases x q Hx Hq) as [(y & _ & _ & _ & Hd)|[(_ & _ & E)|((E & _) & _)]].
  - exact Hd.
  - now rewrite E.
  - rewrite E in H0. discriminate.
Qed.

Lemma L_unproc x : In x C -> (forall y, In y P -> e_loc y <> e_loc x) -> lookup s (e_loc x) = lookup s0 (e_loc x).
Proof.
  intros Hx Hn. apply (inv_frame _ _ HI); [exact Hn|]. intros (_ & _ & H). eapply H; eauto.
Qed.

Lemma L_new x : In x C -> lookup s (sibling_new (e_loc x)) = lookup s0 (sibling_new (e_loc x)).
Proof.
  intros Hx. apply (inv_frame _ _ HI).
  - intros y Hy E. destruct (d_new HD x y Hx (inv_incl _ _ HI y Hy)) as [H _]. congruence.
  - intros (_ & (y & Hy & Hq) & _). destruct (d_new HD x y Hx Hy) as [_ H]. contradiction.
Qed.

Lemma L_plain x follow : In x C -> (follow = true -> is_symo (lookup s (e_loc x)) = false) ->
  plain s (e_loc x) follow.
Proof.
  intros Hx Hf. destruct (d_nodot HD x Hx) as (Hnd & Hne & _). split; [exact Hnd|].
  intros pre suf E Hp Hs. destruct suf as [|s1 suf].
  - rewrite app_nil_r in E. subst pre. apply Hf. destruct Hs as [Hs|Hs]; [congruence|exact Hs].
  - eapply L_ns; eauto. exists (s1 :: suf). repeat split; auto. discriminate.
Qed.

Lemma bound_inv q : lookup s0 q <> None -> lookup s q <> None.
Proof.
  intros H0. destruct (loc_dec P q) as [(y & Hy & <-)|Hn].
  - destruct (inv_good _ _ HI y Hy) as (n & L & _). congruence.
  - rewrite (inv_frame _ _ HI q Hn); [exact H0|]. intros (A & _). congruence.
Qed.

End WithInv.
End Merge.

Section Step.
Variable um : N.
Variable C : list entry.
Variable s0 : fs.
Hypothesis HD : Dom C s0.
(* the entries processed so far, the state reached, the entry processed next *)
Variables (P : list entry) (s : fs) (x : entry).
Hypothesis HI : Inv C s0 P s.
Hypothesis Hx : In x C.
Hypothesis Hfr : forall y, In y P -> e_loc y <> e_loc x.

Lemma inv_extend s' :
  (exists n, lookup s' (e_loc x) = Some n /\ good s0 x n) ->
  (forall q, q <> e_loc x ->
     (~ newanc C s0 q -> lookup s' q = lookup s q) /\
     (newanc C s0 q -> lookup s' q = lookup s q \/ is_diro (lookup s' q) = true)) ->
  Inv C s0 (x :: P) s'.
Proof.
  intros H1 H2. pose proof (inv_incl _ _ _ _ HI) as HP. constructor.
  - intros y [<-|Hy]; auto.
  - intros q Hn Hna. assert (Hq : q <> e_loc x) by (intro E; apply (Hn x); [now left|now rewrite E]).
    destruct (H2 q Hq) as [A _]. rewrite (A Hna). apply (inv_frame _ _ _ _ HI); auto.
    intros y Hy. apply Hn. now right.
  - intros q Hna. assert (Hq : q <> e_loc x) by (intro E; destruct Hna as (_ & _ & H); apply (H x Hx); now rewrite E).
    destruct (H2 q Hq) as [_ B]. destruct (B Hna) as [E|E]; [rewrite E; now apply (inv_anc _ _ _ _ HI)|now right].
  - intros y [<-|Hy]; [exact H1|].
    destruct (inv_good _ _ _ _ HI y Hy) as (n & Hl & Hg). exists n. split; [|exact Hg].
    destruct (H2 (e_loc y) (Hfr y Hy)) as [A _]. rewrite A; [exact Hl|].
    intros (_ & _ & H). apply (H y (HP y Hy)). reflexivity.
Qed.

Lemma inv_extend_frame s' :
  (exists n, lookup s' (e_loc x) = Some n /\ good s0 x n) ->
  (forall q, q <> e_loc x -> lookup s' q = lookup s q) -> Inv C s0 (x :: P) s'.
Proof. intros H1 H2. apply inv_extend; [exact H1|]. intros q Hq. rewrite (H2 q Hq). auto. Qed.

Lemma entry_facts : is_kdir x = false ->
  let p := e_loc x in
  p <> [] /\ plain s p false /\ lookup s p = lookup s0 p /\ lookup s (sibling_new p) = None.
Proof.
  intros Hk p. destruct (d_nodot _ _ HD x Hx) as (_ & Hne & _).
  split; [exact Hne|]. split; [eapply L_plain; eauto; discriminate|].
  split; [eapply L_unproc; eauto|].
  unfold p. erewrite L_new; eauto. eapply (d_nostale _ _ HD); eauto.
Qed.

(* when gen_obj raised, the location is unbound; ensure_dirs then makes its missing ancestors,
   which are directories no entry of the set names *)
Lemma missing_parents mk s1 :
  is_kdir x = false -> (forall d, In d C -> is_kdir d = true -> In d P) ->
  wpath (canon s (e_loc x)) = None -> ensure_dirs s [] (removelast (e_loc x)) = (mk, s1, true) ->
  lookup s (e_loc x) = None /\ mkdirs_free s mk /\ run_opt mk s = Some s1 /\
  (forall q, lookup s1 q = lookup s q \/
             (lookup s q = None /\ newanc C s0 q /\ is_diro (lookup s1 q) = true)).
Proof.
  intros Hk Hdirs Hw He. destruct (entry_facts Hk) as (Hne & Hpl & Hun & _).
  destruct (d_nodot _ _ HD x Hx) as (Hnd & _ & Hlen). set (p := e_loc x) in *.
  assert (Hlp : lookup s p = None).
  { destruct (lookup s p) eqn:E; [|reflexivity]. exfalso.
    assert (H0 : lookup s0 p <> None) by (rewrite <- Hun; congruence).
    assert (Hcomp : canon s p = WOk p).
    { apply canon_complete; auto. intros q Hq. eapply L_dirs; eauto. eapply (d_parents _ _ HD); eauto. }
    rewrite Hcomp in Hw. discriminate. }
  destruct (ensure_dirs_ok _ _ _ _ _ He) as (R1 & R2).
  { cbn. now apply Forall_removelast. }
  { cbn. intros pre suf E Hp. eapply L_ns; eauto. apply under_removelast; [exact Hne|]. now exists pre, suf. }
  assert (Hmk : Forall (fun o => exists q m, o = Mkdir q m /\ lookup s q = None /\ newanc C s0 q) mk).
  { eapply Forall_impl; [|exact R2]. intros o (q & -> & Hq & Hu). exists q, 488%N.
    apply under_removelast in Hu; [|exact Hne]. repeat split; auto.
    - destruct (prefix_cases C s0 HD P s HI x q Hx Hu) as [(y & _ & <- & _ & Hd)|[(_ & _ & <-)|((E & _) & _)]];
        [rewrite Hq in Hd; discriminate|exact Hq|exact E].
    - now exists x.
    - intros y Hy Ey. assert (Hky : is_kdir y = true).
      { destruct (is_kdir y) eqn:Eky; [reflexivity|]. exfalso. rewrite <- Ey in Hu. eapply (d_leaf _ _ HD y x); eauto. }
      destruct (inv_good _ _ _ _ HI y (Hdirs y Hy Hky)) as (ny & Hly & _). rewrite Ey in Hly. congruence. }
  assert (Hfree : mkdirs_free s mk).
  { eapply Forall_impl; [|exact Hmk]. intros o (q & m & -> & Hq & _). eauto. }
  repeat split; auto. intro q.
  destruct (mkdirs_free_prefix s mk Hfree (length mk) q) as [E|(E1 & E2 & m & Hin)];
    rewrite firstn_all, (run_opt_run _ _ _ R1) in *; [now left|right].
  rewrite Forall_forall in Hmk. destruct (Hmk _ Hin) as (q' & m' & E & _ & Hn). injection E as <- <-. auto.
Qed.

(* the two shapes of a successful copyfile: stage and rename over a bound location, or create at
   a free one after making the missing ancestors *)
Lemma copy_elim (R : list op -> Prop) ops :
  is_kdir x = false -> (forall d, In d C -> is_kdir d = true -> In d P) ->
  (forall c, lookup s (e_loc x) <> None -> lookup s (sibling_new (e_loc x)) = None ->
     create_ops um s x (sibling_new (e_loc x)) = (c, None) ->
     R (c ++ perms_new x (sibling_new (e_loc x)) ++ [Rename (sibling_new (e_loc x)) (e_loc x)])) ->
  (forall mk s1 c, lookup s (e_loc x) = None -> mkdirs_free s mk -> run_opt mk s = Some s1 ->
     (forall q, lookup s1 q = lookup s q \/
                (lookup s q = None /\ newanc C s0 q /\ is_diro (lookup s1 q) = true)) ->
     lookup s1 (e_loc x) = None ->
     create_ops um s1 x (e_loc x) = (c, None) -> R (mk ++ c ++ perms_new x (e_loc x))) ->
  copyfile um s x = (ops, None) -> R ops.
Proof.
  intros Hk Hdirs Hstaged Hdirect Hcf.
  destruct (entry_facts Hk) as (Hne & Hpl & Hun & Hnew). set (p := e_loc x) in *.
  (* creation at the location itself, from a state s1 reached by such mkdirs *)
  assert (Hdir : forall mk s1, lookup s p = None -> mkdirs_free s mk -> run_opt mk s = Some s1 ->
            (forall q, lookup s1 q = lookup s q \/
                       (lookup s q = None /\ newanc C s0 q /\ is_diro (lookup s1 q) = true)) ->
            direct_copy um x mk s1 = (ops, None) -> R ops).
  { intros mk s1 Hlp Hfree Hr1 Hch Hdc.
    assert (Hl1 : lookup s1 p = None).
    { destruct (Hch p) as [E|(_ & (_ & _ & H) & _)]; [now rewrite E|]. now destruct (H x Hx). }
    assert (Hpl1 : plain s1 p false).
    { destruct Hpl as [A B]. split; [exact A|]. intros pre suf E Hp Hs.
      destruct (Hch pre) as [E1|(_ & _ & E1)]; [rewrite E1; eapply B; eauto|now apply diro_not_symo]. }
    apply direct_copy_ok in Hdc as (cp & c & Hc1 & Hco & ->).
    destruct (canon_ok _ _ _ _ Hc1 Hpl1) as [-> _]. now apply (Hdirect mk s1 c). }
  rewrite copyfile_unfold in Hcf. fold p in Hcf. destruct (wpath (canon s p)) as [cp|] eqn:Hw.
  - apply wpath_some in Hw. destruct (canon_ok _ _ _ _ Hw Hpl) as [-> _].
    replace (node_at s p) with (lookup s p) in Hcf by (destruct p; [congruence|reflexivity]).
    destruct (lookup s p) as [n|] eqn:Hlp.
    + destruct (is_dir_node n); [discriminate|]. destruct (name_too_long (sibling_new p)); [discriminate|].
      destruct (create_ops um s x (sibling_new p)) as [c [e|]] eqn:Hco; [discriminate|]. injection Hcf as <-.
      apply Hstaged; auto. discriminate.
    + apply (Hdir [] s); auto. constructor.
  - destruct (match rcanon s (removelast p) with WOk r => is_some (node_at s r) | _ => false end).
    + apply direct_copy_ok in Hcf as (cp & _ & Hc & _). fold p in Hc. rewrite Hc in Hw. discriminate.
    + destruct (ensure_dirs s [] (removelast p)) as [[mk s1] ok] eqn:He. destruct ok; [|discriminate].
      destruct (missing_parents mk s1 Hk Hdirs Hw He) as (Hlp & Hfree & Hr1 & Hch). now apply (Hdir mk s1).
Qed.

Lemma copy_inv ops s' :
  is_kdir x = false -> (forall d, In d C -> is_kdir d = true -> In d P) ->
  copyfile um s x = (ops, None) -> run_opt ops s = Some s' -> Inv C s0 (x :: P) s'.
Proof.
  intros Hk Hdirs Hcf. destruct (entry_facts Hk) as (_ & _ & _ & Hnew).
  apply (copy_elim (fun ops => run_opt ops s = Some s' -> Inv C s0 (x :: P) s') ops Hk Hdirs); [| |exact Hcf].
  - intros c _ _ Hco Hrun.
    destruct (staged_block _ _ _ _ _ _ _ Hk Hnew (sibling_new_neq _) Hco Hrun) as [(n & L & R & _) [Hg F]].
    apply inv_extend_frame; [exists n; split; [exact L|now left]|].
    intros q Hq. destruct (path_eq_dec q (sibling_new (e_loc x))) as [->|Hqt]; [congruence|now apply F].
  - intros mk s1 c _ _ Hmk Hch Hl1 Hco Hrun. rewrite run_opt_app, Hmk in Hrun.
    destruct (direct_block _ _ _ _ _ _ Hk Hl1 Hco Hrun) as [(n & L & R & _) F].
    apply inv_extend; [exists n; split; [exact L|now left]|].
    intros q Hq. rewrite (F q Hq). destruct (Hch q) as [E|(_ & A & B)].
    + rewrite E. auto.
    + split; [contradiction|now right].
Qed.

Lemma copyfile_cannot ops :
  is_kdir x = false -> copyfile um s x = (ops, Some E_CANNOT) -> is_diro (lookup s (e_loc x)) = true.
Proof.
  intros Hk Hcf. destruct (entry_facts Hk) as (Hne & Hpl & _).
  destruct (copyfile_cannot_dir _ _ _ _ Hcf) as (cp & n & Hc & Hn & Hd).
  destruct (canon_ok _ _ _ _ Hc Hpl) as [-> _]. destruct (e_loc x); [congruence|].
  cbn in Hn. now rewrite Hn.
Qed.

(* the tolerance for a symlink over a directory is never used on the domain *)
Lemma copy_step_ok m' ops merged' :
  is_kdir x = false -> copy_step um s x m' = (ops, None, merged') ->
  merged' = m' /\ copyfile um s x = (ops, None).
Proof.
  intros Hk H. destruct (entry_facts Hk) as (_ & _ & Hun & _). unfold copy_step in H.
  destruct (copyfile um s x) as [ops0 [e|]] eqn:Hcf; [|injection H as <- <-; auto].
  destruct (N.eqb e E_CANNOT && is_ksym x && tolerated s x) eqn:Hc; [|discriminate]. exfalso.
  apply andb_true_iff in Hc as [Hc _]. apply andb_true_iff in Hc as [He Hs]. apply N.eqb_eq in He. subst e.
  pose proof (copyfile_cannot ops0 Hk Hcf) as Hd. rewrite Hun, (d_symdir _ _ HD x Hx Hs) in Hd. discriminate.
Qed.

Definition files_in (merged P : list entry) : Prop :=
  forall c, In c merged -> In c P /\ exists d hl, e_kind c = KFile d hl.

(* the shapes of one successful step of the non-directory pass: a hard link to an entry merged
   before, or a copy (a file without a candidate becomes a candidate itself) *)
Lemma nondir_step_elim (R : list op -> list entry -> Prop) merged ops merged' :
  is_kdir x = false -> files_in merged P ->
  (forall c nc, In c merged -> can_hl c x = true -> lookup s (e_loc c) = Some nc -> is_file_node nc = true ->
     realises c nc -> lookup s (e_loc x) = None ->
     R [Link (e_loc c) (e_loc x)] merged) ->
  (forall ops0 m', copyfile um s x = (ops0, None) ->
     ((m' = merged /\ can_hl x x = false) \/
      (m' = merged ++ [x] /\ (forall c, In c merged -> can_hl c x = false) /\
       exists d hl, e_kind x = KFile d hl)) -> R ops0 m') ->
  nondir_step um s merged x = (ops, None, merged') -> R ops merged'.
Proof.
  intros Hk Hm Hlink Hcopy Hst. pose proof (inv_incl _ _ _ _ HI) as HP.
  destruct (entry_facts Hk) as (Hne & Hpl & Hun & Hnew).
  rewrite nondir_step_unfold in Hst.
  destruct (e_kind x) as [|d hl|t| |r] eqn:Ek;
    try (apply (copy_step_ok _ _ _ Hk) in Hst as [-> Hcf]; apply Hcopy; [exact Hcf|];
         left; split; [reflexivity|unfold can_hl; now rewrite Ek]).
  destruct (find (fun c => can_hl c x) merged) as [c|] eqn:Hf.
  - apply find_some in Hf as [Hcm Hhl]. destruct (Hm c Hcm) as [HcP (dc & hlc & Ekc)].
    destruct (d_hl _ _ HD c x (HP c HcP) Hx (Hfr c HcP) Hhl) as [Hfree Hsd].
    destruct (do_link s c x) as [ops1 err1] eqn:Hdl. injection Hst as -> -> <-.
    destruct (inv_good _ _ _ _ HI c HcP) as (nc & Hlc & Hgc).
    assert (Hrc : realises c nc).
    { destruct Hgc as [Rr|(K & _)]; [exact Rr|]. unfold is_kdir in K. rewrite Ekc in K. discriminate. }
    assert (Hplc : plain s (e_loc c) false) by (eapply L_plain; eauto; discriminate).
    unfold do_link in Hdl.
    destruct (canon s (e_loc c)) as [a| |] eqn:Hca; try discriminate.
    destruct (canon s (e_loc x)) as [b| |] eqn:Hcb; try discriminate.
    destruct (canon_ok _ _ _ _ Hca Hplc) as [-> _]. destruct (canon_ok _ _ _ _ Hcb Hpl) as [-> _].
    rewrite Hlc in Hdl. rewrite (realises_file_node _ _ _ _ Ekc Hrc) in Hdl. cbn [negb] in Hdl.
    assert (Hlx : lookup s (e_loc x) = None) by (rewrite Hun; exact Hfree).
    assert (Hnb : node_at s (e_loc x) = None) by (destruct (e_loc x); [congruence|exact Hlx]).
    rewrite Hnb in Hdl. injection Hdl as <-.
    apply (Hlink c nc); auto. eapply realises_file_node; eauto.
  - apply (copy_step_ok _ _ _ Hk) in Hst as [-> Hcf]. apply Hcopy; [exact Hcf|].
    right. split; [reflexivity|]. split; [|eauto]. intros c Hc. exact (find_none _ _ Hf c Hc).
Qed.

Lemma nondir_step_inv merged ops merged' s' :
  is_kdir x = false -> (forall d, In d C -> is_kdir d = true -> In d P) -> files_in merged P ->
  nondir_step um s merged x = (ops, None, merged') -> run_opt ops s = Some s' ->
  Inv C s0 (x :: P) s' /\ files_in merged' (x :: P).
Proof.
  intros Hk Hdirs Hm Hst. pose proof (inv_incl _ _ _ _ HI) as HP.
  assert (Hmono : files_in merged (x :: P)).
  { intros c Hc. destruct (Hm c Hc) as [A B]. split; [now right|exact B]. }
  apply (nondir_step_elim (fun ops m' => run_opt ops s = Some s' -> Inv C s0 (x :: P) s' /\ files_in m' (x :: P))
           merged ops merged' Hk Hm); [| |exact Hst].
  - intros c nc Hc Hhl Hlc Hf Hrc _ Hrun. split; [|exact Hmono].
    cbn in Hrun. rewrite Hlc, Hf in Hrun. destruct (can_create s (e_loc x)); [|discriminate]. injection Hrun as <-.
    destruct (Hm c Hc) as [HcP _]. destruct (d_hl _ _ HD c x (HP c HcP) Hx (Hfr c HcP) Hhl) as [_ Hsd].
    apply inv_extend_frame; [|intros q Hq; now apply lookup_set_other].
    exists nc. split; [apply lookup_set_same|]. left. eapply can_hl_realises; eauto.
  - intros ops0 m' Hcf Hm' Hrun. split; [eapply copy_inv; eauto|].
    destruct Hm' as [[-> _]|(-> & _ & Hfile)]; [exact Hmono|].
    intros c Hc. apply in_app_or in Hc as [Hc|[<-|[]]]; [now apply Hmono|]. split; [now left|exact Hfile].
Qed.

Lemma dir_step_elim (R : list op -> Prop) ops :
  is_kdir x = true ->
  (forall m u g t, lookup s (e_loc x) = Some (Dir m u g t) ->
     R (perms_existing x (e_loc x) (e_loc x) (Dir m u g t))) ->
  (lookup s (e_loc x) = None ->
     R (Mkdir (e_loc x) (dir_create_mode um x) :: perms_new x (e_loc x) ++ perms_new x (e_loc x))) ->
  dir_step um s x = (ops, None) -> R ops.
Proof.
  intros Hk Hex Hnew Hst.
  destruct (d_nodot _ _ HD x Hx) as (Hnd & Hne & Hlen).
  assert (Hun : lookup s (e_loc x) = lookup s0 (e_loc x)) by (eapply L_unproc; eauto).
  assert (Hns : is_symo (lookup s (e_loc x)) = false) by (rewrite Hun; eapply (d_nosymdir _ _ HD); eauto).
  assert (Hplt : plain s (e_loc x) true) by (eapply L_plain; eauto).
  assert (Hplf : plain s (e_loc x) false) by (eapply L_plain; eauto; discriminate).
  set (p := e_loc x) in *.
  assert (Hna : node_at s p = lookup s p) by (destruct p; [congruence|reflexivity]).
  assert (Hmk : new_dir um s x = (ops, None) -> R ops).
  { unfold new_dir. fold p. intro H. destruct (canon s p) as [cp| |] eqn:Hc; try discriminate.
    destruct (canon_ok _ _ _ _ Hc Hplf) as [-> _].
    destruct p as [|c0 p'] eqn:Ep; [congruence|]. rewrite <- Ep in *.
    destruct (lookup s p) as [n|] eqn:Hl.
    - destruct n; discriminate.
    - injection H as <-. now apply Hnew. }
  rewrite dir_step_unfold in Hst. fold p in Hst.
  destruct (rcanon s p) as [r| |] eqn:Hrc; [| |discriminate].
  - destruct (canon_ok _ _ _ _ Hrc Hplt) as [-> _]. rewrite Hna in Hst.
    destruct (lookup s p) as [n2|] eqn:Hl; [|now apply Hmk].
    destruct (is_dir_node n2) eqn:Hd2; [|discriminate].
    destruct (canon s p) as [cp| |] eqn:Hc; try discriminate.
    destruct (canon_ok _ _ _ _ Hc Hplf) as [-> _]. injection Hst as <-.
    destruct n2 as [| m u g t | | |]; try discriminate. now apply Hex.
  - now apply Hmk.
Qed.

Lemma dir_step_inv ops s' :
  is_kdir x = true -> dir_step um s x = (ops, None) -> run_opt ops s = Some s' -> Inv C s0 (x :: P) s'.
Proof.
  intros Hk Hst.
  apply (dir_step_elim (fun ops => run_opt ops s = Some s' -> Inv C s0 (x :: P) s') ops Hk); [| |exact Hst].
  - intros m u g t Hl Hrun. destruct (existingdir_block _ _ _ _ _ _ _ _ Hl Hrun) as [(n & L & K & _) F].
    apply inv_extend_frame; [|exact F]. exists n. split; [exact L|]. right. split; [exact Hk|].
    exists (Dir m u g t). split; [|exact K]. rewrite <- Hl. symmetry. now apply (L_unproc C s0 P s HI).
  - intros _ Hrun. assert (Ekd : e_kind x = KDir) by (unfold is_kdir in Hk; now destruct (e_kind x)).
    destruct (newdir_block _ _ _ _ _ Ekd Hrun) as (_ & (n & L & R & _) & F).
    apply inv_extend_frame; [|exact F]. exists n. split; [exact L|now left].
Qed.

End Step.

Section Passes.
Variable um : N.
Variable C : list entry.
Variable s0 : fs.
Hypothesis HD : Dom C s0.

(* entries of one kind still to be processed, with distinct locations that no processed entry has *)
Definition pending (k : bool) (P xs : list entry) : Prop :=
  (forall x, In x xs -> In x C /\ is_kdir x = k) /\ NoDup (map e_loc xs) /\
  (forall x y, In x xs -> In y P -> e_loc y <> e_loc x).

Lemma pending_cons k P x r : pending k P (x :: r) ->
  In x C /\ is_kdir x = k /\ (forall y, In y P -> e_loc y <> e_loc x) /\
  (forall y, In y r -> e_loc y <> e_loc x) /\ pending k (x :: P) r.
Proof.
  intros (Hxs & Hnd & Hfr). inversion Hnd as [|? ? Hnin Hnd']; subst.
  destruct (Hxs x (or_introl eq_refl)) as [HxC Hxk].
  assert (Hr : forall y, In y r -> e_loc y <> e_loc x) by (intros y Hy E; apply Hnin; rewrite <- E; now apply in_map).
  split; [exact HxC|]. split; [exact Hxk|]. split; [intros y Hy; apply Hfr; [now left|exact Hy]|].
  split; [exact Hr|]. split; [intros y Hy; apply Hxs; now right|]. split; [exact Hnd'|].
  intros y z Hy [<-|Hz]; [intro E; now apply (Hr y Hy)|]. apply Hfr; [now right|exact Hz].
Qed.

(* induction over a successful directory pass started in a boundary state *)
Lemma dirs_phase_ind (R : list entry -> fs -> list entry -> list op -> fs -> Prop) :
  (forall P s, Inv C s0 P s -> R P s [] [] s) ->
  (forall P s x r ops1 s1 ops2 s',
     pending true P (x :: r) -> Inv C s0 P s -> dir_step um s x = (ops1, None) -> run_opt ops1 s = Some s1 ->
     Inv C s0 (x :: P) s1 -> R (x :: P) s1 r ops2 s' -> R P s (x :: r) (ops1 ++ ops2) s') ->
  forall ds P s ops sf, pending true P ds -> Inv C s0 P s ->
    dirs_phase um s ds = (ops, sf, None) -> forall s', run_opt ops s = Some s' -> R P s ds ops s'.
Proof.
  intros Hnil Hcons. induction ds as [|x r IH]; intros P s ops sf Hpe HI Hph s' Hrun.
  - change (dirs_phase um s []) with (@nil op, s, @None N) in Hph.
    injection Hph as <- <-. cbn in Hrun. injection Hrun as <-. now apply Hnil.
  - rewrite dirs_phase_cons in Hph.
    destruct (dir_step um s x) as [ops1 err] eqn:Hst. destruct err as [e|]; [discriminate|].
    cbv zeta in Hph.
    destruct (dirs_phase um (run ops1 s) r) as [[ops2 s2] err2] eqn:Hph2.
    injection Hph as <- <- ->. rewrite run_opt_app in Hrun.
    destruct (run_opt ops1 s) as [s1|] eqn:Hr1; [|discriminate].
    rewrite (run_opt_run _ _ _ Hr1) in Hph2.
    destruct (pending_cons _ _ _ _ Hpe) as (HxC & Hxk & Hfrx & _ & Hpe').
    assert (HI1 : Inv C s0 (x :: P) s1) by (eapply dir_step_inv; eauto).
    eapply Hcons; eauto.
Qed.

(* the same for the non-directory pass; m: the hard-link candidates *)
Lemma nondirs_phase_ind (R : list entry -> fs -> list entry -> list entry -> list op -> fs -> Prop) :
  (forall P s m, Inv C s0 P s -> R P s m [] [] s) ->
  (forall P s m x r ops1 m' s1 ops2 s',
     pending false P (x :: r) -> Inv C s0 P s ->
     (forall d, In d C -> is_kdir d = true -> In d P) -> files_in m P ->
     nondir_step um s m x = (ops1, None, m') -> run_opt ops1 s = Some s1 ->
     Inv C s0 (x :: P) s1 -> R (x :: P) s1 m' r ops2 s' -> R P s m (x :: r) (ops1 ++ ops2) s') ->
  forall xs P s m ops sf, pending false P xs -> Inv C s0 P s ->
    (forall d, In d C -> is_kdir d = true -> In d P) -> files_in m P ->
    nondirs_phase um s m xs = (ops, sf, None) -> forall s', run_opt ops s = Some s' -> R P s m xs ops s'.
Proof.
  intros Hnil Hcons. induction xs as [|x r IH]; intros P s m ops sf Hpe HI Hdirs Hm Hph s' Hrun.
  - cbn in Hph. injection Hph as <- <-. cbn in Hrun. injection Hrun as <-. now apply Hnil.
  - cbn [nondirs_phase] in Hph.
    destruct (nondir_step um s m x) as [[ops1 err] m'] eqn:Hst.
    destruct err as [e|]; [discriminate|].
    destruct (nondirs_phase um (run ops1 s) m' r) as [[ops2 s2] err2] eqn:Hph2.
    injection Hph as <- <- ->. rewrite run_opt_app in Hrun.
    destruct (run_opt ops1 s) as [s1|] eqn:Hr1; [|discriminate].
    rewrite (run_opt_run _ _ _ Hr1) in Hph2.
    destruct (pending_cons _ _ _ _ Hpe) as (HxC & Hxk & Hfrx & _ & Hpe').
    destruct (nondir_step_inv um C s0 HD P s x HI HxC Hfrx m ops1 m' s1 Hxk Hdirs Hm Hst Hr1) as [HI1 Hm1].
    eapply Hcons; eauto. eapply IH; eauto. intros d Hd Hk. right. auto.
Qed.

Lemma dirs_phase_inv ds P s ops sf :
  pending true P ds -> Inv C s0 P s -> dirs_phase um s ds = (ops, sf, None) ->
  forall s', run_opt ops s = Some s' -> Inv C s0 (rev ds ++ P) s'.
Proof.
  apply (dirs_phase_ind (fun P _ ds _ s' => Inv C s0 (rev ds ++ P) s')); [auto|].
  cbv beta. intros P0 s1 x r ops1 s2 ops2 s' _ _ _ _ _ H. cbn [rev]. now rewrite <- app_assoc.
Qed.

Lemma nondirs_phase_inv xs P s m ops sf :
  pending false P xs -> Inv C s0 P s -> (forall d, In d C -> is_kdir d = true -> In d P) -> files_in m P ->
  nondirs_phase um s m xs = (ops, sf, None) -> forall s', run_opt ops s = Some s' ->
  Inv C s0 (rev xs ++ P) s'.
Proof.
  apply (nondirs_phase_ind (fun P _ _ xs _ s' => Inv C s0 (rev xs ++ P) s')); [auto|].
  cbv beta. intros P0 s1 m0 x r ops1 m' s2 ops2 s' _ _ _ _ _ _ _ H. cbn [rev]. now rewrite <- app_assoc.
Qed.

End Passes.

Lemma pprefix_in q p : pprefix q p -> In q (pprefixes p).
Proof.
  intros (suf & -> & Hq & Hs). unfold pprefixes. apply in_map_iff. exists (length q). split.
  - rewrite firstn_app. replace (length q - length q) with 0 by lia. cbn. now rewrite firstn_all, app_nil_r.
  - apply in_seq. rewrite app_length. destruct q; [congruence|]. destruct suf; [congruence|]. cbn. lia.
Qed.
Lemma pprefix_b_true q p : pprefix q p -> pprefix_b q p = true.
Proof.
  intros (suf & -> & Hq & Hs). unfold pprefix_b, strict_prefix. destruct q as [|q0 q]; [congruence|]. cbn [is_nil negb andb].
  rewrite is_prefix_app. cbn [andb]. destruct (path_eq_dec (q0 :: q) ((q0 :: q) ++ suf)) as [E|]; [|reflexivity].
  exfalso. assert (L : length (q0 :: q) = length ((q0 :: q) ++ suf)) by now rewrite <- E.
  rewrite app_length in L. destruct suf; [congruence|]. cbn in L. lia.
Qed.
Lemma nodup_paths_NoDup l : nodup_paths l = true -> NoDup l.
Proof.
  induction l as [|p r IH]; cbn; intro H; [constructor|]. apply andb_true_iff in H as [H1 H2].
  constructor; [|now apply IH]. intro Hi. unfold mem_path in H1. apply negb_true_iff in H1.
  assert (existsb (fun q => if path_eq_dec p q then true else false) r = true).
  { apply existsb_exists. exists p. split; [exact Hi|]. destruct (path_eq_dec p p); congruence. }
  congruence.
Qed.
Lemma path_eqb_false a b : path_eqb a b = false -> a <> b.
Proof. unfold path_eqb. destruct (path_eq_dec a b); congruence. Qed.
Lemma nodot_b_true c : nodot_b c = true -> nodot c.
Proof. unfold nodot_b, nodot. intro H. apply andb_true_iff in H as [A B]. apply negb_true_iff in A, B. auto. Qed.

(* what the per-entry conjunct of [noalias] says of one entry and of its pairs *)
Lemma noalias_entry i x : noalias i = true -> In x (cset_of i) ->
  let C := cset_of i in let s0 := i_fs i in
  (Forall nodot (e_loc x) /\ e_loc x <> [] /\ length (e_loc x) < 120) /\
  (forall q, pprefix q (e_loc x) -> is_symo (lookup s0 q) = false) /\
  (is_kdir x = true -> is_symo (lookup s0 (e_loc x)) = false) /\
  (is_kdir x = false -> lookup s0 (sibling_new (e_loc x)) = None) /\
  (is_ksym x = true -> is_diro (lookup s0 (e_loc x)) = false) /\
  (lookup s0 (e_loc x) <> None -> forall q, pprefix q (e_loc x) -> is_diro (lookup s0 q) = true) /\
  (forall y, In y C ->
     sibling_new (e_loc x) <> e_loc y /\ ~ pprefix (sibling_new (e_loc x)) (e_loc y) /\
     (is_kdir x = false -> ~ pprefix (e_loc x) (e_loc y)) /\
     (e_loc x <> e_loc y -> can_hl x y = true -> lookup s0 (e_loc y) = None /\ same_data x y)).
Proof.
  intros H Hin. cbv zeta. unfold noalias in H. set (C := cset_of i) in *. set (s0 := i_fs i) in *.
  apply andb_true_iff in H as [_ Hall].
  rewrite forallb_forall in Hall. specialize (Hall x Hin).
  repeat (apply andb_true_iff in Hall as [Hall ?]).
  rename H into Hpairs, H0 into Hpar, H1 into Hsd, H2 into Hkd, H3 into Hpre, H4 into Hlen, H5 into Hnil.
  split; [|split; [|split; [|split; [|split; [|split]]]]].
  - split; [|split].
    + apply Forall_forall. intros c Hc. apply nodot_b_true. rewrite forallb_forall in Hall. now apply Hall.
    + destruct (e_loc x); [discriminate|discriminate].
    + now apply Nat.ltb_lt.
  - intros q Hq. rewrite forallb_forall in Hpre. specialize (Hpre q (pprefix_in _ _ Hq)). now apply negb_true_iff.
  - intro Hk. rewrite Hk in Hkd. now apply negb_true_iff.
  - intro Hk. rewrite Hk in Hkd. destruct (lookup s0 (sibling_new (e_loc x))); [discriminate|reflexivity].
  - intro Hk. rewrite Hk in Hsd. now apply negb_true_iff.
  - intros Hb q Hq. destruct (lookup s0 (e_loc x)) eqn:E; [|congruence]. cbn in Hpar.
    rewrite forallb_forall in Hpar. apply Hpar. now apply pprefix_in.
  - intros y Hy. rewrite forallb_forall in Hpairs. specialize (Hpairs y Hy).
    repeat (apply andb_true_iff in Hpairs as [Hpairs ?]).
    split; [|split; [|split]].
    + apply path_eqb_false. now apply negb_true_iff.
    + intro Hp. apply pprefix_b_true in Hp. rewrite Hp in H1. discriminate.
    + intros Hk Hp. rewrite Hk in H0. apply pprefix_b_true in Hp. rewrite Hp in H0. discriminate.
    + intros Hne Hhl. unfold path_eqb in H. destruct (path_eq_dec (e_loc x) (e_loc y)); [contradiction|].
      rewrite Hhl in H. apply andb_true_iff in H as [A B]. split.
      * destruct (lookup s0 (e_loc y)); [discriminate|reflexivity].
      * unfold same_data_b in B. unfold same_data. destruct (e_kind x), (e_kind y); auto. now apply str_eqb_eq.
Qed.

Lemma noalias_dom i : noalias i = true ->
  Dom (cset_of i) (i_fs i) /\ NoDup (map e_loc (cset_of i)) /\
  offset_ops (i_umask i) (i_fs i) (i_offset i) = ([], None).
Proof.
  intro Hna. pose proof (fun x => noalias_entry i x Hna) as Hx. cbv zeta in Hx.
  unfold noalias in Hna. apply andb_true_iff in Hna as [H _]. apply andb_true_iff in H as [Hoff Hnd].
  apply nodup_paths_NoDup in Hnd. split; [|split; [exact Hnd|]].
  2:{ destruct (offset_ops _ _ _) as [[|o l] [e|]]; try discriminate. reflexivity. }
  constructor.
  - intros x Hin. apply (Hx x Hin).
  - intros x y Hix Hiy E. eapply NoDup_map_inj; eauto.
  - intros x y Hix Hiy. destruct (Hx x Hix) as (_ & _ & _ & _ & _ & _ & H). destruct (H y Hiy) as (A & B & _). auto.
  - intros x y Hix Hiy Hk. destruct (Hx x Hix) as (_ & _ & _ & _ & _ & _ & H). destruct (H y Hiy) as (_ & _ & A & _). auto.
  - intros x q Hix. apply (Hx x Hix).
  - intros x Hix. apply (Hx x Hix).
  - intros x Hix. apply (Hx x Hix).
  - intros x Hix. apply (Hx x Hix).
  - intros c x Hic Hix Hne Hhl. destruct (Hx c Hic) as (_ & _ & _ & _ & _ & _ & H). destruct (H x Hix) as (_ & _ & _ & A). auto.
  - intros x q Hix Hb Hq. destruct (Hx x Hix) as (_ & _ & _ & _ & _ & H & _). exact (H Hb q Hq).
Qed.

Definition dirs_of (C : list entry) : list entry := sort_entries (filter is_kdir C).
Definition nondirs_of (C : list entry) : list entry := filter (fun x => negb (is_kdir x)) C.

(* on the domain a successful merge is the directory pass over the sorted directory entries
   followed by the non-directory pass over the rest *)
Lemma merge_passes i sf :
  noalias i = true -> merge_err i = None -> run_opt (merge_ops i) (i_fs i) = Some sf ->
  let C := cset_of i in
  Dom C (i_fs i) /\
  exists ops1 s1 ops2 s2,
    merge_ops i = ops1 ++ ops2 /\
    dirs_phase (i_umask i) (i_fs i) (dirs_of C) = (ops1, s1, None) /\ run_opt ops1 (i_fs i) = Some s1 /\
    nondirs_phase (i_umask i) s1 [] (nondirs_of C) = (ops2, s2, None) /\ run_opt ops2 s1 = Some sf /\
    pending C true [] (dirs_of C) /\ pending C false (rev (dirs_of C)) (nondirs_of C) /\
    (forall d, In d C -> is_kdir d = true -> In d (rev (dirs_of C))).
Proof.
  intros Hna Herr Hrun C. destruct (noalias_dom i Hna) as (HD & Hnd & Hoff). split; [exact HD|].
  set (s0 := i_fs i) in *. set (um := i_umask i) in *.
  unfold merge_err, merge_ops, merge in *. fold um s0 in Herr, Hrun |- *. rewrite Hoff in Herr, Hrun |- *.
  change (run [] s0) with s0 in Herr, Hrun |- *. fold (cset_of i) in Herr, Hrun |- *. fold C in Herr, Hrun |- *.
  fold (dirs_of C) in Herr, Hrun |- *. fold (nondirs_of C) in Herr, Hrun |- *.
  destruct (dirs_phase um s0 (dirs_of C)) as [[ops1 s2] err1] eqn:E1.
  destruct err1 as [e|]; [cbn in Herr; discriminate|].
  destruct (nondirs_phase um s2 [] (nondirs_of C)) as [[ops2 s3] err2] eqn:E2.
  cbn [fst snd] in Herr, Hrun |- *. subst err2. cbn [app] in Hrun |- *.
  rewrite run_opt_app in Hrun. destruct (run_opt ops1 s0) as [s1|] eqn:Hr1; [|discriminate].
  pose proof (dirs_phase_state _ _ _ _ _ E1 _ Hr1) as ->.
  assert (Hds : forall x, In x (dirs_of C) <-> In x C /\ is_kdir x = true).
  { intro x. unfold dirs_of. now rewrite In_sort_entries_iff, filter_In. }
  assert (Hns : forall x, In x (nondirs_of C) <-> In x C /\ is_kdir x = false).
  { intro x. unfold nondirs_of. rewrite filter_In. now destruct (is_kdir x). }
  exists ops1, s1, ops2, s3. repeat split; auto; try (now apply Hds); try (now apply Hns).
  - apply NoDup_sort_entries. now apply NoDup_map_filter.
  - now apply NoDup_map_filter.
  - intros x y Hx Hy E. apply Hns in Hx as [Hx Hk]. apply in_rev, Hds in Hy as [Hy Hky].
    rewrite (NoDup_map_inj e_loc C y x Hnd Hy Hx E) in Hky. congruence.
  - intros d Hd Hk. apply -> in_rev. now apply Hds.
Qed.

Theorem merge_inv i sf :
  noalias i = true -> merge_err i = None -> run_opt (merge_ops i) (i_fs i) = Some sf ->
  exists P, Inv (cset_of i) (i_fs i) P sf /\ (forall x, In x (cset_of i) -> In x P).
Proof.
  intros Hna Herr Hrun.
  destruct (merge_passes i sf Hna Herr Hrun) as (HD & ops1 & s1 & ops2 & s2 & _ & E1 & Hr1 & E2 & Hr2 & Hp1 & Hp2 & Hdirs).
  pose proof (dirs_phase_inv _ _ _ HD _ _ _ _ _ Hp1 (inv_start _ _) E1 _ Hr1) as HI1. rewrite app_nil_r in HI1.
  exists (rev (nondirs_of (cset_of i)) ++ rev (dirs_of (cset_of i))). split.
  - eapply nondirs_phase_inv; eauto. intros c [].
  - intros x Hx. apply in_or_app. destruct (is_kdir x) eqn:Hk; [right; now apply Hdirs|left].
    apply -> in_rev. apply filter_In. now rewrite Hk.
Qed.

(* the domain is inhabited: a directory, a file in it, a symlink, a replaced file, a missing parent *)
Definition ex_input : minput :=
  {| i_umask := 18; i_offset := Some [[111]]%N;
     i_cset := [ {| e_loc := [[100]]%N; e_kind := KDir; e_mode := Some 493%N; e_uid := Some 0%N; e_gid := Some 0%N; e_mtime := Some 5%Z |};
                 {| e_loc := [[100]; [102]]%N; e_kind := KFile [1; 2]%N (Some 7%N); e_mode := Some 420%N; e_uid := None; e_gid := None; e_mtime := Some 6%Z |};
                 {| e_loc := [[103]]%N; e_kind := KFile [1; 2]%N (Some 7%N); e_mode := Some 420%N; e_uid := None; e_gid := None; e_mtime := Some 6%Z |};
                 {| e_loc := [[108]]%N; e_kind := KSym [100]%N; e_mode := None; e_uid := Some 3%N; e_gid := None; e_mtime := None |};
                 {| e_loc := [[114]]%N; e_kind := KFile [9]%N None; e_mode := Some 384%N; e_uid := None; e_gid := None; e_mtime := None |};
                 {| e_loc := [[109]; [110]; [112]]%N; e_kind := KFifo; e_mode := Some 384%N; e_uid := None; e_gid := None; e_mtime := Some 8%Z |} ];
     i_fs := [ ([[111]]%N, Dir 493 0 0 1); ([[111]; [114]]%N, File [7; 7; 7]%N 420 0 0 2 1) ] |}.
Example noalias_inhabited :
  noalias ex_input = true /\ merge_err ex_input = None /\
  (exists sf, run_opt (merge_ops ex_input) (i_fs ex_input) = Some sf) /\ length (merge_ops ex_input) = 24.
Proof. vm_compute. repeat split; eauto. Qed.
