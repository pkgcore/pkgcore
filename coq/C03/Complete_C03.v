(* Complete_C03.v — COMPLETENESS of acceptance: every string the PMS grammar recogniser accepts is
   accepted by the model of atom.__init__, outside the recorded class (a version-like chunk with an
   upper-case letter), for text without newline.  Converse of Grammar_C03, stage by stage. *)
From Coq Require Import List ZArith Bool Lia.
Import ListNotations.
From Verif Require Import Base.Val C03.Model_C03 C03.Spec_C03
  C03.Proofs_C03 C03.Version_C03 C03.UseDep_C03 C03.Grammar_C03.
Local Open Scope N_scope.

(* [v] occurs in [s] as a contiguous piece *)
Definition sub (v s : str) : Prop := exists p q, s = p ++ v ++ q.

Lemma sub_refl s : sub s s.
Proof. exists [], []. now rewrite app_nil_r. Qed.
Lemma sub_trans a b c : sub a b -> sub b c -> sub a c.
Proof. intros (p & q & ->) (p' & q' & ->). exists (p' ++ p), (q ++ q'). now rewrite <- !app_assoc. Qed.
Lemma sub_app_l a b : sub a (a ++ b).
Proof. exists [], b. reflexivity. Qed.
Lemma sub_app_r a b : sub b (a ++ b).
Proof. exists a, []. now rewrite app_nil_r. Qed.
Lemma sub_cons_r x b : sub b (x :: b).
Proof. exact (sub_app_r [x] b). Qed.
Lemma sub_in v s x : sub v s -> In x v -> In x s.
Proof. intros (p & q & ->) H. apply in_or_app. right. apply in_or_app. now left. Qed.

Lemma sub_join c l ch : In ch l -> sub ch (join c l).
Proof.
  induction l as [|a r IH]; [intros []|]. destruct r as [|b r'].
  - intros [<-|[]]. apply sub_refl.
  - rewrite join_cons by discriminate.
    intros [<-|H]; [apply sub_app_l|].
    apply (sub_trans _ _ _ (IH H)). exact (sub_trans _ _ _ (sub_cons_r c _) (sub_app_r a _)).
Qed.

Lemma sub_chunk c s ch : In ch (split_on c s) -> sub ch s.
Proof. intros H. rewrite <- (join_split_on c s). now apply sub_join. Qed.

(* the recorded class, on the input: some contiguous piece is a version for the code's regex but
   carries an upper-case letter *)
Definition no_upper_version (s : str) : Prop :=
  forall v, sub v s -> m_version v = true -> no_upper v = true.

(* the text-side hypotheses of completeness; every piece of the text inherits them ([tidy_sub]) *)
Definition tidy (s : str) : Prop := ~ In c_nl s /\ no_upper_version s.

Lemma tidy_sub x s : sub x s -> tidy s -> tidy x.
Proof.
  intros Hx [Hn Hup]. split; [intros Hin; exact (Hn (sub_in _ _ _ Hx Hin))|].
  intros v Hv. apply Hup. exact (sub_trans _ _ _ Hv Hx).
Qed.

Lemma no_upper_version_chunks name : no_upper_version name -> upper_version_chunk name = false.
Proof.
  intros H. unfold upper_version_chunk. destruct (existsb _ _) eqn:E; [|reflexivity]. exfalso.
  apply existsb_exists in E as (ch & Hin & Hc). apply andb_true_iff in Hc as [Hv Hu].
  rewrite (H ch (sub_chunk _ _ _ Hin) Hv) in Hu. discriminate.
Qed.

Lemma tidy_name nm : tidy nm -> pms_pkg_name nm = true -> valid_pkg_name (split_on c_dash nm) = true.
Proof. intros [Hn Hup]. exact (pkg_name_complete nm Hn (no_upper_version_chunks _ Hup)). Qed.

Lemma pkg_name_chars n ch : pms_pkg_name n = true -> s_pkg_char ch = false -> ~ In ch n.
Proof.
  unfold pms_pkg_name. intros H Hc Hin. apply andb_true_iff in H as [H _]. apply andb_true_iff in H as [H _].
  rewrite forallb_forall in H. specialize (H _ Hin). congruence.
Qed.

Lemma version_not_rev v : ~ In c_nl v -> m_version v = true -> isvalid_rev v = false.
Proof.
  intros Hn. unfold m_version. rewrite (strip_nl_id _ Hn). unfold ver_full. cbn [ver_nums].
  destruct v as [|x t]; [discriminate|]. destruct (is_digit x) eqn:Ex; [|discriminate]. intros _.
  unfold isvalid_rev. destruct (N.eqb_spec x c_r) as [->|]; [discriminate | reflexivity].
Qed.

Lemma parse_cpv_norev cat pkgver (a : list str) v :
  ~ In c_slash pkgver -> m_category cat = true ->
  split_on c_dash pkgver = a ++ [v] -> a <> [] ->
  isvalid_rev v = false -> m_version v = true -> valid_pkg_name a = true ->
  exists c, parse_cpv true (cat ++ c_slash :: pkgver) = Some c /\ c_rev c = Some [].
Proof.
  intros Hsl Hcat Hsp Hne Hr Hv Hp. unfold parse_cpv.
  rewrite (split_last_app _ _ _ Hsl), Hcat. cbn [negb]. rewrite Hsp.
  remember (a ++ [v]) as chunks eqn:Ech.
  destruct chunks as [|c0 [|c1 rest]].
  - destruct a; discriminate.
  - destruct a as [|a0 [|a1 a']]; [congruence | discriminate | discriminate].
  - rewrite Ech. rewrite last_last, Hr, Hv. cbn [negb]. rewrite removelast_last, Hp.
    eexists. split; reflexivity.
Qed.

Lemma parse_cpv_rev cat pkgver (a : list str) v r :
  ~ In c_slash pkgver -> m_category cat = true ->
  split_on c_dash pkgver = a ++ [v; r] -> a <> [] ->
  isvalid_rev r = true -> m_version v = true -> valid_pkg_name a = true ->
  exists c, parse_cpv true (cat ++ c_slash :: pkgver) = Some c.
Proof.
  intros Hsl Hcat Hsp Hne Hr Hv Hp. unfold parse_cpv.
  rewrite (split_last_app _ _ _ Hsl), Hcat. cbn [negb]. rewrite Hsp.
  assert (E2 : a ++ [v; r] = (a ++ [v]) ++ [r]) by now rewrite <- app_assoc.
  remember (a ++ [v; r]) as chunks eqn:Ech.
  destruct chunks as [|c0 [|c1 rest]].
  - destruct a; discriminate.
  - destruct a as [|a0 a']; [congruence|]. destruct a'; discriminate.
  - rewrite E2. rewrite last_last, Hr.
    assert (Hlen : (length ((a ++ [v]) ++ [r]) <? 3)%nat = false).
    { apply Nat.ltb_ge. rewrite !app_length. cbn [length]. destruct a; [congruence|]. cbn [length]. lia. }
    rewrite Hlen. rewrite removelast_last, last_last, Hv. cbn [negb]. rewrite removelast_last, Hp.
    eexists. reflexivity.
Qed.

Lemma cat_complete cat : pms_category cat = true -> m_category cat = true.
Proof.
  intros H. rewrite m_category_pms; [exact H|]. intros Hin.
  unfold pms_category in H. apply andb_true_iff in H as [H _]. rewrite forallb_forall in H.
  now apply H in Hin.
Qed.

Lemma cpv_unversioned_complete s :
  tidy s -> pms_unversioned s = true -> exists c, parse_cpv false s = Some c.
Proof.
  intros Ht. unfold pms_unversioned. change 47 with c_slash.
  destruct (split_first c_slash s) as [[cat nm]|] eqn:Es; [|discriminate].
  apply split_first_spec in Es as [-> _]. intros H. apply andb_true_iff in H as [Hc Hp].
  assert (Hsub : sub nm (cat ++ c_slash :: nm)) by exact (sub_trans _ _ _ (sub_cons_r c_slash nm) (sub_app_r cat _)).
  assert (Hsl : ~ In c_slash nm) by (apply (pkg_name_chars _ _ Hp); reflexivity).
  unfold parse_cpv. rewrite (split_last_app _ _ _ Hsl), (cat_complete _ Hc). cbn [negb].
  rewrite (tidy_name nm (tidy_sub _ _ Hsub Ht) Hp). eexists. reflexivity.
Qed.

Lemma cpv_versioned_complete allow s :
  tidy s -> pms_versioned allow s = true ->
  exists c, parse_cpv true s = Some c /\ (allow = false -> nonempty_opt (c_rev c) = false).
Proof.
  intros Ht. unfold pms_versioned. change 47 with c_slash.
  destruct (split_first c_slash s) as [[cat nv]|] eqn:Es; [|discriminate].
  apply split_first_spec in Es as [-> _]. intros H. apply andb_true_iff in H as [Hc Hex].
  pose proof (cat_complete _ Hc) as Hmc.
  apply existsb_exists in Hex as ([name suf] & Hin & Hcut). cbn [fst snd] in Hcut.
  apply hyphen_cuts_spec in Hin. change 45 with c_dash in Hin. subst nv.
  apply andb_true_iff in Hcut as [Hcut Hallow]. apply andb_true_iff in Hcut as [Hp Hvr].
  assert (Hsubnv : sub (name ++ c_dash :: suf) (cat ++ c_slash :: name ++ c_dash :: suf))
    by exact (sub_trans _ _ _ (sub_cons_r c_slash _) (sub_app_r cat _)).
  assert (Hsubn : sub name (cat ++ c_slash :: name ++ c_dash :: suf))
    by exact (sub_trans _ _ _ (sub_app_l name _) Hsubnv).
  pose proof (tidy_name name (tidy_sub _ _ Hsubn Ht) Hp) as Hvn.
  assert (Hsln : ~ In c_slash name) by (apply (pkg_name_chars _ _ Hp); reflexivity).
  unfold pms_version_rev in Hvr. unfold has_revision in Hallow. change 45 with c_dash in *.
  destruct (split_first c_dash suf) as [[v r]|] eqn:Ef.
  - apply split_first_spec in Ef as [-> Hvd]. apply andb_true_iff in Hvr as [Hv Hr].
    cbn [negb] in Hallow. rewrite orb_false_r in Hallow. subst allow.
    apply pms_version_m in Hv. rewrite <- rev_is_pms in Hr.
    assert (Hsl : ~ In c_slash (name ++ c_dash :: v ++ c_dash :: r)).
    { intros Hi. apply in_app_or in Hi as [Hi|[Hi|Hi]]; [exact (Hsln Hi) | discriminate|].
      apply in_app_or in Hi as [Hi|[Hi|Hi]]; [|discriminate|].
      - exact (m_version_foreign c_slash v eq_refl Hv Hi).
      - destruct (isvalid_rev_chars _ _ Hr Hi) as [E|E]; discriminate. }
    destruct (parse_cpv_rev cat _ (split_on c_dash name) v r Hsl Hmc) as (c & Hc');
      [ | apply split_on_nonnil | exact Hr | exact Hv | exact Hvn | ].
    + rewrite split_on_app. f_equal. rewrite split_on_app.
      rewrite (split_on_nosep _ _ Hvd), (split_on_nosep _ _ (isvalid_rev_no_dash _ Hr)). reflexivity.
    + exists c. split; [exact Hc' | discriminate].
  - apply pms_version_m in Hvr.
    pose proof (m_version_no_dash _ Hvr) as Hvd.
    assert (Hsubv : sub suf (cat ++ c_slash :: name ++ c_dash :: suf))
      by exact (sub_trans _ _ _ (sub_trans _ _ _ (sub_cons_r c_dash suf) (sub_app_r name _)) Hsubnv).
    assert (Hsl : ~ In c_slash (name ++ c_dash :: suf)).
    { intros Hi. apply in_app_or in Hi as [Hi|[Hi|Hi]]; [exact (Hsln Hi) | discriminate|].
      exact (m_version_foreign c_slash suf eq_refl Hvr Hi). }
    destruct (parse_cpv_norev cat _ (split_on c_dash name) suf Hsl Hmc) as (c & Hc' & Hrev);
      [ | apply split_on_nonnil | exact (version_not_rev _ (proj1 (tidy_sub _ _ Hsubv Ht)) Hvr) | exact Hvr | exact Hvn | ].
    + rewrite split_on_app. now rewrite (split_on_nosep _ _ Hvd).
    + exists c. split; [exact Hc' | intros _; now rewrite Hrev].
Qed.

Lemma cpv_complete op cpv :
  tidy cpv -> pms_cpv op cpv = true ->
  exists c, parse_cpv (negb (is_nil op)) cpv = Some c
            /\ str_eqb op [c_tilde] && nonempty_opt (c_rev c) = false.
Proof.
  unfold pms_cpv. intros Ht. destruct (is_nil op) eqn:En; cbn [negb]; intros H.
  - destruct (cpv_unversioned_complete _ Ht H) as (c & Hc). exists c. split; [exact Hc|].
    destruct op; [reflexivity | discriminate].
  - destruct (cpv_versioned_complete _ _ Ht H) as (c & Hc & Hrev). exists c. split; [exact Hc|].
    revert Hrev. destruct (str_eqb op [c_tilde]); intros Hrev; [now rewrite (Hrev eq_refl) | reflexivity].
Qed.

Lemma slot_strip_eq_cases sl : sl = slot_strip_eq sl \/ sl = slot_strip_eq sl ++ [c_eq].
Proof.
  unfold slot_strip_eq. destruct (rev sl) as [|l r] eqn:Er; [now left|].
  change 61 with c_eq. destruct (N.eqb_spec l c_eq) as [->|]; [right | now left].
  rewrite <- (rev_involutive sl), Er. reflexivity.
Qed.

Lemma slot_name_chars a x : pms_slot_name a = true -> In x a -> s_slot_char x = true.
Proof.
  unfold pms_slot_name. intros H Hin. apply andb_true_iff in H as [H _].
  rewrite forallb_forall in H. now apply H.
Qed.

Definition slot_third (sl : str) : bool :=
  match split_first 47 (slot_strip_eq sl) with
  | Some (a, b) => pms_slot_name a && pms_slot_name b
  | None => pms_slot_name (slot_strip_eq sl)
  end.

Lemma slot_spec_unfold f sl :
  pms_slot_spec f sl = f_slot f && (pms_slot_name sl || (f_subslot f && (str_eqb sl [42] || str_eqb sl [61] || slot_third sl))).
Proof. reflexivity. Qed.

Lemma slot_third_chars sl x :
  slot_third sl = true -> In x sl -> s_slot_char x = true \/ x = c_slash \/ x = c_eq.
Proof.
  unfold slot_third. change 47 with c_slash. intros H Hin.
  assert (Hx : In x (slot_strip_eq sl) \/ x = c_eq).
  { destruct (slot_strip_eq_cases sl) as [E|E]; rewrite E in Hin; [now left|].
    apply in_app_or in Hin as [Hin|[Hin|[]]]; [now left | now right]. }
  destruct Hx as [Hx|Hx]; [|auto].
  destruct (split_first c_slash (slot_strip_eq sl)) as [[a b]|] eqn:Es.
  - apply split_first_spec in Es as [Es _]. rewrite Es in Hx. apply andb_true_iff in H as [Ha Hb].
    apply in_app_or in Hx as [Hx|[Hx|Hx]]; [left; exact (slot_name_chars _ _ Ha Hx) | auto | left; exact (slot_name_chars _ _ Hb Hx)].
  - left. exact (slot_name_chars _ _ H Hx).
Qed.

Lemma slot_spec_chars f sl x :
  pms_slot_spec f sl = true -> In x sl ->
  s_slot_char x = true \/ x = c_slash \/ x = c_eq \/ x = c_star.
Proof.
  rewrite slot_spec_unfold. intros H Hin. apply andb_true_iff in H as [_ H].
  apply orb_true_iff in H as [H|H]; [left; exact (slot_name_chars _ _ H Hin)|].
  apply andb_true_iff in H as [_ H]. apply orb_true_iff in H as [H|H].
  - apply orb_true_iff in H as [H|H]; apply str_eqb_eq in H; subst sl; destruct Hin as [<-|[]];
      [now right; right; right | now right; right; left].
  - destruct (slot_third_chars _ _ H Hin) as [E|[E|E]]; [now left | now right; left | now right; right; left].
Qed.

Lemma slot_name_third sl : pms_slot_name sl = true -> slot_third sl = true.
Proof.
  intros H.
  assert (Hs : slot_strip_eq sl = sl).
  { unfold slot_strip_eq. destruct (rev sl) as [|l r] eqn:Er; [reflexivity|].
    destruct (N.eqb_spec l 61) as [->|]; [|reflexivity]. exfalso.
    assert (Hin : In 61 sl) by (rewrite <- (rev_involutive sl), Er; apply in_or_app; right; now left).
    now apply (slot_name_chars _ _ H) in Hin. }
  unfold slot_third. rewrite Hs. change 47 with c_slash.
  rewrite (proj2 (split_first_none c_slash sl)); [exact H|].
  intros Hin. now apply (slot_name_chars _ _ H) in Hin.
Qed.

Lemma slot_name_chunk a : pms_slot_name a = true -> slot_chunk_ok a = true.
Proof. intros H. now rewrite slot_chunk_pms, H. Qed.

Lemma slot_body_complete g f sl ro :
  g_sub_slotting g = f_subslot f -> g_slot_deps g = f_slot f ->
  pms_slot_spec f sl = true ->
  g_slot_deps g = true /\ exists p, slot_body g sl ro = Some p /\ sp_repo p = ro.
Proof.
  intros G5 G1. rewrite slot_spec_unfold. intros H. apply andb_true_iff in H as [Hfs H].
  split; [now rewrite G1|]. unfold slot_body.
  destruct sl as [|c t].
  { exfalso. destruct (f_subslot f); cbn in H; discriminate. }
  rewrite G5, G1, Hfs. cbn [negb].
  destruct (f_subslot f).
  - cbn [andb] in H.
    assert (Hthird_fail : (c =? c_star) || (c =? c_eq) = true -> pms_slot_name (c :: t) = false /\ slot_third (c :: t) = false).
    { intros Hc. assert (Hsc : s_slot_char c = false).
      { apply orb_true_iff in Hc as [E|E]; apply N.eqb_eq in E; subst c; reflexivity. }
      assert (Hname : forall a, (a = [] \/ exists a', a = c :: a') -> pms_slot_name a = false).
      { intros a [->|(a' & ->)]; [reflexivity|]. unfold pms_slot_name. cbn [forallb]. now rewrite Hsc. }
      split; [apply Hname; right; eauto|].
      unfold slot_third. change 47 with c_slash.
      assert (Hpre : slot_strip_eq (c :: t) = [] \/ exists s', slot_strip_eq (c :: t) = c :: s').
      { destruct (slot_strip_eq_cases (c :: t)) as [E|E]; destruct (slot_strip_eq (c :: t)) as [|y s'] eqn:Es; auto;
          injection E as -> _; right; eauto. }
      destruct (split_first c_slash (slot_strip_eq (c :: t))) as [[a b]|] eqn:Es.
      - apply split_first_spec in Es as [Es _]. rewrite (Hname a); [reflexivity|].
        destruct Hpre as [E|(s' & E)]; rewrite E in Es.
        + destruct a; discriminate.
        + destruct a as [|a0 a']; [left; reflexivity | right; injection Es as -> _; eauto].
      - apply Hname. destruct Hpre as [E|(s' & E)]; rewrite E; [now left | right; eauto]. }
    destruct ((c =? c_star) || (c =? c_eq)) eqn:Ec.
    + destruct (Hthird_fail eq_refl) as [Hn1 Hn3]. rewrite Hn1, Hn3, orb_false_r in H. cbn [orb] in H.
      assert (Ht : t = []).
      { apply orb_true_iff in H as [H|H]; apply str_eqb_eq in H; now injection H. }
      subst t. cbn [is_nil negb]. eexists. split; reflexivity.
    + assert (Hthird : slot_third (c :: t) = true).
      { apply orb_true_iff in H as [H|H]; [now apply slot_name_third|].
        apply orb_true_iff in H as [H|H]; [|exact H]. exfalso.
        apply orb_false_iff in Ec as [E1 E2]. apply N.eqb_neq in E1, E2.
        apply orb_true_iff in H as [H|H]; apply str_eqb_eq in H; injection H as H _; subst c;
          [exact (E1 eq_refl) | exact (E2 eq_refl)]. }
      unfold slot_third in Hthird. rewrite (slot_strip_eq_split (c :: t)) in Hthird by discriminate.
      change 47 with c_slash in Hthird.
      destruct (split_first c_slash (snd (slot_op_split (c :: t)))) as [[a b]|].
      * apply andb_true_iff in Hthird as [Ha Hb]. rewrite (slot_name_chunk _ Ha), (slot_name_chunk _ Hb). cbn [andb].
        eexists. split; reflexivity.
      * rewrite (slot_name_chunk _ Hthird). eexists. split; reflexivity.
  - cbn [andb] in H. rewrite orb_false_r in H. rewrite (slot_name_chunk _ H). eexists. split; reflexivity.
Qed.

Lemma head_no_lbr g l b st op cpv c :
  stage_prefix g l = R3 b st op cpv ->
  parse_cpv (negb (is_nil op)) cpv = Some c -> ~ In c_nl cpv -> ~ In c_lbr l.
Proof.
  intros Hp Hc Hn. destruct (stage_prefix_print _ _ _ _ _ _ Hp) as [-> Ho]. unfold p_head. intros Hin.
  assert (Hcpv : ~ In c_lbr cpv) by (intros Hi; now destruct (cpv_chars _ _ _ _ Hn Hc Hi)).
  assert (Hop : ~ In c_lbr op) by (intros Hi; rewrite forallb_forall in Ho; now apply Ho in Hi).
  apply in_app_or in Hin as [Hin|Hin].
  - destruct b; [destruct st|]; cbn in Hin; repeat (destruct Hin as [Hin|Hin]; [discriminate|]); exact Hin.
  - destruct (str_eqb op [c_eq; c_star]).
    + destruct Hin as [Hin|Hin]; [discriminate|]. apply in_app_or in Hin as [Hin|[Hin|[]]]; [exact (Hcpv Hin) | discriminate].
    + apply in_app_or in Hin as [Hin|Hin]; [exact (Hop Hin) | exact (Hcpv Hin)].
Qed.

Lemma in_p_head_sub b st op cpv : sub cpv (p_head b st op cpv).
Proof.
  unfold p_head. apply (sub_trans _ (if str_eqb op [c_eq; c_star] then c_eq :: cpv ++ [c_star] else op ++ cpv)); [|apply sub_app_r].
  destruct (str_eqb op [c_eq; c_star]); [exact (sub_trans _ _ _ (sub_app_l cpv _) (sub_cons_r c_eq _)) | apply sub_app_r].
Qed.

Lemma repo_name_chars rep x : pms_repo_name rep = true -> In x rep -> s_repo_char x = true.
Proof.
  unfold pms_repo_name. intros H Hin. apply andb_true_iff in H as [H _]. rewrite forallb_forall in H. now apply H.
Qed.

Lemma slot_spec_nil f : pms_slot_spec f [] = false.
Proof. rewrite slot_spec_unfold. destruct (f_slot f), (f_subslot f); reflexivity. Qed.

Lemma tail_complete e n g f s1 use :
  features_of e = Some f -> gates_feat g f -> f_repo f = negb (is_some e) ->
  is_some use && negb (g_use_deps g) = false ->
  tidy s1 -> spec_tail f s1 = true ->
  is_ok (parse_rest e n g (s1, use, split_first c_colon s1)) = true
  /\ ~ In c_lbr s1
  /\ match split_first c_colon s1 with Some (_, r) => r <> [] | None => True end.
Proof.
  intros Hf (G1 & G2 & G3 & G4 & G5) Hrepo EU Ht H.
  (* once the left part [l] and the slot part [p] are known *)
  assert (Hfin : forall l colon p,
            sub l s1 -> pms_blocker_rest f l = true ->
            match colon with Some (l', r) => l = l' /\ stage_slot g r = Some p | None => l = s1 /\ p = no_slot end ->
            is_some (sp_slot p) && negb (g_slot_deps g) = false ->
            is_some e && is_some (sp_repo p) = false ->
            is_ok (parse_rest e n g (s1, use, colon)) = true /\ ~ In c_lbr l).
  { intros l colon p Hs Hb Hc E1 E3.
    rewrite (prefix_cut_eq g f l G3) in Hb.
    destruct (stage_prefix g l) as [b st op cpv|] eqn:Hp; [|discriminate].
    assert (Htc : tidy cpv).
    { apply (tidy_sub cpv l); [|exact (tidy_sub _ _ Hs Ht)].
      rewrite (proj1 (stage_prefix_print _ _ _ _ _ _ Hp)). apply in_p_head_sub. }
    destruct (cpv_complete op cpv Htc Hb) as (c & Hcpv & Hti).
    split; [|exact (head_no_lbr g l b st op cpv c Hp Hcpv (proj1 Htc))].
    now rewrite (parse_rest_ok e n g s1 use colon l p b st op cpv c
                   (conj Hc (conj Hp (conj E1 (conj EU (conj E3 (conj Hcpv Hti))))))). }
  assert (Hslot : forall sl ro, pms_slot_spec f sl = true ->
            sl <> [] /\ ~ In c_lbr sl /\ ~ In c_colon sl
            /\ exists p, slot_body g sl ro = Some p /\ sp_repo p = ro
                         /\ is_some (sp_slot p) && negb (g_slot_deps g) = false).
  { intros sl ro Hs. split; [intros ->; now rewrite slot_spec_nil in Hs|].
    split; [|split]; try (intros Hin; destruct (slot_spec_chars f sl _ Hs Hin) as [E|[E|[E|E]]]; discriminate).
    destruct (slot_body_complete g f sl ro G5 G1 Hs) as (Hd & p & Hp & Hr).
    exists p. split; [exact Hp|]. split; [exact Hr|]. rewrite Hd. apply andb_false_r. }
  destruct (split_first c_colon s1) as [[l r]|] eqn:E3.
  2:{ apply split_first_none in E3. rewrite (spec_tail_nocolon f s1 E3) in H.
      destruct (Hfin s1 None no_slot (sub_refl s1) H (conj eq_refl eq_refl) eq_refl) as [Hok Hlbr];
        [now rewrite andb_false_r | auto]. }
  apply split_first_spec in E3 as [-> Hl]. rewrite (spec_tail_colon f l r Hl) in H.
  apply andb_true_iff in H as [H Hb].
  (* it remains to name the slot part that [stage_slot] finds right of the ":" *)
  assert (Hgo : forall p, stage_slot g r = Some p ->
            is_some (sp_slot p) && negb (g_slot_deps g) = false ->
            is_some e && is_some (sp_repo p) = false -> ~ In c_lbr r -> r <> [] ->
            is_ok (parse_rest e n g (l ++ c_colon :: r, use, Some (l, r))) = true
            /\ ~ In c_lbr (l ++ c_colon :: r) /\ r <> []).
  { intros p Hp E1 E3 Hr Hne.
    destruct (Hfin l (Some (l, r)) p (sub_app_l _ _) Hb (conj eq_refl Hp) E1 E3) as [Hok Hlbr].
    split; [exact Hok|]. split; [|exact Hne]. intros Hin.
    apply in_app_or in Hin as [Hin|[Hin|Hin]]; [exact (Hlbr Hin) | discriminate | exact (Hr Hin)]. }
  unfold stage_slot in Hgo.
  destruct (split_dcolon (c_colon :: r)) as [[a0 rep]|] eqn:Ed; cbn [fst snd] in Hgo.
  - apply split_dcolon_spec in Ed as Es. destruct (f_repo f) eqn:Efr.
    + (* "::" and a repository *)
      apply andb_true_iff in H as [Hrep H3].
      assert (He : is_some e = false) by (rewrite Hrepo in Efr; now destruct (is_some e)).
      assert (Hrepl : ~ In c_lbr rep) by (intros Hin; now apply (repo_name_chars _ _ Hrep) in Hin).
      rewrite <- repo_ok_pms in Hrep. rewrite Hrep in Hgo. cbn [negb] in Hgo.
      destruct a0 as [|x sl]; cbn [tl] in Hgo; cbn in Es.
      * injection Es as ->. apply (Hgo _ eq_refl eq_refl); [now rewrite He | | discriminate].
        intros [Hin|Hin]; [discriminate | exact (Hrepl Hin)].
      * injection Es as _ ->. destruct (Hslot sl (Some rep) H3) as (Hne & Hsl1 & _ & p & Hp & Hr & E1).
        destruct sl as [|c0 t0]; [congruence|]. apply (Hgo p Hp E1); [now rewrite He | | discriminate].
        intros Hin. apply in_app_or in Hin as [Hin|[Hin|[Hin|Hin]]];
          [exact (Hsl1 Hin) | discriminate | discriminate | exact (Hrepl Hin)].
    + (* no repository in this EAPI: a slot text with "::" inside is not grammatical *)
      exfalso. destruct (Hslot r None H) as (_ & _ & Hc & _). apply Hc.
      destruct a0; cbn in Es; [injection Es as -> | injection Es as _ ->]; [now left | apply in_or_app; right; now left].
  - destruct (Hslot r None H) as (Hne & Hsl1 & _ & p & Hp & Hr & E1).
    cbn [repo_ok negb tl] in Hgo. destruct r as [|c0 t0]; [congruence|].
    apply (Hgo p Hp E1); [rewrite Hr; apply andb_false_r | exact Hsl1 | discriminate].
Qed.

(* the [find(":", 0, -1)] quirk is harmless when a first ":" is not the last character *)
Lemma find_colon_quirk s :
  match split_first c_colon s with Some (_, r) => r <> [] | None => True end ->
  match split_first c_colon (removelast s) with
  | Some (p, q) => Some (p, q ++ [last s 0])
  | None => None
  end = split_first c_colon s.
Proof.
  destruct (split_first c_colon s) as [[l r]|] eqn:E.
  - intros Hr. apply split_first_spec in E as [-> Hl].
    assert (Er : r = removelast r ++ [last r 0]) by now apply app_removelast_last.
    assert (E1 : removelast (l ++ c_colon :: r) = l ++ c_colon :: removelast r).
    { rewrite removelast_app by discriminate. f_equal. destruct r as [|r0 r']; [congruence|]. reflexivity. }
    assert (E2 : last (l ++ c_colon :: r) 0 = last r 0).
    { rewrite Er at 1. rewrite app_comm_cons, app_assoc. apply last_last. }
    rewrite E1, (split_first_app _ _ _ Hl), E2. now rewrite <- Er.
  - intros _. pose proof (proj1 (split_first_none c_colon s) E) as Hn.
    rewrite (proj2 (split_first_none c_colon (removelast s))); [reflexivity|].
    intros Hin. apply Hn. now apply in_removelast.
Qed.

(* COMPLETENESS, for gates and features that agree: every string the PMS grammar recogniser accepts
   passes the stages of atom.__init__ — for text without newline in which no contiguous piece is a
   code-version carrying an upper-case letter (the recorded class on the rejecting side: names like
   "b-1A") *)
Lemma stages_complete e n g f s :
  features_of e = Some f -> gates_feat g f -> f_repo f = negb (is_some e) ->
  pms_atom_feat f s = true -> tidy s ->
  s <> [] /\ exists st, stage_use g s = Some st /\ is_ok (parse_rest e n g st) = true.
Proof.
  intros Hf G Hrepo H Ht. pose proof G as (G1 & G2 & G3 & G4 & G5).
  unfold pms_atom_feat, use_split in H. change 91 with c_lbr in H. change 93 with c_rbr in H.
  change 44 with c_comma in H.
  split.
  { intros ->. cbn in H. unfold spec_tail in H. destruct (f_repo f); cbn in H; discriminate. }
  unfold stage_use.
  destruct (split_last c_lbr s) as [[pre rest]|] eqn:Esl.
  - apply split_last_spec in Esl as [Es Hrest].
    destruct (rev rest) as [|l ru] eqn:Er; [cbn in H; discriminate|].
    destruct (N.eqb_spec l c_rbr) as [->|]; [|cbn in H; discriminate]. cbn [fst snd] in H.
    apply andb_true_iff in H as [H Htail]. apply andb_true_iff in H as [Hfu Hdeps].
    assert (Erest : rest = rev ru ++ [c_rbr]) by (rewrite <- (rev_involutive rest), Er; reflexivity).
    set (u := rev ru) in *.
    assert (Hsubpre : sub pre s) by (rewrite Es; apply sub_app_l).
    assert (Hsubu : sub u s).
    { rewrite Es, Erest. exact (sub_trans _ _ _ (sub_app_l u _) (sub_trans _ _ _ (sub_cons_r c_lbr _) (sub_app_r pre _))). }
    assert (Hguse : g_use_deps g = true) by now rewrite G2.
    destruct (tail_complete e n g f pre (Some (sort_strs (split_on c_comma u))) Hf G Hrepo
                ltac:(cbn [is_some andb]; now rewrite Hguse) (tidy_sub _ _ Hsubpre Ht) Htail)
      as (Hok & Hprel & _).
    pose proof (use_block_chars _ _ _ (or_intror eq_refl) Hdeps) as Hur.
    assert (E1 : split_first c_lbr s = Some (pre, u ++ [c_rbr]))
      by (rewrite Es, Erest; exact (split_first_app _ _ _ Hprel)).
    rewrite E1, (split_first_app _ _ _ Hur). cbn [is_nil negb].
    rewrite G4, (use_block_agree _ _ (proj1 (tidy_sub _ _ Hsubu Ht))), Hdeps. eexists. split; [reflexivity | exact Hok].
  - apply split_last_none in Esl. cbn [fst snd andb] in H.
    destruct (tail_complete e n g f s None Hf G Hrepo eq_refl Ht H) as (Hok & _ & Hr).
    rewrite (proj2 (split_first_none c_lbr s) Esl). rewrite (find_colon_quirk s Hr).
    eexists. split; [reflexivity | exact Hok].
Qed.

(* the third recorded class, on the input: a slot or sub-slot name beginning with "+" *)
Definition no_plus_slot (s : str) : Prop :=
  ~ sub [c_colon; c_plus] s /\ ~ sub [c_slash; c_plus] s.

Lemma parse_cpv_unversioned_ver s c : parse_cpv false s = Some c -> c_ver c = None.
Proof.
  unfold parse_cpv. destruct (split_last c_slash s) as [[cat pkgver]|]; [|discriminate].
  destruct (negb (m_category cat)); [discriminate|].
  destruct (valid_pkg_name (split_on c_dash pkgver)); [|discriminate]. intros H; injection H as <-. reflexivity.
Qed.

Lemma slot_body_subslot g sl ro p y :
  slot_body g sl ro = Some p -> sp_sub p = Some y -> exists x0 x', sp_slot p = Some (x0 :: x').
Proof.
  unfold slot_body. destruct sl as [|c t]; [discriminate|].
  destruct (g_sub_slotting g).
  - destruct ((c =? c_star) || (c =? c_eq)).
    + destruct (negb (is_nil t)); [discriminate|]. intros H; injection H as <-. discriminate.
    + destruct (split_first c_slash (snd (slot_op_split (c :: t)))) as [[a b]|].
      * destruct (slot_chunk_ok a) eqn:Ha; [|discriminate]. destruct (slot_chunk_ok b); [|discriminate].
        cbn [andb]. intros H; injection H as <-. cbn [sp_sub sp_slot]. intros _.
        destruct a as [|a0 a']; [discriminate | eauto].
      * destruct (slot_chunk_ok _); [|discriminate]. intros H; injection H as <-. discriminate.
  - destruct (negb (g_slot_deps g)); [discriminate|]. destruct (slot_chunk_ok (c :: t)); [|discriminate].
    intros H; injection H as <-. discriminate.
Qed.

Lemma sub_cons2 a b t : sub [a; b] (a :: b :: t).
Proof. exists [], t. reflexivity. Qed.

Lemma clean_from_input e n s a :
  parse_atom e n s = Ok a -> no_upper_version s -> no_plus_slot s -> clean_atom a.
Proof.
  intros H Hup [Hp1 Hp2]. apply parse_atom_inv in H as (Hne & g & body & use & colon & Eg & Eu & Hr).
  destruct (stage_use_facts _ _ _ _ _ Hne Eu) as (_ & _ & Hcol & _).
  assert (Hbody : sub body s).
  { destruct (stage_use_inv _ _ _ _ _ Eu) as [(u & -> & _)|(_ & -> & _)]; [apply sub_app_l | apply sub_refl]. }
  apply parse_rest_inv in Hr as (lft & p & b & st & op & cpv & c & (Hsp & Ep & _ & _ & _ & Ec & _) & ->).
  assert (Hlft : sub lft body).
  { destruct colon as [[l r]|]; destruct Hsp as [-> _]; [rewrite Hcol; apply sub_app_l | apply sub_refl]. }
  (* the slot part as it stands in the text *)
  assert (Hslot : forall r, colon = Some (lft, r) ->
            sub (p_slot (sp_slot p) (sp_sub p) (sp_op p) ++ p_repo (sp_repo p)) s).
  { intros r ->. destruct Hsp as [_ Hp]. rewrite (stage_slot_print _ _ _ Hp).
    apply (sub_trans _ body); [rewrite Hcol; apply sub_app_r | exact Hbody]. }
  split; cbn [atom_of a_ver a_slot a_subslot].
  - (* version *)
    intros v Hv.
    destruct (negb (is_nil op)) eqn:Evd; [|apply parse_cpv_unversioned_ver in Ec; congruence].
    apply cpv_structure in Ec as (cat & pkgver & Ecpv & _ & _ & name & v' & _ & Hmv & Ever & Hshape).
    rewrite Hv in Ever. injection Ever as <-.
    apply Hup; [|exact Hmv].
    assert (Hvp : sub v pkgver).
    { destruct Hshape as [[-> _] | (r & -> & _)].
      - exact (sub_trans _ _ _ (sub_cons_r c_dash v) (sub_app_r name _)).
      - exact (sub_trans _ _ _ (sub_trans _ _ _ (sub_app_l v _) (sub_cons_r c_dash _)) (sub_app_r name _)). }
    apply (sub_trans _ _ _ Hvp). rewrite Ecpv in *.
    apply (sub_trans _ _ _ (sub_trans _ _ _ (sub_cons_r c_slash pkgver) (sub_app_r cat _))).
    apply (sub_trans _ lft); [|exact (sub_trans _ _ _ Hlft Hbody)].
    rewrite (proj1 (stage_prefix_print _ _ _ _ _ _ Ep)). apply in_p_head_sub.
  - (* slot *)
    intros x Hx. destruct colon as [[l r]|]; destruct Hsp as [<- Hp]; [|subst p; discriminate].
    specialize (Hslot r eq_refl). rewrite Hx in Hslot.
    destruct x as [|y x']; [discriminate|]. intros Hy. cbn [hd] in Hy. subst y.
    apply Hp1. refine (sub_trans _ _ _ _ Hslot). unfold p_slot. cbn [nonempty_opt opt_str app].
    exact (sub_trans _ _ _ (sub_cons2 _ _ _) (sub_app_l _ _)).
  - (* sub-slot *)
    intros y Hy. destruct colon as [[l r]|]; destruct Hsp as [<- Hp]; [|subst p; discriminate].
    specialize (Hslot r eq_refl).
    assert (Hx : exists x0 x', sp_slot p = Some (x0 :: x')).
    { apply stage_slot_inv in Hp as [(r' & _ & _ & _ & ->)|(slot & ro & _ & _ & Hp & _)]; [discriminate|].
      exact (slot_body_subslot _ _ _ _ _ Hp Hy). }
    destruct Hx as (x0 & x' & Hx). rewrite Hx, Hy in Hslot.
    destruct y as [|y0 y']; [discriminate|]. intros Hy0. cbn [hd] in Hy0. subst y0.
    apply Hp2. refine (sub_trans _ _ _ _ Hslot). unfold p_slot. cbn [nonempty_opt opt_str app].
    eapply sub_trans; [|apply sub_cons_r]. eapply sub_trans; [|apply sub_cons_r].
    eapply sub_trans; [|apply sub_app_l]. eapply sub_trans; [|apply sub_app_r]. apply sub_cons2.
Qed.

(* the two input-side hypotheses exclude the witnesses of their classes *)
Example ex_hyp_excludes :
  ~ no_plus_slot [97;47;98;58;43;48]            (* a/b:+0 *)
  /\ ~ no_upper_version [61;97;47;98;45;49;65]. (* =a/b-1A *)
Proof.
  split.
  - intros [H _]. apply H. exists [97;47;98], [48]. reflexivity.
  - intros H. specialize (H [49;65] (ex_intro _ [61;97;47;98;45] (ex_intro _ [] eq_refl)) eq_refl).
    vm_compute in H. discriminate.
Qed.
