(* Prop_C30.v — the property theorems of C30, each followed by the audit of its assumptions. *)
From Coq Require Import List NArith.
Import ListNotations.
From Verif Require Import C18.Fs C24.Model_C24 C24.Atomic C30.Model_C30 C30.Spec_C30 C30.Proofs_C30 C30.Persist.

(* WorldFile.add (repaired): exactly name / name:slot is added, for ANY slot string; every other
   entry stays *)
Theorem records_exact_add : add_exact_stmt world_add.
Proof.
  intros c p s W Hn. destruct (set_add_spec (target c p s) W Hn) as [H1 H2].
  split; [exact H1|]. split; [apply target_text|exact H2].
Qed.
Print Assumptions records_exact_add.

(* WorldFile.remove (repaired): KeyError iff the entry is absent, else exactly that entry goes *)
Theorem records_exact_remove : remove_exact_stmt.
Proof. intros c p s W Hn. now apply set_remove_spec. Qed.
Print Assumptions records_exact_remove.

(* the pinned per-character slot loop is refuted (a/b:12 records a/b:1 and a/b:2, not a/b:12) *)
Theorem records_exact_pinned_refuted : ~ add_exact_stmt world_add_pinned.
Proof.
  intro H. specialize (H [97%N] [98%N] (Some [49;50]%N) [] (NoDup_nil _)).
  destruct H as (_ & _ & H). specialize (H (target [97%N] [98%N] (Some [49;50]%N))).
  destruct H as [_ H]. specialize (H (or_introl eq_refl)). cbn in H.
  destruct H as [H|[H|[]]]; discriminate.
Qed.
Print Assumptions records_exact_pinned_refuted.

(* flush() writes exactly the entries of the set *)
Theorem flush_exact : flush_exact_stmt.
Proof. intro W. exists (wsort W). split; [reflexivity|apply wsort_perm]. Qed.
Print Assumptions flush_exact.

(* what flush() wrote is read back by WorldFile as the same set: the update persists *)
Theorem world_persist : persist_stmt.
Proof. intros W Hn Hv. split; [now apply parse_flush|apply wsort_perm]. Qed.
Print Assumptions world_persist.

(* every crash prefix of flush(): the world file is the old one or the complete new one *)
Theorem flush_atomic : wflush_atomic_stmt.
Proof.
  intros s mode gid c W k Hok.
  destruct (atomic_ops_crash s P_WTMP P_WORLD mode None (Some gid) (chunked c (utf8 (flush_text W))) k
              wtmp_ne Hok) as [Hfr Hp].
  split; [exact Hfr|]. destruct Hp as [Hp|[Hp _]]; [now left|right]. now rewrite chunked_concat in Hp.
Qed.
Print Assumptions flush_atomic.

(* a flush whose calls all succeed leaves the complete new file and no temporary *)
Theorem flush_complete : forall s mode gid c W s',
  tmp_ok s P_WTMP -> run_opt (wflush_ops s mode gid c W) s = Some s' ->
  is_file_with (utf8 (flush_text W)) mode (lookup s' P_WORLD) /\ lookup s' P_WTMP = None.
Proof.
  intros s mode gid c W s' Hok H.
  destruct (atomic_ops_complete _ _ _ _ _ _ _ _ wtmp_ne Hok H) as (H1 & H2 & _).
  rewrite chunked_concat in H1. now split.
Qed.
Print Assumptions flush_complete.

(* an OSError at any call after the open (k >= 1; at k = 0 the failing open leaves a stale temporary
   where it was): old or complete new world file, nothing else touched, no temporary left *)
Theorem flush_eio : forall s mode gid c W k,
  tmp_ok s P_WTMP -> 1 <= k ->
  let sk := fault_state s P_WTMP (wflush_ops s mode gid c W) k true in
  (forall q, q <> P_WORLD -> q <> P_WTMP -> lookup sk q = lookup s q) /\
  (lookup sk P_WORLD = lookup s P_WORLD \/ is_file_with (utf8 (flush_text W)) mode (lookup sk P_WORLD)) /\
  lookup sk P_WTMP = None.
Proof.
  intros s mode gid c W k Hok Hk.
  destruct (atomic_ops_eio s P_WTMP P_WORLD mode None (Some gid) (chunked c (utf8 (flush_text W))) k
              wtmp_ne Hok Hk) as (H1 & H2 & H3).
  rewrite chunked_concat in H2. auto.
Qed.
Print Assumptions flush_eio.
