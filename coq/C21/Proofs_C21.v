(* C21 — lemmas: the ._cfgNNNN_ names, the rename and restore folds of ConfigProtectInstall over a path-keyed map,
   fnmatch as a relation; a worked example. *)
From Coq Require Import List ZArith Bool Lia.
Import ListNotations.
From Verif Require Import Base.Val Base.Lists C22.Model_C22 C21.Model_C21 C21.Spec_C21.

Lemma starts_with_iff pre s : starts_with pre s = true <-> exists r, s = pre ++ r.
Proof.
  revert s. induction pre as [|a pre IH]; intros s; simpl.
  - split; eauto.
  - destruct s as [|b s]; [split; [discriminate|intros [r H]; discriminate]|].
    rewrite andb_true_iff, N.eqb_eq, IH. split.
    + intros [-> [r ->]]. eauto.
    + intros [r H]. inversion H. eauto.
Qed.

Lemma pm_get_del k q m : pm_get k (pm_del q m) = if str_eqb k q then None else pm_get k m.
Proof.
  induction m as [|[k' n] m IH]; simpl; [destruct (str_eqb k q); reflexivity|].
  destruct (str_eqb_spec q k') as [<-|Hq]; simpl; rewrite IH; [destruct (str_eqb k q); reflexivity|].
  destruct (str_eqb_spec k k') as [->|]; [|reflexivity]. destruct (str_eqb_spec k' q); congruence.
Qed.
Lemma pm_get_set k q n m : pm_get k (pm_set q n m) = if str_eqb k q then Some n else pm_get k m.
Proof.
  induction m as [|[k' n'] m IH]; simpl; [reflexivity|].
  destruct (str_eqb_spec q k') as [<-|Hq]; simpl; [destruct (str_eqb k q); reflexivity|].
  rewrite IH. destruct (str_eqb_spec k k') as [->|]; [|reflexivity]. destruct (str_eqb_spec k' q); congruence.
Qed.
Lemma pm_get_del_other k q m : k <> q -> pm_get k (pm_del q m) = pm_get k m.
Proof. intro H. rewrite pm_get_del. destruct (str_eqb_spec k q); congruence. Qed.
Lemma pm_get_del_none k q m : pm_get k m = None -> pm_get k (pm_del q m) = None.
Proof. intro H. rewrite pm_get_del. destruct (str_eqb k q); auto. Qed.
Lemma pm_get_set_other k q n m : k <> q -> pm_get k (pm_set q n m) = pm_get k m.
Proof. intro H. rewrite pm_get_set. destruct (str_eqb_spec k q); congruence. Qed.
Lemma pm_get_set_same k n m : pm_get k (pm_set k n m) = Some n.
Proof. rewrite pm_get_set, str_eqb_refl. reflexivity. Qed.
Lemma pm_get_in k n m : pm_get k m = Some n -> In (k, n) m.
Proof.
  induction m as [|[k' n'] m IH]; simpl; [discriminate|].
  destruct (str_eqb_spec k k') as [->|]; [intros [= ->]|]; auto.
Qed.
Lemma pm_get_none_notin k m : pm_get k m = None <-> ~ In k (map fst m).
Proof.
  induction m as [|[k' n'] m IH]; simpl; [tauto|].
  destruct (str_eqb_spec k k') as [->|]; [split; [discriminate|intros H; destruct H; auto]|].
  rewrite IH. intuition congruence.
Qed.

Lemma keys_set_in x k n m : In x (map fst (pm_set k n m)) -> x = k \/ In x (map fst m).
Proof.
  induction m as [|[q n'] m IH]; simpl; [intuition congruence|].
  destruct (str_eqb_spec k q) as [->|]; simpl; [intuition congruence|]. intros [H|H]; auto. destruct (IH H); auto.
Qed.
Lemma keys_set k n m : NoDup (map fst m) -> NoDup (map fst (pm_set k n m)).
Proof.
  induction m as [|[q n'] m IH]; simpl; intro H; [repeat constructor; intros []|].
  apply NoDup_cons_iff in H as [Hni Hnd]. destruct (str_eqb_spec k q) as [->|]; simpl.
  - constructor; auto.
  - constructor; auto. intro Hin. apply keys_set_in in Hin as [->|Hin]; auto.
Qed.

Lemma unmerge_get fs cs k : ~ In k (map fst cs) -> pm_get k (unmerge_fs fs cs) = pm_get k fs.
Proof.
  unfold unmerge_fs. revert fs. induction cs as [|[q n] cs IH]; simpl; intros fs H; auto.
  rewrite IH by tauto. destruct n; auto; (rewrite pm_get_del; destruct (str_eqb_spec k q) as [->|]; [destruct H|]; auto).
Qed.
Lemma merge_get fs cs k : ~ In k (map fst cs) -> pm_get k (merge_fs fs cs) = pm_get k fs.
Proof.
  unfold merge_fs. revert fs. induction cs as [|[q n] cs IH]; simpl; intros fs H; auto.
  rewrite IH by tauto. destruct n; auto; (rewrite pm_get_set; destruct (str_eqb_spec k q) as [->|]; [destruct H|]; auto).
Qed.
Lemma merge_get_some fs cs k n :
  NoDup (map fst cs) -> pm_get k cs = Some n -> n <> Dir -> pm_get k (merge_fs fs cs) = Some n.
Proof.
  revert fs. induction cs as [|[q m] cs IH]; simpl; intros fs Hnd Hg Hn; [discriminate|].
  apply NoDup_cons_iff in Hnd as [Hni Hnd]. destruct (str_eqb_spec k q) as [->|]; [|apply IH; auto].
  injection Hg as ->.
  change (merge_fs fs ((q, n) :: cs)) with (merge_fs (match n with Dir => fs | _ => pm_set q n fs end) cs).
  rewrite merge_get by exact Hni. destruct n; try congruence; apply pm_get_set_same.
Qed.

Lemma live_of_in fs cs k n : In (k, n) (live_of fs cs) -> pm_get k fs = Some n.
Proof.
  unfold live_of. intro H. apply in_flat_map in H. destruct H as [[q m] [_ H]]. simpl in H.
  destruct (pm_get q fs) eqn:E; simpl in H; [|contradiction].
  destruct H as [H|[]]. inversion H. subst. exact E.
Qed.

Lemma in_uninstall_set prot ign off fs recorded inst P :
  In P (map fst (uninstall_set prot ign off fs recorded inst)) ->
  exists n, pm_get P fs = Some n /\ pm_get P inst = None /\ stays prot ign off recorded (P, n) = false.
Proof.
  intros Hin. apply in_map_iff in Hin as [[k n] [<- Hin]]. exists n.
  apply filter_In in Hin as [Hin Hst]. apply filter_In in Hin as [Hin Hf]. apply live_of_in in Hin.
  unfold pm_has in Hf. simpl in *. destruct (pm_get k inst); [discriminate|].
  apply negb_true_iff in Hst. auto.
Qed.
Lemma uninstall_set_spares prot ign off fs recorded inst P d :
  pm_get P fs = Some (File d) ->
  prot (strip_off off P) = true -> ign (strip_off off P) = false ->
  differs_from_recorded recorded P d ->
  ~ In P (map fst (uninstall_set prot ign off fs recorded inst)).
Proof.
  intros Hfs Hp Hi [r [Hr Hd]] Hin. apply in_uninstall_set in Hin as (n & Hg & _ & Hs).
  rewrite Hfs in Hg. injection Hg as <-. unfold stays in Hs. simpl in Hs. rewrite Hp, Hi, Hr, Hd in Hs. discriminate.
Qed.

Definition not_sl (c : N) : bool := negb (is_sl c).

Lemma take_while_app_all f a b : forallb f a = true -> take_while f (a ++ b) = a ++ take_while f b.
Proof.
  induction a as [|c a IH]; simpl; auto. intro H. apply andb_prop in H. destruct H as [H1 H2].
  rewrite H1. f_equal. auto.
Qed.
Lemma take_while_forallb f s : forallb f (take_while f s) = true.
Proof. induction s as [|c s IH]; simpl; auto. destruct (f c) eqn:E; simpl; auto. rewrite E. auto. Qed.
Lemma basename_nosl p : forallb not_sl (basename p) = true.
Proof. unfold basename. rewrite forallb_rev. apply take_while_forallb. Qed.

Definition dir_prefix (x : str) : Prop := x = [] \/ exists y, x = y ++ [SL].
Lemma basename_app x n : dir_prefix x -> forallb not_sl n = true -> basename (x ++ n) = n.
Proof.
  intros Hx Hn. unfold basename. rewrite rev_app_distr.
  rewrite take_while_app_all by (rewrite forallb_rev; exact Hn).
  destruct Hx as [->|[y ->]].
  - simpl. rewrite ?app_nil_r. apply rev_involutive.
  - replace (rev (y ++ [SL])) with (SL :: rev y) by (rewrite rev_app_distr; reflexivity).
    simpl. rewrite ?app_nil_r. apply rev_involutive.
Qed.
Lemma drop_while_app_all f (a b : str) : forallb f a = true -> drop_while f (a ++ b) = drop_while f b.
Proof.
  induction a as [|c a IH]; simpl; auto. intro H. apply andb_prop in H. destruct H as [H1 H2]. rewrite H1. auto.
Qed.
Lemma dirname_app_nosl x n1 n2 : forallb not_sl n1 = true -> forallb not_sl n2 = true ->
  dirname (x ++ n1) = dirname (x ++ n2).
Proof.
  intros H1 H2. unfold dirname. rewrite !rev_app_distr.
  rewrite !drop_while_app_all by (rewrite forallb_rev; assumption). reflexivity.
Qed.
Lemma ends_sl_spec a : ends_sl a = true -> exists y, a = y ++ [SL].
Proof.
  unfold ends_sl. destruct (rev a) as [|c r] eqn:E; [discriminate|]. intro H.
  unfold is_sl in H. apply N.eqb_eq in H. subst c.
  exists (rev r). rewrite <- (rev_involutive a), E. reflexivity.
Qed.
(* pjoin d n = dprefix d ++ n for a name n that does not start with a slash *)
Definition dprefix (d : str) : str :=
  match d with [] => [] | _ => if ends_sl d then d else d ++ [SL] end.
Lemma pjoin_dprefix d n : n <> [] -> forallb not_sl n = true -> pjoin d n = dprefix d ++ n.
Proof.
  intros Hne Hn. destruct n as [|c n]; [congruence|]. simpl in Hn. apply andb_prop in Hn. destruct Hn as [Hc _].
  unfold not_sl in Hc. apply negb_true_iff in Hc. unfold pjoin, dprefix. rewrite Hc.
  destruct d as [|a d]; [reflexivity|]. destruct (ends_sl (a :: d)); [reflexivity|].
  rewrite <- app_assoc. reflexivity.
Qed.
Lemma dprefix_dir d : dir_prefix (dprefix d).
Proof.
  unfold dprefix. destruct d as [|a d]; [left; reflexivity|].
  destruct (ends_sl (a :: d)) eqn:E; right; [apply ends_sl_spec; exact E|eexists; reflexivity].
Qed.
Lemma wf_loc_shape p : wf_locb p = true -> p = dprefix (dirname p) ++ basename p.
Proof.
  unfold wf_locb. intro H. apply andb_prop in H. destruct H as [Hne He]. apply str_eqb_eq in He.
  rewrite <- pjoin_dprefix; auto using basename_nosl. destruct (basename p); [discriminate|congruence].
Qed.
Lemma rev_inj (a b : str) : rev a = rev b -> a = b.
Proof. intro H. rewrite <- (rev_involutive a), <- (rev_involutive b), H. reflexivity. Qed.

Lemma digit_of_range z : (48 <= digit_of z <= 57)%N.
Proof. unfold digit_of. pose proof (Z.mod_pos_bound z 10 ltac:(lia)). lia. Qed.
(* what fmt04 prints is "-" and digits, so in particular neither "/" nor "_" *)
Lemma fmt04_forallb (P : N -> bool) z :
  P 45%N = true -> (forall c, (48 <= c <= 57)%N -> P c = true) -> forallb P (fmt04 z) = true.
Proof.
  intros Hm Hd.
  assert (H : forall fuel w y, forallb P (digits fuel w y) = true).
  { induction fuel as [|f IH]; intros w y; [reflexivity|].
    assert (H : forall w', forallb P (digits f w' (y / 10) ++ [digit_of y]) = true).
    { intro w'. rewrite forallb_app, IH. cbn [forallb]. rewrite Hd by apply digit_of_range. reflexivity. }
    cbn [digits]. destruct w; [destruct (y =? 0)%Z|]; auto. }
  unfold fmt04. destruct (z <? 0)%Z; cbn [forallb]; rewrite ?Hm; apply H.
Qed.
Definition nous (c : N) : bool := negb (N.eqb c US).
Lemma fmt04_nosl z : forallb not_sl (fmt04 z) = true.
Proof. apply fmt04_forallb; [reflexivity|]. intros c Hc. apply negb_true_iff, N.eqb_neq. lia. Qed.
Lemma fmt04_nous z : forallb nous (fmt04 z) = true.
Proof. apply fmt04_forallb; [reflexivity|]. intros c Hc. apply negb_true_iff, N.eqb_neq. unfold US. lia. Qed.

Lemma cfg_name_nosl c f : forallb not_sl f = true -> forallb not_sl (cfg_name c f) = true.
Proof.
  intro H. unfold cfg_name. rewrite forallb_app, forallb_app, fmt04_nosl. cbn [forallb]. rewrite H. reflexivity.
Qed.
(* the number prints without "_", so dropping the characters before the first "_" leaves "_" ++ name *)
Lemma cfg_name_inj c1 b1 c2 b2 : cfg_name c1 b1 = cfg_name c2 b2 -> b1 = b2.
Proof.
  unfold cfg_name. intro E. apply app_inv_head, (f_equal (drop_while nous)) in E.
  rewrite !drop_while_app_all in E by apply fmt04_nous. injection E. auto.
Qed.

Lemma new_loc_shape fs p n : new_loc fs p n = dprefix (dirname p) ++ cfg_name (cfg_count fs p n) (basename p).
Proof.
  unfold new_loc. apply pjoin_dprefix.
  - unfold cfg_name, cfgp. discriminate.
  - apply cfg_name_nosl, basename_nosl.
Qed.
Lemma new_loc_basename fs loc n :
  basename (new_loc fs loc n) = cfg_name (cfg_count fs loc n) (basename loc).
Proof. rewrite new_loc_shape. apply basename_app; [apply dprefix_dir|apply cfg_name_nosl, basename_nosl]. Qed.
Lemma new_loc_dirname fs p n : wf_locb p = true -> dirname (new_loc fs p n) = dirname p.
Proof.
  intro W. rewrite new_loc_shape.
  transitivity (dirname (dprefix (dirname p) ++ basename p)); [|rewrite <- wf_loc_shape; auto].
  apply dirname_app_nosl; [apply cfg_name_nosl|]; apply basename_nosl.
Qed.
Lemma new_loc_is_cfg fs loc n : starts_with cfgp (basename (new_loc fs loc n)) = true.
Proof. rewrite new_loc_basename. reflexivity. Qed.
Lemma new_loc_inj fs p1 n1 p2 n2 :
  wf_locb p1 = true -> wf_locb p2 = true -> new_loc fs p1 n1 = new_loc fs p2 n2 -> p1 = p2.
Proof.
  intros W1 W2 E. pose proof (f_equal dirname E) as Ed. pose proof (f_equal basename E) as Eb.
  rewrite !new_loc_dirname in Ed by assumption. rewrite !new_loc_basename in Eb. apply cfg_name_inj in Eb.
  apply andb_prop in W1 as [_ W1], W2 as [_ W2]. apply str_eqb_eq in W1, W2.
  rewrite <- W1, <- W2, Ed, Eb. reflexivity.
Qed.

(* appending a digit to a number appends it to the text, so NNNN formats back to itself *)
Lemma digits_snoc f w q a : is_digit a = true ->
  digits (S f) (S w) (q * 10 + digit_val a) = digits f w q ++ [a].
Proof.
  unfold is_digit, digit_val. intro H. apply andb_prop in H. destruct H as [H1 H2]. apply N.leb_le in H1, H2.
  cbn [digits]. unfold digit_of.
  rewrite Z.div_add_l, Z.div_small, Z.add_0_r by lia.
  rewrite (Z.add_comm (q * 10)), Z.mod_add, Z.mod_small by lia.
  do 2 f_equal. lia.
Qed.
Lemma quad_roundtrip a b c d :
  is_digit a = true -> is_digit b = true -> is_digit c = true -> is_digit d = true ->
  fmt04 (((digit_val a * 10 + digit_val b) * 10 + digit_val c) * 10 + digit_val d) = [a; b; c; d].
Proof.
  intros Ha Hb Hc Hd. unfold fmt04.
  replace (_ <? 0)%Z with false.
  - rewrite !digits_snoc by assumption. rewrite (digits_snoc 12 0 0 a Ha : digits 13 1 (digit_val a) = _). reflexivity.
  - symmetry. apply Z.ltb_ge. unfold is_digit, digit_val in *.
    repeat match goal with H : _ && _ = true |- _ => apply andb_prop in H; destruct H as [H _]; apply N.leb_le in H end.
    lia.
Qed.
Lemma pending_name_roundtrip x fname c :
  starts_with cfgp x = true -> parse_cfg x = Some (c, fname) -> x = cfg_name c fname.
Proof.
  intros Hs Hp. apply starts_with_iff in Hs. destruct Hs as [r ->].
  unfold parse_cfg in Hp. change (skipn 5 (cfgp ++ r)) with r in Hp.
  destruct r as [|a [|b [|c' [|d [|u name]]]]]; try discriminate.
  destruct (is_digit a) eqn:Ea; [|discriminate]. destruct (is_digit b) eqn:Eb; [|discriminate].
  destruct (is_digit c') eqn:Ec; [|discriminate]. destruct (is_digit d) eqn:Ed; [|discriminate].
  destruct (N.eqb u US) eqn:Eu; [|discriminate]. cbn [andb] in Hp. inversion Hp; subst.
  apply N.eqb_eq in Eu. subst u. unfold cfg_name. rewrite quad_roundtrip by assumption. reflexivity.
Qed.

Lemma insert_str_in x y l : In x (insert_str y l) -> x = y \/ In x l.
Proof.
  induction l as [|z l IH]; simpl.
  - intros [H|[]]; auto.
  - destruct (str_ltb z y); simpl; intros [H|H]; auto. destruct (IH H); auto.
Qed.
Lemma sort_str_in x l : In x (sort_str l) -> In x l.
Proof.
  unfold sort_str. induction l as [|y l IH]; simpl; auto.
  intro H. apply insert_str_in in H. destruct H; auto.
Qed.
Lemma cfg_listing_cfg fs d x : In x (cfg_listing fs d) -> starts_with cfgp x = true.
Proof.
  unfold cfg_listing. intro H. apply sort_str_in in H. apply in_flat_map in H.
  destruct H as [[loc nd] [_ H]]. cbn [fst snd] in H. destruct nd as [dt|tg|]; [|destruct H|destruct H].
  destruct (str_eqb (dirname loc) d); cbn [andb] in H; [|destruct H].
  destruct (starts_with cfgp (basename loc)) eqn:E; [|destruct H].
  destruct H as [<-|[]]. exact E.
Qed.

Lemma pick_count_rule fs d n ups acc :
  let c := pick_count fs d n ups acc in
  (exists x, In (c, x) ups /\ same_content (live_at fs (pjoin d x)) n = true)
  \/ ((acc <= c)%Z /\ forall c' x, In (c', x) ups ->
                               same_content (live_at fs (pjoin d x)) n = false /\ (c' < c)%Z).
Proof.
  revert acc. induction ups as [|[c0 x0] ups IH]; intros acc; simpl.
  - right. split; [lia|]. intros ? ? [].
  - destruct (same_content (live_at fs (pjoin d x0)) n) eqn:E.
    + left. exists x0. auto.
    + destruct (IH (Z.max acc (c0 + 1))) as [[x [Hin Hs]]|[Hle Hall]].
      * left. exists x. auto.
      * right. split; [lia|]. intros c' x [Heq|Hin].
        -- inversion Heq; subst. split; [exact E|lia].
        -- apply Hall. exact Hin.
Qed.
Lemma pending_in fs d fname c x :
  In (c, x) (pending fs d fname) <-> In x (cfg_listing fs d) /\ parse_cfg x = Some (c, fname).
Proof.
  unfold pending. rewrite in_flat_map. split.
  - intros [y [Hy H]]. destruct (parse_cfg y) as [[c1 fn]|] eqn:E; [|contradiction].
    destruct (str_eqb fn fname) eqn:E2; [|contradiction].
    destruct H as [H|[]]. inversion H; subst. apply str_eqb_eq in E2. subst. auto.
  - intros [H1 H2]. exists x. split; auto. rewrite H2, str_eqb_refl. left. reflexivity.
Qed.
Lemma cfg_count_rule fs P n : numbering_rule fs (dirname P) (basename P) n (cfg_count fs P n).
Proof.
  unfold cfg_count, numbering_rule.
  destruct (pick_count_rule fs (dirname P) n (pending fs (dirname P) (basename P)) 0) as [[x [Hin Hs]]|[Hle Hall]].
  - left. apply pending_in in Hin. exists x, (live_at fs (pjoin (dirname P) x)).
    unfold pending_update. tauto.
  - right. split; [exact Hle|]. intros c' x content [H1 [H2 ->]].
    apply Hall. apply pending_in. auto.
Qed.

(* one entry of ConfigProtectInstall.renames: ((new location, node), (old location, node)) *)
Definition rn := ((str * node) * (str * node))%type.
Definition r_new (r : rn) : str := fst (fst r).
Definition r_old (r : rn) : str := fst (snd r).

Lemma renames_in prot ign off fs inst r :
  In r (renames prot ign off fs inst) ->
  In (snd r) inst /\ fst r = (new_loc fs (r_old r) (snd (snd r)), snd (snd r)).
Proof.
  unfold renames. intro H. apply in_map_iff in H. destruct H as [e [<- He]].
  apply filter_In in He. simpl. tauto.
Qed.
Lemma renames_protected prot ign off fs inst P d n :
  protected_file prot ign off fs P d -> incoming_differs inst P d n ->
  In ((new_loc fs P n, n), (P, n)) (renames prot ign off fs inst).
Proof.
  intros [Hf [Hp Hi]] [Hin Hd]. unfold renames. apply in_map_iff. exists (P, n). split; [reflexivity|].
  apply filter_In. split; [exact Hin|].
  unfold is_protected. simpl. rewrite Hf, Hp, Hi, Hd. reflexivity.
Qed.
Lemma renames_new_old prot ign off fs inst r r' : pkg_ok inst ->
  In r (renames prot ign off fs inst) -> In r' (renames prot ign off fs inst) -> r_new r <> r_old r'.
Proof.
  intros [_ Hfree] Hr Hr' E. apply renames_in in Hr, Hr'. destruct Hr as [_ Hr]. destruct Hr' as [Hr' _].
  apply Hfree in Hr'. unfold r_new in E. rewrite Hr in E. unfold r_old in E. simpl in E.
  rewrite <- E, new_loc_is_cfg in Hr'. discriminate.
Qed.
Lemma renames_old_inj prot ign off fs inst r r' : pkg_ok inst ->
  In r (renames prot ign off fs inst) -> In r' (renames prot ign off fs inst) -> r_old r = r_old r' -> r = r'.
Proof.
  intros [Hnd _] Hr Hr' E. apply renames_in in Hr, Hr'. destruct Hr as [Hi Hr]. destruct Hr' as [Hi' Hr'].
  destruct r as [a [p n]], r' as [a' [p' n']]. unfold r_old in *. simpl in *. subst p' a a'.
  pose proof (NoDup_map_inj fst inst _ _ Hnd Hi Hi' eq_refl) as [= ->]. reflexivity.
Qed.

Definition newlocs_distinct (prot ign : str -> bool) (off : str) (fs inst : pmap) : Prop :=
  NoDup (map r_new (renames prot ign off fs inst)).

Lemma NoDup_map_inj_on {A B} (g : A -> B) (l : list A) :
  NoDup l -> (forall x y, In x l -> In y l -> g x = g y -> x = y) -> NoDup (map g l).
Proof.
  induction l as [|a l IH]; simpl; intros Hnd Hinj; [constructor|].
  inversion Hnd as [|? ? Hni Hnd']; subst. constructor.
  - intro Hin. apply in_map_iff in Hin. destruct Hin as [y [Hy Hin]].
    assert (y = a) by (apply Hinj; auto). subst. contradiction.
  - apply IH; auto.
Qed.
Theorem newlocs_distinct_proof :
  forall (prot ign : str -> bool) (off : str) (fs inst : pmap),
    pkg_ok inst -> locs_wf inst = true -> newlocs_distinct prot ign off fs inst.
Proof.
  intros prot ign off fs inst [Hnd _] Hwf. unfold newlocs_distinct, renames. rewrite map_map.
  apply NoDup_map_inj_on.
  - apply NoDup_filter, (NoDup_map_inv fst), Hnd.
  - intros [p1 n1] [p2 n2] H1 H2 E. unfold r_new in E. simpl in E.
    apply filter_In in H1, H2. destruct H1 as [H1 _], H2 as [H2 _].
    unfold locs_wf in Hwf. rewrite forallb_forall in Hwf.
    pose proof (new_loc_inj fs p1 n1 p2 n2 (Hwf _ H1) (Hwf _ H2) E). subst p2.
    exact (NoDup_map_inj fst inst _ _ Hnd H1 H2 eq_refl).
Qed.

(* a fold of steps none of which touches k *)
Lemma fold_get_other {A} (step : pmap -> A -> pmap) (P : A -> Prop) k :
  (forall cs r, P r -> pm_get k (step cs r) = pm_get k cs) ->
  forall R cs, (forall r, In r R -> P r) -> pm_get k (fold_left step R cs) = pm_get k cs.
Proof.
  intros Hs R. induction R as [|r R IH]; simpl; intros cs H; auto.
  rewrite IH by (intros; apply H; auto). apply Hs, H. auto.
Qed.

Lemma apply_rename_other cs r k : r_new r <> k /\ r_old r <> k ->
  pm_get k (apply_rename cs r) = pm_get k cs.
Proof.
  intros [H1 H2]. unfold apply_rename. rewrite pm_get_set_other by (intro; subst; apply H1; reflexivity).
  apply pm_get_del_other. intro; subst; apply H2; reflexivity.
Qed.
Lemma fold_rename_other R cs k : (forall r, In r R -> r_new r <> k /\ r_old r <> k) ->
  pm_get k (fold_left apply_rename R cs) = pm_get k cs.
Proof. apply fold_get_other. intros. apply apply_rename_other; assumption. Qed.
Lemma fold_rename_none R cs r0 : In r0 R -> (forall r, In r R -> r_new r <> r_old r0) ->
  pm_get (r_old r0) (fold_left apply_rename R cs) = None.
Proof.
  intros Hin. assert (H : pm_get (r_old r0) cs = None \/ In r0 R) by auto. clear Hin.
  revert cs H. induction R as [|r R IH]; simpl; intros cs [H|H] Hn; try contradiction; auto.
  - apply IH; [left|intros; apply Hn; auto]. unfold apply_rename.
    rewrite pm_get_set_other by (intro E; apply (Hn r); auto). apply pm_get_del_none, H.
  - apply IH; [|intros; apply Hn; auto]. destruct H as [->|H]; [left|right; exact H]. unfold apply_rename.
    rewrite pm_get_set_other by (intro E; apply (Hn r0); auto). rewrite pm_get_del, str_eqb_refl; reflexivity.
Qed.
Lemma fold_rename_some R cs r0 :
  In r0 R -> NoDup (map r_new R) -> (forall r, In r R -> r_old r <> r_new r0) ->
  pm_get (r_new r0) (fold_left apply_rename R cs) = Some (snd (fst r0)).
Proof.
  revert cs. induction R as [|r R IH]; simpl; intros cs Hin Hnd Ho; [contradiction|].
  inversion Hnd as [|? ? Hni Hnd']; subst.
  destruct Hin as [->|Hin].
  - rewrite fold_rename_other.
    + unfold apply_rename, r_new. apply pm_get_set_same.
    + intros r Hr. split; [|apply Ho; auto].
      intro E. apply Hni. rewrite <- E. apply in_map. exact Hr.
  - apply IH; auto.
Qed.
Lemma keys_pre_merge prot ign off fs inst :
  NoDup (map fst inst) -> NoDup (map fst (pre_merge prot ign off fs inst)).
Proof.
  unfold pre_merge. generalize (renames prot ign off fs inst). intro R. revert inst.
  induction R as [|r R IH]; simpl; intros cs H; auto.
  apply IH. unfold apply_rename. apply keys_set, NoDup_map_filter, H.
Qed.

Section PreMerge.
Variables (prot ign : str -> bool) (off : str) (fs inst : pmap) (r0 : rn).
Hypothesis Hok : pkg_ok inst.
Hypothesis Hr : In r0 (renames prot ign off fs inst).

Lemma pre_merge_old : pm_get (r_old r0) (pre_merge prot ign off fs inst) = None.
Proof. apply fold_rename_none; [exact Hr|]. intros r Hin. eapply renames_new_old; eauto. Qed.
Lemma pre_merge_new : newlocs_distinct prot ign off fs inst ->
  pm_get (r_new r0) (pre_merge prot ign off fs inst) = Some (snd (fst r0)).
Proof.
  intro Hd. apply fold_rename_some; auto. intros r Hin E. symmetry in E. revert E. eapply renames_new_old; eauto.
Qed.
End PreMerge.

Lemma restore_none cs r k : pm_get k cs = None -> r_old r <> k -> pm_get k (apply_restore cs r) = None.
Proof.
  intros H Ho. unfold apply_restore. destruct (pm_has (fst (fst r)) cs); auto.
  rewrite pm_get_set_other by (intro E; apply Ho; unfold r_old; auto).
  apply pm_get_del_none, H.
Qed.
Lemma fold_restore_none R cs k : pm_get k cs = None -> (forall r, In r R -> r_old r <> k) ->
  pm_get k (fold_left apply_restore R cs) = None.
Proof.
  revert cs. induction R as [|r R IH]; simpl; intros cs H Ho; auto.
  apply IH; [|intros; apply Ho; auto]. apply restore_none; auto.
Qed.
Lemma restore_other cs r k : r_new r <> k /\ r_old r <> k -> pm_get k (apply_restore cs r) = pm_get k cs.
Proof.
  intros [H1 H2]. unfold apply_restore. destruct (pm_has (fst (fst r)) cs); auto.
  rewrite pm_get_set_other by (intro E; apply H2; unfold r_old; auto).
  apply pm_get_del_other. intro E; apply H1; unfold r_new; auto.
Qed.
Lemma fold_restore_other R cs k : (forall r, In r R -> r_new r <> k /\ r_old r <> k) ->
  pm_get k (fold_left apply_restore R cs) = pm_get k cs.
Proof. apply fold_get_other. intros. apply restore_other; assumption. Qed.
Lemma fold_restore_new_gone R cs r0 :
  In r0 R -> (forall r, In r R -> r_old r <> r_new r0) ->
  pm_get (r_new r0) (fold_left apply_restore R cs) = None.
Proof.
  revert cs. induction R as [|r R IH]; simpl; intros cs Hin Ho; [contradiction|].
  destruct Hin as [->|Hin].
  - apply fold_restore_none; [|intros; apply Ho; auto].
    unfold apply_restore. fold (r_new r0). unfold pm_has.
    destruct (pm_get (r_new r0) cs) eqn:E; auto.
    rewrite pm_get_set_other by (intro E'; apply (Ho r0); auto). rewrite pm_get_del, str_eqb_refl; reflexivity.
  - apply IH; auto.
Qed.
Lemma fold_restore_old_back R cs r0 v :
  In r0 R -> NoDup (map r_new R) ->
  pm_get (r_new r0) cs = Some v ->
  (forall r, In r R -> r_old r <> r_new r0 /\ r_new r <> r_old r0) ->
  (forall r, In r R -> r_old r = r_old r0 -> r = r0) ->
  pm_get (r_old r0) (fold_left apply_restore R cs) = Some (snd (snd r0)).
Proof.
  revert cs. induction R as [|r R IH]; simpl; intros cs Hin Hnd Hv Hx Hu; [contradiction|].
  inversion Hnd as [|? ? Hni Hnd']; subst.
  destruct Hin as [->|Hin].
  - rewrite fold_restore_other.
    + unfold apply_restore. fold (r_new r0). unfold pm_has. rewrite Hv. apply pm_get_set_same.
    + intros r Hr. split; [apply Hx; auto|].
      intro E. apply Hni. pose proof (Hu r (or_intror Hr) E) as Heq. subst r. apply in_map. exact Hr.
  - apply IH; auto.
    rewrite restore_other; auto. split; [|apply Hx; auto].
    intro E. apply Hni. rewrite E. apply in_map. exact Hin.
Qed.

Section PostMerge.
Variables (prot ign : str -> bool) (off : str) (fs inst : pmap) (r0 : rn).
Hypothesis Hok : pkg_ok inst.
Hypothesis Hr : In r0 (renames prot ign off fs inst).

Lemma post_merge_new cs : pm_get (r_new r0) (post_merge prot ign off fs inst cs) = None.
Proof.
  apply fold_restore_new_gone; [exact Hr|]. intros r Hin E. symmetry in E. revert E. eapply renames_new_old; eauto.
Qed.
Lemma post_merge_old : newlocs_distinct prot ign off fs inst ->
  pm_get (r_old r0) (post_merge prot ign off fs inst (pre_merge prot ign off fs inst)) = Some (snd (snd r0)).
Proof.
  intro Hd. apply fold_restore_old_back with (v := snd (fst r0)); auto.
  - apply pre_merge_new; auto.
  - intros r Hin. split; [intro E; symmetry in E; revert E|]; eapply renames_new_old; eauto.
  - intros r Hin. apply (renames_old_inj prot ign off fs inst); auto.
Qed.
End PostMerge.

Definition inst_of (i : input) : pmap := with_off (i_off i) (i_new i).
Definition protI_of (i : input) := protect_filter (i_envd i) (i_xp i) (i_xm i).
Definition protU_of (i : input) := protect_filter (i_envd i) [] [].
Definition ign_of (i : input) (fs : pmap) := ignore_filter (i_envd i) [] (i_off i) fs.

Lemma run_install i : i_mode i = 0%N ->
  o_fs (run i) = i_fs i \/
  o_fs (run i) = merge_fs (i_fs i) (pre_merge (protI_of i) (ign_of i (i_fs i)) (i_off i) (i_fs i) (inst_of i)).
Proof.
  intro Hm. unfold run. rewrite Hm. cbn [N.eqb negb andb].
  match goal with |- context [if ?b then _ else _] => destruct b end; [left|right]; reflexivity.
Qed.
Lemma run_uninstall i : i_mode i = 2%N ->
  o_fs (run i) = unmerge_fs (i_fs i) (uninstall_set (protU_of i) (ign_of i (i_fs i)) (i_off i) (i_fs i)
                                                     (with_off (i_off i) (i_old i)) []).
Proof. intro Hm. unfold run. rewrite Hm. reflexivity. Qed.
Lemma run_replace i : i_mode i = 1%N ->
  let protI := protI_of i in let ign0 := ign_of i (i_fs i) in let off := i_off i in
  let inst1 := pre_merge protI ign0 off (i_fs i) (inst_of i) in
  let fs1 := merge_fs (i_fs i) inst1 in
  (o_blocked (run i) = true /\ o_fs (run i) = i_fs i) \/
  (o_blocked (run i) = false /\
   o_fs (run i) = unmerge_fs fs1 (uninstall_set (protU_of i) (ign_of i fs1) off fs1 (with_off off (i_old i))
                                                (post_merge protI ign0 off (i_fs i) (inst_of i) inst1))).
Proof.
  intro Hm. unfold run. rewrite Hm. cbn [N.eqb negb andb].
  match goal with |- context [if ?b then _ else _] => destruct b end; [left|right]; split; reflexivity.
Qed.

Lemma prefix_pat_below x p : starts_with (prefix_pat x) p = true <-> below_dir x p.
Proof.
  unfold prefix_pat, below_dir. rewrite starts_with_iff. split; intros [r ->]; exists r; rewrite <- app_assoc; reflexivity.
Qed.
Lemma existsb_below l p :
  existsb (fun x => starts_with (prefix_pat x) p) l = true <-> exists x, In x l /\ below_dir x p.
Proof.
  rewrite existsb_exists. split; intros [x [H1 H2]]; exists x; split; auto; apply prefix_pat_below; auto.
Qed.
Lemma values_of_in k e v :
  In v (values_of k e) <-> exists f, In f (envd_files e) /\ assoc k (snd f) = Some v.
Proof.
  unfold values_of. rewrite in_flat_map. split; intros [f [Hf H]]; exists f; split; auto.
  - destruct (assoc k (snd f)); [destruct H as [<-|[]]; reflexivity|destruct H].
  - rewrite H. left. reflexivity.
Qed.

Lemma gmatch_star r s :
  gmatch (PStar :: r) s = gmatch r s || match s with [] => false | _ :: s' => gmatch (PStar :: r) s' end.
Proof. destruct s; reflexivity. Qed.
Lemma gmatch_item it r s : it <> PStar ->
  gmatch (it :: r) s = match s with [] => false | c :: s' => item_ok it c && gmatch r s' end.
Proof. intro H. destruct it; try reflexivity. congruence. Qed.

Lemma gmatch_glob items s : gmatch items s = true -> glob items s.
Proof.
  revert s. induction items as [|it r IH]; intros s H.
  - destruct s; [constructor|discriminate].
  - destruct (match it with PStar => true | _ => false end) eqn:Eit.
    + destruct it; try discriminate. induction s as [|c s IHs].
      * rewrite gmatch_star in H. rewrite orb_false_r in H. apply g_star_skip, IH, H.
      * rewrite gmatch_star in H. apply orb_prop in H. destruct H as [H|H].
        -- apply g_star_skip, IH, H.
        -- apply g_star_eat, IHs, H.
    + assert (Hn : it <> PStar) by (intro; subst; discriminate).
      rewrite gmatch_item in H by exact Hn. destruct s as [|c s]; [discriminate|].
      apply andb_prop in H. destruct H as [H1 H2]. apply g_item; auto.
Qed.
Lemma glob_gmatch items s : glob items s -> gmatch items s = true.
Proof.
  induction 1.
  - reflexivity.
  - rewrite gmatch_star, IHglob. reflexivity.
  - rewrite gmatch_star, IHglob. apply orb_true_r.
  - rewrite gmatch_item by assumption. rewrite H0, IHglob. reflexivity.
Qed.

Lemma uniq_in x l : In x (uniq l) <-> In x l.
Proof.
  induction l as [|y l IH]; simpl; [tauto|]. split.
  - intros [H|H]; auto. apply filter_In in H. right. apply IH, H.
  - intros [H|H]; auto. destruct (str_eqb y x) eqn:E.
    + apply str_eqb_eq in E. auto.
    + right. apply filter_In. split; [apply IH, H|]. rewrite E. reflexivity.
Qed.

Lemma glob_lits l r s : glob (map PLit l ++ r) s <-> exists s', s = l ++ s' /\ glob r s'.
Proof.
  revert s. induction l as [|c l IH]; intros s; simpl.
  - split; [intro H; exists s; auto|intros [s' [-> H]]; exact H].
  - split.
    + intro H. inversion H; subst; clear H.
      match goal with Hok : item_ok (PLit c) ?x = true |- _ => simpl in Hok; apply N.eqb_eq in Hok; subst end.
      match goal with Hg : glob (map PLit l ++ r) _ |- _ => apply IH in Hg; destruct Hg as [s' [-> Hg]]; exists s'; auto end.
    + intros [s' [-> H]]. apply g_item; [discriminate|simpl; apply N.eqb_refl|]. apply IH. exists s'. auto.
Qed.
Lemma glob_star_any s : glob [PStar] s.
Proof. induction s; [apply g_star_skip, g_nil|apply g_star_eat; assumption]. Qed.
Lemma glob_star r s : glob (PStar :: r) s <-> exists a b, s = a ++ b /\ glob r b.
Proof.
  split.
  - intro H. remember (PStar :: r) as items eqn:E. induction H; try discriminate.
    + inversion E; subst. exists [], s. auto.
    + inversion E; subst. destruct (IHglob eq_refl) as [a [b [-> Hb]]]. exists (c :: a), b. auto.
    + inversion E; subst. congruence.
  - intros [a [b [-> H]]]. induction a; simpl; [apply g_star_skip, H|apply g_star_eat, IHa].
Qed.
Lemma parse_pat_plain l r k : forallb plain l = true ->
  parse_pat (length l + k) (l ++ r) = map PLit l ++ parse_pat k r.
Proof.
  induction l as [|c l IH]; simpl; intro H; [reflexivity|].
  apply andb_prop in H. destruct H as [Hc Hl]. unfold plain in Hc.
  apply andb_prop in Hc. destruct Hc as [Hc H3]. apply andb_prop in Hc. destruct Hc as [H1 H2].
  apply negb_true_iff in H1, H2, H3. rewrite H1, H2, H3. f_equal. apply IH, Hl.
Qed.
Lemma glob_pat_plain l r s : forallb plain l = true ->
  (glob_pat (l ++ r) s <-> exists s', s = l ++ s' /\ glob_pat r s').
Proof.
  intro Hp. unfold glob_pat. rewrite app_length, <- Nat.add_succ_r, parse_pat_plain by exact Hp. apply glob_lits.
Qed.

Definition B (b : bstr) : str := s2l b.
Definition ex_fs : pmap :=
  [(B "/etc/foo"%bs, File (B "L"%bs, B "644.0.0"%bs)); (B "/etc/._cfg0003_foo"%bs, File (B "N"%bs, B "644.0.0"%bs));
   (B "/etc/._cfg0001_foo"%bs, File (B "X"%bs, B "644.0.0"%bs)); (B "/opt/c/bar"%bs, File (B "M"%bs, B "644.0.0"%bs));
   (B "/etc/.keep"%bs, File (B "K"%bs, B "644.0.0"%bs))].
Definition ex_inst : pmap :=
  [(B "/etc"%bs, Dir); (B "/etc/foo"%bs, File (B "N"%bs, B "644.0.0"%bs)); (B "/etc/.keep"%bs, File (B "K2"%bs, B "644.0.0"%bs))].
Definition ex_prot := protect_filter [] [] [].
Definition ex_ign := ignore_filter [] [] [SL] ex_fs.

Example ex_protected : protected_file ex_prot ex_ign [SL] ex_fs (B "/etc/foo"%bs) (B "L"%bs, B "644.0.0"%bs).
Proof. split; [|split]; vm_compute; reflexivity. Qed.
Example ex_differs : incoming_differs ex_inst (B "/etc/foo"%bs) (B "L"%bs, B "644.0.0"%bs) (File (B "N"%bs, B "644.0.0"%bs)).
Proof. split; [vm_compute; tauto|reflexivity]. Qed.
Example ex_pkg_ok : pkg_ok ex_inst.
Proof.
  split.
  - vm_compute. repeat constructor; simpl; intuition discriminate.
  - intros e He. vm_compute in He. intuition (subst; reflexivity).
Qed.
Example ex_distinct : newlocs_distinct ex_prot ex_ign [SL] ex_fs ex_inst.
Proof. vm_compute. repeat constructor; simpl; intuition discriminate. Qed.
(* the identical pending update 0003 is reused (0001 differs); without it the number would be 4 *)
Example ex_reuse : new_loc ex_fs (B "/etc/foo"%bs) (File (B "N"%bs, B "644.0.0"%bs)) = B "/etc/._cfg0003_foo"%bs.
Proof. vm_compute. reflexivity. Qed.
Example ex_exceed : new_loc ex_fs (B "/etc/foo"%bs) (File (B "Q"%bs, B "644.0.0"%bs)) = B "/etc/._cfg0004_foo"%bs.
Proof. vm_compute. reflexivity. Qed.
(* .keep is under /etc but matched by COLLISION_IGNORE's built-in */.keep: not protected *)
Example ex_keep_ignored : ex_ign (B "/etc/.keep"%bs) = true.
Proof. vm_compute. reflexivity. Qed.
Example ex_merge :
  show_tree (merge_fs ex_fs (pre_merge ex_prot ex_ign [SL] ex_fs ex_inst))
  = B "/etc/._cfg0001_foo;f;X,644.0.0|/etc/._cfg0003_foo;f;N,644.0.0|/etc/.keep;f;K2,644.0.0|/etc/foo;f;L,644.0.0|/opt/c/bar;f;M,644.0.0"%bs.
Proof. vm_compute. reflexivity. Qed.
Example ex_uninstall :
  differs_from_recorded [(B "/etc/foo"%bs, File (B "R"%bs, B "644.0.0"%bs))] (B "/etc/foo"%bs) (B "L"%bs, B "644.0.0"%bs)
  /\ show_tree (unmerge_fs ex_fs (uninstall_set ex_prot ex_ign [SL] ex_fs
                  [(B "/etc/foo"%bs, File (B "R"%bs, B "644.0.0"%bs)); (B "/opt/c/bar"%bs, File (B "R2"%bs, B "644.0.0"%bs))] []))
     = B "/etc/._cfg0001_foo;f;X,644.0.0|/etc/._cfg0003_foo;f;N,644.0.0|/etc/.keep;f;K,644.0.0|/etc/foo;f;L,644.0.0"%bs.
Proof. split; [eexists; split; reflexivity|vm_compute; reflexivity]. Qed.

Example ex_locs_wf : locs_wf ex_inst = true.
Proof. vm_compute. reflexivity. Qed.
(* the ._cfg file takes the incoming mode/owner, the protected file keeps its own *)
Example ex_attrs :
  show_tree (merge_fs [(B "/o/etc/foo"%bs, File (B "L"%bs, B "600.0.0"%bs))]
               (pre_merge ex_prot (ignore_filter [] [] (B "/o"%bs) []) (B "/o"%bs)
                          [(B "/o/etc/foo"%bs, File (B "L"%bs, B "600.0.0"%bs))]
                          [(B "/o/etc/foo"%bs, File (B "N"%bs, B "640.1000.100"%bs))]))
  = B "/o/etc/._cfg0000_foo;f;N,640.1000.100|/o/etc/foo;f;L,600.0.0"%bs.
Proof. vm_compute. reflexivity. Qed.
(* component boundary, mask, normalised entries; the entry "//opt/../opt/d/" normalises to "//opt/d"
   (POSIX keeps exactly two leading slashes), so it does not cover /opt/d/a *)
Example ex_filter :
  map (protect_filter [(B "10a"%bs, [(k_cp, B "/opt/c //opt/../opt/d/"%bs); (k_cpm, B "/etc/m"%bs)])] [] [])
      [B "/etc/foo"%bs; B "/etcx/foo"%bs; B "/etc"%bs; B "/etc/m/a"%bs; B "/etc/mm"%bs; B "/opt/c/a"%bs; B "/opt/cc"%bs; B "/opt/d/a"%bs]
  = [true; false; false; false; true; true; false; false].
Proof. vm_compute. reflexivity. Qed.
Example ex_ignore :
  map (ignore_filter [(B "10a"%bs, [(k_ci, B "/etc/q /etc/x /etc/[ab]*"%bs)])] [] [SL] [(B "/etc/x/y"%bs, File (B "c"%bs, []))])
      [B "/etc/q"%bs; B "/usr/etc/q"%bs; B "/etc/x/y"%bs; B "/etc/x"%bs; B "/etc/bar"%bs; B "/etc/car"%bs; B "/a/b/.keep"%bs; B "/a/.keep_x-0"%bs; B "/a/.keepx"%bs]
  = [true; false; true; false; true; false; true; true; false].
Proof. vm_compute. reflexivity. Qed.
