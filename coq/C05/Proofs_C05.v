(* Proofs_C05.v — proofs about Model_C05 against Spec_C05: symmetry and the ordered cells. *)
From Coq Require Import List ZArith Bool Lia.
Import ListNotations.
From Verif Require Import Base.Val Base.Lists C01.Model_C01 C01.Order_C01 C04.Model_C04 C04.Spec_C04 C04.Proofs_C04
  C05.Model_C05 C05.Spec_C05.

Definition zero_sym (vc : str -> option N -> str -> option N -> Z) : Prop :=
  forall v r w s, Z.eqb (vc v r w s) 0 = Z.eqb (vc w s v r) 0.

Lemma both_differ_sym x y : both_differ x y = both_differ y x.
Proof. destruct x, y; cbn; try reflexivity. rewrite str_eqb_sym; reflexivity. Qed.

Lemma use_conflict_sym a b : use_conflict a b = use_conflict b a.
Proof.
  unfold use_conflict. destruct (a_use a) as [[|ta ua]|], (a_use b) as [[|tb ub]|]; try reflexivity.
  unfold use_flags.
  set (x := filter _ (ta :: ua)). set (y := filter _ (tb :: ub)).
  rewrite !existsb_app, orb_comm.
  f_equal; apply existsb_ext_in; intros t _; rewrite !dash_match; destruct t as [|c f]; try reflexivity;
    unfold smem; rewrite !existsb_app, orb_comm; reflexivity.
Qed.

Lemma attrs_compatible_sym a b : attrs_compatible a b = attrs_compatible b a.
Proof.
  unfold attrs_compatible.
  rewrite (str_eqb_sym (a_cat a)), (str_eqb_sym (a_pkg a)), (both_differ_sym (a_slot a)),
    (both_differ_sym (a_subslot a)), (both_differ_sym (a_repo a)), (use_conflict_sym a b). reflexivity.
Qed.

Definition zero_sym_at (vc : str -> option N -> str -> option N -> Z) (a b : atom) : Prop :=
  Z.eqb (vc (a_ver a) (a_rev a) (a_ver b) (a_rev b)) 0 = Z.eqb (vc (a_ver b) (a_rev b) (a_ver a) (a_rev a)) 0.

(* With the two operators known, [version_part] computes to the test of its cell.  In the proofs
   the atoms are taken apart first, so that [a_op] of either reduces wherever it stands (also
   behind the ranged/other swap). *)
Section Cells.
Variable vc : str -> option N -> str -> option N -> Z.

Lemma vp_unversioned a b : a_op a = 7%N \/ a_op b = 7%N -> version_part vc a b = true.
Proof.
  intros [E|E]; unfold version_part, unversioned; rewrite E; [reflexivity|].
  rewrite orb_true_r. reflexivity.
Qed.

Lemma vp_both_lower a b :
  (a_op a = 0 \/ a_op a = 1)%N -> (a_op b = 0 \/ a_op b = 1)%N -> version_part vc a b = true.
Proof. destruct a, b; cbn. intros [-> | ->] [-> | ->]; reflexivity. Qed.

Lemma vp_both_upper a b :
  (a_op a = 3 \/ a_op a = 4)%N -> (a_op b = 3 \/ a_op b = 4)%N -> version_part vc a b = true.
Proof. destruct a, b; cbn. intros [-> | ->] [-> | ->]; reflexivity. Qed.

Lemma vp_eq a b : a_op a = 2%N -> (a_op b <= 5)%N -> version_part vc a b = vm vc b a.
Proof.
  intros Ea Hb.
  assert (Eb : (a_op b = 0 \/ a_op b = 1 \/ a_op b = 2 \/ a_op b = 3 \/ a_op b = 4 \/ a_op b = 5)%N) by lia.
  clear Hb. destruct a, b; cbn in Ea, Eb. subst.
  destruct Eb as [->|[->|[->|[->|[->| ->]]]]]; reflexivity.
Qed.

Lemma vp_eq_glob a g : a_op a = 2%N -> a_op g = 6%N ->
  version_part vc a g = startswith (fullver_of a) (fullver_of g).
Proof. destruct a, g; cbn. intros -> ->. reflexivity. Qed.

Lemma vp_opposite lo hi :
  (a_op lo = 3 \/ a_op lo = 4)%N -> (a_op hi = 0 \/ a_op hi = 1)%N ->
  version_part vc lo hi = vm vc hi lo && vm vc lo hi.
Proof. destruct lo, hi; cbn. intros [-> | ->] [-> | ->]; reflexivity. Qed.

Lemma vp_lower_tilde r t : (a_op r = 0 \/ a_op r = 1)%N -> a_op t = 5%N ->
  version_part vc r t = vm vc r t.
Proof. destruct r, t; cbn. intros [-> | ->] ->; apply orb_false_r. Qed.

Lemma vp_upper_tilde r t : (a_op r = 3 \/ a_op r = 4)%N -> a_op t = 5%N ->
  version_part vc r t = vm vc r t || vm vc t r.
Proof. destruct r, t; cbn. intros [-> | ->] ->; reflexivity. Qed.

Lemma vp_tilde_tilde a b : a_op a = 5%N -> a_op b = 5%N ->
  version_part vc a b = str_eqb (a_ver a) (a_ver b) && rev_eq (a_rev a) (a_rev b).
Proof. destruct a, b; cbn. intros -> ->. reflexivity. Qed.

Lemma vp_glob_glob a b : a_op a = 6%N -> a_op b = 6%N ->
  version_part vc a b = startswith (fullver_of a) (fullver_of b) || startswith (fullver_of b) (fullver_of a).
Proof. destruct a, b; cbn. intros -> ->. reflexivity. Qed.

Lemma vp_glob_tilde g t : a_op g = 6%N -> a_op t = 5%N ->
  version_part vc g t = startswith (fullver_of t) (a_ver g).
Proof. destruct g, t; cbn. intros -> ->. reflexivity. Qed.

Lemma vmatch_op op v r pv pr : op <> 5%N ->
  vmatch vc op false v r pv pr = memZ (vc pv pr v r) (opv op).
Proof.
  intro N5. unfold vmatch, op_droprev. destruct (N.eqb_spec op 5); [contradiction|]. apply xorb_false_r.
Qed.

Lemma vmatch_tilde v r pv pr : vmatch vc 5 false v r pv pr = Z.eqb (vc pv None v None) 0.
Proof. unfold vmatch. cbn. rewrite xorb_false_r. apply orb_false_r. Qed.

(* ---- symmetry: the code treats the two atoms alike in every cell; two `=` atoms ask the
   comparison both ways round *)
Lemma op_cases n : (n <= 7)%N ->
  (n = 0 \/ n = 1 \/ n = 2 \/ n = 3 \/ n = 4 \/ n = 5 \/ n = 6 \/ n = 7)%N.
Proof. lia. Qed.

Lemma version_part_sym a b :
  (a_op a = 2%N -> a_op b = 2%N -> zero_sym_at vc a b) -> (a_op a <= 7)%N -> (a_op b <= 7)%N ->
  version_part vc a b = version_part vc b a.
Proof.
  intros Hz Ha Hb.
  destruct (N.eq_dec (a_op a) 2) as [Ea|Na], (N.eq_dec (a_op b) 2) as [Eb|Nb].
  - rewrite !vp_eq by (rewrite ?Ea, ?Eb; lia). unfold vm. rewrite !vmatch_op by (rewrite ?Ea, ?Eb; discriminate).
    specialize (Hz Ea Eb). unfold zero_sym_at in Hz. rewrite Ea, Eb. cbn. rewrite !orb_false_r. exact Hz.
  - clear Hz. apply op_cases in Hb. destruct a, b; cbn in *. subst.
    destruct Hb as [->|[->|[->|[->|[->|[->|[->| ->]]]]]]]; try reflexivity. contradiction.
  - clear Hz. apply op_cases in Ha. destruct a, b; cbn in *. subst.
    destruct Ha as [->|[->|[->|[->|[->|[->|[->| ->]]]]]]]; try reflexivity. contradiction.
  - clear Hz. apply op_cases in Ha. apply op_cases in Hb. destruct a, b; cbn in *.
    destruct Ha as [->|[->|[->|[->|[->|[->|[->| ->]]]]]]]; try contradiction;
    destruct Hb as [->|[->|[->|[->|[->|[->|[->| ->]]]]]]]; try contradiction;
      try reflexivity; try apply andb_comm; try apply orb_comm.
    unfold version_part; cbn. rewrite str_eqb_sym. unfold rev_eq. rewrite N.eqb_sym. reflexivity.
Qed.
End Cells.

(* for two version texts the answer is either decided by the texts alone, or it is the
   comparison of the revisions *)
Definition revision_last (vc : str -> option N -> str -> option N -> Z) : Prop :=
  forall v w, exists k : option Z, forall r s, vc v r w s = match k with Some c => c | None => rev_cmp r s end.

Lemma ver_cmp_shape : revision_last ver_cmp.
Proof.
  intros v w. unfold ver_cmp, ver_cmp_gen. destruct (str_eqb v w); [exists None; reflexivity|].
  destruct (negb (Z.eqb (num_cmp true (hd [] (split_on 95 v)) (hd [] (split_on 95 w))) 0)).
  - eexists (Some _). reflexivity.
  - destruct (suf_loop (tl (split_on 95 v)) (tl (split_on 95 w))) as [c|].
    + exists (Some c); reflexivity.
    + exists None; reflexivity.
Qed.

Lemma no_version_between_revisions v ra rb pv pr :
  rev_val rb = (rev_val ra + 1)%N ->
  vmatch ver_cmp 4 false v ra pv pr = true ->       (* p > v-ra *)
  vmatch ver_cmp 0 false v rb pv pr = true ->       (* p < v-rb *)
  False.
Proof.
  intros Hr. unfold vmatch; cbn. rewrite !xorb_false_r, !orb_false_r.
  destruct (ver_cmp_shape pv v) as [k Hk]. rewrite !Hk. destruct k as [c|].
  - intros H1 H2. apply Z.eqb_eq in H1, H2. lia.
  - unfold rev_cmp, cmpN. intros H1 H2. apply Z.eqb_eq in H1, H2.
    destruct (N.compare_spec (rev_val pr) (rev_val ra)), (N.compare_spec (rev_val pr) (rev_val rb));
      cbn in *; try discriminate; lia.
Qed.

Lemma Mv_nonglob vc a v r fv : wf_atom a = true -> (a_op a <= 5)%N ->
  Mv vc a v r fv = vmatch vc (a_op a) false (a_ver a) (a_rev a) v r.
Proof.
  intros Hwf Ho. apply wf_atom_inv in Hwf as [_ [Hf _]]. unfold Mv.
  destruct (a_fullver a); [|rewrite (proj1 Hf eq_refl) in Ho; lia].
  destruct (N.eqb_spec (a_op a) 6); [lia|reflexivity].
Qed.

Lemma Mv_glob vc a v r fv : wf_atom a = true -> a_op a = 6%N ->
  Mv vc a v r fv = startswith fv (fullver_of a).
Proof.
  intros Hwf Eo. apply wf_atom_inv in Hwf as [_ [Hf _]]. unfold Mv, fullver_of. rewrite Eo.
  destruct (a_fullver a); [reflexivity|]. rewrite (proj1 Hf eq_refl) in Eo. discriminate.
Qed.

Lemma Mv_unversioned vc a v r fv : wf_atom a = true -> a_op a = 7%N -> Mv vc a v r fv = true.
Proof.
  intros Hwf Eo. apply wf_atom_inv in Hwf as [_ [Hf _]]. unfold Mv. rewrite (proj2 Hf Eo). reflexivity.
Qed.

Lemma atom_match_iff vc a p : wf_atom a = true -> a_negate_vers a = false ->
  atom_match vc a p = true <->
  str_eqb (a_cat a) (p_cat p) = true /\ str_eqb (a_pkg a) (p_pkg p) = true
  /\ Mv vc a (p_ver p) (p_rev p) (p_fullver p) = true
  /\ opt_eq (a_slot a) (p_slot p) = true /\ opt_eq (a_subslot a) (p_subslot p) = true
  /\ opt_eq (a_repo a) (p_repo p) = true /\ use_clause vc a p = true.
Proof.
  intros Hwf Hn. rewrite (atom_match_parts vc a p Hwf), !andb_true_iff.
  unfold ver_clause, Mv. rewrite Hn. tauto.
Qed.

Lemma opt_eq_both_differ x y s : opt_eq x s = true -> opt_eq y s = true -> both_differ x y = false.
Proof.
  destruct x, y; cbn; try reflexivity. intros H1 H2.
  apply str_eqb_eq in H1, H2. subst. rewrite str_eqb_refl. reflexivity.
Qed.

Lemma str_eqb_via a b s : str_eqb a s = true -> str_eqb b s = true -> str_eqb a b = true.
Proof. intros H1 H2. apply str_eqb_eq in H1, H2. subst. apply str_eqb_refl. Qed.

Lemma intersects_of_parts vc a b p :
  wf_atom a = true -> wf_atom b = true -> a_negate_vers a = false -> a_negate_vers b = false ->
  atom_match vc a p = true -> atom_match vc b p = true ->
  use_conflict a b = false -> version_part vc a b = true -> intersects vc a b = true.
Proof.
  intros Wa Wb Na Nb Ma Mb Hu Hv.
  apply (atom_match_iff vc a p Wa Na) in Ma as (Ac & Ap & _ & As & Ass & Ar & _).
  apply (atom_match_iff vc b p Wb Nb) in Mb as (Bc & Bp & _ & Bs & Bss & Br & _).
  unfold intersects, attrs_compatible.
  rewrite (str_eqb_via _ _ _ Ac Bc), (str_eqb_via _ _ _ Ap Bp), Hu, Hv.
  rewrite (opt_eq_both_differ _ _ _ As Bs), (opt_eq_both_differ _ _ _ Ass Bss), (opt_eq_both_differ _ _ _ Ar Br).
  reflexivity.
Qed.

(* the order laws, in the exact form of C01's theorem ver_cmp_total_preorder, for a comparison
   [vc] on the version texts [okv] *)
Definition order_laws (vc : str -> option N -> str -> option N -> Z) (okv : str -> Prop) : Prop :=
  forall v1 v2 v3 r1 r2 r3, okv v1 -> okv v2 -> okv v3 ->
    preorder_laws (fun x y => vc (fst x) (snd x) (fst y) (snd y)) (v1, r1) (v2, r2) (v3, r3).

Lemma memZ_In c l : memZ c l = true <-> In c l.
Proof.
  unfold memZ. rewrite existsb_exists. split.
  - intros [y [Hy E]]. apply Z.eqb_eq in E. subst. exact Hy.
  - intro H. exists c. split; [exact H|apply Z.eqb_refl].
Qed.

Section Order.
Variable vc : str -> option N -> str -> option N -> Z.
Variable okv : str -> Prop.
Hypothesis Hord : order_laws vc okv.

Lemma ord_range v r w s : okv v -> okv w ->
  vc v r w s = (-1)%Z \/ vc v r w s = 0%Z \/ vc v r w s = 1%Z.
Proof. intros Hv Hw. apply (Hord v w v r s r Hv Hw Hv). Qed.

Lemma ord_anti v r w s : okv v -> okv w -> vc w s v r = (- vc v r w s)%Z.
Proof. intros Hv Hw. apply (Hord v w v r s r Hv Hw Hv). Qed.

Lemma ord_eq v r w s u t : okv v -> okv w -> okv u ->
  vc v r w s = 0%Z -> vc v r u t = vc w s u t.
Proof. intros Hv Hw Hu. apply (Hord v w u r s t Hv Hw Hu). Qed.

Lemma ord_le_trans v r w s u t : okv v -> okv w -> okv u ->
  (vc v r w s <= 0)%Z -> (vc w s u t <= 0)%Z -> (vc v r u t <= 0)%Z.
Proof. intros Hv Hw Hu. apply (Hord v w u r s t Hv Hw Hu). Qed.

Lemma ord_mono q rq p rp x rx : okv q -> okv p -> okv x ->
  (vc q rq p rp <= 0)%Z -> (vc q rq x rx <= vc p rp x rx)%Z.
Proof.
  intros Hq Hp Hx H.
  pose proof (ord_le_trans q rq p rp x rx Hq Hp Hx H) as T.
  pose proof (ord_eq q rq x rx p rp Hq Hx Hp) as C.
  pose proof (ord_range q rq x rx Hq Hx) as S.
  pose proof (ord_range p rp x rx Hp Hx) as S'. pose proof (ord_anti p rp x rx Hp Hx) as A.
  lia.
Qed.

(* "compares equal" is symmetric, as intersects_sym asks of two `=` atoms *)
Lemma ord_zero_sym a b : okv (a_ver a) -> okv (a_ver b) -> zero_sym_at vc a b.
Proof.
  intros Ha Hb. unfold zero_sym_at. rewrite (ord_anti (a_ver a) (a_rev a) _ _ Ha Hb).
  destruct (vc (a_ver a) (a_rev a) (a_ver b) (a_rev b)); reflexivity.
Qed.

Lemma ord_mono_r x rx q rq p rp : okv q -> okv p -> okv x ->
  (vc q rq p rp <= 0)%Z -> (vc x rx p rp <= vc x rx q rq)%Z.
Proof.
  intros Hq Hp Hx H. pose proof (ord_mono q rq p rp x rx Hq Hp Hx H).
  rewrite (ord_anti q rq x rx Hq Hx), (ord_anti p rp x rx Hp Hx). lia.
Qed.

(* the points accepted by < or <= form a lower set, those accepted by >= or > an upper set *)
Lemma sat_lower op q rq p rp x rx : okv q -> okv p -> okv x -> (op = 0 \/ op = 1)%N ->
  (vc q rq p rp <= 0)%Z -> In (vc p rp x rx) (opv op) -> In (vc q rq x rx) (opv op).
Proof.
  intros Hq Hp Hx Ho H. pose proof (ord_mono q rq p rp x rx Hq Hp Hx H).
  pose proof (ord_range q rq x rx Hq Hx). destruct Ho as [-> | ->]; cbn [opv In]; lia.
Qed.

Lemma sat_upper op q rq p rp x rx : okv q -> okv p -> okv x -> (op = 3 \/ op = 4)%N ->
  (vc p rp q rq <= 0)%Z -> In (vc p rp x rx) (opv op) -> In (vc q rq x rx) (opv op).
Proof.
  intros Hq Hp Hx Ho H. pose proof (ord_mono p rp q rq x rx Hp Hq Hx H).
  pose proof (ord_range q rq x rx Hq Hx). destruct Ho as [-> | ->]; cbn [opv In]; lia.
Qed.

Lemma ord_lt_le w rw m rm o ro : okv w -> okv m -> okv o ->
  vc w rw m rm = (-1)%Z -> (vc m rm o ro <= 0)%Z -> vc w rw o ro = (-1)%Z.
Proof.
  intros Hw Hm Ho H1 H2. pose proof (ord_mono_r w rw m rm o ro Hm Ho Hw H2).
  pose proof (ord_range w rw o ro Hw Ho). lia.
Qed.

Lemma ord_gt_ge w rw m rm o ro : okv w -> okv m -> okv o ->
  vc w rw m rm = 1%Z -> (0 <= vc m rm o ro)%Z -> vc w rw o ro = 1%Z.
Proof.
  intros Hw Hm Ho H1 H2.
  assert (H : (vc o ro m rm <= 0)%Z) by (rewrite (ord_anti m rm o ro Hm Ho); lia).
  pose proof (ord_mono_r w rw o ro m rm Ho Hm Hw H). pose proof (ord_range w rw o ro Hw Ho). lia.
Qed.

(* cells {<,<=,=,>=,>} x {<,<=,=,>=,>}: if one (version, revision) satisfies both
   restrictions, the atoms are reported as intersecting *)
Lemma complete_cells_ordered : forall a b pv pr,
  (a_op a <= 4)%N -> (a_op b <= 4)%N -> okv (a_ver a) -> okv (a_ver b) -> okv pv ->
  vmatch vc (a_op a) false (a_ver a) (a_rev a) pv pr = true ->
  vmatch vc (a_op b) false (a_ver b) (a_rev b) pv pr = true ->
  version_part vc a b = true.
Proof.
  (* by symmetry, [a] is `=`, or both bound the same way, or [a] bounds below and [b] above *)
  assert (Half : forall a b pv pr,
    okv (a_ver a) -> okv (a_ver b) -> okv pv ->
    In (vc pv pr (a_ver a) (a_rev a)) (opv (a_op a)) -> In (vc pv pr (a_ver b) (a_rev b)) (opv (a_op b)) ->
    (a_op a = 2%N /\ (a_op b <= 4)%N) \/ ((a_op a = 3 \/ a_op a = 4)%N /\ (a_op b = 0 \/ a_op b = 1)%N) ->
    version_part vc a b = true).
  { intros a b pv pr Oa Ob Op Ha Hb [[Ea Lb]|[Ua Lb]].
    - (* the package compares equal to the `=` atom's version *)
      rewrite vp_eq by lia. unfold vm. rewrite vmatch_op by lia. apply memZ_In.
      rewrite Ea in Ha. cbn in Ha. destruct Ha as [Ha|[]].
      rewrite <- (ord_eq pv pr (a_ver a) (a_rev a) _ _ Op Oa Ob (eq_sym Ha)). exact Hb.
    - (* ver a <= package <= ver b *)
      assert (La : (vc (a_ver a) (a_rev a) pv pr <= 0)%Z).
      { rewrite (ord_anti pv pr _ _ Op Oa). destruct Ua as [E|E]; rewrite E in Ha; cbn in Ha; lia. }
      assert (Lp : (vc pv pr (a_ver b) (a_rev b) <= 0)%Z).
      { destruct Lb as [E|E]; rewrite E in Hb; cbn in Hb; lia. }
      rewrite (vp_opposite vc a b Ua Lb). unfold vm. rewrite !vmatch_op by lia. apply andb_true_iff. split; apply memZ_In.
      + exact (sat_lower _ _ _ pv pr _ _ Oa Op Ob Lb La Hb).
      + apply (sat_upper _ _ _ pv pr); assumption. }
  intros a b pv pr La Lb Oa Ob Op Ha Hb.
  rewrite vmatch_op in Ha, Hb by lia. apply memZ_In in Ha, Hb.
  destruct (N.eq_dec (a_op a) 2) as [Ea|Na]; [apply (Half a b pv pr); auto|].
  assert (S : version_part vc b a = true -> version_part vc a b = true).
  { intro H. rewrite version_part_sym; [exact H|intros; contradiction|lia|lia]. }
  destruct (N.eq_dec (a_op b) 2) as [Eb|Nb]; [apply S, (Half b a pv pr); auto|].
  assert (Ca : ((a_op a = 0 \/ a_op a = 1) \/ (a_op a = 3 \/ a_op a = 4))%N) by lia.
  assert (Cb : ((a_op b = 0 \/ a_op b = 1) \/ (a_op b = 3 \/ a_op b = 4))%N) by lia.
  destruct Ca as [Ca|Ca], Cb as [Cb|Cb].
  - apply vp_both_lower; assumption.
  - apply S, (Half b a pv pr); auto.
  - apply (Half a b pv pr); auto.
  - apply vp_both_upper; assumption.
Qed.

Definition ordered_or_unversioned (a : atom) : Prop := (a_op a <= 4)%N \/ a_op a = 7%N.

Lemma intersects_complete_ordered : forall a b p,
  wf_atom a = true -> wf_atom b = true -> a_negate_vers a = false -> a_negate_vers b = false ->
  ordered_or_unversioned a -> ordered_or_unversioned b ->
  (a_use a = None \/ a_use b = None) ->
  (a_op a <> 7%N -> okv (a_ver a)) -> (a_op b <> 7%N -> okv (a_ver b)) -> okv (p_ver p) ->
  atom_match vc a p = true -> atom_match vc b p = true ->
  intersects vc a b = true.
Proof.
  intros a b p Wa Wb Na Nb Oa Ob Hu Va Vb Vp Ma Mb.
  apply (intersects_of_parts vc a b p); try assumption.
  - unfold use_conflict. destruct Hu as [-> | ->]; [reflexivity|]. destruct (a_use a) as [[|? ?]|]; reflexivity.
  - destruct Oa as [Oa|Oa]; [|apply vp_unversioned; auto]. destruct Ob as [Ob|Ob]; [|apply vp_unversioned; auto].
    apply (atom_match_iff vc a p Wa Na) in Ma as (_ & _ & Av & _).
    apply (atom_match_iff vc b p Wb Nb) in Mb as (_ & _ & Bv & _).
    rewrite Mv_nonglob in Av, Bv by (assumption || lia).
    apply (complete_cells_ordered a b (p_ver p) (p_rev p)); try assumption; [apply Va|apply Vb]; lia.
Qed.
End Order.

Definition vatom (op : N) (v : str) (r : option N) (fv : str) : atom :=
  {| a_cat := [97]%N; a_pkg := [98]%N; a_op := op; a_ver := v; a_rev := r; a_fullver := Some fv;
     a_slot := None; a_subslot := None; a_slotop := None; a_repo := None; a_use := None;
     a_blocks := false; a_strong := false; a_negate_vers := false |}.
Definition vpkg (v : str) (r : option N) (fv : str) : package :=
  {| p_cat := [97]%N; p_pkg := [98]%N; p_ver := v; p_rev := r; p_fullver := fv;
     p_slot := [48]%N; p_subslot := [48]%N; p_repo := [103]%N; p_use := []; p_iuse := [] |}.

(* ~a/b-1.0 and ~a/b-1.00 both match a/b-1.0 but are reported as disjoint *)
Definition tilde_10 := vatom 5 [49; 46; 48]%N None [49; 46; 48]%N.
Definition tilde_100 := vatom 5 [49; 46; 48; 48]%N None [49; 46; 48; 48]%N.
Definition pkg_10 := vpkg [49; 46; 48]%N None [49; 46; 48]%N.

(* =a/b-1* and >a/b-2: a/b-10 matches both (the glob by string prefix), reported as disjoint *)
Definition glob_1 := vatom 6 [49]%N None [49]%N.
Definition gt_2 := vatom 4 [50]%N None [50]%N.
Definition pkg_10_ := vpkg [49; 48]%N None [49; 48]%N.
(* =a/b-1.0 and =a/b-1.00*: a/b-1.00 matches both *)
Definition eq_10 := vatom 2 [49; 46; 48]%N None [49; 46; 48]%N.
Definition glob_100 := vatom 6 [49; 46; 48; 48]%N None [49; 46; 48; 48]%N.
Definition pkg_100 := vpkg [49; 46; 48; 48]%N None [49; 46; 48; 48]%N.
Lemma complete_refuted_more :
  (atom_match ver_cmp glob_1 pkg_10_ = true /\ atom_match ver_cmp gt_2 pkg_10_ = true
   /\ intersects ver_cmp glob_1 gt_2 = false)
  /\ (atom_match ver_cmp eq_10 pkg_100 = true /\ atom_match ver_cmp glob_100 pkg_100 = true
      /\ intersects ver_cmp eq_10 glob_100 = false).
Proof. vm_compute. repeat split. Qed.

(* >a/b-1 and <a/b-1-r1 are reported as intersecting; no package matches both *)
Definition gt_1 := vatom 4 [49]%N None [49]%N.
Definition lt_1r1 := vatom 0 [49]%N (Some 1%N) [49; 45; 114; 49]%N.
Lemma gt_1_lt_1r1_disjoint p :
  ~ (atom_match ver_cmp gt_1 p = true /\ atom_match ver_cmp lt_1r1 p = true).
Proof.
  intros [H1 H2].
  apply (atom_match_iff ver_cmp gt_1 p eq_refl eq_refl) in H1 as (_ & _ & H1 & _).
  apply (atom_match_iff ver_cmp lt_1r1 p eq_refl eq_refl) in H2 as (_ & _ & H2 & _).
  exact (no_version_between_revisions [49]%N None (Some 1%N) (p_ver p) (p_rev p) eq_refl H1 H2).
Qed.

(* the two reported-as-intersecting pairs of the other unwitnessed classes (no package of the
   harness universe matches both; that part is evidence, not a theorem: package records carry
   fullver and version as independent fields) *)
Definition glob_1r0 := vatom 6 [49]%N (Some 0%N) [49; 45; 114; 48]%N.
Definition use_atom (toks : list str) : atom :=
  {| a_cat := [97]%N; a_pkg := [98]%N; a_op := 7; a_ver := []; a_rev := None; a_fullver := None;
     a_slot := None; a_subslot := None; a_slotop := None; a_repo := None; a_use := Some toks;
     a_blocks := false; a_strong := false; a_negate_vers := false |}.
Example reported_intersecting :
  intersects ver_cmp glob_1r0 tilde_10 = true                                   (* =a/b-1-r0* , ~a/b-1.0 *)
  /\ intersects ver_cmp (use_atom [[120]]%N) (use_atom [[45; 120; 40; 43; 41]]%N) = true   (* [x] , [-x(+)] *)
  /\ intersects ver_cmp (use_atom [[120]]%N) (use_atom [[45; 120]]%N) = false.  (* [x] , [-x] *)
Proof. vm_compute. repeat split. Qed.

(* non-vacuity of completeness: >=a/b-1.0 and <a/b-2 with the package a/b-1.1 *)
Example complete_partial_example :
  let a := vatom 3 [49; 46; 48]%N None [49; 46; 48]%N in
  let b := vatom 0 [50]%N None [50]%N in
  let p := vpkg [49; 46; 49]%N None [49; 46; 49]%N in
  wf_atom a = true /\ wf_atom b = true /\ atom_match ver_cmp a p = true /\ atom_match ver_cmp b p = true
  /\ intersects ver_cmp a b = true.
Proof. vm_compute. repeat split. Qed.
