(* C21 — property theorems (the lemmas that carry them are in Proofs_C21.v).

   [prot] / [ign] are ARBITRARY predicates on offset-relative locations (the theorems hold for every
   CONFIG_PROTECT / CONFIG_PROTECT_MASK / COLLISION_IGNORE configuration, every offset, every live
   tree and every package); the model instantiates them with protect_filter / ignore_filter.
   A regular file is File (content, attrs): attrs = mode.uid.gid, so "= Some (File d)" also fixes mode and owner. *)
From Coq Require Import List ZArith Bool.
Import ListNotations.
From Verif Require Import Base.Val C22.Model_C22 C21.Model_C21 C21.Spec_C21 C21.Proofs_C21.

(* A live regular file under CONFIG_PROTECT (not masked, not ignored) whose content differs from the
   incoming entry is not a location of the contents set handed to the merge, and is unchanged by it. *)
Theorem never_overwritten :
  forall (prot ign : str -> bool) (off : str) (fs inst : pmap) (P : str) (d : fdata) (n : node),
    pkg_ok inst ->
    protected_file prot ign off fs P d ->
    incoming_differs inst P d n ->
    ~ In P (map fst (pre_merge prot ign off fs inst)) /\
    pm_get P (merge_fs fs (pre_merge prot ign off fs inst)) = Some (File d).
Proof.
  intros prot ign off fs inst P d n Hok Hprot Hinc.
  pose proof (pre_merge_old _ _ _ _ _ _ Hok (renames_protected _ _ _ _ _ _ _ _ Hprot Hinc)) as Hnone.
  apply pm_get_none_notin in Hnone. split; [exact Hnone|].
  rewrite merge_get by exact Hnone. apply Hprot.
Qed.
Print Assumptions never_overwritten.

(* The incoming entry is renamed to ._cfgNNNN_<name> beside the protected file, NNNN being the number
   of an identical pending update if there is one, else non-negative and above every existing number
   of a pending update of that name; the renamed entry is in the set handed to the merge. *)
Theorem written_beside_with_numbering_rule :
  forall (prot ign : str -> bool) (off : str) (fs inst : pmap) (P : str) (d : fdata) (n : node),
    pkg_ok inst -> locs_wf inst = true ->
    protected_file prot ign off fs P d ->
    incoming_differs inst P d n ->
    let c := cfg_count fs P n in
    let dest := pjoin (dirname P) (cfg_name c (basename P)) in
    numbering_rule fs (dirname P) (basename P) n c /\
    In ((dest, n), (P, n)) (renames prot ign off fs inst) /\
    pm_get dest (pre_merge prot ign off fs inst) = Some n.
Proof.
  intros prot ign off fs inst P d n Hok Hwf Hprot Hinc.
  pose proof (renames_protected _ _ _ _ _ _ _ _ Hprot Hinc) as Hr.
  split; [apply cfg_count_rule|]. split; [exact Hr|].
  apply (pre_merge_new _ _ _ _ _ _ Hok Hr), newlocs_distinct_proof; assumption.
Qed.
Print Assumptions written_beside_with_numbering_rule.

(* "Reusing the number" of an identical pending update means the destination IS that pending file:
   a name the scan accepts ("._cfg" + four ASCII digits + "_" + name) is exactly the name generated for
   its number, so no other pending update is touched. *)
Theorem reuse_targets_identical_file :
  forall (fs : pmap) (dir fname : str) (c : Z) (x : str) (content : node),
    pending_update fs dir fname c x content ->
    pjoin dir (cfg_name c fname) = pjoin dir x /\ content = live_at fs (pjoin dir (cfg_name c fname)).
Proof.
  intros fs dir fname c x content [H1 [H2 H3]].
  rewrite <- (pending_name_roundtrip x fname c (cfg_listing_cfg _ _ _ H1) H2). auto.
Qed.
Print Assumptions reuse_targets_identical_file.

(* ... and after the merge the tree holds the incoming content under that name. *)
Theorem incoming_content_beside :
  forall (prot ign : str -> bool) (off : str) (fs inst : pmap) (P : str) (d : fdata) (n : node),
    pkg_ok inst -> locs_wf inst = true ->
    protected_file prot ign off fs P d ->
    incoming_differs inst P d n ->
    n <> Dir ->
    pm_get (pjoin (dirname P) (cfg_name (cfg_count fs P n) (basename P)))
           (merge_fs fs (pre_merge prot ign off fs inst)) = Some n.
Proof.
  intros prot ign off fs inst P d n Hok Hwf Hprot Hinc Hn.
  apply merge_get_some; [apply keys_pre_merge, Hok| |exact Hn].
  apply (written_beside_with_numbering_rule _ _ _ _ _ _ _ _ Hok Hwf Hprot Hinc).
Qed.
Print Assumptions incoming_content_beside.

(* The recorded contents (the install set after post_merge) keep the real name and not the ._cfg one. *)
Theorem recorded_keeps_real_name :
  forall (prot ign : str -> bool) (off : str) (fs inst : pmap) (P : str) (d : fdata) (n : node),
    pkg_ok inst -> locs_wf inst = true ->
    protected_file prot ign off fs P d ->
    incoming_differs inst P d n ->
    let recorded := post_merge prot ign off fs inst (pre_merge prot ign off fs inst) in
    pm_get P recorded = Some n /\
    pm_get (pjoin (dirname P) (cfg_name (cfg_count fs P n) (basename P))) recorded = None.
Proof.
  intros prot ign off fs inst P d n Hok Hwf Hprot Hinc.
  pose proof (renames_protected _ _ _ _ _ _ _ _ Hprot Hinc) as Hr.
  split; [|exact (post_merge_new _ _ _ _ _ _ Hok Hr _)].
  apply (post_merge_old _ _ _ _ _ _ Hok Hr), newlocs_distinct_proof; assumption.
Qed.
Print Assumptions recorded_keeps_real_name.

(* Unmerging (uninstall, or the unmerge half of a replace) never removes a protected file whose
   content differs from what the package recorded. *)
Theorem uninstall_keeps_modified :
  forall (prot ign : str -> bool) (off : str) (fs recorded inst : pmap) (P : str) (d : fdata),
    protected_file prot ign off fs P d ->
    differs_from_recorded recorded P d ->
    pm_get P (unmerge_fs fs (uninstall_set prot ign off fs recorded inst)) = Some (File d).
Proof.
  intros prot ign off fs recorded inst P d [Hf [Hp Hi]] Hd.
  rewrite unmerge_get; [exact Hf|]. eapply uninstall_set_spares; eauto.
Qed.
Print Assumptions uninstall_keeps_modified.

(* The same two facts stated about Model_C21.run — the function the correspondence compares with the
   real MergeEngine on every run — with the filters built from env.d, the extras and the live tree. *)
Theorem run_install_never_overwrites :
  forall (i : input) (P : str) (d : fdata) (n : node),
    i_mode i = 0%N ->
    pkg_ok (inst_of i) ->
    protected_file (protI_of i) (ign_of i (i_fs i)) (i_off i) (i_fs i) P d ->
    incoming_differs (inst_of i) P d n ->
    pm_get P (o_fs (run i)) = Some (File d).
Proof.
  intros i P d n Hm Hok Hp Hd. destruct (run_install i Hm) as [->| ->]; [apply Hp|].
  apply (never_overwritten _ _ _ _ _ P d n Hok Hp Hd).
Qed.
Print Assumptions run_install_never_overwrites.

Theorem run_uninstall_keeps_modified :
  forall (i : input) (P : str) (d : fdata),
    i_mode i = 2%N ->
    protected_file (protU_of i) (ign_of i (i_fs i)) (i_off i) (i_fs i) P d ->
    differs_from_recorded (with_off (i_off i) (i_old i)) P d ->
    pm_get P (o_fs (run i)) = Some (File d).
Proof. intros i P d Hm Hp Hd. rewrite (run_uninstall i Hm). apply uninstall_keeps_modified; assumption. Qed.
Print Assumptions run_uninstall_keeps_modified.

(* replace mode: neither the merge half nor the unmerge half touches a protected file that differs
   from the incoming one ... *)
Theorem run_replace_never_overwrites :
  forall (i : input) (P : str) (d : fdata) (n : node),
    i_mode i = 1%N ->
    pkg_ok (inst_of i) -> locs_wf (inst_of i) = true ->
    protected_file (protI_of i) (ign_of i (i_fs i)) (i_off i) (i_fs i) P d ->
    incoming_differs (inst_of i) P d n ->
    pm_get P (o_fs (run i)) = Some (File d).
Proof.
  intros i P d n Hm Hok Hwf Hp Hd. destruct (run_replace i Hm) as [[_ ->]|[_ ->]]; [apply Hp|].
  rewrite unmerge_get; [apply (never_overwritten _ _ _ _ _ P d n Hok Hp Hd)|].
  intros Hin. apply in_uninstall_set in Hin as (_ & _ & Hg & _).
  rewrite (proj1 (recorded_keeps_real_name _ _ _ _ _ P d n Hok Hwf Hp Hd)) in Hg. discriminate.
Qed.
Print Assumptions run_replace_never_overwrites.

(* ... and the unmerge half keeps a protected file (of the tree as the merge half left it) that
   differs from what the old package recorded. *)
Theorem run_replace_keeps_modified :
  forall (i : input) (P : str) (d : fdata),
    i_mode i = 1%N ->
    o_blocked (run i) = false ->
    let fs1 := merge_fs (i_fs i) (pre_merge (protI_of i) (ign_of i (i_fs i)) (i_off i) (i_fs i) (inst_of i)) in
    protected_file (protU_of i) (ign_of i fs1) (i_off i) fs1 P d ->
    differs_from_recorded (with_off (i_off i) (i_old i)) P d ->
    pm_get P (o_fs (run i)) = Some (File d).
Proof.
  intros i P d Hm Hb fs1 Hp Hd. destruct (run_replace i Hm) as [[Hb' _]|[_ ->]]; [congruence|].
  apply uninstall_keeps_modified; assumption.
Qed.
Print Assumptions run_replace_keeps_modified.

(* The renamed locations of one merge are pairwise distinct (no ._cfg entry shadows another). *)
Theorem newlocs_distinct_from_pkg_ok :
  forall (prot ign : str -> bool) (off : str) (fs inst : pmap),
    pkg_ok inst -> locs_wf inst = true -> newlocs_distinct prot ign off fs inst.
Proof. exact newlocs_distinct_proof. Qed.
Print Assumptions newlocs_distinct_from_pkg_ok.

(* The ._cfgNNNN_ file is created in the SAME directory as the protected file, under the generated
   name, and the merged tree holds it with the incoming entry's content AND mode/owner. *)
Theorem cfg_file_same_directory_incoming_attrs :
  forall (prot ign : str -> bool) (off : str) (fs inst : pmap) (P : str) (d : fdata) (content attrs : str),
    pkg_ok inst -> locs_wf inst = true ->
    protected_file prot ign off fs P d ->
    incoming_differs inst P d (File (content, attrs)) ->
    let dest := new_loc fs P (File (content, attrs)) in
    dirname dest = dirname P /\
    basename dest = cfg_name (cfg_count fs P (File (content, attrs))) (basename P) /\
    pm_get dest (merge_fs fs (pre_merge prot ign off fs inst)) = Some (File (content, attrs)).
Proof.
  intros prot ign off fs inst P d c a Hok Hwf Hp Hd dest.
  split; [|split; [apply new_loc_basename|]].
  - apply new_loc_dirname. unfold locs_wf in Hwf. rewrite forallb_forall in Hwf. apply (Hwf _ (proj1 Hd)).
  - apply (incoming_content_beside _ _ _ _ _ P d _ Hok Hwf Hp Hd). discriminate.
Qed.
Print Assumptions cfg_file_same_directory_incoming_attrs.

(* CONFIG_PROTECT minus CONFIG_PROTECT_MASK: p is protected iff it lies strictly below (normpath of)
   some entry of CONFIG_PROTECT ∪ extras ∪ {/etc} and below no entry of CONFIG_PROTECT_MASK ∪ extras;
   "below x" = rstrip "/" (normpath x) ++ "/" ++ anything, i.e. a prefix on a component boundary. *)
Theorem protect_filter_spec :
  forall (e : list envfile) (xp xm : list str) (p : str),
    protect_filter e xp xm p = true <->
    (exists x, In x (protect_entries e xp) /\ below_dir x p) /\
    ~ (exists x, In x (mask_entries e xm) /\ below_dir x p).
Proof.
  intros e xp xm p. unfold protect_filter, protect_entries, mask_entries.
  rewrite andb_true_iff, negb_true_iff, existsb_below, <- not_true_iff_false, existsb_below. reflexivity.
Qed.
Print Assumptions protect_filter_spec.

(* neither the directory itself nor a sibling sharing the characters (/etc, /etcx/foo) is below it *)
Theorem below_dir_boundary :
  forall (x rest : str) (c : N),
    ~ below_dir x (rstrip_sl (normpath x)) /\
    (c <> SL -> ~ below_dir x (rstrip_sl (normpath x) ++ c :: rest)) /\
    below_dir x (rstrip_sl (normpath x) ++ SL :: rest).
Proof.
  intros x rest c. repeat split.
  - intros [r H]. rewrite <- app_nil_r in H at 1. apply app_inv_head in H. discriminate.
  - intros Hc [r H]. apply app_inv_head in H. inversion H. contradiction.
  - exists rest. reflexivity.
Qed.
Print Assumptions below_dir_boundary.

(* the entries env.d contributes for an incremental key: the words (split on whitespace, or on ":"
   when the key is declared COLON_SEPARATED) of its value in every accepted env.d file *)
Theorem env_words :
  forall (e : list envfile) (k w : str), In w (collapsed true k e) <-> env_word e k w.
Proof.
  intros e k w. unfold collapsed, env_word. cbn [orb]. rewrite in_flat_map. split.
  - intros [v [Hv Hw]]. apply values_of_in in Hv. destruct Hv as [f [Hf Ha]]. exists f, v. auto.
  - intros [f [v [Hf [Ha Hw]]]]. exists v. split; [apply values_of_in; exists f; auto|exact Hw].
Qed.
Print Assumptions env_words.

(* COLLISION_IGNORE: the matcher is exactly shell-pattern matching of the WHOLE path ... *)
Theorem fnmatch_spec : forall pat s : str, fnmatch pat s = true <-> glob_pat pat s.
Proof. intros. unfold fnmatch, glob_pat. split; [apply gmatch_glob|apply glob_gmatch]. Qed.
Print Assumptions fnmatch_spec.

(* ... applied to every entry (env.d, extras, the two built-in .keep patterns), a live directory d
   standing for the pattern d/STAR *)
Theorem ignore_filter_spec :
  forall (e : list envfile) (xi : list str) (off : str) (fs : pmap) (p : str),
    ignore_filter e xi off fs p = true <->
    exists x, In x (ignore_entries e xi) /\ glob_pat (ignore_entry_pat off fs x) p.
Proof.
  intros e xi off fs p. unfold ignore_filter, ignore_pats. rewrite existsb_exists. split.
  - intros [pat [Hin Hm]]. apply in_map_iff in Hin. destruct Hin as [x [<- Hx]].
    exists x. split; [apply uniq_in, Hx|apply fnmatch_spec, Hm].
  - intros [x [Hx Hm]]. exists (ignore_entry_pat off fs x). split.
    + apply in_map_iff. exists x. split; [reflexivity|apply uniq_in, Hx].
    + apply fnmatch_spec, Hm.
Qed.
Print Assumptions ignore_filter_spec.

(* an entry without * ? [ ignores exactly that path (a full match: /etc/q does not cover /usr/etc/q) *)
Theorem literal_pattern :
  forall l s : str, forallb plain l = true -> (fnmatch l s = true <-> s = l).
Proof.
  intros l s Hp. rewrite fnmatch_spec, <- (app_nil_r l) at 1. rewrite (glob_pat_plain l [] s Hp). split.
  - intros [s' [-> H]]. inversion H. apply app_nil_r.
  - intros ->. exists []. split; [symmetry; apply app_nil_r|constructor].
Qed.
Print Assumptions literal_pattern.

(* a directory entry d, rewritten to d/*, ignores exactly the paths below d, at any depth *)
Theorem directory_pattern :
  forall l s : str, forallb plain l = true ->
    (fnmatch (l ++ slash_star) s = true <-> exists rest, s = l ++ SL :: rest).
Proof.
  intros l s Hp. rewrite fnmatch_spec, (glob_pat_plain l slash_star s Hp).
  change (glob_pat slash_star) with (glob (map PLit [SL] ++ [PStar])). split.
  - intros [s' [-> H]]. apply glob_lits in H. destruct H as [rest [-> _]]. exists rest. reflexivity.
  - intros [rest ->]. exists (SL :: rest). split; [reflexivity|].
    apply glob_lits. exists rest. split; [reflexivity|apply glob_star_any].
Qed.
Print Assumptions directory_pattern.

(* the built-in */.keep and */.keep_* ignore exactly the paths ending in /.keep, or containing /.keep_ *)
Theorem keep_patterns :
  forall s : str,
    (fnmatch keep1 s = true <-> exists pre, s = pre ++ [47; 46; 107; 101; 101; 112]%N) /\
    (fnmatch keep2 s = true <-> exists pre suf, s = pre ++ [47; 46; 107; 101; 101; 112; 95]%N ++ suf).
Proof.
  intro s. split; rewrite fnmatch_spec.
  - change (glob_pat keep1 s) with (glob (PStar :: map PLit [47; 46; 107; 101; 101; 112]%N ++ []) s).
    rewrite glob_star. split.
    + intros [a [b [-> H]]]. apply glob_lits in H. destruct H as [s' [-> H]]. inversion H. exists a. rewrite app_nil_r. reflexivity.
    + intros [pre ->]. exists pre, [47; 46; 107; 101; 101; 112]%N. split; [reflexivity|].
      apply glob_lits. exists []. split; [reflexivity|constructor].
  - change (glob_pat keep2 s) with (glob (PStar :: map PLit [47; 46; 107; 101; 101; 112; 95]%N ++ [PStar]) s).
    rewrite glob_star. split.
    + intros [a [b [-> H]]]. apply glob_lits in H. destruct H as [s' [-> _]]. exists a, s'. reflexivity.
    + intros [pre [suf ->]]. exists pre, ([47; 46; 107; 101; 101; 112; 95]%N ++ suf). split; [reflexivity|].
      apply glob_lits. exists suf. split; [reflexivity|apply glob_star_any].
Qed.
Print Assumptions keep_patterns.
