From Coq Require Import List NArith Bool Lia.
Import ListNotations.
From Verif Require Import C11.Model_C11 C11.Spec_C11 C11.Sem_C11 C11.Class_C11 C11.Inv_C11.
Open Scope N_scope.

Lemma add_atom d c k : atomkey c = Some k -> add d c = add_key d k c.
Proof. unfold add, atomkey. destruct (sc c); try discriminate; intro H; injection H as <-; reflexivity. Qed.
Lemma add_glob d c : atomkey c = None -> add d c = add_global d c.
Proof. unfold add, atomkey. destruct (sc c); try discriminate; reflexivity. Qed.

(* every tree of operations that is not refused keeps the invariant for a package outside the
   hazard of class (b), whatever set [Hall] of good, sign-consistent entries it draws from *)
Section Run.
  Variable Hall : list chunk.
  Variable p : pkg.
  Hypothesis A1 : forall e, In e Hall -> applies (sc e) p = true -> good e = true.
  Hypothesis A2 : forall x, sneg Hall p x = true -> spos Hall p x = true -> False.

  Lemma inv_run : forall pr d, run pr = Some d -> incl (entries_of pr) Hall ->
    ~ In (fst p) (s_hz (stale pr)) -> Inv Hall p pr d.
  Proof.
    induction pr as [|pr IH c|pr IH q IHq|pr IH|pr IH u|pr IH]; intros d Hr Hin Hhz; cbn [run entries_of] in *.
    - injection Hr as <-. apply inv_new.
    - destruct (run pr) as [d0|] eqn:E0; [|discriminate].
      apply incl_app_inv in Hin as [Hin0 Hc]. specialize (Hc c (or_introl eq_refl)).
      specialize (IH d0 eq_refl Hin0 (fun H => Hhz (hz_add_mono pr c _ H))).
      destruct (atomkey c) as [k|] eqn:Ek.
      + rewrite (add_atom _ _ _ Ek) in Hr. eapply inv_add_key; eassumption.
      + rewrite (add_glob _ _ Ek) in Hr. eapply inv_add_global; try eassumption.
        apply atomkey_globalish. exact Ek.
    - destruct (run pr) as [d0|] eqn:E0; [|discriminate].
      destruct (run q) as [e0|] eqn:E1; [|discriminate].
      apply incl_app_inv in Hin as [Hin0 Hin1].
      eapply (inv_merge Hall p); try eassumption; [apply IH | apply IHq]; auto;
        intro H; apply Hhz, hz_merge_mono; auto.
    - destruct (run pr) as [d0|] eqn:E0; [|discriminate]. injection Hr as <-.
      apply inv_freeze, IH; auto.
    - destruct (run pr) as [d0|] eqn:E0; [|discriminate]. injection Hr as <-.
      apply inv_clone, IH; auto. intro H. apply Hhz, hz_clone_mono, H.
    - destruct (run pr) as [d0|] eqn:E0; [|discriminate]. injection Hr as <-.
      apply inv_opt; [exact A2|]. apply IH; auto.
  Qed.
End Run.

Lemma has_wild_nowild c : has_wild c = false -> nowild c = true.
Proof.
  unfold has_wild, nowild. induction (neg c) as [|t l IH]; cbn [existsb forallb]; [reflexivity|].
  intro H. apply orb_false_iff in H as [H1 H2]. rewrite (IH H2), andb_true_r.
  apply N.leb_le. apply N.ltb_ge in H1. exact H1.
Qed.

(* the rendered set is the fold for every package for which the entries are good and
   sign-consistent and which stays outside the staleness hazard *)
Theorem render_is_fold_when Hall p pr d pre :
  (forall e, In e Hall -> applies (sc e) p = true -> good e = true) ->
  (forall x, sneg Hall p x = true -> spos Hall p x = true -> False) ->
  run pr = Some d -> incl (entries_of pr) Hall -> ~ In (fst p) (s_hz (stale pr)) ->
  same_set (render d p pre) (apply_history (entries_of pr) p pre).
Proof. intros A1 A2 Hr Hin Hhz. exact (inv_render _ _ _ _ (inv_run Hall p A1 A2 pr d Hr Hin Hhz) pre). Qed.

(* which is what the three finding classes exclude *)
Lemma outside_classes pr p : wf_prog pr = true -> known_class pr p = false ->
  (forall e, In e (entries_of pr) -> applies (sc e) p = true -> good e = true) /\
  (forall x, sneg (entries_of pr) p x = true -> spos (entries_of pr) p x = true -> False) /\
  ~ In (fst p) (s_hz (stale pr)).
Proof.
  intros Hwf Hk.
  unfold known_class in Hk. apply orb_false_iff in Hk as [Hk Hc]. apply orb_false_iff in Hk as [Ha Hb].
  split; [|split; [|apply mem_false, Hb]].
  - intros e He Hap. unfold good. apply andb_true_iff. split.
    + apply has_wild_nowild. destruct (has_wild e) eqn:E; [|reflexivity].
      rewrite <- Ha. symmetry. apply existsb_exists. exists e. rewrite Hap, E. tauto.
    + unfold wf_prog in Hwf. rewrite forallb_forall in Hwf. specialize (Hwf e He).
      apply andb_true_iff in Hwf as [_ Hwf]. exact Hwf.
  - intros x Hn Hp. apply existsb_exists in Hn as [e [He Hn]]. apply andb_true_iff in Hn as [Hn1 Hn2].
    enough (class_c pr p = true) by congruence.
    apply existsb_exists. exists e. split; [exact He|]. rewrite Hn1. cbn [andb].
    apply existsb_exists. exists x. split; [apply mem_In; exact Hn2 | exact Hp].
Qed.

Lemma class_a_tight_l_sub : forall l before p,
  class_a_tight_l before l p = true -> existsb (fun c => applies (sc c) p && has_wild c) l = true.
Proof.
  induction l as [|c l IH]; intros before p; cbn [class_a_tight_l existsb]; [discriminate|].
  intro H. apply orb_true_iff in H as [H|H].
  - apply andb_true_iff in H as [Ha H]. rewrite Ha. cbn [andb]. apply orb_true_iff. left.
    unfold has_wild. apply existsb_exists in H as [w [Hw H]]. apply andb_true_iff in H as [H _].
    apply existsb_exists. exists w. tauto.
  - apply orb_true_iff. right. exact (IH _ _ H).
Qed.

Lemma rule_neg_ext t a b : same_set a b -> same_set (rule_neg t a) (rule_neg t b).
Proof. intros H f. rewrite !rule_neg_In, (H f). tauto. Qed.
Lemma rule_pos_ext t a b : same_set a b -> same_set (rule_pos t a) (rule_pos t b).
Proof. intros H f. unfold rule_pos. rewrite !in_app_iff, (H f). tauto. Qed.

Lemma line_fold_ext : forall ts sec a b, same_set a b -> same_set (line_fold sec ts a) (line_fold sec ts b).
Proof.
  induction ts as [|t ts IH]; intros sec a b H; [exact H|].
  destruct t; cbn [line_fold]; apply IH; auto using rule_neg_ext, rule_pos_ext.
Qed.

Lemma out_fold_app a b s : out_fold (a ++ b) s = out_fold b (out_fold a s).
Proof. unfold out_fold. apply fold_left_app. Qed.

(* the buffered tokens of a USE_EXPAND section touch only flags that -P_* clears anyway *)
Definition touches_only (p : N) (t : otok) : Prop :=
  forall s f, tcl p f = false -> (In f (otok_apply t s) <-> In f s).

Lemma expand_touches p b : 0 < p < 10 -> (10 <=? b) && (b <? 100) = true ->
  touches_only p (OPos (expand p b)) /\ touches_only p (ONeg (expand p b)).
Proof.
  intros Hp Hb. apply andb_true_iff in Hb as [H1 H2]. apply N.leb_le in H1. apply N.ltb_lt in H2.
  assert (E : expand p b / 100 = p).
  { unfold expand. replace (100 * p + (b - 10)) with ((b - 10) + p * 100) by lia.
    rewrite N.div_add, N.div_small by lia. reflexivity. }
  assert (Hc : forall f, tcl p f = false -> expand p b <> f).
  { intros f Hf <-. unfold tcl, pre_clears in Hf.
    rewrite E, N.eqb_refl, (proj2 (N.ltb_lt 0 p)), (proj2 (N.ltb_lt p 10)), orb_true_r in Hf by lia.
    discriminate. }
  split; intros s f Hf; specialize (Hc f Hf); cbn [otok_apply].
  - unfold rule_pos. rewrite in_app_iff. cbn [In]. tauto.
  - rewrite rule_neg_In, tcl_flag, (proj2 (N.eqb_neq _ _) Hc) by (unfold expand; lia). tauto.
Qed.

Lemma drop_buffer p buf : Forall (touches_only p) buf ->
  forall s, same_set (rule_neg p (out_fold buf s)) (rule_neg p s).
Proof.
  induction 1 as [|t buf Ht _ IH]; intros s f; [tauto|].
  cbn [out_fold fold_left]. fold (out_fold buf (otok_apply t s)). rewrite (IH _ f), !rule_neg_In.
  split; intros [H1 H2]; (split; [apply (Ht s f H2), H1 | exact H2]).
Qed.

Lemma section_is_fold : forall ts p buf o s,
  forallb wf_tok ts = true -> 0 < p < 10 -> Forall (touches_only p) buf ->
  section p buf ts = Some o ->
  same_set (out_fold o s) (line_fold (Some p) ts (out_fold buf s)).
Proof.
  induction ts as [|t ts IH]; intros p buf o s Hwf Hp Hb Hs.
  - cbn in Hs. injection Hs as <-. intro; tauto.
  - cbn [forallb] in Hwf. apply andb_true_iff in Hwf as [Hw Hwf].
    destruct t as [b|b| |p'|]; cbn [section] in Hs; cbn [line_fold].
    + (* a value joins the buffer *)
      assert (HB : Forall (touches_only p) (buf ++ [OPos (expand p b)])).
      { apply Forall_app. split; [exact Hb | constructor; [apply (expand_touches p b Hp Hw) | constructor]]. }
      intro f. rewrite (IH p _ o s Hwf Hp HB Hs f), out_fold_app. reflexivity.
    + assert (HB : Forall (touches_only p) (buf ++ [ONeg (expand p b)])).
      { apply Forall_app. split; [exact Hb | constructor; [apply (expand_touches p b Hp Hw) | constructor]]. }
      intro f. rewrite (IH p _ o s Hwf Hp HB Hs f), out_fold_app. reflexivity.
    + (* -* inside a section: the buffer is dropped, -P_* is emitted *)
      destruct (section p [] ts) as [o'|] eqn:E; [|discriminate]. cbn in Hs. injection Hs as <-.
      cbn [out_fold fold_left otok_apply]. fold (out_fold o' (rule_neg p s)).
      intro f. rewrite (IH p [] o' (rule_neg p s) Hwf Hp (Forall_nil _) E f).
      cbn [out_fold fold_left]. apply line_fold_ext. intro g. symmetry. apply drop_buffer; assumption.
    + (* next section header: flush *)
      destruct (section p' [] ts) as [o'|] eqn:E; [|discriminate]. cbn in Hs. injection Hs as <-.
      rewrite out_fold_app.
      cbn in Hw. apply andb_true_iff in Hw as [H1 H2]. apply N.ltb_lt in H1. apply N.ltb_lt in H2.
      apply (IH p' [] o' (out_fold buf s) Hwf (conj H1 H2) (Forall_nil _) E).
    + discriminate.
Qed.

Lemma plain_is_fold : forall ts acc o s,
  forallb wf_tok ts = true -> plain acc ts = Some o ->
  same_set (out_fold o s) (line_fold None ts (out_fold acc s)).
Proof.
  induction ts as [|t ts IH]; intros acc o s Hwf Hs.
  - cbn in Hs. injection Hs as <-. intro; tauto.
  - cbn [forallb] in Hwf. apply andb_true_iff in Hwf as [Hw Hwf].
    destruct t as [b|b| |p'|]; cbn [plain] in Hs; cbn [line_fold].
    1,2: intro f; rewrite (IH _ o s Hwf Hs f), out_fold_app; reflexivity.
    + (* -* in the plain part: everything before it is dropped *)
      intro f. rewrite (IH _ o s Hwf Hs f). reflexivity.
    + destruct (section p' [] ts) as [o'|] eqn:E; [|discriminate]. cbn in Hs. injection Hs as <-.
      rewrite out_fold_app.
      cbn in Hw. apply andb_true_iff in Hw as [H1 H2]. apply N.ltb_lt in H1. apply N.ltb_lt in H2.
      apply (section_is_fold ts p' [] o' (out_fold acc s) Hwf (conj H1 H2) (Forall_nil _) E).
    + discriminate.
Qed.

Lemma option_map_none {A B} (g : A -> B) o : option_map g o = None <-> o = None.
Proof. destruct o; cbn; intuition discriminate. Qed.
Lemma section_rejects : forall ts p buf, section p buf ts = None <-> In TBad ts.
Proof.
  induction ts as [|t ts IH]; intros p buf; cbn [section In]; [intuition discriminate|].
  destruct t; rewrite ?option_map_none, ?IH; intuition discriminate.
Qed.
Lemma plain_rejects : forall ts acc, plain acc ts = None <-> In TBad ts.
Proof.
  induction ts as [|t ts IH]; intro acc; cbn [plain In]; [intuition discriminate|].
  destruct t; rewrite ?option_map_none, ?section_rejects, ?IH; intuition discriminate.
Qed.

Lemma uniq_In : forall l seen x, In x (uniq seen l) <-> In x l /\ ~ In x seen.
Proof.
  induction l as [|y l IH]; intros seen x; cbn [uniq]; [cbn; tauto|].
  destruct (mem y seen) eqn:E; [apply mem_In in E | apply mem_false in E];
    cbn [In]; rewrite IH; cbn [In]; destruct (N.eq_dec y x); subst; tauto.
Qed.
Lemma cleared_ext a b f : (forall x, In x a <-> In x b) -> cleared a f = cleared b f.
Proof.
  intro H. unfold cleared. apply eq_true_iff_eq. rewrite !existsb_exists.
  split; intros [x [Hx Hc]]; exists x; (split; [apply H, Hx | exact Hc]).
Qed.
Lemma clears_negs r g : existsb (fun u => otok_clears u g) r = cleared (negs r) g.
Proof.
  unfold cleared. induction r as [|t r IH]; [reflexivity|].
  cbn [existsb negs flat_map]. rewrite existsb_app, IH.
  destruct t; cbn [otok_clears existsb app]; rewrite ?orb_false_r; reflexivity.
Qed.

Lemma line_chunk_raw : forall o s f, npc o = true ->
  (In f (out_fold o s) <-> In f (poss o) \/ (In f s /\ cleared (negs o) f = false)).
Proof.
  induction o as [|t o IH]; intros s f Hn.
  - cbn. tauto.
  - cbn [npc] in Hn. apply andb_true_iff in Hn as [Ht Hn].
    cbn [out_fold fold_left]. fold (out_fold o (otok_apply t s)). rewrite (IH _ f Hn).
    destruct t as [g|g| |q]; cbn [otok_apply poss negs flat_map app In].
    1:{ (* a positive token: nothing after it clears it *)
      apply negb_true_iff in Ht. rewrite clears_negs in Ht.
      unfold rule_pos. rewrite in_app_iff. cbn [In].
      split; [|intros [[<-|H]|H]; [right; split; [tauto | exact Ht] | tauto | tauto]].
      intros [H|[[H|[<-|[]]] Hc]]; tauto. }
    all: rewrite rule_neg_In; unfold cleared; cbn [existsb]; rewrite orb_false_iff; tauto.
Qed.

(* outside class (e) the one-chunk form of a token list means what the tokens mean *)
Lemma line_chunk_is_fold o s :
  npc o = true -> same_set (apply_chunk (to_chunk o) s) (out_fold o s).
Proof.
  intros Hn f. rewrite apply_chunk_In, (line_chunk_raw o s f Hn). unfold to_chunk. cbn [neg pos].
  assert (U : forall l x, In x (uniq [] l) <-> In x l) by (intros; rewrite uniq_In; cbn; tauto).
  rewrite U, (cleared_ext _ _ f (U (negs o))). tauto.
Qed.

(* the full statement is false of the faithful model: one witness inside each finding class (and
   outside the two others) *)
Definition render_is_fold_full : Prop :=
  forall pr d p pre, run pr = Some d -> wf_prog pr = true ->
    same_set (render d p pre) (apply_history (entries_of pr) p pre).

Definition pr_a := PAdd (PAdd PNew (cA [] [10])) (cA [0] [11]).                       (* */* a ; */* -* b *)
Definition pr_b := PAdd (PAdd (PAdd (PAdd PNew (cA [] [10])) (cS 0 [10] [])) (cA [] [11])) (cS 0 [] [13]).
                                                               (* */* a ; cat/p -a ; */* b ; cat/p d *)
Definition pr_c := POpt (PFreeze (PAdd (PAdd (PAdd PNew (cA [10] [])) (cV 0 1 [] [10])) (cV 0 1 [10] []))).
                                                     (* */* -a ; =cat/p-1 a ; =cat/p-1 -a ; optimize *)

Lemma witness_refutes pr f :
  wf_prog pr = true ->
  match run pr with
  | Some d => mem f (render d (0, 1) []) = true /\ mem f (apply_history (entries_of pr) (0, 1) []) = false
  | None => False
  end -> ~ render_is_fold_full.
Proof.
  intros Hwf Hw Hfull. destruct (run pr) as [d|] eqn:E; [|exact Hw]. destruct Hw as [H1 H2].
  apply mem_In in H1. apply mem_false in H2. apply H2. apply (Hfull pr d (0, 1) [] E Hwf f). exact H1.
Qed.

(* optimize() on an unfrozen dict leaves tuples behind: the next entry for that key is refused *)
Theorem optimize_then_add_refused_proof :
  run (PAdd (POpt (PAdd PNew (cS 0 [] [10]))) (cS 0 [] [11])) = None.
Proof. reflexivity. Qed.

Definition pr_ex1 := POpt (PFreeze (PMerge (PAdd (PAdd PNew (cA [11] [10])) (cS 0 [10] [12]))
                                           (PFreeze (PAdd (PAdd PNew (cA [] [13])) (cV 0 1 [12] []))))).
Definition pr_ex2 := PAdd (PAdd (PClone (PFreeze (PAdd (PAdd PNew (cA [] [10; 100])) (cS 1 [100] []))) true)
                                (cS 1 [10] [11])) (cV 1 2 [] [10]).
Example partial_applies_1 :
  wf_prog pr_ex1 = true /\ known_class pr_ex1 (0, 1) = false /\ known_class pr_ex1 (0, 2) = false /\
  option_map (fun d => render d (0, 1) [14]) (run pr_ex1) = Some [14; 13] /\
  option_map (fun d => render d (0, 2) [14]) (run pr_ex1) = Some [14; 13; 12].
Proof. vm_compute. auto. Qed.
Example partial_applies_2 :
  wf_prog pr_ex2 = true /\ known_class pr_ex2 (1, 2) = false /\
  option_map (fun d => render d (1, 2) [14]) (run pr_ex2) = Some [14; 11; 10] /\
  option_map (fun d => render d (1, 1) [14]) (run pr_ex2) = Some [14; 11].
Proof. vm_compute. auto. Qed.
Example collapse_applies :
  build [cA [] [10; 11]; cV 0 1 [10] [12]; cS 0 [11] [13]; cV 0 2 [] [11]] (KSimple 0)
  = [cS 0 [11] [13; 10]; cV 0 1 [10] [12]; cV 0 2 [] [11]].
Proof. vm_compute. reflexivity. Qed.
Example splitter_applies :
  split_line [TPos 10; TStar; TNeg 11; THdr 1; TPos 10; TStar; TPos 11; THdr 2; TNeg 10]
  = Some [OStar; ONeg 11; ONegPre 1; OPos 101; ONeg 200].
Proof. vm_compute. reflexivity. Qed.

Definition line_is_fold_full : Prop := forall ts o s,
  forallb wf_tok ts = true -> split_line ts = Some o ->
  same_set (apply_chunk (to_chunk o) s) (line_fold None ts s).
Example line_applies :
  class_e [TPos 10; TPos 11; TStar; TPos 12; THdr 1; TPos 10; TStar; TNeg 11] = false /\
  option_map to_chunk (split_line [TPos 10; TPos 11; TStar; TPos 12; THdr 1; TPos 10; TStar; TNeg 11])
  = Some (cA [0; 1; 101] [12]).
Proof. vm_compute. auto. Qed.
