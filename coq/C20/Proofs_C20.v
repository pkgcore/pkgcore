(* Proofs_C20.v — lemmas for C20: an unmerge seen as one run of (rmdir?, name) attempts inside the tree it started from. *)
From Coq Require Import List ZArith Bool Lia Sorting.Sorted.
Import ListNotations.
From Verif Require Import Base.Val C18.Fs C18.FsLemmas C18.Model_C18 gen.Tables_C20 C20.Model_C20 C20.Spec_C20.

(* a is a part of b: what a binds, b binds to the same node *)
Definition sub (a b : fs) : Prop := forall q n, lookup a q = Some n -> lookup b q = Some n.

Lemma sub_refl a : sub a a.
Proof. intros q n H; exact H. Qed.

Lemma sub_trans a b c : sub a b -> sub b c -> sub a c.
Proof. intros H1 H2 q n H; auto. Qed.

Lemma sub_remove s p : sub (remove s p) s.
Proof.
  intros q n H. destruct (path_eq_dec q p) as [->|Hn].
  - rewrite lookup_remove_same in H; discriminate.
  - rewrite lookup_remove_other in H; auto.
Qed.

Lemma sub_none a b q : sub a b -> lookup b q = None -> lookup a q = None.
Proof. intros S H. destruct (lookup a q) eqn:E; [|reflexivity]. rewrite (S _ _ E) in H. discriminate. Qed.

Definition unbound_res (a : fs) (r : wres) : Prop :=
  r = WNoEnt \/ exists q, r = WOk q /\ lookup a q = None /\ q <> [].

(* resolution in a part of a tree agrees with resolution in the tree, or stops at a name the part does not bind *)
Lemma walk_sub a b : sub a b -> forall f cur todo fl,
  walk f a cur todo fl = walk f b cur todo fl \/ unbound_res a (walk f a cur todo fl).
Proof.
  intros S f; induction f as [|f IH]; intros cur todo fl; cbn [walk].
  - left; reflexivity.
  - destruct todo as [|c rest]; [left; reflexivity|].
    destruct (str_eqb c DOT); [apply IH|].
    destruct (str_eqb c DOTDOT); [apply IH|].
    destruct (lookup a (cur ++ [c])) as [n|] eqn:E.
    + rewrite (S _ _ E). destruct n; try (destruct (is_nil rest); left; reflexivity); try apply IH.
      destruct (is_nil rest && negb fl); [left; reflexivity|apply IH].
    + destruct (is_nil rest).
      * right; right. exists (cur ++ [c]). repeat split; auto.
        intro H; apply app_eq_nil in H; destruct H; discriminate.
      * right; left.
        destruct (lookup b (cur ++ [c])) as [[]|]; reflexivity.
Qed.

Lemma lookup_bound s c : lookup s c <> None -> node_at s c <> None.
Proof. destruct c; cbn; congruence. Qed.

Lemma node_at_sub a b c n : sub a b -> node_at a c = Some n -> node_at b c = Some n.
Proof. intros S. destruct c; cbn; auto. Qed.

Lemma canon_sub_cases a b p : sub a b ->
  canon a p = canon b p \/ unbound_res a (canon a p).
Proof. intros S. exact (walk_sub a b S FUEL [] p false). Qed.

(* from here on, and in Prop_C20, canon is used through canon_sub_cases only: opaque, so that cbn and
   rewrite do not unfold its 120-step walk (the proofs of Prop_C20 do not terminate otherwise) *)
Global Opaque canon rcanon.

Lemma canon_sub_bound a b p c : sub a b -> canon a p = WOk c -> node_at a c <> None -> canon b p = WOk c.
Proof.
  intros S H B.
  destruct (canon_sub_cases a b p S) as [E|[E|(q & E & L & NE)]]; try congruence.
  rewrite H in E. injection E as <-. exfalso. apply B.
  destruct c; [congruence|exact L].
Qed.

Lemma lstat_some s p c d : lstat s p = Some (c, d) ->
  canon s p = WOk c /\ exists n, node_at s c = Some n /\ is_dir_node n = d.
Proof.
  unfold lstat. destruct (canon s p) as [cp| |]; try discriminate.
  destruct (node_at s cp) eqn:E; try discriminate.
  intros H; injection H as <- <-. split; [reflexivity|eauto].
Qed.

Lemma lstat_sub a b p c d : sub a b -> lstat a p = Some (c, d) -> lstat b p = Some (c, d).
Proof.
  intros S H. apply lstat_some in H. destruct H as (H & n & Hn & Hd).
  unfold lstat. rewrite (canon_sub_bound a b p c S H) by congruence.
  rewrite (node_at_sub a b c n S Hn). rewrite Hd. reflexivity.
Qed.

Lemma lstat_sub_none a b p : sub a b -> lstat b p = None -> lstat a p = None.
Proof.
  intros S H. destruct (lstat a p) as [[c d]|] eqn:E; [|reflexivity].
  rewrite (lstat_sub a b p c d S E) in H. discriminate.
Qed.

Lemma unbound_lstat s p : unbound_res s (canon s p) -> lstat s p = None.
Proof.
  unfold lstat. intros [E|(q & E & L & NE)]; rewrite E; [reflexivity|].
  destruct q; [congruence|]. cbn. rewrite L. reflexivity.
Qed.

Lemma lstat_dir_lookup s p : p <> [] -> lstat s p = Some (p, true) ->
  canon s p = WOk p /\ exists n, lookup s p = Some n /\ is_dir_node n = true.
Proof.
  intros NE H. apply lstat_some in H. destruct H as (H & n & Hn & Hd). split; [exact H|].
  exists n. split; [|exact Hd]. destruct p; [congruence|exact Hn].
Qed.

Lemma lstat_gone s0 s p : sub s s0 -> p <> [] -> lstat s0 p = Some (p, true) -> lookup s p = None ->
  lstat s p = None.
Proof.
  intros S NE L Ln. destruct (lstat s p) as [[c' d']|] eqn:Ls; [|reflexivity]. exfalso.
  pose proof (lstat_sub _ _ _ _ _ S Ls) as L'. rewrite L in L'. injection L' as <- <-.
  destruct (lstat_dir_lookup _ _ NE Ls) as (_ & n' & Ln' & _). congruence.
Qed.

Lemma unlink_step_done s p cp s' : unlink_step s p = Done cp s' ->
  canon s p = WOk cp /\ s' = remove s cp /\ exists n, lookup s cp = Some n /\ is_dir_node n = false.
Proof.
  unfold unlink_step. destruct (canon s p) as [c| |]; try discriminate.
  cbn [apply_op]. destruct (lookup s c) as [n|] eqn:E.
  - destruct (is_dir_node n) eqn:D.
    + destruct (node_at s c); discriminate.
    + intros H; injection H as <- <-. eauto.
  - destruct (node_at s c); discriminate.
Qed.

Lemma rmdir_step_done s p cp s' : rmdir_step s p = Done cp s' ->
  canon s p = WOk cp /\ s' = remove s cp /\
  exists n, lookup s cp = Some n /\ is_dir_node n = true /\ has_child s cp = false.
Proof.
  unfold rmdir_step. destruct (canon s p) as [c| |]; try (destruct (errno_ignored _); discriminate).
  cbn [apply_op]. destruct (lookup s c) as [n|] eqn:E; [|destruct (errno_ignored _); discriminate].
  destruct (is_dir_node n) eqn:D; cbn [andb]; [|destruct (errno_ignored _); discriminate].
  destruct (has_child s c) eqn:Hc; cbn [negb]; [destruct (errno_ignored _); discriminate|].
  intros H; injection H as <- <-. eauto 6.
Qed.

Lemma rmdir_step_iff s p c :
  (exists s', rmdir_step s p = Done c s') <->
  (canon s p = WOk c /\ (exists n, lookup s c = Some n /\ is_dir_node n = true) /\ has_child s c = false).
Proof.
  split.
  - intros (s' & H). apply rmdir_step_done in H. destruct H as (H1 & _ & n & H2 & H3 & H4). eauto.
  - intros (H1 & (n & H2 & H3) & H4). unfold rmdir_step. rewrite H1. cbn [apply_op].
    rewrite H2, H3, H4. cbn. eauto.
Qed.

(* the rmdir loop ignores every failure the model can produce: facts about the regenerated tuple *)
Lemma ign_noent : errno_ignored E_NOENT = true.  Proof. vm_compute; reflexivity. Qed.
Lemma ign_notdir : errno_ignored E_NOTDIR = true.  Proof. vm_compute; reflexivity. Qed.
Lemma ign_notempty : errno_ignored E_NOTEMPTY = true.  Proof. vm_compute; reflexivity. Qed.
Lemma ign_busy : errno_ignored E_BUSY = true.  Proof. vm_compute; reflexivity. Qed.

Lemma rmdir_step_never_raises s p : rmdir_step s p <> Raised.
Proof.
  unfold rmdir_step. destruct (canon s p) as [c| |].
  - destruct (apply_op s (Rmdir c)); [discriminate|].
    destruct (node_at s c) as [n|].
    + destruct (is_dir_node n).
      * destruct c; [rewrite ign_busy|rewrite ign_notempty]; discriminate.
      * rewrite ign_notdir; discriminate.
    + rewrite ign_noent; discriminate.
  - rewrite ign_noent; discriminate.
  - rewrite ign_notdir; discriminate.
Qed.

Lemma unlink_step_ok s0 s p c : sub s s0 -> lstat s0 p = Some (c, false) ->
  match unlink_step s p with
  | Done _ s' => lstat s' p = None
  | Ignored => lstat s p = None
  | Raised => False
  end.
Proof.
  intros S H. pose proof (lstat_some _ _ _ _ H) as (Hc & n & Hn & Hd).
  assert (NE : c <> []) by (intros ->; injection Hn as <-; discriminate).
  assert (L0 : lookup s0 c = Some n) by (destruct c; [congruence|exact Hn]).
  destruct (canon_sub_cases s s0 p S) as [E|U].
  - rewrite Hc in E. unfold unlink_step. rewrite E. cbn [apply_op].
    destruct (lookup s c) as [n'|] eqn:L.
    + pose proof (S _ _ L) as L'. rewrite L0 in L'. injection L' as <-. rewrite Hd.
      destruct (lstat (remove s c) p) as [[c' d']|] eqn:L1; [|reflexivity].
      pose proof (lstat_sub _ _ _ _ _ (sub_trans _ _ _ (sub_remove s c) S) L1) as L2. rewrite H in L2. injection L2 as <- <-.
      apply lstat_some in L1 as (_ & m & Hm & _). destruct c; [congruence|]. cbn in Hm.
      rewrite lookup_remove_same in Hm. discriminate.
    + assert (node_at s c = None) as N by (destruct c; [congruence|exact L]). rewrite N.
      unfold lstat. rewrite E, N. reflexivity.
  - rewrite (unbound_lstat _ _ U). unfold unlink_step. destruct U as [->|(q & -> & L & Nq)]; [reflexivity|].
    cbn [apply_op]. rewrite L.
    assert (node_at s q = None) as -> by (destruct q; [congruence|exact L]). reflexivity.
Qed.

(* the os call an attempt of kind rm makes *)
Definition stepk (rm : bool) : fs -> path -> step := if rm then rmdir_step else unlink_step.

Lemma stepk_done rm s p cp s' : stepk rm s p = Done cp s' ->
  canon s p = WOk cp /\ s' = remove s cp /\ lookup s cp <> None.
Proof.
  destruct rm; intros H; [apply rmdir_step_done in H|apply unlink_step_done in H];
    destruct H as (H1 & H2 & n & H3 & _); repeat split; auto; congruence.
Qed.

(* [run_of s l t s' e]: attempting the (rmdir?, name) pairs of l in order from tree s gives trace t
   and tree s'; e says that an exception ended the run *)
Inductive run_of : fs -> list (bool * path) -> list ev -> fs -> bool -> Prop :=
| run_nil s : run_of s [] [] s false
| run_done s rm p l cp t s' e :
    stepk rm s p = Done cp (remove s cp) -> run_of (remove s cp) l t s' e -> run_of s ((rm, p) :: l) (Ev rm p (Some cp) :: t) s' e
| run_ignored s rm p l t s' e :
    stepk rm s p = Ignored -> run_of s l t s' e -> run_of s ((rm, p) :: l) (Ev rm p None :: t) s' e
| run_raised s rm p l : stepk rm s p = Raised -> run_of s ((rm, p) :: l) [Ev rm p None] s true.

Lemma phase_run_of rm ps : forall s t s' e,
  phase rm (stepk rm) s ps = (t, s', e) -> run_of s (map (pair rm) ps) t s' e.
Proof.
  induction ps as [|p r IH]; intros s t s' e H; cbn in H.
  - injection H as <- <- <-. constructor.
  - destruct (stepk rm s p) as [cp s1| |] eqn:E.
    + destruct (phase rm (stepk rm) s1 r) as [[t2 s2] e2] eqn:P. injection H as <- <- <-.
      destruct (stepk_done _ _ _ _ _ E) as (_ & -> & _). apply run_done; auto.
    + destruct (phase rm (stepk rm) s r) as [[t2 s2] e2] eqn:P. injection H as <- <- <-.
      apply run_ignored; auto.
    + injection H as <- <- <-. apply run_raised, E.
Qed.

Lemma run_of_app s l1 t1 s1 e1 l2 : run_of s l1 t1 s1 e1 ->
  (e1 = true -> run_of s (l1 ++ l2) t1 s1 true) /\
  (e1 = false -> forall t2 s2 e2, run_of s1 l2 t2 s2 e2 -> run_of s (l1 ++ l2) (t1 ++ t2) s2 e2).
Proof.
  induction 1 as [s|s rm p l cp t s' e E R IH|s rm p l t s' e E R IH|s rm p l E].
  - split; [discriminate|auto].
  - split; intros He; cbn; [apply run_done; auto; apply IH, He|intros; apply run_done; auto; apply IH; auto].
  - split; intros He; cbn; [apply run_ignored; auto; apply IH, He|intros; apply run_ignored; auto; apply IH; auto].
  - split; [intros _; apply run_raised, E|discriminate].
Qed.

Lemma run_of_split l1 : forall s l2 t s', run_of s (l1 ++ l2) t s' false ->
  exists t1 s1 t2, run_of s l1 t1 s1 false /\ run_of s1 l2 t2 s' false /\ t = t1 ++ t2.
Proof.
  induction l1 as [|[rm p] l1 IH]; intros s l2 t s' H.
  - exists [], s, t. repeat split; [constructor|exact H].
  - inversion H as [|? ? ? ? cp t0 ? ? E R|? ? ? ? t0 ? ? E R|]; subst;
      destruct (IH _ _ _ _ R) as (t1 & s1 & t2 & A & B & ->); eexists (_ :: t1), s1, t2;
      (split; [|split; [exact B|reflexivity]]); [apply run_done|apply run_ignored]; auto.
Qed.

Lemma run_of_replay s l t s' e : run_of s l t s' e -> s' = replay s t.
Proof. induction 1; auto. Qed.

Lemma run_of_sub s l t s' e : run_of s l t s' e -> sub s' s.
Proof. induction 1; try apply sub_refl; auto. eapply sub_trans; [eassumption|apply sub_remove]. Qed.

Lemma run_of_sound s0 s l t s' e : run_of s l t s' e -> sub s s0 ->
  forall x c, In x t -> ev_res x = Some c ->
    canon s0 (ev_lit x) = WOk c /\ lookup s0 c <> None /\ In (ev_rm x, ev_lit x) l.
Proof.
  induction 1 as [s|s rm p l cp t s' e E R IH|s rm p l t s' e E R IH|s rm p l E]; intros S x c Hx Hc.
  - destruct Hx.
  - destruct Hx as [<-|Hx].
    + cbn in Hc. injection Hc as <-. destruct (stepk_done _ _ _ _ _ E) as (C & _ & L). cbn. split; [|split; [|auto]].
      * apply (canon_sub_bound s s0 p cp S C), lookup_bound, L.
      * destruct (lookup s cp) eqn:L'; [|congruence]. rewrite (S _ _ L'). discriminate.
    + destruct (IH (sub_trans _ _ _ (sub_remove s cp) S) x c Hx Hc) as (A & B & D). cbn; auto.
  - destruct Hx as [<-|Hx]; [discriminate|]. destruct (IH S x c Hx Hc) as (A & B & D). cbn; auto.
  - destruct Hx as [<-|[]]. discriminate.
Qed.

Lemma run_of_frame s l t s' e : run_of s l t s' e ->
  forall q, lookup s' q = lookup s q \/ (lookup s' q = None /\ exists x, In x t /\ ev_res x = Some q).
Proof.
  induction 1 as [s|s rm p l cp t s' e E R IH|s rm p l t s' e E R IH|s rm p l E]; intros q;
    try (left; reflexivity).
  - destruct (IH q) as [Q|(Q & x & Hx & Hr)].
    + destruct (path_eq_dec q cp) as [->|Hn].
      * right. rewrite Q, lookup_remove_same. split; [reflexivity|].
        exists (Ev rm p (Some cp)). split; [left; reflexivity|reflexivity].
      * left. rewrite Q. apply lookup_remove_other; exact Hn.
    + right. split; [exact Q|]. exists x. split; [right; exact Hx|exact Hr].
  - destruct (IH q) as [Q|(Q & x & Hx & Hr)]; [left; exact Q|].
    right. split; [exact Q|]. exists x. split; [right; exact Hx|exact Hr].
Qed.

Lemma run_of_attempts s l t s' rm p : run_of s l t s' false -> In (rm, p) l ->
  exists t1 res t2, t = t1 ++ Ev rm p res :: t2 /\
    match res with
    | Some c => exists s1, stepk rm (replay s t1) p = Done c s1
    | None => stepk rm (replay s t1) p = Ignored
    end.
Proof.
  intros H Hin. destruct (in_split _ _ Hin) as (l1 & l2 & ->).
  destruct (run_of_split _ _ _ _ _ H) as (t1 & s1 & t2 & A & B & ->).
  rewrite (run_of_replay _ _ _ _ _ A) in B.
  inversion B as [|? ? ? ? cp t0 ? ? E|? ? ? ? t0 ? ? E|]; subst;
    [exists t1, (Some cp), t0|exists t1, None, t0]; eauto.
Qed.

Lemma run_of_ok s0 s l t s' e : run_of s l t s' e -> sub s s0 ->
  (forall p, In (false, p) l -> exists c, lstat s0 p = Some (c, false)) ->
  e = false /\ forall p, In (false, p) l -> lstat s' p = None.
Proof.
  assert (Head : forall s p l, sub s s0 ->
            (forall q, In (false, q) ((false, p) :: l) -> exists c, lstat s0 q = Some (c, false)) ->
            match stepk false s p with Done _ s1 => lstat s1 p = None | Ignored => lstat s p = None | Raised => False end).
  { intros s1 p l1 S A. destruct (A p (or_introl eq_refl)) as (c & Hl). exact (unlink_step_ok s0 s1 p c S Hl). }
  induction 1 as [s|s rm p l cp t s' e E R IH|s rm p l t s' e E R IH|s rm p l E]; intros S A.
  - split; [reflexivity|intros ? []].
  - destruct (IH (sub_trans _ _ _ (sub_remove s cp) S) (fun q Hq => A q (or_intror Hq))) as [-> G].
    split; [reflexivity|]. intros q [[= -> <-]|Hq]; [|apply G, Hq].
    pose proof (Head s p l S A) as U. rewrite E in U. apply (lstat_sub_none s' _ p (run_of_sub _ _ _ _ _ R) U).
  - destruct (IH S (fun q Hq => A q (or_intror Hq))) as [-> G].
    split; [reflexivity|]. intros q [[= -> <-]|Hq]; [|apply G, Hq].
    pose proof (Head s p l S A) as U. rewrite E in U. apply (lstat_sub_none s' s p (run_of_sub _ _ _ _ _ R) U).
  - exfalso. destruct rm; [exact (rmdir_step_never_raises s p E)|].
    pose proof (Head s p l S A) as U. rewrite E in U. exact U.
Qed.

Lemma str_ltb_asym : forall a b, str_ltb a b = true -> str_ltb b a = false.
Proof.
  induction a as [|x a IH]; intros [|y b] H; cbn in *; try congruence.
  destruct (N.ltb_spec x y).
  - destruct (N.ltb_spec y x); [lia|]. destruct (N.eqb_spec y x); [lia|reflexivity].
  - destruct (N.eqb_spec x y); [|discriminate]. subst. rewrite N.ltb_irrefl, N.eqb_refl.
    apply IH; exact H.
Qed.

Lemma str_ltb_negtrans : forall a b c, str_ltb a b = false -> str_ltb b c = false -> str_ltb a c = false.
Proof.
  induction a as [|x a IH]; intros [|y b] [|z c] H1 H2; cbn in *; try congruence.
  destruct (N.ltb_spec x y); [discriminate|].
  destruct (N.ltb_spec y z); [discriminate|].
  destruct (N.ltb_spec x z); [lia|].
  destruct (N.eqb_spec x y), (N.eqb_spec y z), (N.eqb_spec x z); try lia; try reflexivity.
  eapply IH; eassumption.
Qed.

Lemma str_ltb_app : forall a b, b <> [] -> str_ltb a (a ++ b) = true.
Proof.
  induction a as [|x a IH]; intros b Hb; cbn.
  - destruct b; [congruence|reflexivity].
  - rewrite N.ltb_irrefl, N.eqb_refl. apply IH; exact Hb.
Qed.


Lemma strict_prefix_lt p q : strict_prefix p q = true -> loc_ltb p q = true.
Proof.
  unfold strict_prefix. rewrite andb_true_iff. intros (H1 & H2).
  destruct (is_prefix_inv _ _ H1) as (r & ->).
  destruct (path_eq_dec p (p ++ r)) as [E|NE]; [discriminate|].
  unfold loc_ltb, loc_str. rewrite map_app, concat_app. apply str_ltb_app.
  destruct r as [|c r]; [rewrite app_nil_r in NE; congruence|]. cbn. discriminate.
Qed.

Lemma In_insert_desc x y l : In x (insert_desc y l) <-> x = y \/ In x l.
Proof.
  induction l as [|z l IH]; cbn.
  - intuition.
  - destruct (loc_ltb y z); cbn; rewrite ?IH; intuition.
Qed.

Lemma In_sort_desc x l : In x (sort_desc l) <-> In x l.
Proof.
  induction l as [|y l IH]; cbn; [tauto|].
  rewrite In_insert_desc, IH. intuition.
Qed.

Definition loc_ge (x y : path) : Prop := loc_ltb x y = false.

Lemma insert_desc_sorted x l : StronglySorted loc_ge l -> StronglySorted loc_ge (insert_desc x l).
Proof.
  induction l as [|y r IH]; intros S; cbn.
  - constructor; constructor.
  - inversion S as [|? ? Sr Fy]; subst. destruct (loc_ltb x y) eqn:E.
    + constructor; [apply IH; exact Sr|].
      rewrite Forall_forall. intros z Hz. apply In_insert_desc in Hz. destruct Hz as [->|Hz].
      * unfold loc_ge, loc_ltb in *. apply str_ltb_asym; exact E.
      * rewrite Forall_forall in Fy. apply Fy; exact Hz.
    + constructor; [exact S|]. constructor; [exact E|].
      rewrite Forall_forall in *. intros z Hz. unfold loc_ge, loc_ltb in *.
      eapply str_ltb_negtrans; [exact E|apply Fy; exact Hz].
Qed.

Lemma sort_desc_sorted l : StronglySorted loc_ge (sort_desc l).
Proof.
  induction l as [|x l IH]; cbn; [constructor|]. apply insert_desc_sorted; exact IH.
Qed.

Lemma sorted_split l : StronglySorted loc_ge l -> forall l1 x l2, l = l1 ++ x :: l2 ->
  forall y, In y l2 -> loc_ltb x y = false.
Proof.
  induction 1 as [|a l S IH F]; intros l1 x l2 E y Hy.
  - destruct l1; discriminate.
  - destruct l1 as [|b l1]; cbn in E; injection E as -> ->.
    + rewrite Forall_forall in F. apply F; exact Hy.
    + eapply IH; [reflexivity|exact Hy].
Qed.

Lemma In_lookup : forall (s : fs) q n, In (q, n) s -> exists n', lookup s q = Some n'.
Proof.
  induction s as [|[r m] s IH]; intros q n H; [destruct H|]. cbn.
  destruct (path_eq_dec q r); [eauto|]. destruct H as [H|H]; [congruence|]. eapply IH; exact H.
Qed.

Lemma has_child_witness s p : has_child s p = true ->
  exists q n, lookup s q = Some n /\ strict_prefix p q = true.
Proof.
  unfold has_child. rewrite existsb_exists. intros ([q n] & Hin & Hp). cbn in Hp.
  destruct (In_lookup _ _ _ Hin) as (n' & L). eauto.
Qed.

Lemma has_child_intro s p q n : lookup s q = Some n -> strict_prefix p q = true -> has_child s p = true.
Proof.
  intros L Hp. unfold has_child. rewrite existsb_exists. exists (q, n). split; [|exact Hp].
  apply lookup_In; exact L.
Qed.

Lemma run_of_keeps_below s0 s l t s' e p : run_of s l t s' e -> sub s s0 ->
  (forall rm x c, In (rm, x) l -> canon s0 x = WOk c -> loc_ltb p c = false) ->
  forall q, strict_prefix p q = true -> lookup s' q = lookup s q.
Proof.
  intros R S A q Hq. destruct (run_of_frame _ _ _ _ _ R q) as [Q|(_ & x & Hx & Hr)]; [exact Q|]. exfalso.
  destruct (run_of_sound s0 _ _ _ _ _ R S x q Hx Hr) as (Cx & _ & Hl).
  pose proof (strict_prefix_lt _ _ Hq) as G. rewrite (A _ _ _ Hl Cx) in G. discriminate.
Qed.

(* everything below p sorts after p, and after p's own attempt only names that do not sort after p
   are attempted: a child that makes the rmdir of p fail is still there at the end *)
Lemma rmdir_complete s0 s l1 l2 t s' p :
  run_of s (l1 ++ (true, p) :: l2) t s' false -> sub s s0 ->
  p <> [] -> lstat s0 p = Some (p, true) ->
  (forall rm x c, In (rm, x) l2 -> canon s0 x = WOk c -> loc_ltb p c = false) ->
  lstat s' p = None \/ has_child s' p = true.
Proof.
  intros R S NE L After. destruct (lstat_dir_lookup _ _ NE L) as (C0 & n0 & L0 & D0).
  destruct (run_of_split _ _ _ _ _ R) as (ta & sk & tb & Ra & Rb & _).
  assert (Sk : sub sk s0) by (eapply sub_trans; [apply (run_of_sub _ _ _ _ _ Ra)|exact S]).
  assert (S' : sub s' s0) by (eapply sub_trans; [apply (run_of_sub _ _ _ _ _ Rb)|exact Sk]).
  inversion Rb as [|? ? ? ? c t0 ? ? E Rc|? ? ? ? t0 ? ? E Rc|]; subst.
  - destruct (stepk_done _ _ _ _ _ E) as (Cc & _ & Lc). left. apply (lstat_gone s0); auto. apply (sub_none _ _ _ (run_of_sub _ _ _ _ _ Rc)).
    rewrite (canon_sub_bound sk s0 p c Sk Cc (lookup_bound _ _ Lc)) in C0. injection C0 as ->.
    apply lookup_remove_same.
  - destruct (canon_sub_cases sk s0 p Sk) as [Ec|U];
      [|left; apply (lstat_sub_none s' sk p (run_of_sub _ _ _ _ _ Rc)), unbound_lstat, U].
    rewrite C0 in Ec. destruct (lookup sk p) as [n|] eqn:Ln;
      [|left; apply (lstat_gone s0); auto; apply (sub_none _ _ _ (run_of_sub _ _ _ _ _ Rc)), Ln].
    pose proof (Sk _ _ Ln) as Ln0. rewrite L0 in Ln0. injection Ln0 as <-.
    destruct (has_child sk p) eqn:Hc.
    + right. destruct (has_child_witness _ _ Hc) as (q & nq & Lq & Hq).
      apply (has_child_intro s' p q nq); [|exact Hq].
      rewrite (run_of_keeps_below s0 _ _ _ _ _ p Rc Sk After q Hq). exact Lq.
    + exfalso. assert (exists sz, rmdir_step sk p = Done p sz) as (sz & Hz) by (apply rmdir_step_iff; eauto).
      cbn in E. rewrite Hz in E. discriminate.
Qed.

Lemma mem_path_In p l : mem_path p l = true <-> In p l.
Proof.
  unfold mem_path. rewrite existsb_exists. split.
  - intros (q & Hq & H). destruct (path_eq_dec p q); [subst; exact Hq|discriminate].
  - intros H. exists p. split; [exact H|]. destruct (path_eq_dec p p); congruence.
Qed.

Lemma mem_path_false p l : mem_path p l = false <-> ~ In p l.
Proof.
  rewrite <- mem_path_In. destruct (mem_path p l); split; congruence.
Qed.

Lemma In_intersect s ps p d :
  In (p, d) (intersect s ps) <-> In p ps /\ exists c, lstat s p = Some (c, d).
Proof.
  unfold intersect. rewrite in_flat_map. split.
  - intros (q & Hq & H). destruct (lstat s q) as [[c d']|] eqn:E; [|destruct H].
    destruct H as [H|[]]. injection H as -> ->. eauto.
  - intros (H & c & E). exists p. split; [exact H|]. rewrite E. left; reflexivity.
Qed.

Lemma In_canon_list s ps c :
  In c (canon_list s ps) <-> exists p, In p ps /\ canon s p = WOk c.
Proof.
  unfold canon_list, canon_opt. rewrite in_flat_map. split.
  - intros (p & Hp & H). exists p. split; [exact Hp|].
    destruct (canon s p) as [c0| |]; [|destruct H|destruct H]. destruct H as [->|[]]. reflexivity.
  - intros (p & Hp & E). exists p. split; [exact Hp|]. rewrite E. left; reflexivity.
Qed.

Lemma In_remove_cset s old new e :
  In e (remove_cset s old new) <->
  In e old /\ ~ In (fst e) new /\
  (forall n c, In n new -> canon s n = WOk c -> canon s (fst e) <> WOk c).
Proof.
  unfold remove_cset. rewrite filter_In. unfold keep_removed.
  rewrite andb_true_iff, !negb_true_iff, mem_path_false. unfold canon_opt.
  split; intros (H1 & H2 & H3); (split; [exact H1|split; [exact H2|]]).
  - intros n c Hn Hc E. rewrite E in H3. apply mem_path_false in H3. apply H3.
    apply In_canon_list. eauto.
  - destruct (canon s (fst e)) as [c| |] eqn:E; try reflexivity.
    apply mem_path_false. intro H. apply In_canon_list in H. destruct H as (n & Hn & Hc).
    exact (H3 n c Hn Hc eq_refl).
Qed.

Lemma protect_first_true i : protect_first (engine_mode i) = true.
Proof. unfold engine_mode. destruct (u_new i); vm_compute; reflexivity. Qed.

Lemma In_protect i off l e :
  In e (protect (engine_mode i) off l) <-> In e l /\ ~ In (fst e) (protected off).
Proof.
  unfold protect. rewrite protect_first_true, filter_In, negb_true_iff, mem_path_false. tauto.
Qed.

Lemma In_uninstall_cset i p d :
  In (p, d) (uninstall_cset i) <-> removable i p /\ exists c, lstat (u_fs i) p = Some (c, d).
Proof.
  unfold uninstall_cset, removable, old_names, new_names, protected_names.
  rewrite In_protect. cbn [fst].
  destruct (u_new i) as [ns|].
  - rewrite In_remove_cset, In_intersect. cbn [fst]. split.
    + intros (((H1 & c & H2) & H3 & H4) & H5). repeat split; eauto. congruence.
    + intros ((H1 & H2 & H3 & H4 & H5) & c & H6). repeat split; eauto.
  - rewrite In_intersect. split.
    + intros ((H1 & c & H2) & H3). repeat split; eauto. congruence.
    + intros ((H1 & H2 & H3 & H4 & H5) & c & H6). repeat split; eauto.
Qed.

(* unmerge_contents: unlink every non-directory, then rmdir the directories deepest first *)
Definition attempts (cs : list entry) : list (bool * path) :=
  map (pair false) (nondirs cs) ++ map (pair true) (sort_desc (dirs cs)).

Lemma In_nondirs cs p : In p (nondirs cs) <-> In (p, false) cs.
Proof.
  unfold nondirs. rewrite in_map_iff. split.
  - intros ([q d] & <- & H). apply filter_In in H. destruct H as (H & D). cbn in *.
    destruct d; [discriminate|exact H].
  - intros H. exists (p, false). split; [reflexivity|]. apply filter_In. split; [exact H|reflexivity].
Qed.
Lemma In_dirs cs p : In p (dirs cs) <-> In (p, true) cs.
Proof.
  unfold dirs. rewrite in_map_iff. split.
  - intros ([q d] & <- & H). apply filter_In in H. destruct H as (H & D). cbn in *.
    destruct d; [exact H|discriminate].
  - intros H. exists (p, true). split; [reflexivity|]. apply filter_In. split; [exact H|reflexivity].
Qed.
Lemma In_attempts cs rm p : In (rm, p) (attempts cs) <-> In (p, rm) cs.
Proof.
  unfold attempts. rewrite in_app_iff, !in_map_iff. split.
  - intros [(q & [= <- <-] & H)|(q & [= <- <-] & H)]; [apply In_nondirs|apply In_dirs, In_sort_desc]; exact H.
  - intros H. destruct rm; [right|left]; exists p; (split; [reflexivity|]);
      [apply In_sort_desc, In_dirs|apply In_nondirs]; exact H.
Qed.
Lemma attempts_split cs p : In (p, true) cs ->
  exists l1 l2, attempts cs = l1 ++ (true, p) :: map (pair true) l2
                /\ forall x, In x l2 -> In (x, true) cs /\ loc_ltb p x = false.
Proof.
  intros H. apply In_dirs, In_sort_desc in H. destruct (in_split _ _ H) as (l1 & l2 & El).
  exists (map (pair false) (nondirs cs) ++ map (pair true) l1), l2. split.
  - unfold attempts. rewrite El, map_app, app_assoc. reflexivity.
  - intros x Hx. split; [|exact (sorted_split _ (sort_desc_sorted _) _ _ _ El x Hx)].
    apply In_dirs, In_sort_desc. rewrite El. apply in_or_app. right; right; exact Hx.
Qed.

Lemma unmerge_run_of s cs t s' e : unmerge s cs = (t, s', e) -> run_of s (attempts cs) t s' e.
Proof.
  unfold unmerge. destruct (phase false unlink_step s (nondirs cs)) as [[t1 s1] e1] eqn:P1.
  apply (phase_run_of false) in P1.
  destruct (run_of_app _ _ _ _ _ (map (pair true) (sort_desc (dirs cs))) P1) as [A B]. destruct e1.
  - intros [= <- <- <-]. apply A; reflexivity.
  - destruct (phase true rmdir_step s1 _) as [[t2 s2] e2] eqn:P2. intros [= <- <- <-].
    apply B; [reflexivity|]. apply (phase_run_of true), P2.
Qed.

Lemma unmerge_sub s cs t s' e : unmerge s cs = (t, s', e) -> sub s' s.
Proof. intros H. apply unmerge_run_of, run_of_sub in H. exact H. Qed.

Lemma engine_run_of i t s' e : run_engine i = (t, s', e) -> run_of (u_fs i) (attempts (uninstall_cset i)) t s' e.
Proof. apply unmerge_run_of. Qed.

Lemma In_engine_attempts i rm p :
  In (rm, p) (attempts (uninstall_cset i)) <-> removable i p /\ exists c, lstat (u_fs i) p = Some (c, rm).
Proof. rewrite In_attempts. apply In_uninstall_cset. Qed.

Lemma engine_ok i t s' e : run_engine i = (t, s', e) ->
  e = false /\ forall p c, removable i p -> lstat (u_fs i) p = Some (c, false) -> lstat s' p = None.
Proof.
  intros H. apply engine_run_of, (run_of_ok (u_fs i)) in H; [|apply sub_refl|].
  - destruct H as [-> G]. split; [reflexivity|]. intros p c R L. apply G, In_engine_attempts. eauto.
  - intros p Hp. apply In_engine_attempts in Hp. apply Hp.
Qed.

Definition alias_to_protected (i : uinput) : Prop :=
  exists p p' c, In p (protected_names i) /\ canon (u_fs i) p = WOk c /\
                 removable i p' /\ canon (u_fs i) p' = WOk c.

Local Open Scope bs_scope.

Definition alias_witness : bstr :=
  "o@o=d;o/opt=d;o/opt/u=l../usr;o/usr=d;o/usr/bin=d@opt/u/bin@-".

(* unmerging the witness removes the protected o/usr/bin, through its alias o/opt/u/bin *)
Lemma alias_witness_protected :
  In (split_slash (s2l "o/usr/bin")) (protected_names (dec_case alias_witness))
  /\ canon (u_fs (dec_case alias_witness)) (split_slash (s2l "o/usr/bin")) = WOk (split_slash (s2l "o/usr/bin")).
Proof. split; [apply mem_path_In|]; vm_compute; reflexivity. Qed.
Lemma alias_witness_removed :
  lookup (snd (fst (run_engine (dec_case alias_witness)))) (split_slash (s2l "o/usr/bin")) = None
  /\ lookup (u_fs (dec_case alias_witness)) (split_slash (s2l "o/usr/bin")) = Some (Dir 0 0 0 0).
Proof. split; vm_compute; reflexivity. Qed.

Lemma covers_base_bool :
  forallb (fun b => mem_path b (map split_slash preserve_sequence)) base_system_dirs = true.
Proof. vm_compute. reflexivity. Qed.

Definition ex_uninstall : bstr :=
  "o@ext=d;ext/keep=fext;o=d;o/etc=d;o/etc/conf=fk;o/opt=d;o/opt/z=d;o/opt/z/f=fq;o/opt/z/l=l../../../ext;o/opt/k=d;o/opt/k/keep=fq;o/usr=d;o/usr/lib=llib64;o/usr/lib64=d;o/usr/lib64/foo=fabc;o/usr/lib64/bar=fx@usr;usr/lib;usr/lib/foo;etc;etc/conf;opt;opt/z;opt/z/f;opt/z/l;opt/k;gone/x@-".
Definition ex_replace : bstr :=
  "o@o=d;o/usr=d;o/usr/lib=llib64;o/usr/lib64=d;o/usr/lib64/foo=fnew;o/usr/lib64/old=fo@usr;usr/lib;usr/lib/foo;usr/lib/old@+usr;usr/lib64;usr/lib64/foo".

Example ex_uninstall_runs :
  run_case ex_uninstall = VS (s2l
    "uo/usr/lib/foo>o/usr/lib64/foo;uo/etc/conf>;uo/opt/z/f>;uo/opt/z/l>;ro/opt/z>;ro/opt/k!;ro/opt!@o/etc/conf;o/opt/z;o/opt/z/f;o/opt/z/l;o/usr/lib64/foo@@0").
Proof. vm_compute. reflexivity. Qed.

Example ex_uninstall_removable : removable (dec_case ex_uninstall) (split_slash (s2l "o/opt/z/l")).
Proof.
  unfold removable. repeat split.
  - apply mem_path_In; vm_compute; reflexivity.
  - vm_compute; discriminate.
  - intro H; apply mem_path_In in H; vm_compute in H; discriminate.
  - intro H; apply mem_path_In in H; vm_compute in H; discriminate.
  - intros n c H; vm_compute in H; destruct H.
Qed.

(* the old package listed usr/lib/foo through the symlink; the new one installs usr/lib64/foo: kept *)
Example ex_replace_runs :
  run_case ex_replace = VS (s2l "uo/usr/lib/old>o/usr/lib64/old@o/usr/lib64/old@@0").
Proof. vm_compute. reflexivity. Qed.

Example ex_spec_accepts : spec_ok (dec_case ex_uninstall) (run_case ex_uninstall) = true
                          /\ spec_ok (dec_case ex_replace) (run_case ex_replace) = true.
Proof. rewrite ex_uninstall_runs, ex_replace_runs. split; vm_compute; reflexivity. Qed.

(* ... and rejects an outcome that removed the new package's file, one that kept a listed file, one that
   removed the protected usr/lib symlink, one in which a new path appears, and the alias witness's own run *)
Example ex_spec_rejects :
  spec_ok (dec_case ex_replace) (VS (s2l "x@o/usr/lib64/old;o/usr/lib64/foo@@0")) = false
  /\ spec_ok (dec_case ex_replace) (VS (s2l "x@@@0")) = false
  /\ spec_ok (dec_case ex_replace) (VS (s2l "x@o/usr/lib64/old;o/usr/lib@@0")) = false
  /\ spec_ok (dec_case ex_replace) (VS (s2l "x@o/usr/lib64/old@o/usr/new=fx@0")) = false
  /\ spec_ok (dec_case alias_witness) (run_case alias_witness) = false.
Proof. split; [|split; [|split; [|split]]]; vm_compute; reflexivity. Qed.

(* an alias-free case; a/b becomes empty and goes, a keeps k and stays *)
Definition ex_complete : bstr := "o@o=d;o/a=d;o/a/b=d;o/a/b/f=fx;o/a/k=d;o/a/k/keep=fy@a;a/b;a/b/f;a/k@-".
Example ex_complete_alias_free : alias_free (dec_case ex_complete).
Proof.
  intros p Hp _. vm_compute in Hp.
  repeat (destruct Hp as [<-|Hp]; [vm_compute; reflexivity|]). destruct Hp.
Qed.
Example ex_complete_runs :
  run_case ex_complete = VS (s2l "uo/a/b/f>;ro/a/k!;ro/a/b>;ro/a!@o/a/b;o/a/b/f@@0").
Proof. vm_compute. reflexivity. Qed.
