(* Inv_C11.v — the invariant [Inv] relating a ChunkedDataDict state to the history of its program,
   for one package, outside the finding classes; one lemma per operation. *)
From Coq Require Import List NArith Bool.
Import ListNotations.
From Verif Require Import C11.Model_C11 C11.Spec_C11 C11.Sem_C11 C11.Class_C11.
(* the operations are reasoned about through their lemmas below; cbn/simpl must not unfold them *)
Arguments expand_globals : simpl never.
Arguments build : simpl never.
Arguments reappend : simpl never.
Arguments seedlist : simpl never.
Arguments merge_keys : simpl never.
Arguments merge_globals : simpl never.

Lemma dget_dset d k v k' : dget (dset d k v) k' = if k =? k' then Some v else dget d k'.
Proof.
  induction d as [|[k0 l0] d IH]; cbn [dset dget].
  - reflexivity.
  - destruct (N.eqb_spec k0 k) as [->|Hk]; cbn [dget].
    + destruct (k =? k'); reflexivity.
    + rewrite IH. destruct (N.eqb_spec k0 k') as [->|]; [|reflexivity].
      rewrite (proj2 (N.eqb_neq k k')) by congruence. reflexivity.
Qed.
Lemma dget_map (g : N -> list chunk -> list chunk) d k :
  dget (map (fun kl => (fst kl, g (fst kl) (snd kl))) d) k = option_map (g k) (dget d k).
Proof.
  induction d as [|[k0 l0] d IH]; [reflexivity|]. cbn [map dget fst snd].
  destruct (N.eqb_spec k0 k) as [->|]; [reflexivity | exact IH].
Qed.
Lemma keys_map (g : N -> list chunk -> list chunk) d :
  map fst (map (fun kl => (fst kl, g (fst kl) (snd kl))) d) = map fst d.
Proof. rewrite map_map. reflexivity. Qed.
Lemma in_keys_dget d k : In k (map fst d) <-> dget d k <> None.
Proof.
  induction d as [|[k0 l0] d IH]; cbn [dget map fst In]; [tauto|].
  destruct (N.eqb_spec k0 k); [intuition discriminate | tauto].
Qed.
Lemma keys_dset d k v x : In x (map fst (dset d k v)) <-> k = x \/ In x (map fst d).
Proof.
  rewrite !in_keys_dget, dget_dset. destruct (N.eqb_spec k x); intuition (congruence || discriminate).
Qed.
Lemma nodup_dset d k v : NoDup (map fst d) -> NoDup (map fst (dset d k v)).
Proof.
  induction d as [|[k0 l0] d IH]; cbn [dset map fst]; intro H.
  - constructor; [intros []|constructor].
  - inversion H; subst. destruct (N.eqb_spec k0 k) as [->|Hk]; cbn [map fst].
    + constructor; assumption.
    + constructor; [|apply IH; assumption].
      rewrite keys_dset. intros [E|Hi]; [congruence | contradiction].
Qed.

Lemma list_eqb_refl l : list_eqb l l = true.
Proof. induction l; cbn; [reflexivity|]. rewrite N.eqb_refl. exact IHl. Qed.
Lemma chunk_eqb_refl c : chunk_eqb c c = true.
Proof.
  unfold chunk_eqb. rewrite !list_eqb_refl, !andb_true_r.
  destruct (sc c); cbn; rewrite ?N.eqb_refl; reflexivity.
Qed.
Lemma memc_in c l : In c l -> memc c l = true.
Proof. intro H. unfold memc. apply existsb_exists. exists c. split; [exact H | apply chunk_eqb_refl]. Qed.
Lemma memc_app c a b : memc c (a ++ b) = memc c a || memc c b.
Proof. unfold memc. apply existsb_app. Qed.
(* nothing is appended again when every global is already there *)
Lemma reappend_id g : forall l, (forall x, In x g -> memc x l = true) -> reappend g l = l.
Proof.
  unfold reappend. induction g as [|x g IH]; intros l H; [reflexivity|].
  cbn [fold_left]. rewrite (H x (or_introl eq_refl)). apply IH. intros y Hy. apply H. right. exact Hy.
Qed.

Lemma expand_globals_nil g : expand_globals g [] = g.
Proof. apply app_nil_r. Qed.

Lemma stale_sub pr : incl (s_stale (stale pr)) (s_keys (stale pr)).
Proof.
  induction pr as [|pr IH ch|pr IH q IHq|pr IH|pr IH u|pr IH]; cbn [stale].
  - intros x [].
  - destruct (atomkey ch); [|destruct (empty_chunk ch); [exact IH | cbn; apply incl_refl]].
    cbn. intros x Hx. right. apply IH. exact Hx.
  - destruct (has_globals (entries_of q)); cbn; [apply incl_refl|].
    intros x Hx. apply in_app_iff in Hx as [Hx|Hx]; apply in_app_iff.
    + left. apply IH. exact Hx.
    + destruct (s_ss (stale pr)); [right; exact Hx | destruct Hx].
  - exact IH.
  - destruct (s_fr (stale pr) && negb u); [exact IH | exact IH].
  - cbn. apply incl_refl.
Qed.

Lemma stale_merge pr q :
  let s := stale (PMerge pr q) in
  let hg := has_globals (entries_of q) in
  s_fr s = s_fr (stale pr) /\ s_cl s = s_cl (stale pr) /\
  s_keys s = s_keys (stale pr) ++ s_keys (stale q) /\
  s_ss s = (if hg then s_cl (stale pr) else s_ss (stale pr)) /\
  s_stale s = if hg then s_keys (stale pr) ++ s_keys (stale q)
              else s_stale (stale pr) ++ (if s_ss (stale pr) then s_keys (stale q) else []).
Proof. cbn [stale]. destruct (has_globals (entries_of q)); repeat split. Qed.

(* a hazard recorded for a part of a program stays recorded for the whole *)
Lemma hz_add_mono pr c x : In x (s_hz (stale pr)) -> In x (s_hz (stale (PAdd pr c))).
Proof.
  intro H. cbn [stale]. destruct (atomkey c); [|destruct (empty_chunk c); exact H].
  cbn [s_hz]. destruct (_ || _); [right|]; exact H.
Qed.
Lemma hz_merge_mono pr q x :
  In x (s_hz (stale pr)) \/ In x (s_hz (stale q)) -> In x (s_hz (stale (PMerge pr q))).
Proof. intro H. cbn [stale]. destruct (has_globals (entries_of q)); cbn [s_hz]; rewrite !in_app_iff; tauto. Qed.
Lemma hz_clone_mono pr u x : In x (s_hz (stale pr)) -> In x (s_hz (stale (PClone pr u))).
Proof. intro H. cbn [stale]. destruct (_ && _); exact H. Qed.

(* what staying outside the hazard means when an entry for key k, or a merge, comes *)
Lemma no_hz_add_key pr c k : atomkey c = Some k -> ~ In k (s_hz (stale (PAdd pr c))) ->
  ~ In k (s_stale (stale pr)) /\ (~ In k (s_keys (stale pr)) -> s_ss (stale pr) = false).
Proof.
  intros Hk Hhz. cbn [stale] in Hhz. rewrite Hk in Hhz. cbn [s_hz] in Hhz. rewrite <- !mem_false.
  destruct (mem k (s_stale (stale pr))); [exfalso; apply Hhz; left; reflexivity|].
  split; [reflexivity|]. intro Hm. rewrite Hm in Hhz.
  destruct (s_ss (stale pr)); [exfalso; apply Hhz; left; reflexivity | reflexivity].
Qed.
Lemma no_hz_merge pr q k : ~ In k (s_hz (stale (PMerge pr q))) ->
  In k (s_keys (stale q)) -> ~ In k (s_keys (stale pr)) -> s_ss (stale pr) = false.
Proof.
  intros Hhz Hq Hp. destruct (s_ss (stale pr)) eqn:Ess; [|reflexivity]. exfalso. apply Hhz.
  assert (Hin : In k (s_hz (stale pr) ++ s_hz (stale q) ++
                      filter (fun k0 => negb (mem k0 (s_keys (stale pr)))) (s_keys (stale q)))).
  { apply in_or_app. right. apply in_or_app. right. apply filter_In. split; [exact Hq|].
    apply negb_true_iff, mem_false, Hp. }
  cbn [stale]. rewrite Ess. destruct (has_globals (entries_of q)); exact Hin.
Qed.

Lemma has_globals_app a b : has_globals (a ++ b) = has_globals a || has_globals b.
Proof. unfold has_globals. apply existsb_app. Qed.

Lemma dget_merge_keys d e k : NoDup (map fst (dict e)) ->
  dget (merge_keys d e) k =
  match dget (dict e) k with
  | Some lq => Some ((match dget (dict d) k with Some l => l | None => seedlist d end) ++ lq)
  | None => dget (dict d) k
  end.
Proof.
  unfold merge_keys. generalize (dict d) as acc.
  induction (dict e) as [|[k1 l1] E IH]; intros acc Hn; [reflexivity|].
  cbn [map fst] in Hn. inversion Hn as [|? ? Hk Hn']; subst.
  cbn [fold_left fst snd dget]. rewrite (IH _ Hn'), dget_dset.
  destruct (N.eqb_spec k1 k) as [->|]; [|reflexivity].
  rewrite in_keys_dget in Hk. destruct (dget E k); [exfalso; apply Hk; discriminate | reflexivity].
Qed.
Lemma nodup_merge_keys d e : NoDup (map fst (dict d)) -> NoDup (map fst (merge_keys d e)).
Proof.
  unfold merge_keys. generalize (dict d) as acc.
  induction (dict e) as [|kl E IH]; intros acc Hn; [exact Hn|].
  cbn [fold_left]. apply IH, nodup_dset, Hn.
Qed.
Lemma merge_globals_map q d1 :
  merge_globals q d1 =
  map (fun kl : N * list chunk => (fst kl, (fun (k : N) (l : list chunk) => match dget (dict q) k with Some _ => l | None => l ++ glob q end) (fst kl) (snd kl))) d1.
Proof.
  unfold merge_globals. apply map_ext. intros [k l]. cbn [fst snd]. destruct (dget (dict q) k); reflexivity.
Qed.
Lemma dget_merge_globals q d1 k :
  dget (merge_globals q d1) k =
  option_map (fun l => match dget (dict q) k with Some _ => l | None => l ++ glob q end) (dget d1 k).
Proof.
  rewrite merge_globals_map.
  apply (dget_map (fun k l => match dget (dict q) k with Some _ => l | None => l ++ glob q end)).
Qed.
Lemma keys_merge_globals q d1 : map fst (merge_globals q d1) = map fst d1.
Proof.
  unfold merge_globals. rewrite map_map. apply map_ext. intro kl.
  destruct (dget (dict q) (fst kl)); reflexivity.
Qed.

Lemma merge_spec d e d' : merge d e = Some d' -> NoDup (map fst (dict e)) ->
  frozen d' = frozen d /\ seed d' = seed d /\ glob d' = expand_globals (glob d) (glob e) /\
  (NoDup (map fst (dict d)) -> NoDup (map fst (dict d'))) /\
  forall k, dget (dict d') k =
            match dget (dict e) k, dget (dict d) k with
            | Some lq, Some l => Some (l ++ lq)
            | Some lq, None => Some (seedlist d ++ lq)
            | None, Some l => Some (l ++ glob e)
            | None, None => None
            end.
Proof.
  intros Hm Hn.
  assert (Hk : forall k, dget (merge_globals e (merge_keys d e)) k =
                 match dget (dict e) k, dget (dict d) k with
                 | Some lq, Some l => Some (l ++ lq)
                 | Some lq, None => Some (seedlist d ++ lq)
                 | None, Some l => Some (l ++ glob e)
                 | None, None => None
                 end).
  { intro k. rewrite dget_merge_globals, (dget_merge_keys d e k Hn).
    destruct (dget (dict e) k), (dget (dict d) k); reflexivity. }
  assert (Hk0 : glob e = [] -> forall k, dget (merge_globals e (merge_keys d e)) k = dget (merge_keys d e) k).
  { intros E k. rewrite dget_merge_globals, E.
    destruct (dget (merge_keys d e) k), (dget (dict e) k); cbn [option_map]; rewrite ?app_nil_r; reflexivity. }
  unfold merge in Hm. destruct (is_nil (dict e) && is_nil (glob e)) eqn:Et.
  - injection Hm as <-. apply andb_true_iff in Et as [E1 E2].
    destruct (dict e) eqn:Ede; [|discriminate]. destruct (glob e) eqn:Ege; [|discriminate].
    rewrite expand_globals_nil. repeat split; [tauto|].
    intro k. rewrite <- Hk, (Hk0 eq_refl). unfold merge_keys. rewrite Ede. reflexivity.
  - destruct (merge_refused d e) eqn:Er; [discriminate|].
    unfold merge_refused in Er. apply orb_false_iff in Er as [Er _]. apply orb_false_iff in Er as [Er _].
    destruct (is_nil (glob e)) eqn:Eg; injection Hm as <-; cbn [frozen seed glob dict].
    + destruct (glob e) eqn:Ege; [|discriminate]. rewrite expand_globals_nil.
      repeat split; [congruence | apply nodup_merge_keys |].
      intro k. rewrite <- Hk, (Hk0 eq_refl). reflexivity.
    + repeat split; [congruence | | exact Hk].
      rewrite keys_merge_globals. apply nodup_merge_keys.
Qed.

Lemma merge_keys_in d e d' : merge d e = Some d' -> NoDup (map fst (dict e)) ->
  forall x, In x (map fst (dict d')) <-> In x (map fst (dict d)) \/ In x (map fst (dict e)).
Proof.
  intros Hm Hn x. destruct (merge_spec d e d' Hm Hn) as [_ [_ [_ [_ Hd]]]].
  rewrite !in_keys_dget, Hd. destruct (dget (dict e) x), (dget (dict d) x); intuition congruence.
Qed.

Section Inv.
  Variable Hall : list chunk.
  Variable p : pkg.
  Hypothesis A1 : forall e, In e Hall -> applies (sc e) p = true -> good e = true.
  Hypothesis A2 : forall x, sneg Hall p x = true -> spos Hall p x = true -> False.

  (* chunks as the collapse needs them: a lockable one applies to p, one that applies is good, and
     the tokens of a specific one that applies are recorded as such in the whole history *)
  Definition chunk_ok (c : chunk) : Prop :=
    (lockable c = true -> applies (sc c) p = true) /\
    (applies (sc c) p = true -> good c = true) /\
    (lockable c = false -> applies (sc c) p = true ->
       (forall x, In x (neg c) -> sneg Hall p x = true) /\ (forall x, In x (pos c) -> spos Hall p x = true)).
  Definition list_ok : list chunk -> Prop := Forall chunk_ok.

  Lemma list_ok_app a b : list_ok a -> list_ok b -> list_ok (a ++ b).
  Proof. intros Ha Hb. apply Forall_app. split; assumption. Qed.
  Lemma list_ok_seq l : list_ok l -> seq_ok p l /\ sign_ok p l.
  Proof.
    intro H. unfold list_ok in H. rewrite Forall_forall in H.
    split; [split; intros c Hc; apply (H c Hc)|].
    intros c1 c2 x I1 I2 L1 L2 P1 P2 N1 N2.
    destruct (H c1 I1) as [_ [_ Q1]]. destruct (H c2 I2) as [_ [_ Q2]].
    apply (A2 x); [apply (Q1 L1 P1), N1 | apply (Q2 L2 P2), N2].
  Qed.
  Lemma entry_ok e : In e Hall -> (lockable e = true -> applies (sc e) p = true) -> list_ok [e].
  Proof.
    intros Hi Hl. constructor; [|constructor].
    split; [exact Hl | split; [exact (A1 e Hi)|]].
    intros Hlk Ha. split; intros x Hx; apply existsb_exists; exists e;
      rewrite Hlk, Ha; (split; [exact Hi | apply mem_In; exact Hx]).
  Qed.

  Lemma build_ok l r : list_ok l -> applies r p = true -> lockable (mkc r [] []) = true -> list_ok (build l r).
  Proof.
    intros Hok Hr Hlr. destruct (list_ok_seq l Hok) as [Hseq _].
    unfold list_ok in *. rewrite Forall_forall in *. intros x Hx.
    apply build_in in Hx as [Hx|[[-> _]|[c [Hc [Hl [Hs [Hn Hp]]]]]]]; [exact (Hok x Hx) | |].
    - (* the merged chunk is lockable, carries the restriction and is good by construction *)
      split; [intros _; exact Hr|]. split; [|intro E; unfold lockable in *; cbn [merged sc] in *; congruence]. intros _.
      unfold good. rewrite (merged_nowild p l r Hseq). apply forallb_forall. intros f Hf.
      apply mem_In in Hf. cbn [merged neg pos] in *.
      rewrite (merged_mem (fun b => b) _ f (pass1_nodup l)) in Hf.
      rewrite (merged_mem negb _ f (pass1_nodup l)).
      destruct (lk_get (fst (pass1 l)) f) as [[|]|]; try discriminate. reflexivity.
    - (* what is left of a specific chunk *)
      destruct (Hok c Hc) as [_ [H2 H3]]. unfold chunk_ok, lockable in *. rewrite Hs.
      split; [congruence|]. split.
      + intro Ha. destruct x as [sx nx px]. cbn [sc neg pos] in *. subst sx.
        apply (good_sub c); auto.
      + intros _ Ha. destruct (H3 Hl Ha) as [Q1 Q2]. split; intros y Hy; auto.
  Qed.

  Lemma build_effl_ok l r f : list_ok l -> applies r p = true -> effl (build l r) p f = effl l p f.
  Proof. intros Hok Hr. destruct (list_ok_seq l Hok). apply build_effl; assumption. Qed.

  Lemma expand_ok g new : list_ok g -> list_ok new -> list_ok (expand_globals g new).
  Proof.
    intros Hg Hn. pose proof (list_ok_app _ _ Hg Hn). unfold expand_globals.
    destruct new as [|c new']; [assumption|].
    destruct (scope_eqb (sc c) KAll); [apply build_ok|]; auto.
  Qed.
  Lemma expand_effl g new f : list_ok g -> list_ok new ->
    effl (expand_globals g new) p f = effl (g ++ new) p f.
  Proof.
    intros Hg Hn. unfold expand_globals. destruct new as [|c new']; [reflexivity|].
    destruct (scope_eqb (sc c) KAll); [|reflexivity].
    apply build_effl_ok; [apply list_ok_app; assumption | reflexivity].
  Qed.

  (* [l] stands for the entries [H] of a dict whose globals are [g]: it means the same for p, its
     chunks are fit for collapsing, and it decides every flag the globals decide *)
  Definition stands (H g l : list chunk) : Prop :=
    (forall f, effl l p f = effl H p f) /\ list_ok l /\ (forall f, effl g p f <> None -> effl l p f <> None).

  Lemma stands_app H1 g1 l1 H2 g2 l2 :
    stands H1 g1 l1 -> stands H2 g2 l2 -> stands (H1 ++ H2) (g1 ++ g2) (l1 ++ l2).
  Proof.
    intros [E1 [O1 D1]] [E2 [O2 D2]]. split; [|split].
    - intro f. rewrite !effl_app, E1, E2. reflexivity.
    - apply list_ok_app; assumption.
    - intro f. rewrite !effl_app. specialize (D1 f). specialize (D2 f).
      destruct (effl g2 p f); cbn [orelse]; intro Hg.
      + destruct (effl l2 p f); [discriminate | exfalso; apply D2; [discriminate | reflexivity]].
      + destruct (effl l2 p f); [discriminate | apply D1, Hg].
  Qed.
  Lemma stands_globals H g g' l : (forall f, effl g' p f = effl g p f) -> stands H g l -> stands H g' l.
  Proof. intros E [E1 [O1 D1]]. split; [|split]; auto. intro f. rewrite E. apply D1. Qed.
  Lemma stands_as_globals H g g' :
    (forall f, effl g' p f = effl g p f) -> list_ok g' -> stands H g g -> stands H g' g'.
  Proof.
    intros E O [E1 [_ D]]. split; [|split]; [intro f; rewrite E; apply E1 | exact O | intro f; rewrite !E; apply D].
  Qed.
  Lemma stands_one c : list_ok [c] -> stands [c] [c] [c].
  Proof. intro H. split; [|split]; auto. Qed.

  (* the chunk list render_pkg folds for p *)
  Definition view (d : cdd) : list chunk :=
    match dget (dict d) (fst p) with Some l => l | None => glob d end.

  Record Inv (pr : prog) (d : cdd) : Prop := {
    i_fr : frozen d = s_fr (stale pr);
    i_keys : forall k, In k (map fst (dict d)) <-> In k (s_keys (stale pr));
    i_nd : NoDup (map fst (dict d));
    (* not a clone: new keys are seeded from the dict's own live globals *)
    i_cl : s_cl (stale pr) = false -> seed d = None;
    (* the seed is not stale: it is the current globals *)
    i_Fs : s_ss (stale pr) = false -> seedlist d = glob d;
    (* no non-empty global entry yet: no globals *)
    i_hasg : has_globals (entries_of pr) = false -> glob d = [];
    i_okG : list_ok (glob d);
    i_view : stands (entries_of pr) (glob d) (view d);
    (* the globals have been appended to the list of p's key, unless that list is stale *)
    i_F : ~ In (fst p) (s_stale (stale pr)) -> forall x, In x (glob d) -> memc x (view d) = true
  }.

  Lemma atomkey_globalish c : atomkey c = None <-> globalish c = true.
  Proof. unfold atomkey, globalish. destruct (sc c); split; intro; congruence. Qed.
  Lemma atomkey_applies c k : atomkey c = Some k -> applies (sc c) p = true -> k = fst p.
  Proof.
    unfold atomkey. destruct (sc c) as [| |k0|k0 v0]; try discriminate; intro E; injection E as <-; cbn.
    - apply N.eqb_eq.
    - intro H. apply andb_true_iff in H as [H _]. apply N.eqb_eq in H. exact H.
  Qed.
  Lemma atomkey_lockable c k : atomkey c = Some k -> lockable c = true -> sc c = KSimple k.
  Proof. unfold atomkey, lockable. destruct (sc c); try discriminate; intros E _; congruence. Qed.
  Lemma globalish_lockable c : globalish c = true -> lockable c = true -> applies (sc c) p = true.
  Proof. unfold globalish, lockable. destruct (sc c); try discriminate; reflexivity. Qed.

  Lemma has_globals_snoc H c : has_globals (H ++ [c]) = has_globals H || (globalish c && negb (empty_chunk c)).
  Proof. rewrite has_globals_app. unfold has_globals at 2. cbn [existsb]. rewrite orb_false_r. reflexivity. Qed.

  (* an entry that says nothing to p *)
  Lemma stands_silent H g l c : (forall f, effl [c] p f = None) -> stands H g l -> stands (H ++ [c]) g l.
  Proof.
    intros Hc [E [O D]]. split; [|split]; auto. intro f. rewrite effl_app, Hc, E. reflexivity.
  Qed.

  (* when every key's list is stale nothing is claimed of the list of p's key, and without such a
     list the view is the globals themselves *)
  Lemma view_fresh_key d (K : list N) (G : list chunk) (g : list chunk -> list chunk) :
    (forall k, In k (map fst (dict d)) <-> In k K) ->
    ~ In (fst p) K -> forall x, In x G ->
    memc x (match option_map g (dget (dict d) (fst p)) with Some l => l | None => G end) = true.
  Proof.
    intros HK Hst x Hx. destruct (dget (dict d) (fst p)) eqn:E0; cbn [option_map].
    - exfalso. apply Hst, HK, in_keys_dget. congruence.
    - apply memc_in, Hx.
  Qed.

  Lemma inv_new : Inv PNew empty_cdd.
  Proof.
    constructor; cbn; try tauto; try reflexivity; try (now constructor).
    repeat split; [constructor | auto].
  Qed.

  Lemma inv_add_global pr d c d' :
    Inv pr d -> In c Hall -> globalish c = true -> add_global d c = Some d' -> Inv (PAdd pr c) d'.
  Proof.
    intros I Hc Hg Ha. pose proof (proj2 (atomkey_globalish c) Hg) as Hk.
    unfold add_global in Ha. destruct (empty_chunk c) eqn:Ee.
    - (* an empty entry: nothing happens, and it means nothing *)
      injection Ha as <-.
      destruct I. constructor; cbn [stale entries_of]; rewrite ?Hk, ?Ee, ?has_globals_snoc, ?Hg, ?Ee, ?orb_false_r; auto.
      apply stands_silent; [|assumption]. intro f. cbn. rewrite (eff_empty _ _ Ee).
      destruct (applies (sc c) p); reflexivity.
    - destruct (frozen d) eqn:Ef; [discriminate|]. destruct (tup d) eqn:Et; [|discriminate].
      cbn [is_nil negb] in Ha. injection Ha as <-.
      assert (Hokc : list_ok [c]) by (apply entry_ok; [exact Hc | apply globalish_lockable; exact Hg]).
      destruct I as [Ifr Ikeys Ind Icl IFs Ihasg IokG Iview IF].
      assert (HG : forall f, effl (expand_globals (glob d) [c]) p f = effl (glob d ++ [c]) p f)
        by (intro f; apply expand_effl; assumption).
      constructor; unfold view in *; cbn [stale entries_of glob dict frozen seed]; rewrite ?Hk, ?Ee;
        cbn [s_fr s_keys s_stale s_cl s_ss s_hz]; rewrite ?(keys_map (fun _ l => l ++ [c])); auto.
      + (* i_fr *) congruence.
      + (* i_Fs *) intro Hcl. unfold seedlist. cbn [seed glob]. rewrite (Icl Hcl). reflexivity.
      + (* i_hasg *) rewrite has_globals_snoc, Hg, Ee, orb_true_r. discriminate.
      + (* i_okG *) apply expand_ok; assumption.
      + (* i_view *) rewrite (dget_map (fun _ l => l ++ [c])).
        destruct (dget (dict d) (fst p)) eqn:E0 in *; cbn [option_map].
        * apply (stands_globals _ (glob d ++ [c]) _ _ HG), stands_app; [exact Iview | apply stands_one, Hokc].
        * apply (stands_as_globals _ (glob d ++ [c]) _ HG); [apply expand_ok; assumption|].
          apply stands_app; [exact Iview | apply stands_one, Hokc].
      + (* i_F *) rewrite (dget_map (fun _ l => l ++ [c])). apply view_fresh_key; exact Ikeys.
  Qed.

  Lemma inv_add_key pr d c k d' :
    Inv pr d -> In c Hall -> atomkey c = Some k -> add_key d k c = Some d' ->
    ~ In (fst p) (s_hz (stale (PAdd pr c))) -> Inv (PAdd pr c) d'.
  Proof.
    intros [Ifr Ikeys Ind Icl IFs Ihasg IokG Iview IF] Hc Hk Ha Hhz. unfold view in Iview, IF.
    assert (Hng : globalish c = false).
    { destruct (globalish c) eqn:E; [|reflexivity]. apply atomkey_globalish in E. congruence. }
    unfold add_key in Ha. destruct (frozen d) eqn:Ef; [discriminate|].
    destruct (mem k (tup d)); [discriminate|]. injection Ha as <-.
    (* outside the hazard the list of p's key holds the globals already: nothing is re-appended *)
    assert (Hre : k = fst p -> reappend (glob d) (dget_default d k)
                               = match dget (dict d) (fst p) with Some l => l | None => glob d end).
    { intros ->. destruct (no_hz_add_key pr c _ Hk Hhz) as [Hst Hnew]. unfold dget_default.
      destruct (dget (dict d) (fst p)) eqn:E0 in *.
      - apply reappend_id, IF, Hst.
      - rewrite IFs; [apply reappend_id; intros x Hx; apply memc_in, Hx|].
        apply Hnew. rewrite <- Ikeys, in_keys_dget. congruence. }
    constructor; unfold view; cbn [stale entries_of glob dict frozen seed]; rewrite ?Hk;
      cbn [s_fr s_keys s_stale s_cl s_ss s_hz]; rewrite ?has_globals_snoc, ?Hng, ?orb_false_r, ?dget_dset; auto.
    - (* i_keys *) intro x. rewrite keys_dset, Ikeys. reflexivity.
    - (* i_nd *) apply nodup_dset. exact Ind.
    - (* i_view *) destruct (N.eqb_spec k (fst p)) as [E|Hne].
      + (* the entry is for the key of p *)
        rewrite (Hre E). subst k.
        assert (Hokc : list_ok [c]).
        { apply entry_ok; [exact Hc|]. intro Hl. rewrite (atomkey_lockable c _ Hk Hl). cbn. apply N.eqb_refl. }
        apply (stands_globals _ (glob d ++ [])); [intro f; rewrite app_nil_r; reflexivity|].
        apply stands_app; [exact Iview|]. destruct (stands_one c Hokc) as [E [O _]].
        split; [|split]; auto.
      + (* an entry for another key: invisible for p *)
        apply stands_silent; [|exact Iview]. intro f. cbn.
        destruct (applies (sc c) p) eqn:E; [|reflexivity]. exfalso. exact (Hne (atomkey_applies c k Hk E)).
    - (* i_F *) destruct (N.eqb_spec k (fst p)) as [E|Hne]; [|exact IF].
      intros Hst x Hx. rewrite (Hre E), memc_app, (IF Hst x Hx). reflexivity.
  Qed.

  Lemma inv_transfer pr pr' d :
    entries_of pr' = entries_of pr -> stale pr' = stale pr -> Inv pr d -> Inv pr' d.
  Proof. intros H1 H2 I. destruct I. constructor; rewrite ?H1, ?H2; assumption. Qed.

  Lemma inv_freeze pr d : Inv pr d -> Inv (PFreeze pr) (freeze d).
  Proof. intro I. destruct I. constructor; auto. Qed.

  Lemma inv_clone pr d u : Inv pr d -> Inv (PClone pr u) (clone d u).
  Proof.
    intro I. unfold clone. destruct (frozen d && negb u) eqn:Ec.
    - apply (inv_transfer pr); [reflexivity | | exact I].
      cbn [stale]. rewrite <- (i_fr _ _ I), Ec. reflexivity.
    - assert (Hs : stale (PClone pr u) =
                   mkst (s_keys (stale pr)) (s_stale (stale pr)) true false (s_hz (stale pr)) false).
      { cbn [stale]. rewrite <- (i_fr _ _ I), Ec. reflexivity. }
      destruct I as [Ifr Ikeys Ind Icl IFs Ihasg IokG Iview IF].
      constructor; unfold view in *; rewrite ?Hs;
        cbn [entries_of glob dict frozen seed s_fr s_keys s_stale s_cl s_ss s_hz];
        rewrite ?(keys_map (fun _ l => glob d ++ l)), ?(dget_map (fun _ l => glob d ++ l)); auto.
      + (* i_cl *) discriminate.
      + (* i_view: the globals in front of a list that decides all they decide change nothing *)
        destruct (dget (dict d) (fst p)) eqn:E0 in *; cbn [option_map]; [|exact Iview].
        destruct Iview as [E [O D]]. split; [|split].
        * intro f. rewrite effl_app, <- E. specialize (D f).
          destruct (effl l p f), (effl (glob d) p f); cbn [orelse]; auto. exfalso. apply D; [discriminate | reflexivity].
        * apply list_ok_app; assumption.
        * intros f Hf. rewrite effl_app. specialize (D f Hf). destruct (effl l p f); [discriminate | contradiction].
      + (* i_F *) destruct (dget (dict d) (fst p)) eqn:E0 in *; cbn [option_map]; [|exact IF].
        intros _ x Hx. rewrite memc_app, (memc_in x _ Hx). reflexivity.
  Qed.

  Lemma inv_opt pr d : Inv pr d -> Inv (POpt pr) (optimize d).
  Proof.
    intros [Ifr Ikeys Ind Icl IFs Ihasg IokG Iview IF]. unfold optimize.
    assert (Hap : applies (KSimple (fst p)) p = true) by (cbn; apply N.eqb_refl).
    assert (Hb : forall l r, applies r p = true -> lockable (mkc r [] []) = true ->
                   stands (entries_of pr) (glob d) l -> stands (entries_of pr) (build (glob d) KAll) (build l r)).
    { intros l r Hr Hlr [E [O D]]. split; [|split].
      - intro f. rewrite build_effl_ok; auto.
      - apply build_ok; auto.
      - intro f. rewrite !build_effl_ok; auto. }
    constructor; unfold view in *; cbn [stale entries_of glob dict frozen seed s_fr s_keys s_stale s_cl s_ss s_hz];
      rewrite ?(keys_map (fun k l => build l (KSimple k))), ?(dget_map (fun k l => build l (KSimple k))); auto.
    - (* i_Fs *) intro Hcl. unfold seedlist. cbn [seed glob]. rewrite (Icl Hcl). reflexivity.
    - (* i_hasg *) intro H. rewrite (Ihasg H). reflexivity.
    - (* i_okG *) apply build_ok; auto.
    - (* i_view *) destruct (dget (dict d) (fst p)) eqn:E0 in *; cbn [option_map]; apply Hb; auto.
    - (* i_F *) apply view_fresh_key; exact Ikeys.
  Qed.

  Lemma inv_merge pr q d e d' :
    Inv pr d -> Inv q e -> merge d e = Some d' ->
    ~ In (fst p) (s_hz (stale (PMerge pr q))) -> Inv (PMerge pr q) d'.
  Proof.
    intros [Ifr Ikeys Ind Icl IFs Ihasg IokG Iview IF] [Jfr Jkeys Jnd Jcl JFs Jhasg JokG Jview JF] Hm Hhz.
    destruct (merge_spec d e d' Hm Jnd) as [Hfr [Hseed [Hg [Hnd Hd]]]].
    (* when p's key comes only from the merged dict, the seed is not stale *)
    assert (Hss : dget (dict e) (fst p) <> None -> dget (dict d) (fst p) = None -> seedlist d = glob d).
    { intros H1 H2. apply IFs, (no_hz_merge pr q _ Hhz); rewrite <- ?Ikeys, <- ?Jkeys, in_keys_dget; auto. }
    (* without globals in the merged dict the globals stay and staleness is inherited *)
    assert (Hng : has_globals (entries_of q) = false -> glob d' = glob d).
    { intro H. rewrite Hg, (Jhasg H). apply expand_globals_nil. }
    assert (HgE : forall f, effl (glob d') p f = effl (glob d ++ glob e) p f)
      by (intro f; rewrite Hg; apply expand_effl; assumption).
    destruct (stale_merge pr q) as [Sfr [Scl [Skeys [Sss Sstale]]]]. cbv zeta in *.
    assert (Hkeys : forall x, In x (map fst (dict d')) <-> In x (s_keys (stale pr) ++ s_keys (stale q))).
    { intro x. rewrite in_app_iff, <- Ikeys, <- Jkeys. apply (merge_keys_in d e d' Hm Jnd). }
    unfold view in Iview, Jview, IF.
    constructor; unfold view; rewrite ?Sfr, ?Scl, ?Skeys, ?Sss, ?Sstale, ?(Hd (fst p)); cbn [entries_of]; auto.
    - (* i_fr *) congruence.
    - (* i_cl *) rewrite Hseed. exact Icl.
    - (* i_Fs *) unfold seedlist. rewrite Hseed. destruct (has_globals (entries_of q)) eqn:Ehg; intro H.
      + rewrite (Icl H). reflexivity.
      + rewrite (Hng eq_refl). exact (IFs H).
    - (* i_hasg *) rewrite has_globals_app. intro H. apply orb_false_iff in H as [H1 H2].
      rewrite (Hng H2). exact (Ihasg H1).
    - (* i_okG *) rewrite Hg. apply expand_ok; assumption.
    - (* i_view: the new list of p's key is the old one, or else the globals, followed by the same of the
         merged dict *)
      destruct (dget (dict e) (fst p)) eqn:E1 in *; destruct (dget (dict d) (fst p)) eqn:E0 in *;
        rewrite ?Hss by congruence.
      1-3: apply (stands_globals _ (glob d ++ glob e) _ _ HgE), stands_app; assumption.
      apply (stands_as_globals _ (glob d ++ glob e) _ HgE); [rewrite Hg; apply expand_ok; assumption|].
      apply stands_app; assumption.
    - (* i_F *) destruct (has_globals (entries_of q)) eqn:Ehg.
      + (* every key is stale; without a list for p's key the view is the globals *)
        rewrite <- Hkeys, in_keys_dget, (Hd (fst p)). intros Hs x Hx.
        destruct (dget (dict e) (fst p)), (dget (dict d) (fst p)); try (exfalso; apply Hs; discriminate).
        apply memc_in, Hx.
      + rewrite (Hng eq_refl), (Jhasg eq_refl), in_app_iff. intros Hs x Hx.
        assert (HI : memc x (match dget (dict d) (fst p) with Some l => l | None => glob d end) = true)
          by (apply IF; tauto).
        destruct (dget (dict e) (fst p)) eqn:E1 in *; destruct (dget (dict d) (fst p)) eqn:E0 in *;
          rewrite ?Hss, ?memc_app, HI by congruence; reflexivity.
  Qed.

  Lemma inv_render pr d : Inv pr d ->
    forall pre, same_set (render d p pre) (apply_history (entries_of pr) p pre).
  Proof.
    intros I pre f. destruct (i_view _ _ I) as [E _].
    unfold render. fold (view d). rewrite render_effl, history_effl, E. reflexivity.
  Qed.
End Inv.
