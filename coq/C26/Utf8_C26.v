(* Utf8_C26.v — the UTF-8 functions of Model_C26: decoding after encoding is the identity. *)
From Coq Require Import List NArith Bool Lia.
From Verif Require Import C26.Model_C26.
Local Open Scope N_scope.

Lemma between_true lo b hi : lo <= b <= hi -> between lo b hi = true.
Proof. intros [H1 H2]. unfold between. apply andb_true_iff. split; apply N.leb_le; assumption. Qed.

Lemma between_above lo b hi : hi < b -> between lo b hi = false.
Proof. intro H. unfold between. apply andb_false_iff. right. apply N.leb_gt. exact H. Qed.

Lemma cont_digit r : r < 64 -> cont (128 + r) = true.
Proof. intro H. apply between_true. lia. Qed.

Lemma ltb_false a b : b <= a -> (a <? b) = false.
Proof. apply N.ltb_ge. Qed.

Lemma add_sub_l k x : k + x - k = x.
Proof. rewrite N.add_comm. apply N.add_sub. Qed.

(* The decoder on each of the four well-formed shapes, the payload given by its base-64 digits.
   The conditions on the second digit are the ones of Unicode table 3-7: no overlong form, no
   surrogate, nothing above U+10FFFF. *)
Lemma decode1 c r t : c < 128 -> utf8_decode r = Some t -> utf8_decode (c :: r) = Some (c :: t).
Proof. intros H Hr. cbn [utf8_decode]. apply N.ltb_lt in H. rewrite H, Hr. reflexivity. Qed.

Lemma decode2 a b r t :
  2 <= a < 32 -> b < 64 -> utf8_decode r = Some t ->
  utf8_decode (192 + a :: 128 + b :: r) = Some (a * 64 + b :: t).
Proof.
  intros Ha Hb Hr. cbn [utf8_decode].
  rewrite ltb_false, between_true, cont_digit, Hr, !add_sub_l by lia. reflexivity.
Qed.

Lemma decode3 a b d r t :
  a < 16 -> b < 64 -> d < 64 -> (a = 0 -> 32 <= b) -> (a = 13 -> b < 32) ->
  utf8_decode r = Some t ->
  utf8_decode (224 + a :: 128 + b :: 128 + d :: r) = Some (a * 4096 + b * 64 + d :: t).
Proof.
  intros Ha Hb Hd H0 H13 Hr. cbn [utf8_decode].
  rewrite ltb_false, between_above, (between_true 224), between_true, cont_digit, Hr, !add_sub_l
    by (try destruct (N.eqb_spec (224 + a) 224); try destruct (N.eqb_spec (224 + a) 237); lia).
  reflexivity.
Qed.

Lemma decode4 a b d e r t :
  a <= 4 -> b < 64 -> d < 64 -> e < 64 -> (a = 0 -> 16 <= b) -> (a = 4 -> b < 16) ->
  utf8_decode r = Some t ->
  utf8_decode (240 + a :: 128 + b :: 128 + d :: 128 + e :: r)
  = Some (a * 262144 + b * 4096 + d * 64 + e :: t).
Proof.
  intros Ha Hb Hd He H0 H4 Hr. cbn [utf8_decode].
  rewrite ltb_false, !between_above, (between_true 240), between_true, !cont_digit, Hr, !add_sub_l
    by (try destruct (N.eqb_spec (240 + a) 240); try destruct (N.eqb_spec (240 + a) 244); lia).
  reflexivity.
Qed.

(* n in base k: quotient and digit as variables, so that [lia] is not shown the divisions *)
Lemma div_mod_digits k n :
  k <> 0 -> exists q r, n = q * k + r /\ r < k /\ n / k = q /\ n mod k = r.
Proof.
  intro H. exists (n / k), (n mod k).
  repeat split; [rewrite N.mul_comm; apply N.div_mod' | apply N.mod_lt; exact H].
Qed.

(* [injection] would also evaluate the additions inside the byte lists *)
Lemma Some_inj {A} (x y : A) : Some x = Some y -> x = y.
Proof. congruence. Qed.

Lemma enc_cp_decode c e r t :
  enc_cp c = Some e -> utf8_decode r = Some t -> utf8_decode (e ++ r) = Some (c :: t).
Proof.
  intros He Hr. revert He. unfold enc_cp.
  (* c in base 64, c = ((c3 * 64 + d2) * 64 + d1) * 64 + d0: the encoder's bytes carry these digits,
     and every side condition of decode1..4 is linear in them *)
  change 4096 with (64 * 64). change 262144 with (64 * 64 * 64).
  rewrite <- !N.div_div by discriminate.
  destruct (div_mod_digits 64 c ltac:(discriminate)) as (c1 & d0 & E0 & L0 & -> & ->).
  destruct (div_mod_digits 64 c1 ltac:(discriminate)) as (c2 & d1 & E1 & L1 & -> & ->).
  destruct (div_mod_digits 64 c2 ltac:(discriminate)) as (c3 & d2 & E2 & L2 & -> & ->).
  destruct (N.ltb_spec c 128).
  { intros <-%Some_inj. apply decode1; assumption. }
  destruct (N.ltb_spec c 2048).
  { intros <-%Some_inj. cbn [app]. rewrite (decode2 c1 d0 r t) by (assumption || lia).
    do 2 f_equal. lia. }
  destruct (N.ltb_spec c 65536).
  { destruct (N.leb_spec 55296 c), (N.ltb_spec c 57344); try discriminate;
      intros <-%Some_inj; cbn [app]; rewrite (decode3 c2 d1 d0 r t) by (assumption || lia);
      do 2 f_equal; lia. }
  destruct (N.ltb_spec c 1114112); [|discriminate].
  intros <-%Some_inj. cbn [app]. rewrite (decode4 c3 d2 d1 d0 r t) by (assumption || lia).
  do 2 f_equal. lia.
Qed.

Lemma utf8_roundtrip_proof : forall c b, utf8_encode c = Some b -> utf8_decode b = Some c.
Proof.
  induction c as [|x c IH]; intros b H.
  - injection H as <-. reflexivity.
  - cbn [utf8_encode] in H.
    destruct (enc_cp x) as [e|] eqn:Ex; [|discriminate].
    destruct (utf8_encode c) as [r|] eqn:Er; [|discriminate].
    injection H as <-. apply (enc_cp_decode x e r c Ex). apply IH. reflexivity.
Qed.

(* encodable = Unicode scalar values *)
Lemma enc_cp_defined c : (exists e, enc_cp c = Some e) <-> (c < 1114112 /\ ~ (55296 <= c < 57344)).
Proof.
  unfold enc_cp.
  destruct (N.ltb_spec c 128); [split; [lia | eauto]|].
  destruct (N.ltb_spec c 2048); [split; [lia | eauto]|].
  destruct (N.ltb_spec c 65536).
  - destruct (N.leb_spec 55296 c), (N.ltb_spec c 57344); cbn [andb];
      (split; [intros [e He]; try discriminate; lia | intro; try lia; eauto]).
  - destruct (N.ltb_spec c 1114112);
      (split; [intros [e He]; try discriminate; lia | intro; try lia; eauto]).
Qed.

Lemma utf8_encode_ascii : forall c, Forall (fun b => b < 128) c -> utf8_encode c = Some c.
Proof.
  induction c as [|x c IH]; intro H; [reflexivity|].
  inversion H as [|y l Hx Hc]; subst. cbn [utf8_encode]. unfold enc_cp.
  apply N.ltb_lt in Hx. rewrite Hx. rewrite (IH Hc). reflexivity.
Qed.
