(* Path_C25.v — POSIX path string functions used by the C25 model (posixpath.normpath / join /
   dirname, str.lstrip("/") / rstrip("/") / startswith).
   The definitions are the ones of C22/Model_C22.v (transcribed from CPython's posixpath), copied
   here so that the C25 model does not depend on C22; being the same terms, they inherit C22's
   lemmas (C25/Proofs_C25.v). *)
From Coq Require Import List ZArith Bool.
Import ListNotations.
From Verif Require Import Base.Val.

Definition SL : N := 47%N.                       (* "/" *)
Definition is_sl (c : N) : bool := N.eqb c 47.
Definition dot : str := [46%N].
Definition dotdot : str := [46%N; 46%N].

Fixpoint split_sl (s : str) : list str :=        (* s.split("/") *)
  match s with
  | [] => [[]]
  | c :: r =>
      if is_sl c then [] :: split_sl r
      else match split_sl r with
           | h :: t => (c :: h) :: t
           | [] => [[c]]
           end
  end.

Fixpoint join_sl (l : list str) : str :=         (* "/".join(l) *)
  match l with
  | [] => []
  | a :: r => match r with [] => a | _ => a ++ SL :: join_sl r end
  end.

(* one iteration of the component loop of posixpath.normpath; [acc] is new_comps, top first *)
Definition np_step (rooted : bool) (acc : list str) (c : str) : list str :=
  if str_eqb c [] || str_eqb c dot then acc
  else if negb (str_eqb c dotdot) then c :: acc
  else match acc with
       | [] => if rooted then acc else c :: acc
       | t :: r => if str_eqb t dotdot then c :: acc else r
       end.

(* initial_slashes: 0, 1, or 2 (exactly two leading slashes are kept, POSIX) *)
Definition init_slashes (p : str) : nat :=
  match p with
  | a :: r =>
      if is_sl a then
        match r with
        | b :: r2 =>
            if is_sl b then
              match r2 with
              | c :: _ => if is_sl c then 1 else 2
              | [] => 2
              end
            else 1
        | [] => 1
        end
      else 0
  | [] => 0
  end.

Definition np_comps (p : str) : list str :=
  fold_left (np_step (Nat.ltb 0 (init_slashes p))) (split_sl p) [].

Definition or_dot (r : str) : str := match r with [] => dot | _ => r end.

Definition normpath (p : str) : str :=
  match p with
  | [] => dot
  | _ => or_dot (repeat SL (init_slashes p) ++ join_sl (rev (np_comps p)))
  end.

Fixpoint drop_while (f : N -> bool) (s : str) : str :=
  match s with
  | [] => []
  | c :: r => if f c then drop_while f r else s
  end.
Definition lstrip_sl (s : str) : str := drop_while is_sl s.
Definition rstrip_sl (s : str) : str := rev (drop_while is_sl (rev s)).
Definition strip_sl (s : str) : str := rstrip_sl (lstrip_sl s).

(* posixpath.dirname *)
Definition dirname (p : str) : str :=
  let rh := drop_while (fun c => negb (is_sl c)) (rev p) in      (* reversed head *)
  if forallb is_sl rh then rev rh else rev (drop_while is_sl rh).

Fixpoint starts_with (pre s : str) : bool :=
  match pre, s with
  | [], _ => true
  | a :: pre', b :: s' => N.eqb a b && starts_with pre' s'
  | _ :: _, [] => false
  end.

Definition ends_sl (a : str) : bool :=
  match rev a with c :: _ => is_sl c | [] => false end.

(* posixpath.join(a, b) *)
Definition pjoin (a b : str) : str :=
  match b with
  | c :: _ => if is_sl c then b
              else match a with
                   | [] => b
                   | _ => if ends_sl a then a ++ b else a ++ SL :: b
                   end
  | [] => match a with
          | [] => []
          | _ => if ends_sl a then a else a ++ [SL]
          end
  end.

(* Python's str "<" : lexicographic on code points *)
Fixpoint str_ltb (a b : str) : bool :=
  match a, b with
  | _, [] => false
  | [], _ :: _ => true
  | x :: a', y :: b' => if N.ltb x y then true else if N.eqb x y then str_ltb a' b' else false
  end.

(* change_offset_rewriter: strips len(orig.rstrip("/")) characters blindly, then "/"s, joins *)
Definition reloc (old new : str) (loc : str) : str :=
  normpath (pjoin new (lstrip_sl (skipn (length (rstrip_sl old)) loc))).
(* iter_child_nodes: the prefix every child location starts with *)
Definition child_prefix (start : str) : str := rstrip_sl (normpath start) ++ [SL].

Definition nosl (c : str) : Prop := forallb (fun x => negb (is_sl x)) c = true.
(* a plain path component: non-empty, not "." or "..", no "/" *)
Definition plainc (c : str) : Prop := c <> [] /\ c <> dot /\ c <> dotdot /\ nosl c.

Lemma split_nosl_one a : nosl a -> split_sl a = [a].
Proof.
  induction a as [|c a IH]; intros H; cbn; [reflexivity|].
  unfold nosl in H. cbn in H. apply andb_true_iff in H as [H1 H2].
  apply negb_true_iff in H1. rewrite H1. rewrite (IH H2). reflexivity.
Qed.

Lemma split_app_sl a s : nosl a -> split_sl (a ++ SL :: s) = a :: split_sl s.
Proof.
  induction a as [|c a IH]; intros H; cbn.
  - reflexivity.
  - unfold nosl in H. cbn in H. apply andb_true_iff in H as [H1 H2].
    apply negb_true_iff in H1. rewrite H1. rewrite (IH H2). reflexivity.
Qed.

Lemma split_join l : l <> [] -> Forall nosl l -> split_sl (join_sl l) = l.
Proof.
  induction l as [|a r IH]; intros Hne HF; [congruence|].
  inversion HF as [|? ? Ha Hr]; subst. cbn [join_sl].
  destruct r as [|b r'].
  - apply split_nosl_one; assumption.
  - rewrite split_app_sl by assumption. f_equal. apply IH; [discriminate|assumption].
Qed.

(* the absolute normalised path with components [l] *)
Definition abs_of (l : list str) : str := SL :: join_sl l.

Lemma starts_with_iff pre s : starts_with pre s = true <-> exists rest, s = pre ++ rest.
Proof.
  revert s; induction pre as [|a pre IH]; intros s; cbn.
  - split; [eauto|reflexivity].
  - destruct s as [|b s]; [split; [discriminate|intros (r & H); discriminate]|].
    rewrite andb_true_iff, N.eqb_eq, IH. split.
    + intros (-> & r & ->). eauto.
    + intros (r & H). injection H as -> ->. eauto.
Qed.
