(* C06/RestrInd.v — structural induction for the rose tree [restr] (Coq's generated principle
   gives no hypothesis for the children list), written by hand with a nested [fix]. *)
From Coq Require Import List.
Import ListNotations.
From Verif Require Import C06.Restr.

Section RestrInd.
  Variable P : restr -> Prop.
  Hypothesis HLeaf : forall n i, P (Leaf n i).
  Hypothesis HAlways : forall b, P (Always b).
  Hypothesis HNeg : forall r, P r -> P (Neg r).
  Hypothesis HNode : forall k n cs, Forall P cs -> P (Node k n cs).

  Fixpoint restr_ind' (r : restr) : P r :=
    match r with
    | Leaf n i => HLeaf n i
    | Always b => HAlways b
    | Neg r' => HNeg r' (restr_ind' r')
    | Node k n cs =>
        HNode k n cs
          ((fix go (l : list restr) : Forall P l :=
              match l with
              | [] => Forall_nil P
              | c :: l' => Forall_cons c (restr_ind' c) (go l')
              end) cs)
    end.
End RestrInd.
