(* The inductive invariant [Inv] of the thread pool LTS and what it gives when map_async returns. *)
From Coq Require Import List ZArith Bool Lia Permutation.
Import ListNotations.
From Verif Require Import C41.Lts C41.Model_C41 C41.Spec_C41.

Lemma sumf_app {A} (h : A -> nat) l1 l2 : sumf h (l1 ++ l2) = sumf h l1 + sumf h l2.
Proof. induction l1 as [|x l1 IH]; cbn; [reflexivity | rewrite IH; lia]. Qed.

Lemma sumf_upd {A} (h : A -> nat) l i old v :
  nth_error l i = Some old -> sumf h (upd l i v) + h old = sumf h l + h v.
Proof.
  revert i. induction l as [|x l IH]; intros [|i] H; cbn in *; try discriminate.
  - injection H as ->. lia.
  - specialize (IH i H). lia.
Qed.

Lemma length_upd {A} (l : list A) i v : length (upd l i v) = length l.
Proof. revert i. induction l as [|x l IH]; intros [|i]; cbn; auto. Qed.

Lemma nth_upd_same {A} (l : list A) i v : i < length l -> nth_error (upd l i v) i = Some v.
Proof. revert i. induction l as [|x l IH]; intros [|i] H; cbn in *; try lia; auto. apply IH. lia. Qed.

Lemma nth_upd_other {A} (l : list A) i j v : i <> j -> nth_error (upd l i v) j = nth_error l j.
Proof.
  revert i j. induction l as [|x l IH]; intros [|i] [|j] H; cbn; auto; try congruence.
Qed.

Lemma sumf_repeat {A} (h : A -> nat) x n : sumf h (repeat x n) = n * h x.
Proof. induction n; cbn; lia. Qed.

Lemma sumf_zero {A} (h : A -> nat) l : (forall x, h x = 0) -> sumf h l = 0.
Proof. intro H. induction l as [|x l IH]; cbn; [reflexivity | rewrite H, IH; reflexivity]. Qed.

Ltac inv_step H :=
  repeat match type of H with
         | context [match ?x with _ => _ end] => destruct x eqn:?; try discriminate H
         end;
  try (injection H as <-).

Ltac upd_sums :=
  repeat match goal with
         | Hn : nth_error ?l ?i = Some ?old |- context [sumf ?h (upd ?l ?i ?v)] =>
             let U := fresh "U" in let z := fresh "z" in
             pose proof (sumf_upd h l i old v Hn) as U; cbn in U;
             set (z := sumf h (upd l i v)) in *; clearbody z
         | Hn : nth_error ?l ?i = Some ?old, X : context [sumf ?h (upd ?l ?i ?v)] |- _ =>
             let U := fresh "U" in let z := fresh "z" in
             pose proof (sumf_upd h l i old v Hn) as U; cbn in U;
             set (z := sumf h (upd l i v)) in *; clearbody z
         end.

Lemma inv_LStart c s w s' : stepf c s (LStart w) = Some s' ->
  pc s = MStart w /\ w < parallelism c /\ nth_error (ws s) w = Some WNew /\
  s' = set_pc (set_w s w (WLoop [])) (norm_start c (S w)).
Proof.
  unfold stepf. intro H. inv_step H.
  apply andb_prop in Heqb as [E1 E2]. apply Nat.eqb_eq in E1. apply Nat.ltb_lt in E2. subst. auto.
Qed.

Lemma inv_LPut c s x s' : stepf c s (LPut x) = Some s' ->
  exists r, pc s = MFeed (x :: r) /\
  s' = {| pc := after_put c r; q := q s ++ [Some x]; ws := ws s; processed := processed s;
          results := results s; kill := kill s |}.
Proof.
  unfold stepf. intro H. inv_step H. apply N.eqb_eq in Heqb. subst. eauto.
Qed.

Lemma inv_LKill c s s' : stepf c s LKill = Some s' ->
  pc s = MFeed [] /\
  s' = {| pc := norm_sent (parallelism c); q := q s; ws := ws s; processed := processed s;
          results := results s; kill := true |}.
Proof. unfold stepf. intro H. inv_step H. auto. Qed.

Lemma inv_LSent c s s' : stepf c s LSent = Some s' ->
  exists k, pc s = MSent k /\
  s' = {| pc := norm_sent k; q := q s ++ [None]; ws := ws s; processed := processed s;
          results := results s; kill := kill s |}.
Proof. unfold stepf. intro H. inv_step H. eauto. Qed.

Lemma inv_LJoin c s w s' : stepf c s (LJoin w) = Some s' ->
  exists v, pc s = MJoin w /\ w < parallelism c /\ nth_error (ws s) w = Some v /\ finished v = true /\
  s' = set_pc s (MJoin (S w)).
Proof.
  unfold stepf. intro H. inv_step H.
  apply andb_prop in Heqb as [E1 E2]. apply Nat.eqb_eq in E1. apply Nat.ltb_lt in E2. subst. eauto 6.
Qed.

Lemma inv_LRet c s s' : stepf c s LRet = Some s' ->
  pc s = MJoin (parallelism c) /\ s' = set_pc s MDone.
Proof. unfold stepf. intro H. inv_step H. apply Nat.eqb_eq in Heqb. subst. auto. Qed.

(* what a worker's step does, whichever label it has: its own state [old] becomes [v], it takes
   [qout] off the head of the queue, hands the items [px] to the functor and appends [rs] to the
   results; [k] is the kill flag it sees *)
Definition retl (c : cfg) (a : list N) : list res := match mode c with RetList => [RL a] | _ => [] end.
Definition gens (c : cfg) (ys : list N) : list res := match mode c with Gen => map RY ys | _ => [] end.
Inductive wstep (c : cfg) (k : bool) : wst -> list (option item) -> wst -> list item -> list res -> Prop :=
| ws_chk a : k = false -> wstep c k (WLoop a) [] (WGet a) [] []
| ws_killed a : k = true -> wstep c k (WLoop a) [] (WExit a) [] (retl c a)
| ws_get a x : wstep c k (WGet a) [Some x] (WBusy a x) [] []
| ws_sentinel a : wstep c k (WGet a) [None] (WExit a) [] (retl c a)
| ws_ok a x : dies c x = false -> wstep c k (WBusy a x) [] (WLoop (a ++ ys_of c x)) [x] (gens c (ys_of c x))
| ws_die a x : dies c x = true -> wstep c k (WBusy a x) [] (WDead a) [x] [].

Definition worker_of (l : label) : option nat :=
  match l with LChk w _ | LGet w _ | LProc w _ => Some w | _ => None end.

Lemma inv_worker c s l w s' : worker_of l = Some w -> stepf c s l = Some s' ->
  exists old qout q' v px rs,
    wstep c (kill s) old qout v px rs /\ nth_error (ws s) w = Some old /\ q s = qout ++ q' /\
    s' = {| pc := pc s; q := q'; ws := upd (ws s) w v; processed := processed s ++ px;
            results := results s ++ rs; kill := kill s |}.
Proof.
  unfold stepf. destruct l; intro E; try discriminate E; injection E as ->; intro H.
  - destruct (nth_error (ws s) w) as [[|acc| | | |]|]; try discriminate H.
    destruct (Bool.eqb b (kill s)) eqn:Eb; [|discriminate H]. apply eqb_prop in Eb. subst b. injection H as <-.
    destruct (kill s) eqn:K.
    + exists (WLoop acc), [], (q s), (WExit acc), [], (retl c acc).
      unfold exit_normally. rewrite K, app_nil_r. repeat split. now constructor.
    + exists (WLoop acc), [], (q s), (WGet acc), [], [].
      unfold set_w. rewrite K, !app_nil_r. repeat split. now constructor.
  - destruct (nth_error (ws s) w) as [[| |acc| | |]|]; try discriminate H.
    destruct (q s) as [|o' q']; [discriminate H|]. destruct o as [x|], o' as [x'|]; try discriminate H.
    + destruct (N.eqb x x') eqn:Ex; [|discriminate H]. apply N.eqb_eq in Ex. subst x'. injection H as <-.
      exists (WGet acc), [Some x], q', (WBusy acc x), [], [].
      unfold set_w. cbn. rewrite !app_nil_r. repeat split. constructor.
    + injection H as <-. exists (WGet acc), [None], q', (WExit acc), [], (retl c acc).
      unfold exit_normally. cbn. rewrite app_nil_r. repeat split. constructor.
  - destruct (nth_error (ws s) w) as [[| | |acc x'| |]|]; try discriminate H.
    destruct (N.eqb x x') eqn:Ex; [|discriminate H]. apply N.eqb_eq in Ex. subst x'.
    assert (Y : ys_of c x = match fout c x with Ok ys => ys | Die => [] end) by reflexivity.
    assert (D : dies c x = match fout c x with Ok _ => false | Die => true end) by (unfold dies; destruct (fout c x); reflexivity).
    destruct (fout c x) as [ys|]; injection H as <-.
    + exists (WBusy acc x), [], (q s), (WLoop (acc ++ ys)), [x], (gens c ys). repeat split.
      rewrite <- Y. now constructor.
    + exists (WBusy acc x), [], (q s), (WDead acc), [x], []. rewrite app_nil_r. repeat split. now constructor.
Qed.

Lemma norm_sent_mm c k : k <= parallelism c -> mm c (norm_sent k) <= 5 * k + (parallelism c - k) + 1.
Proof. destruct k; cbn; lia. Qed.

Lemma after_put_mm c r : mm c (after_put c r) <= 4 * length r + 5 * parallelism c + 3.
Proof.
  unfold after_put. destruct r; cbn [mm length]; [|lia].
  destruct (iter_raises c); cbn [mm length]; [lia|].
  pose proof (norm_sent_mm c (parallelism c)). lia.
Qed.

Lemma step_decreases c s l s' : step c s l s' -> measure c s' < measure c s.
Proof.
  unfold step, fstep, measure. intro H. destruct (worker_of l) as [w|] eqn:Ew.
  { destruct (inv_worker c s l w s' Ew H) as (old & qout & q' & v & px & rs & Hw & Hn & Hq & ->).
    rewrite Hq. cbn. upd_sums. destruct Hw; cbn in *; lia. }
  destruct l; try discriminate Ew.
  - apply inv_LStart in H as (Hpc & Hw & Hn & ->). cbn. rewrite Hpc.
    pose proof (sumf_upd wm (ws s) w _ (WLoop []) Hn) as U. cbn in U.
    assert (mm c (norm_start c (S w)) < mm c (MStart w)); [|lia].
    unfold norm_start. destruct (S w <? parallelism c) eqn:E.
    + apply Nat.ltb_lt in E. cbn. lia.
    + pose proof (after_put_mm c (items c)). cbn [mm]. lia.
  - apply inv_LPut in H as (r & Hpc & ->). cbn. rewrite Hpc, app_length.
    pose proof (after_put_mm c r). cbn [mm length]. lia.
  - apply inv_LKill in H as (Hpc & ->). cbn. rewrite Hpc. cbn [mm length].
    pose proof (norm_sent_mm c (parallelism c)). lia.
  - apply inv_LSent in H as (k & Hpc & ->). cbn. rewrite Hpc, app_length. destruct k; cbn; lia.
  - apply inv_LJoin in H as (v & Hpc & Hw & _ & _ & ->). cbn. rewrite Hpc. cbn. lia.
  - apply inv_LRet in H as (Hpc & ->). cbn. rewrite Hpc. cbn. lia.
Qed.

Definition qit (g : item -> nat) (o : option item) : nat := match o with Some x => g x | None => 0 end.
Definition isNone (o : option item) : nat := match o with None => 1 | Some _ => 0 end.
Definition infl (g : item -> nat) (v : wst) : nat := match v with WBusy _ x => g x | _ => 0 end.
Definition acc_of (v : wst) : list N :=
  match v with WNew => [] | WLoop a | WGet a | WBusy a _ | WExit a | WDead a => a end.
Definition accw (g : N -> nat) (v : wst) : nat := sumf g (acc_of v).
Definition fin1 (v : wst) : nat := if finished v then 1 else 0.
Definition exit1 (v : wst) : nat := match v with WExit _ => 1 | _ => 0 end.
Definition dead1 (v : wst) : nat := match v with WDead _ => 1 | _ => 0 end.
Definition die1 (c : cfg) (x : item) : nat := if dies c x then 1 else 0.
Definition exw (h : list N -> nat) (v : wst) : nat := match v with WExit a => h a | _ => 0 end.
Definition rlw (h : list N -> nat) (r : res) : nat := match r with RL l => h l | RY _ => 0 end.
Definition ry1 (r : res) : nat := match r with RY _ => 1 | RL _ => 0 end.
Definition one (x : item) : nat := 1.

Definition started (c : cfg) (p : mpc) : nat := match p with MStart k => k | _ => parallelism c end.
Definition joined (c : cfg) (p : mpc) : nat :=
  match p with MJoin k => k | MDone => parallelism c | _ => 0 end.
Definition sent_so_far (c : cfg) (p : mpc) : nat :=
  match p with MSent k => parallelism c - (k + 1) | MJoin _ | MDone => parallelism c | _ => 0 end.
Definition feeding (p : mpc) : bool := match p with MStart _ | MFeed _ => true | _ => false end.
(* FIFO shape: nothing but sentinels behind a sentinel *)
Fixpoint wfq (l : list (option item)) : Prop :=
  match l with [] => True | Some _ :: r => wfq r | None :: r => sumf (qit one) r = 0 end.

Definition pc_ok (c : cfg) (p : mpc) : Prop :=
  match p with
  | MStart k => k < parallelism c
  | MSent k => k < parallelism c
  | MJoin k => k <= parallelism c
  | MFeed [] => iter_raises c = true
  | _ => True
  end.

(* Multisets are compared through their weighted sums: two lists are permutations of each other iff
   they agree on [sumf g] for every weight g ([sumf_perm]); hence the [forall g] / [forall h] fields. *)
Record Inv (c : cfg) (s : state) : Prop := {
  i_len : length (ws s) = parallelism c;
  i_cons : forall g, sumf g (processed s) + sumf (infl g) (ws s) + sumf (qit g) (q s)
                     + sumf g (unput c (pc s)) = sumf g (items c);
  i_acc : forall g, sumf (accw g) (ws s) = sumf (fun x => sumf g (ys_of c x)) (processed s);
  i_gen : mode c = Gen -> results s = map RY (flat_map (ys_of c) (processed s));
  i_none : mode c = RetNone -> results s = [];
  i_rl : mode c = RetList ->
         sumf ry1 (results s) = 0 /\ forall h, sumf (rlw h) (results s) = sumf (exw h) (ws s);
  i_new : forall i, started c (pc s) <= i -> i < parallelism c -> nth_error (ws s) i = Some WNew;
  i_notnew : forall i, i < started c (pc s) -> nth_error (ws s) i <> Some WNew;
  i_pc : pc_ok c (pc s);
  i_join : forall i v, i < joined c (pc s) -> nth_error (ws s) i = Some v -> finished v = true;
  (* a sentinel is queued or consumed for every one sent: a worker waiting in get() while main joins
     finds one (no deadlock) *)
  i_sent : sumf isNone (q s) + sumf fin1 (ws s) >= sent_so_far c (pc s);
  i_wfq : wfq (q s);
  i_feed : feeding (pc s) = true -> sumf isNone (q s) = 0;
  i_kill : kill s = true -> iter_raises c = true /\ feeding (pc s) = false;
  (* a worker returns normally (kill unset) only on a sentinel, and sentinels come after all items:
     no item is left in the queue then.  This is what fails when every worker dies. *)
  i_surv : kill s = false -> sumf exit1 (ws s) > 0 ->
           sumf (qit one) (q s) = 0 /\ feeding (pc s) = false;
  i_dead : sumf dead1 (ws s) = sumf (die1 c) (processed s)
}.

Lemma norm_sent_facts c k : k <= parallelism c ->
  pc_ok c (norm_sent k) /\ feeding (norm_sent k) = false /\ unput c (norm_sent k) = [] /\
  started c (norm_sent k) = parallelism c /\ joined c (norm_sent k) = 0 /\
  sent_so_far c (norm_sent k) = parallelism c - k.
Proof. destruct k; cbn; intros; repeat split; try lia. Qed.

Lemma after_put_facts c r :
  pc_ok c (after_put c r) /\ unput c (after_put c r) = r /\
  started c (after_put c r) = parallelism c /\ joined c (after_put c r) = 0 /\
  (feeding (after_put c r) = true -> sent_so_far c (after_put c r) = 0) /\
  (feeding (after_put c r) = false -> sent_so_far c (after_put c r) = 0 /\ iter_raises c = false /\ r = []).
Proof.
  unfold after_put. destruct r as [|x r].
  - destruct (iter_raises c) eqn:E; cbn.
    + rewrite E. repeat split; auto; discriminate.
    + destruct (norm_sent_facts c (parallelism c) (le_n _)) as (A & B & C & D & F & G).
      rewrite B, G. split; [exact A|]. split; [exact C|]. split; [exact D|]. split; [exact F|].
      split; [discriminate|]. intros _. split; [lia|]. split; reflexivity.
  - cbn. repeat split; auto; discriminate.
Qed.

Lemma wfq_noNone l : sumf isNone l = 0 -> forall o, wfq (l ++ [o]).
Proof.
  induction l as [|[x|] l IH]; cbn; intros H o.
  - destruct o; cbn; auto.
  - apply IH; auto.
  - lia.
Qed.

Lemma wfq_snoc_None l : wfq l -> wfq (l ++ [None]).
Proof.
  induction l as [|[x|] l IH]; cbn; auto.
  intro H. rewrite sumf_app. cbn. lia.
Qed.

Lemma wfq_of_noitems l : sumf (qit one) l = 0 -> wfq l.
Proof.
  induction l as [|[x|] l IH]; cbn; auto.
  - unfold one. lia.
Qed.

Lemma wfq_tail o l : wfq (o :: l) -> wfq l.
Proof. destruct o; cbn; auto. apply wfq_of_noitems. Qed.

Lemma nth_repeat_inv {A} (x : A) n i v : nth_error (repeat x n) i = Some v -> v = x.
Proof. revert i. induction n; intros [|i] H; cbn in *; try discriminate; [congruence | eauto]. Qed.

Lemma Inv_init c : Inv c (init c).
Proof.
  assert (Z0 : forall h : wst -> nat, h WNew = 0 -> sumf h (repeat WNew (parallelism c)) = 0).
  { intros h Hh. rewrite sumf_repeat. lia. }
  unfold init, norm_start.
  destruct (0 <? parallelism c) eqn:E.
  - apply Nat.ltb_lt in E.
    constructor; cbn [pc q ws processed results kill]; intros;
      cbn [sumf unput started joined sent_so_far feeding pc_ok wfq flat_map map] in *;
      try rewrite !Z0 by reflexivity; auto; try lia; try discriminate.
    + apply repeat_length.
    + split; [reflexivity|]. intro h. rewrite Z0; reflexivity.
    + apply nth_error_repeat. lia.
    + rewrite Z0 in * by reflexivity. lia.
  - apply Nat.ltb_ge in E.
    destruct (after_put_facts c (items c)) as (A & B & C & D & F & G).
    constructor; cbn [pc q ws processed results kill]; intros; cbn [sumf wfq flat_map map] in *;
      try rewrite !Z0 by reflexivity; auto; try lia; try discriminate. 
    + apply repeat_length.
    + rewrite B. lia.
    + split; [reflexivity|]. intro h. rewrite Z0; reflexivity.
    + destruct (feeding (after_put c (items c))) eqn:Fe.
      * rewrite F by reflexivity. lia.
      * destruct G as [G _]; [reflexivity|]. lia.
    + rewrite Z0 in * by reflexivity. lia.
Qed.

Lemma nth_upd_same_inv {A} (l : list A) i v x : nth_error (upd l i v) i = Some x -> x = v.
Proof.
  revert i. induction l as [|y l IH]; intros [|i] H; cbn in *; try discriminate; [congruence | eauto].
Qed.

Lemma upd_pos_new l w old v a W :
  nth_error l w = Some old -> old <> WNew ->
  (forall i, a <= i -> i < W -> nth_error l i = Some WNew) ->
  forall i, a <= i -> i < W -> nth_error (upd l w v) i = Some WNew.
Proof.
  intros Hw Ho H i Ha Hi. destruct (Nat.eq_dec w i) as [->|Hne].
  - rewrite (H i Ha Hi) in Hw. congruence.
  - rewrite nth_upd_other by exact Hne. auto.
Qed.

Lemma upd_pos_notnew l w (v : wst) a :
  v <> WNew -> (forall i, i < a -> nth_error l i <> Some WNew) ->
  forall i, i < a -> nth_error (upd l w v) i <> Some WNew.
Proof.
  intros Hv H i Hi X. destruct (Nat.eq_dec w i) as [->|Hne].
  - apply nth_upd_same_inv in X. congruence.
  - rewrite nth_upd_other in X by exact Hne. exact (H i Hi X).
Qed.

Lemma upd_pos_join l w old v k :
  nth_error l w = Some old -> finished old = false ->
  (forall i x, i < k -> nth_error l i = Some x -> finished x = true) ->
  forall i x, i < k -> nth_error (upd l w v) i = Some x -> finished x = true.
Proof.
  intros Hw Ho H i x Hi X. destruct (Nat.eq_dec w i) as [->|Hne].
  - specialize (H i old Hi Hw). congruence.
  - rewrite nth_upd_other in X by exact Hne. eauto.
Qed.

Lemma nth_lt {A} (l : list A) i v : nth_error l i = Some v -> i < length l.
Proof. intro H. apply nth_error_Some. congruence. Qed.

Ltac fields := cbn [pc q ws processed results kill set_pc set_w].

Lemma kill_false_when_feeding c s : Inv c s -> feeding (pc s) = true -> kill s = false.
Proof.
  intros I F. destruct (kill s) eqn:K; [|reflexivity].
  destruct (i_kill _ _ I K) as [_ X]. congruence.
Qed.

Lemma no_exit_when_feeding c s : Inv c s -> feeding (pc s) = true -> sumf exit1 (ws s) = 0.
Proof.
  intros I F. pose proof (kill_false_when_feeding c s I F) as K.
  destruct (sumf exit1 (ws s)) eqn:E; [reflexivity|].
  destruct (i_surv _ _ I K) as [_ X]; [lia | congruence].
Qed.

Lemma Inv_LStart c s w s' : Inv c s -> stepf c s (LStart w) = Some s' -> Inv c s'.
Proof.
  intros I H. apply inv_LStart in H as (Hpc & Hw & Hn & ->).
  assert (K := kill_false_when_feeding c s I). destruct I.
  rewrite Hpc in *. cbn [started joined sent_so_far feeding unput pc_ok] in *.
  specialize (K eq_refl).
  assert (NS : (norm_start c (S w) = MStart (S w) /\ S w < parallelism c) \/
               (norm_start c (S w) = after_put c (items c) /\ S w = parallelism c)).
  { unfold norm_start. destruct (S w <? parallelism c) eqn:E.
    - apply Nat.ltb_lt in E. auto.
    - apply Nat.ltb_ge in E. right. split; [reflexivity | lia]. }
  destruct (after_put_facts c (items c)) as (A & B & C & D & F & G).
  assert (U : unput c (norm_start c (S w)) = items c) by (destruct NS as [[-> _]|[-> _]]; auto).
  assert (J : joined c (norm_start c (S w)) = 0) by (destruct NS as [[-> _]|[-> _]]; auto).
  assert (SS : sent_so_far c (norm_start c (S w)) = 0).
  { destruct NS as [[-> _]|[-> _]]; auto.
    destruct (feeding (after_put c (items c))) eqn:Fe; [auto | apply G; reflexivity]. }
  assert (ST : started c (norm_start c (S w)) = S w).
  { destruct NS as [[E _]|[E E2]]; rewrite E; [reflexivity | rewrite C; lia]. }
  constructor; fields; try assumption.
  - (* i_len *) rewrite length_upd. assumption.
  - (* i_cons *) intro g. specialize (i_cons0 g). rewrite U. upd_sums. lia.
  - (* i_acc *) intro g. specialize (i_acc0 g). upd_sums. lia.
  - (* i_rl *) intro M. destruct (i_rl0 M) as [R1 R2]. split; [assumption|]. intro h. rewrite R2. upd_sums. lia.
  - (* i_new *) intros i Hi1 Hi2. rewrite ST in Hi1. rewrite nth_upd_other by lia. apply i_new0; lia.
  - (* i_notnew *) intros i Hi X. rewrite ST in Hi. destruct (Nat.eq_dec w i) as [->|Hne].
    + apply nth_upd_same_inv in X. discriminate.
    + rewrite nth_upd_other in X by exact Hne. apply (i_notnew0 i); [lia | assumption].
  - (* i_pc *) destruct NS as [[E E2]|[E _]]; rewrite E; [cbn; lia | exact A].
  - (* i_join *) intros i v Hi. rewrite J in Hi. lia.
  - (* i_sent *) rewrite SS. lia.
  - (* i_feed *) intros _. apply i_feed0. reflexivity.
  - (* i_kill *) intro X. congruence.
  - (* i_surv *) intros _ X. exfalso. upd_sums. destruct i_surv0; auto; [lia | discriminate].
  - (* i_dead *) upd_sums. lia.
Qed.

Lemma Inv_LPut c s x s' : Inv c s -> stepf c s (LPut x) = Some s' -> Inv c s'.
Proof.
  intros I H. apply inv_LPut in H as (r & Hpc & ->).
  assert (K := kill_false_when_feeding c s I). assert (NE := no_exit_when_feeding c s I).
  destruct I. rewrite Hpc in *. cbn [started joined sent_so_far feeding unput pc_ok] in *.
  specialize (K eq_refl). specialize (NE eq_refl).
  destruct (after_put_facts c r) as (A & B & C & D & F & G).
  constructor; fields; try assumption.
  - (* i_cons *) intro g. specialize (i_cons0 g). rewrite B, sumf_app. cbn in *. lia.
  - (* i_new *) intros i Hi. rewrite C in Hi. lia.
  - (* i_notnew *) intros i Hi. rewrite C in Hi. apply i_notnew0. assumption.
  - (* i_join *) intros i v Hi. rewrite D in Hi. lia.
  - (* i_sent *) rewrite sumf_app. cbn. destruct (feeding (after_put c r)) eqn:Fe.
    + rewrite F by reflexivity. lia.
    + destruct G as [G _]; [reflexivity|]. lia.
  - (* i_wfq *) apply wfq_noNone, i_feed0. reflexivity.
  - (* i_feed *) intros _. rewrite sumf_app. cbn. rewrite i_feed0; reflexivity.
  - (* i_kill *) intro X. congruence.
  - (* i_surv *) intros _ X. lia.
Qed.

Lemma Inv_LKill c s s' : Inv c s -> stepf c s LKill = Some s' -> Inv c s'.
Proof.
  intros I H. apply inv_LKill in H as (Hpc & ->).
  assert (NE := no_exit_when_feeding c s I).
  destruct I. rewrite Hpc in *. cbn [started joined sent_so_far feeding unput pc_ok] in *.
  specialize (NE eq_refl).
  destruct (norm_sent_facts c (parallelism c) (le_n _)) as (A & B & C & D & F & G).
  constructor; fields; try assumption.
  - (* i_cons *) intro g. specialize (i_cons0 g). rewrite C. cbn in *. lia.
  - (* i_new *) intros i Hi. rewrite D in Hi. lia.
  - (* i_notnew *) intros i Hi. rewrite D in Hi. apply i_notnew0. assumption.
  - (* i_join *) intros i v Hi. rewrite F in Hi. lia.
  - (* i_sent *) rewrite G. lia.
  - (* i_feed *) intro X. congruence.
  - (* i_kill *) intros _. split; assumption.
  - (* i_surv *) discriminate.
Qed.

Lemma Inv_LSent c s s' : Inv c s -> stepf c s LSent = Some s' -> Inv c s'.
Proof.
  intros I H. apply inv_LSent in H as (k & Hpc & ->).
  destruct I. rewrite Hpc in *. cbn [started joined sent_so_far feeding unput pc_ok] in *.
  destruct (norm_sent_facts c k (Nat.lt_le_incl _ _ i_pc0)) as (A & B & C & D & F & G).
  constructor; fields; try assumption.
  - (* i_cons *) intro g. specialize (i_cons0 g). rewrite C, sumf_app. cbn in *. lia.
  - (* i_new *) intros i Hi. rewrite D in Hi. lia.
  - (* i_notnew *) intros i Hi. rewrite D in Hi. apply i_notnew0. assumption.
  - (* i_join *) intros i v Hi. rewrite F in Hi. lia.
  - (* i_sent *) rewrite G, sumf_app. cbn. lia.
  - (* i_wfq *) apply wfq_snoc_None. assumption.
  - (* i_feed *) intro X. congruence.
  - (* i_kill *) intro X. destruct (i_kill0 X). split; assumption.
  - (* i_surv *) intros X Y. destruct (i_surv0 X Y) as [Z _]. rewrite sumf_app. cbn. split; [lia | assumption].
Qed.

Lemma Inv_LJoin c s w s' : Inv c s -> stepf c s (LJoin w) = Some s' -> Inv c s'.
Proof.
  intros I H. apply inv_LJoin in H as (v & Hpc & Hw & Hn & Hf & ->).
  destruct I. rewrite Hpc in *. cbn [started joined sent_so_far feeding unput pc_ok] in *.
  constructor; fields; cbn [started joined sent_so_far feeding unput pc_ok]; try assumption.
  - intros i x Hi Hx. destruct (Nat.eq_dec i w) as [->|Hne]; [congruence|].
    apply (i_join0 i x); [lia | assumption].
Qed.

Lemma Inv_LRet c s s' : Inv c s -> stepf c s LRet = Some s' -> Inv c s'.
Proof.
  intros I H. apply inv_LRet in H as (Hpc & ->).
  destruct I. rewrite Hpc in *. cbn [started joined sent_so_far feeding unput pc_ok] in *.
  constructor; fields; cbn [started joined sent_so_far feeding unput pc_ok]; try assumption.
  exact Logic.I.
Qed.

Lemma dies_ys c x : dies c x = true -> ys_of c x = [].
Proof. unfold dies, ys_of. destruct (fout c x); [discriminate | reflexivity]. Qed.

(* what a worker's step, whichever of the six kinds, adds to each quantity the invariant speaks of *)
Record wdelta (c : cfg) (k : bool) (old : wst) (qout : list (option item)) (v : wst)
       (px : list item) (rs : list res) : Prop := {
  d_old : old <> WNew /\ finished old = false;
  d_new : v <> WNew;
  d_cons : forall g, sumf g px + infl g v = infl g old + sumf (qit g) qout;
  d_acc : forall g, accw g v = accw g old + sumf (fun x => sumf g (ys_of c x)) px;
  d_gen : mode c = Gen -> rs = map RY (flat_map (ys_of c) px);
  d_none : mode c = RetNone -> rs = [];
  d_rl : mode c = RetList -> sumf ry1 rs = 0 /\ forall h, sumf (rlw h) rs + exw h old = exw h v;
  d_sent : sumf isNone qout + fin1 old <= fin1 v;
  d_q : qout = [] \/ exists o, qout = [o];
  d_exit : exit1 old = 0 /\ (exit1 v = 0 \/ k = true \/ qout = [None]);
  d_dead : dead1 v = dead1 old + sumf (die1 c) px
}.

Lemma wstep_delta c k old qout v px rs : wstep c k old qout v px rs -> wdelta c k old qout v px rs.
Proof.
  (* every entry of the table is a computation *)
  intro H. destruct (mode c) eqn:M; destruct H as [a K|a K|a x|a|a x E|a x E]; constructor;
    unfold retl, gens, accw, die1; try rewrite M; cbn; intros;
    try rewrite E; try rewrite (dies_ys _ _ E); rewrite ?sumf_app, ?app_nil_r; cbn; eauto; try lia; try discriminate;
    split; intros; (discriminate || lia).
Qed.

Lemma Inv_worker c s w old qout q' v px rs :
  Inv c s -> wstep c (kill s) old qout v px rs -> nth_error (ws s) w = Some old -> q s = qout ++ q' ->
  Inv c {| pc := pc s; q := q'; ws := upd (ws s) w v; processed := processed s ++ px;
           results := results s ++ rs; kill := kill s |}.
Proof.
  intros I H Hn Hq. destruct (wstep_delta _ _ _ _ _ _ _ H) as [[Ho Hf] Hv Dc Da Dg Dn Dr Ds Dq De Dd].
  destruct I. rewrite Hq in *.
  constructor; fields.
  - rewrite length_upd. assumption.
  - intro g. specialize (i_cons0 g). specialize (Dc g). rewrite sumf_app in i_cons0. rewrite sumf_app. upd_sums. lia.
  - intro g. specialize (i_acc0 g). specialize (Da g). rewrite sumf_app. upd_sums. lia.
  - intro M. rewrite flat_map_app, map_app, <- (i_gen0 M), (Dg M). reflexivity.
  - intro M. rewrite (i_none0 M), (Dn M). reflexivity.
  - intro M. destruct (i_rl0 M) as [R1 R2]. destruct (Dr M) as [D1 D2]. rewrite sumf_app. split; [lia|].
    intro h. specialize (R2 h). specialize (D2 h). rewrite sumf_app. upd_sums. lia.
  - eapply upd_pos_new; eauto.
  - eapply upd_pos_notnew; eauto.
  - assumption.
  - eapply upd_pos_join; eauto.
  - rewrite sumf_app in i_sent0. upd_sums. lia.
  - destruct Dq as [->|[o ->]]; [assumption | exact (wfq_tail o q' i_wfq0)].
  - intro F. specialize (i_feed0 F). rewrite sumf_app in i_feed0. lia.
  - assumption.
  - intros K X. destruct De as [E0 [E1|[E1| ->]]]; [| congruence |].
    + rewrite sumf_app in i_surv0. upd_sums. destruct i_surv0 as [Y Z]; [assumption | lia | split; [lia | exact Z]].
    + split; [exact i_wfq0|]. destruct (feeding (pc s)); [|reflexivity]. specialize (i_feed0 eq_refl). cbn in i_feed0. lia.
  - rewrite sumf_app. upd_sums. lia.
Qed.

Theorem Inv_step c s l s' : Inv c s -> step c s l s' -> Inv c s'.
Proof.
  unfold step, fstep. intros I H. destruct (worker_of l) as [w|] eqn:Ew.
  { destruct (inv_worker c s l w s' Ew H) as (old & qout & q' & v & px & rs & Hw & Hn & Hq & ->).
    eapply Inv_worker; eassumption. }
  destruct l; try discriminate Ew.
  - eapply Inv_LStart; eauto.
  - eapply Inv_LPut; eauto.
  - eapply Inv_LKill; eauto.
  - eapply Inv_LSent; eauto.
  - eapply Inv_LJoin; eauto.
  - eapply Inv_LRet; eauto.
Qed.

Theorem Inv_reachable c s : reachable c s -> Inv c s.
Proof.
  apply (invariant_by_induction state label (step c) (is_init c) (Inv c)).
  - intros s0 ->. apply Inv_init.
  - intros s1 l s2. apply Inv_step.
Qed.

Lemma sumf_count_occ {A} (dec : forall a b : A, {a = b} + {a <> b}) x l :
  sumf (fun y => if dec y x then 1 else 0) l = count_occ dec l x.
Proof. induction l as [|y l IH]; cbn; [reflexivity|]. destruct (dec y x); lia. Qed.

Lemma sumf_count (x : N) l :
  sumf (fun y => if N.eq_dec y x then 1 else 0) l = count_occ N.eq_dec l x.
Proof. apply sumf_count_occ. Qed.

Lemma sumf_perm_gen {A} (dec : forall a b : A, {a = b} + {a <> b}) (l1 l2 : list A) :
  (forall g, sumf g l1 = sumf g l2) -> Permutation l1 l2.
Proof.
  intro H. apply (Permutation_count_occ dec). intro x. rewrite <- !sumf_count_occ. apply H.
Qed.

Lemma sumf_perm (l1 l2 : list N) : (forall g, sumf g l1 = sumf g l2) -> Permutation l1 l2.
Proof. apply sumf_perm_gen. exact N.eq_dec. Qed.

Lemma perm_sumf {A} (g : A -> nat) l1 l2 : Permutation l1 l2 -> sumf g l1 = sumf g l2.
Proof. induction 1; cbn; lia. Qed.

Lemma sumf_qitems g l : sumf g (qitems l) = sumf (qit g) l.
Proof. induction l as [|[x|] l IH]; cbn; lia. Qed.

Lemma sumf_inflight g l : sumf g (inflight l) = sumf (infl g) l.
Proof.
  unfold inflight. induction l as [|v l IH]; cbn; [reflexivity|].
  rewrite sumf_app, IH. destruct v; cbn; lia.
Qed.

Lemma sumf_flat_map {A B} (g : B -> nat) (f : A -> list B) l :
  sumf g (flat_map f l) = sumf (fun x => sumf g (f x)) l.
Proof. induction l as [|x l IH]; cbn; [reflexivity|]. rewrite sumf_app, IH. reflexivity. Qed.

Lemma sumf_map {A B} (g : B -> nat) (f : A -> B) l : sumf g (map f l) = sumf (fun x => g (f x)) l.
Proof. induction l as [|x l IH]; cbn; [reflexivity|]. rewrite IH. reflexivity. Qed.

Lemma sumf_concat {A} (g : A -> nat) l : sumf g (concat l) = sumf (sumf g) l.
Proof. induction l as [|x l IH]; cbn; [reflexivity|]. rewrite sumf_app, IH. reflexivity. Qed.

Lemma ndie_sumf c l : ndie c l = sumf (die1 c) l.
Proof.
  unfold ndie, die1. induction l as [|x l IH]; cbn; [reflexivity|].
  destruct (dies c x); cbn; lia.
Qed.

Lemma sumf_one_nil (l : list N) : sumf one l = 0 -> l = [].
Proof. destruct l; cbn; [reflexivity | unfold one; lia]. Qed.

Lemma qit_one_zero g l : sumf (qit one) l = 0 -> sumf (qit g) l = 0.
Proof. induction l as [|[x|] l IH]; cbn; unfold one; intros; auto; lia. Qed.

Lemma all_nth_Forall {A} (P : A -> Prop) l :
  (forall i v, nth_error l i = Some v -> P v) -> Forall P l.
Proof.
  induction l as [|x l IH]; intro H; constructor.
  - apply (H 0 x). reflexivity.
  - apply IH. intros i v Hi. apply (H (S i) v). exact Hi.
Qed.

Lemma fin_sums l : Forall (fun v => finished v = true) l ->
  (forall g, sumf (infl g) l = 0) /\ sumf exit1 l + sumf dead1 l = length l.
Proof.
  induction 1 as [|v l Hv Hl [IH1 IH2]]; cbn; [split; auto|].
  split.
  - intro g. rewrite IH1. destruct v; cbn in *; try discriminate; reflexivity.
  - destruct v; cbn in *; try discriminate; lia.
Qed.

Lemma exit_sums l : Forall (fun v => finished v = true) l -> sumf dead1 l = 0 ->
  (forall h, sumf (exw h) l = sumf h (map acc_of l)).
Proof.
  induction 1 as [|v l Hv Hl IH]; cbn; intros D h; [reflexivity|].
  destruct v; cbn in *; try discriminate; try lia. rewrite IH by lia. reflexivity.
Qed.

Lemma returned_facts c s : reachable c s -> returned c s -> pool_adequate c ->
  Inv c s /\ Forall (fun v => finished v = true) (ws s) /\ sumf (qit one) (q s) = 0 /\ (forall g : N -> nat, sumf g (processed s) = sumf g (items c)).
Proof.
  intros R [T NR] PA. apply Inv_reachable in R. pose proof R as I. destruct R.
  unfold terminal in T. destruct (pc s); try discriminate T. cbn [joined unput] in *.
  assert (F : Forall (fun v => finished v = true) (ws s)).
  { apply all_nth_Forall. intros i v Hi. apply (i_join0 i v); [|exact Hi].
    rewrite <- i_len0. eapply nth_lt; eauto. }
  destruct (fin_sums _ F) as [F1 F2].
  assert (K : kill s = false).
  { destruct (kill s); [|reflexivity]. destruct i_kill0; congruence. }
  assert (Q : sumf (qit one) (q s) = 0).
  { destruct PA as [PA|PA].
    - rewrite ndie_sumf in PA. pose proof (i_cons0 (die1 c)) as X. cbn in X.
      destruct (i_surv0 K) as [Y _]; [lia | exact Y].
    - pose proof (i_cons0 one) as X. rewrite PA in X. cbn in X. lia. }
  split; [exact I|]. split; [exact F|]. split; [exact Q|].
  intro g. pose proof (i_cons0 g) as X. rewrite F1, (qit_one_zero g _ Q) in X. cbn in X. lia.
Qed.

Definition rls (l : list res) : list (list N) :=
  flat_map (fun r => match r with RL a => [a] | RY _ => [] end) l.

Lemma no_ry_map l : sumf ry1 l = 0 -> l = map RL (rls l).
Proof.
  induction l as [|[y|a] l IH]; cbn; intro H; [reflexivity | lia |]. f_equal. apply IH. lia.
Qed.

Lemma rlw_rls h l : sumf (rlw h) l = sumf h (rls l).
Proof. unfold rls. induction l as [|[y|a] l IH]; cbn; lia. Qed.

(* what has been returned, by the way the functor's result reaches [results] *)
Lemma results_gen c s : reachable c s -> returned c s -> pool_adequate c -> mode c = Gen ->
  Permutation (results s) (map RY (all_yields c)).
Proof.
  intros R T PA M. destruct (returned_facts c s R T PA) as (I & _ & _ & H).
  rewrite (i_gen _ _ I M). apply Permutation_map, Permutation_flat_map, sumf_perm, H.
Qed.

Lemma results_retlist c s : reachable c s -> returned c s -> pool_adequate c -> mode c = RetList ->
  ndie c (items c) = 0 ->
  exists accs, Permutation (results s) (map RL accs) /\ length accs = parallelism c /\
               Permutation (concat accs) (all_yields c).
Proof.
  intros R T PA M ND. destruct (returned_facts c s R T PA) as (I & F & _ & H).
  destruct (i_rl _ _ I M) as [R1 R2].
  assert (D : sumf dead1 (ws s) = 0).
  { rewrite (i_dead _ _ I), (H (die1 c)), <- ndie_sumf. exact ND. }
  exists (map acc_of (ws s)). split; [|split].
  - rewrite (no_ry_map _ R1) at 1. apply Permutation_map.
    apply (sumf_perm_gen (list_eq_dec N.eq_dec)). intro h.
    rewrite <- rlw_rls, R2. apply exit_sums; assumption.
  - rewrite map_length. apply (i_len _ _ I).
  - apply sumf_perm. intro g. unfold all_yields.
    rewrite sumf_concat, sumf_map, sumf_flat_map, <- (H (fun x => sumf g (ys_of c x))).
    rewrite <- (i_acc _ _ I). reflexivity.
Qed.

Lemma fin1_bound l : sumf fin1 l <= length l.
Proof. induction l as [|v l IH]; cbn; [lia|]. unfold fin1 at 1. destruct (finished v); lia. Qed.

Lemma fin1_strict l k v : nth_error l k = Some v -> finished v = false -> sumf fin1 l < length l.
Proof.
  revert k. induction l as [|x l IH]; intros [|k] H F; cbn in *; try discriminate.
  - injection H as ->. unfold fin1 at 1. rewrite F. pose proof (fin1_bound l). lia.
  - specialize (IH k H F). unfold fin1 at 1. destruct (finished x); lia.
Qed.

Theorem no_deadlock : no_deadlock_stmt.
Proof.
  intros c s R T. apply Inv_reachable in R. destruct R.
  unfold step, fstep. unfold terminal in T.
  destruct (pc s) as [k|[|x r]|k|k|] eqn:Hpc; try discriminate; cbn [pc_ok started joined sent_so_far] in *.
  - exists (LStart k). unfold stepf. rewrite Hpc, Nat.eqb_refl.
    apply Nat.ltb_lt in i_pc0 as L. rewrite L. cbn [andb].
    rewrite (i_new0 k (le_n _) i_pc0). eauto.
  - exists LKill. unfold stepf. rewrite Hpc. eauto.
  - exists (LPut x). unfold stepf. rewrite Hpc, N.eqb_refl. eauto.
  - exists LSent. unfold stepf. rewrite Hpc. eauto.
  - destruct (Nat.eq_dec k (parallelism c)) as [E|NE].
    + exists LRet. unfold stepf. rewrite Hpc. subst k. rewrite Nat.eqb_refl. eauto.
    + assert (L : k < parallelism c) by lia.
      destruct (nth_error (ws s) k) as [v|] eqn:Hn;
        [|apply nth_error_None in Hn; lia].
      destruct v as [|acc|acc|acc x|acc|acc].
      * exfalso. apply (i_notnew0 k L Hn).
      * exists (LChk k (kill s)). unfold stepf. rewrite Hn, eqb_reflx. eauto.
      * assert (Q : sumf isNone (q s) >= 1).
        { pose proof (fin1_strict _ _ _ Hn eq_refl). lia. }
        destruct (q s) as [|o q'] eqn:Hq; [cbn in Q; lia|].
        exists (LGet k o). unfold stepf. rewrite Hn, Hq.
        destruct o as [x|]; [rewrite N.eqb_refl|]; eauto.
      * exists (LProc k x). unfold stepf. rewrite Hn, N.eqb_refl. destruct (fout c x); eauto.
      * exists (LJoin k). unfold stepf. rewrite Hpc, Nat.eqb_refl.
        apply Nat.ltb_lt in L as L'. rewrite L'. cbn [andb]. rewrite Hn. cbn. eauto.
      * exists (LJoin k). unfold stepf. rewrite Hpc, Nat.eqb_refl.
        apply Nat.ltb_lt in L as L'. rewrite L'. cbn [andb]. rewrite Hn. cbn. eauto.
Qed.

Lemma terminal_reachable c s : reachable c s ->
  exists tr s', star state label (step c) s tr s' /\ terminal s' = true.
Proof.
  apply (reaches_terminal state label (step c) (measure c) (step_decreases c)
           (reachable c) (fun s => terminal s = true)).
  - intro s0. destruct (terminal s0); [left; reflexivity | right; discriminate].
  - intros s0 l s1 R0 H. eapply reachable_step; eassumption.
  - intros s0 R0 NT. apply no_deadlock; [exact R0|]. destruct (terminal s0); congruence.
Qed.

Lemma no_workers_inv c : parallelism c = 0 -> forall s, reachable c s -> ws s = [] /\ processed s = [].
Proof.
  intro W0. apply (invariant_by_induction state label (step c) (is_init c)).
  - intros s0 ->. cbn. rewrite W0. auto.
  - intros s l s' [L P] H. unfold step, fstep in H.
    assert (NW : forall w v, nth_error (ws s) w = Some v -> False).
    { intros w v X. rewrite L in X. destruct w; discriminate. }
    destruct (worker_of l) as [w|] eqn:Ew.
    { destruct (inv_worker c s l w s' Ew H) as (old & _ & _ & _ & _ & _ & _ & X & _). destruct (NW _ _ X). }
    destruct l; try discriminate Ew.
    + apply inv_LStart in H as (_ & _ & X & _). destruct (NW _ _ X).
    + apply inv_LPut in H as (r & _ & ->). auto.
    + apply inv_LKill in H as (_ & ->). auto.
    + apply inv_LSent in H as (k & _ & ->). auto.
    + apply inv_LJoin in H as (v & _ & _ & X & _). destruct (NW _ _ X).
    + apply inv_LRet in H as (_ & ->). auto.
Qed.

Definition cfg_worker_death : cfg :=
  {| items := [1%N; 2%N]; iter_raises := false; len_hint := Some 2; threads := Some 1%Z; cpu := 16%Z;
     mode := Gen; fout := tabf [(1%N, Die)] |}.

Theorem exactly_once_worker_death_refuted_proof :
  exists c s, 1 <= parallelism c /\ reachable c s /\ returned c s /\ ~ Permutation (processed s) (items c).
Proof.
  exists cfg_worker_death.
  eexists. split; [vm_compute; lia|]. split; [|split].
  - exists (init cfg_worker_death),
      [LStart 0; LPut 1%N; LPut 2%N; LSent; LChk 0 false; LGet 0 (Some 1%N); LProc 0 1%N; LJoin 0; LRet].
    split; [reflexivity|]. apply run_star. vm_compute. reflexivity.
  - split; reflexivity.
  - intro P. apply Permutation_length in P. discriminate P.
Qed.

Definition cfg_example : cfg :=
  {| items := [3%N; 1%N; 3%N]; iter_raises := false; len_hint := None; threads := Some 2%Z; cpu := 16%Z;
     mode := Gen; fout := tabf [(1%N, Die); (3%N, Ok [103%N])] |}.
Example example_adequate : pool_adequate cfg_example.
Proof. left. vm_compute. lia. Qed.
(* a schedule in which worker 0 dies on item 1 and worker 1 handles both copies of item 3 *)
Example example_run :
  exists s, run state label (stepf cfg_example) (init cfg_example)
    [LStart 0; LStart 1; LPut 3%N; LChk 1 false; LPut 1%N; LChk 0 false; LGet 1 (Some 3%N);
     LGet 0 (Some 1%N); LPut 3%N; LProc 0 1%N; LSent; LProc 1 3%N; LSent; LChk 1 false;
     LGet 1 (Some 3%N); LProc 1 3%N; LChk 1 false; LGet 1 None; LJoin 0; LJoin 1; LRet] = Some s
  /\ returned cfg_example s /\ processed s = [1%N; 3%N; 3%N] /\ results s = [RY 103%N; RY 103%N].
Proof. eexists. split; [vm_compute; reflexivity|]. repeat split. Qed.
