From Coq Require Import List NArith.
Import ListNotations.
From Verif Require Import C34.Model_C34 C34.Spec_C34 C34.Proofs_C34.

(* PARTIAL (domain def_ok): filtering the text of a dump = rendering the filtered dump, for every
   list of definitions whose values are in `set`'s quoting styles and whose function bodies lie
   in the body_ok token grammar (literal words, \c, '..', "..", $'..', ${..}, $name, $((..)), "..$x..",
   $(..) around one simple command, <<<, a closing parenthesis at function level as in case arms,
   nested {..} (..) groups); blacklist and whitelist mode, variables and functions *)
Theorem filter_commutes_partial : forall ds vars funcs vwl fwl,
  forallb def_ok ds = true -> names_ok vars = true -> names_ok funcs = true ->
  main_run (render ds) vars funcs vwl fwl = MOut (render_filtered vars funcs vwl fwl ds).
Proof.
  intros ds vars funcs vwl fwl Hd Hv Hf. unfold main_run.
  destruct (build_match_spec vars vwl Hv) as (mv & Ev & Sv).
  destruct (build_match_spec funcs fwl Hf) as (mf & Ef & Sf).
  rewrite Ev, Ef. clear Ev Ef.
  destruct vars as [|v0 vars], funcs as [|f0 funcs]; cbv iota;
    erewrite run_buf_filtered; try reflexivity; try assumption; intros n; cbv iota beta;
    first [exact (Sv n) | exact (Sf n) | reflexivity].
Qed.
Print Assumptions filter_commutes_partial.

(* the output consists of whole rendered definitions and newline separators only, in order *)
Theorem no_stray_bytes_partial : forall ds vars funcs vwl fwl,
  forallb def_ok ds = true -> names_ok vars = true -> names_ok funcs = true ->
  exists keep : list bool,
    length keep = length ds /\
    main_run (render ds) vars funcs vwl fwl
    = MOut (flat_map (fun kd : bool * def => (if fst kd then render_def (snd kd) else []) ++ [cNL]) (combine keep ds))
    /\ forall i d, nth_error ds i = Some d ->
         nth_error keep i = Some (negb (drop_def vars funcs vwl fwl d)).
Proof.
  intros ds vars funcs vwl fwl Hd Hv Hf.
  exists (map (fun d => negb (drop_def vars funcs vwl fwl d)) ds).
  split; [apply map_length|]. split.
  - rewrite filter_commutes_partial, render_filtered_keep by assumption. reflexivity.
  - intros i d Hi. rewrite nth_error_map, Hi. reflexivity.
Qed.
Print Assumptions no_stray_bytes_partial.

Theorem never_out_of_fuel_partial : forall ds vars funcs vwl fwl,
  forallb def_ok ds = true -> names_ok vars = true -> names_ok funcs = true ->
  main_run (render ds) vars funcs vwl fwl <> MFuel /\ main_run (render ds) vars funcs vwl fwl <> MIndex.
Proof. intros. rewrite filter_commutes_partial by assumption. split; discriminate. Qed.
Print Assumptions never_out_of_fuel_partial.

(* the relation to filter_ast: the output is render (filter_ast ds) with one extra newline where a
   definition was dropped *)
Theorem render_filter_ast : forall vars funcs vwl fwl ds,
  render (filter_ast vars funcs vwl fwl ds)
  = flat_map (fun d => if drop_def vars funcs vwl fwl d then [] else render_def d ++ [cNL]) ds
  /\ render_filtered vars funcs vwl fwl ds
  = flat_map (fun d => if drop_def vars funcs vwl fwl d then [cNL] else render_def d ++ [cNL]) ds.
Proof.
  intros vars funcs vwl fwl ds. split.
  - unfold render, filter_ast. induction ds as [|d ds IH]; [reflexivity|]. cbn [filter flat_map].
    destruct (drop_def vars funcs vwl fwl d); cbn [negb flat_map]; now rewrite IH.
  - unfold render_filtered. apply flat_map_ext. intros d. destruct (drop_def vars funcs vwl fwl d); reflexivity.
Qed.
Print Assumptions render_filter_ast.

(* the statement without the grammar restriction is false of the faithful model *)
Theorem filter_commutes_refuted : ~ filter_commutes_full.
Proof.
  intros F. specialize (F witness_defs [] [[102]%N] false false eq_refl eq_refl).
  rewrite witness_defs_run in F. discriminate F.
Qed.
Print Assumptions filter_commutes_refuted.

Theorem filter_commutes_refuted_on_bash_dump :
  spec_dump_ok witness_input (run_dump witness_input) = false
  /\ run_dump witness_input = digest [10;125;10;90;61;49;10]%N.
Proof. vm_compute. split; reflexivity. Qed.
Print Assumptions filter_commutes_refuted_on_bash_dump.

(* a here-document with an empty delimiter (the case "buff.find(here_word, end_here + max(here_len, 1))"
   guards against): the function is found and removed *)
Theorem empty_heredoc_delimiter :
  main_run [102;32;40;41;32;10;123;32;10;32;32;32;32;99;97;116;32;60;60;39;39;10;120;10;10;125;10]%N
           [] [[102]%N] false false = MOut [10]%N.
Proof. vm_compute. reflexivity. Qed.
Print Assumptions empty_heredoc_delimiter.
