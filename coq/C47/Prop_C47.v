From Coq Require Import List.
Import ListNotations.
From Verif Require Import C47.Model_C47 C47.Spec_C47 C47.Proofs_C47.

(* a sync that does not install a new tree (failed download, failed unpack, HTTP error, nothing
   new) leaves the repository untouched — at the end and in every crash state on the way,
   with and without the recovery in _pre_download *)
Theorem failed_sync_untouched :
  forall fixed force sv tar chunk s0 b s',
    base s0 = Some b ->
    snd (sync fixed force sv tar chunk s0) <> Updated ->
    crash_of (fst (sync fixed force sv tar chunk s0)) (fresh s0) s' ->
    base s' = Some b.
Proof.
  intros fixed force sv tar chunk s0 b s' Hb Hout Hc. rewrite <- Hb.
  exact (crash_no_base _ (fresh s0) s' (sync_no_base _ _ _ _ _ _ b Hb Hout) Hc).
Qed.
Print Assumptions failed_sync_untouched.

(* every crash state of an updating sync holds the old or the new tree at the path — except
   the one state between the two renames (known finding rename-window) *)
Theorem crash_old_or_new_partial :
  forall force sv tar chunk s0 t0 s',
    recoverable s0 -> base s0 = Some (SDir t0) -> meta_free (fst tar) ->
    snd (sync true force sv tar chunk s0) = Updated ->
    crash_of (fst (sync true force sv tar chunk s0)) (fresh s0) s' ->
    old_or_new (Some (SDir t0)) (fst tar) s' \/ window t0 (fst tar) s'.
Proof.
  intros force sv tar chunk s0 t0 s' HR Hb Hmf Hout Hc.
  destruct (updated_runs force sv tar chunk s0 HR Hmf Hout) as (s1 & t' & told & Hb1 & Eb0 & HA & Hi & Hnew & Hform).
  cbv zeta in *. rewrite Hform in Hc. unfold logical in Hb1. rewrite Hb in Hb1. rewrite Hb1 in *. injection Eb0 as <-.
  apply crash_of_app in Hc as [Hc|(s5 & Hr5 & Hc)]; [apply crash_of_app in Hc as [Hc|(sA & HrA & Hc)]|].
  - (* before the renames: nothing has touched the repository *)
    left. left. left. rewrite <- Hb. refine (crash_no_base _ (fresh s0) s' _ Hc).
    rewrite !forallb_app, no_base_download by discriminate. cbn [forallb no_base andb]. now rewrite (no_base_recover _ (SDir t0)).
  - rewrite HA in HrA. injection HrA as <-.
    destruct (install_crash _ _ _ _ _ _ Hc) as [H|[H|H]]; [left; left; now left|now right|left; now right].
  - (* the exit steps leave the new tree alone *)
    left. right. rewrite steps_opt_app, HA, Hi in Hr5. injection Hr5 as <-.
    refine (crash_inv (holds_new (fst tar)) _ _ _ s' _ Hc).
    + repeat constructor; now apply no_base_holds_new.
    + exists t'. split; [reflexivity|exact Hnew].
Qed.
Print Assumptions crash_old_or_new_partial.

(* the full statement is false of the faithful model: the window state is reachable *)
Theorem crash_old_or_new_refuted : ~ crash_old_or_new_statement.
Proof.
  intro H.
  destruct (H false ex_srv (ex_new, true) 0%nat ex_s0 ex_old ex_window (proj1 ex_recoverable) eq_refl
              ex_meta_free eq_refl ex_window_reachable) as [[Hx|[[Hx _]|[Hx _]]]|(t' & Hx & _)]; discriminate.
Qed.
Print Assumptions crash_old_or_new_refuted.

(* whatever a crash leaves is again a state a sync can start from *)
Theorem crash_preserves_recoverable :
  forall fixed force sv tar chunk s s',
    recoverable s -> crash_of (fst (sync fixed force sv tar chunk s)) (fresh s) s' -> recoverable s'.
Proof. intros fixed force sv tar chunk s s' HR. exact (crash_recoverable _ (fresh s) s' HR). Qed.
Print Assumptions crash_preserves_recoverable.

(* from any such state the (repaired) sync with a working server and unpacker runs to the end:
   all its steps apply, no staging directory is left, and the path holds the complete new tree
   (or, when the server says nothing changed, the previous tree — put back if it was parked) *)
Theorem next_sync_completes :
  forall force sv tar chunk s,
    recoverable s -> good_srv sv -> snd tar = true -> meta_free (fst tar) ->
    exists sf, run_opt (fst (sync true force sv tar chunk s)) (fresh s) = Some sf /\ clean sf /\
      ((snd (sync true force sv tar chunk s) = Updated /\ holds_new (fst tar) sf) \/
       (snd (sync true force sv tar chunk s) = Unchanged /\ base sf = logical s)).
Proof.
  intros force sv tar chunk s HR Hg Htar Hmf.
  destruct (good_sync_outcome force sv tar chunk s HR Hg Htar) as [Hout|Hout].
  - destruct (updated_final force sv tar chunk s HR Hmf Hout) as (sf & Hr & Hc & Hn). eauto 6.
  - destruct (unchanged_final force sv tar chunk s HR Hout) as (sf & Hr & Hc & Hn). eauto 6.
Qed.
Print Assumptions next_sync_completes.

(* ... after any number of syncs interrupted at any points *)
Theorem next_sync_after_any_history : next_sync_statement true.
Proof.
  intros s0 s force sv tar chunk HR Ha. apply next_sync_completes. eapply attempts_recoverable; eauto.
Qed.
Print Assumptions next_sync_after_any_history.

(* without the recovery in _pre_download it fails: stale staging directories *)
Theorem legacy_next_sync_refuted : ~ next_sync_statement false.
Proof.
  intro H.
  destruct (H ex_s0 ex_stale false ex_srv (ex_new, true) 0%nat (proj1 ex_recoverable) ex_stale_reachable
              (conj eq_refl eq_refl) eq_refl ex_meta_free) as (sf & _ & _ & [[Ho _]|[Ho _]]); discriminate.
Qed.
Print Assumptions legacy_next_sync_refuted.
