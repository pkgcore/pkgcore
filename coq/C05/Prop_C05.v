From Coq Require Import List ZArith.
Import ListNotations.
From Verif Require Import C01.Model_C01 C01.Spec_C01 C01.Prop_C01 C04.Model_C04 C04.Spec_C04
  C05.Model_C05 C05.Spec_C05 C05.Proofs_C05 C05.Cells_C05 C05.Witness_C05.

(* 1. whether two atoms intersect does not depend on argument order: for EVERY version comparison
   (the only thing used: "compares equal" is symmetric on the two versions when both atoms are `=`)
   and all atoms with a known operator, whatever their slot/sub-slot/repo/USE constraints *)
Theorem intersects_sym : forall vc a b,
  (a_op a = 2%N -> a_op b = 2%N -> zero_sym_at vc a b) -> (a_op a <= 7)%N -> (a_op b <= 7)%N ->
  intersects vc a b = intersects vc b a.
Proof.
  intros vc a b Hz Ha Hb. unfold intersects.
  rewrite (attrs_compatible_sym a b), (version_part_sym vc a b Hz Ha Hb). reflexivity.
Qed.
Print Assumptions intersects_sym.

(* ... in particular for C01's ver_cmp on valid version texts (premise discharged by C01's theorem) *)
Theorem intersects_sym_ver_cmp : forall a b,
  (a_op a = 2%N -> is_version (a_ver a)) -> (a_op b = 2%N -> is_version (a_ver b)) ->
  (a_op a <= 7)%N -> (a_op b <= 7)%N ->
  intersects ver_cmp a b = intersects ver_cmp b a.
Proof.
  intros a b Va Vb Ha Hb. apply intersects_sym; try assumption.
  intros Ea Eb. apply (ord_zero_sym _ _ ver_cmp_total_preorder); auto.
Qed.
Print Assumptions intersects_sym_ver_cmp.

(* 2. completeness, judged against the model's own matching: proved for the 36 cells
   {unversioned,<,<=,=,>=,>}^2 (any slot/sub-slot/repo constraints, USE deps on at most one side),
   for every comparison obeying the order laws of C01's ver_cmp_total_preorder *)
Theorem intersects_complete_partial : forall a b p,
  wf_atom a = true -> wf_atom b = true -> a_negate_vers a = false -> a_negate_vers b = false ->
  ordered_or_unversioned a -> ordered_or_unversioned b ->
  (a_use a = None \/ a_use b = None) ->
  (a_op a <> 7%N -> is_version (a_ver a)) -> (a_op b <> 7%N -> is_version (a_ver b)) -> is_version (p_ver p) ->
  atom_match ver_cmp a p = true -> atom_match ver_cmp b p = true ->
  intersects ver_cmp a b = true.
Proof. exact (intersects_complete_ordered ver_cmp is_version ver_cmp_total_preorder). Qed.
Print Assumptions intersects_complete_partial.

(* 2b. completeness by cell outside the recorded classes, USE deps on BOTH sides:
   cells {unversioned,<,<=,=,>=,>,~}^2 (two `~` atoms: same version text), glob/glob, `=`/glob and `~`/glob
   with the package spelt like the `=` / `~` atom ([cell_premise]); USE tokens of the parser's
   shape and the package outside C04's class use-negative-group-nand for both atoms.
   Not covered: a ranged operator against a glob. *)
Theorem intersects_complete_cells : forall a b p,
  wf5 a = true -> wf5 b = true -> a_negate_vers a = false -> a_negate_vers b = false ->
  (forall t toks, a_use a = Some toks -> In t toks -> valid_tok t) ->
  (forall t toks, a_use b = Some toks -> In t toks -> valid_tok t) ->
  known_use_nand a p = false -> known_use_nand b p = false ->
  cell_premise is_version a b p ->
  atom_match ver_cmp a p = true -> atom_match ver_cmp b p = true ->
  intersects ver_cmp a b = true.
Proof. exact (intersects_complete_cells_ord ver_cmp is_version ver_cmp_total_preorder ver_cmp_shape). Qed.
Print Assumptions intersects_complete_cells.

(* ... and the full completeness statement is false of the faithful model:
   ~a/b-1.0 and ~a/b-1.00 both match a/b-1.0 and are reported as disjoint *)
Theorem complete_refuted :
  atom_match ver_cmp tilde_10 pkg_10 = true /\ atom_match ver_cmp tilde_100 pkg_10 = true
  /\ intersects ver_cmp tilde_10 tilde_100 = false
  /\ ~ complete_stmt ver_cmp.
Proof.
  assert (M1 : atom_match ver_cmp tilde_10 pkg_10 = true) by (vm_compute; reflexivity).
  assert (M2 : atom_match ver_cmp tilde_100 pkg_10 = true) by (vm_compute; reflexivity).
  assert (I : intersects ver_cmp tilde_10 tilde_100 = false) by (vm_compute; reflexivity).
  split; [exact M1|]. split; [exact M2|]. split; [exact I|].
  intro H. rewrite (H tilde_10 tilde_100) in I; [discriminate|]. exists pkg_10. split; assumption.
Qed.
Print Assumptions complete_refuted.

(* 3. witnessed-ness is false of the faithful model: >a/b-1 and <a/b-1-r1 are reported as
   intersecting and NO package record matches both (nothing lies between consecutive revisions) *)
Theorem witnessed_refuted :
  intersects ver_cmp gt_1 lt_1r1 = true
  /\ (forall p, ~ (atom_match ver_cmp gt_1 p = true /\ atom_match ver_cmp lt_1r1 p = true))
  /\ ~ witnessed_stmt ver_cmp.
Proof.
  assert (I : intersects ver_cmp gt_1 lt_1r1 = true) by (vm_compute; reflexivity).
  split; [exact I|]. split; [exact gt_1_lt_1r1_disjoint|].
  intro H. destruct (H gt_1 lt_1r1 I) as [p Hp]. exact (gt_1_lt_1r1_disjoint p Hp).
Qed.
Print Assumptions witnessed_refuted.

(* 3b. witnessed-ness, constructively, outside the recorded unwitnessed classes: [witness a b] is
   built from the two atoms (one of: an atom's own version, its next revision, its version with
   _alpha appended; the slot/sub-slot/repository either atom asks for; every mentioned flag in
   IUSE, the positively required ones enabled) and both atoms match it.  [wit_premise] excludes
   adjacent revisions (>V-rN against <V-r(N+1)) and a glob with a revision against `~`, and asks,
   for a ranged operator against a glob, that the glob's own version lies in the range (the two
   heuristic branches of the code are not proved); [use_consistent]: no flag required on and off. *)
Theorem intersects_witnessed_partial : forall a b,
  wf_atom a = true -> wf_atom b = true -> a_negate_vers a = false -> a_negate_vers b = false ->
  (a_op a <> 7%N -> is_version (a_ver a)) -> (a_op b <> 7%N -> is_version (a_ver b)) ->
  wit_premise a b -> use_consistent a b = true ->
  intersects ver_cmp a b = true ->
  atom_match ver_cmp a (witness a b) = true /\ atom_match ver_cmp b (witness a b) = true.
Proof.
  intros a b Wa Wb Na Nb Va Vb Hp Hu H.
  unfold intersects in H. destruct (attrs_compatible a b) eqn:Hat; [|discriminate].
  destruct (version_witness_ok a b (version_witnessed_cells a b Wa Wb Va Vb Hp H)) as [M1 M2].
  split; [apply witness_left|apply witness_right]; assumption.
Qed.
Print Assumptions intersects_witnessed_partial.

(* the perturbations behind the witness: v_alpha is below v; the next revision is above *)
Theorem version_perturbations : forall v r s,
  ver_cmp (v ++ s_alpha) r v s = (-1)%Z /\ ver_cmp v (Some (rev_val s + 1)%N) v s = 1%Z
  /\ (is_version v -> is_version (v ++ s_alpha)).
Proof.
  intros v r s. split; [apply ver_cmp_alpha_below|].
  split; [apply ver_cmp_next_rev|apply is_version_alpha].
Qed.
Print Assumptions version_perturbations.

Theorem no_version_between_revisions : forall v ra rb pv pr,
  rev_val rb = (rev_val ra + 1)%N ->
  vmatch ver_cmp 4 false v ra pv pr = true -> vmatch ver_cmp 0 false v rb pv pr = true -> False.
Proof. exact Proofs_C05.no_version_between_revisions. Qed.
Print Assumptions no_version_between_revisions.
