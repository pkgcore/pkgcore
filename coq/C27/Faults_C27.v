(* Faults_C27.v — what readers and the listing see of any state that is [framed] relative to the
   state before the store: every crash prefix of the call list is, and so is the state left when a
   system call of the store FAILS (OSError) and _setitem's own error handling runs. *)
From Coq Require Import List NArith.
Import ListNotations.
From Verif Require Import Base.Val Base.Lists C18.Fs C18.FsLemmas C27.Model_C27 C27.Spec_C27 C27.Proofs_C27.
Local Open Scope N_scope.

(* what every state reachable during/after a store satisfies, relative to the state before:
   paths other than target and staging file are untouched (or directories created where nothing
   was), and the target holds its old node or a complete file with the new text *)
Definition framed (s sk : fs) (tmp target : path) (data : str) : Prop :=
  (forall q, q <> target -> q <> tmp ->
     lookup sk q = lookup s q \/ (lookup s q = None /\ is_dir_opt (lookup sk q))) /\
  (lookup sk target = lookup s target \/
   exists m u g t i, lookup sk target = Some (File data m u g t i)).

Lemma fold_perm_file perms : forall d m u g t i,
  exists m' u' g' t', fold_left (fun n o => perm_fun o n) perms (File d m u g t i) = File d m' u' g' t' i.
Proof.
  induction perms as [|o perms IH]; intros d m u g t i; cbn [fold_left]; [eauto|].
  destruct o; cbn; apply IH.
Qed.

Lemma framed_any_perms s loc pid cpv chunks perms k :
  cpv <> [] -> Forall (perm_on (tmp_path loc pid cpv)) perms ->
  framed s (run (firstn k (store_ops_with s loc pid cpv chunks perms)) s)
         (tmp_path loc pid cpv) (target_path loc cpv) (concat chunks).
Proof.
  intros Hne Hp. destruct (crash_frame_any_perms s loc pid cpv chunks perms k Hne Hp) as [Hfr Htg].
  split; [exact Hfr|]. destruct Htg as [Htg|[[i Htg] _]]; [now left|right].
  destruct (fold_perm_file perms (concat chunks) MODE_TMP ME ME NOW i) as (m & u & g & t & E).
  unfold staged_node in Htg. rewrite Htg, E. eauto 8.
Qed.

(* store_ops is store_ops_with for the chown and chmod of perm_ops *)
Lemma framed_store_ops s loc pid gid cpv chunks k :
  cpv <> [] ->
  framed s (run (firstn k (store_ops s loc pid gid cpv chunks)) s)
         (tmp_path loc pid cpv) (target_path loc cpv) (concat chunks).
Proof. intro Hne. exact (framed_any_perms s loc pid cpv chunks _ k Hne (perm_ops_ok _ gid)). Qed.

Lemma framed_unlink s a tmp target d :
  tmp <> target -> framed s (run a s) tmp target d -> framed s (run (a ++ [Unlink tmp]) s) tmp target d.
Proof.
  intros Hne F. rewrite run_app. destruct (run_opt a s) as [s1|] eqn:E; [|exact F].
  rewrite (run_opt_run _ _ _ E) in F. destruct F as [Hfr Htg].
  cbn [run]. destruct (apply_op s1 (Unlink tmp)) as [s'|] eqn:E'; [|split; assumption].
  assert (Hq : forall q, q <> tmp -> lookup s' q = lookup s1 q).
  { intros q Hq. eapply apply_op_frame; [exact E'|]. cbn. intros [H|[]]. congruence. }
  split.
  - intros q Hq1 Hq2. rewrite (Hq q Hq2). apply Hfr; assumption.
  - rewrite (Hq target) by congruence. exact Htg.
Qed.

(* what the error handling makes of the call list when call k fails: a crash prefix, a crash
   prefix followed by the removal of the staging file, or the whole store with the remaining
   permission calls *)
Lemma eio_ops_cases s loc pid gid cpv chunks k :
  let tmp := tmp_path loc pid cpv in
  let ops := store_ops s loc pid gid cpv chunks in
  eio_ops s loc pid gid cpv chunks k = firstn k ops \/
  eio_ops s loc pid gid cpv chunks k = firstn k ops ++ [Unlink tmp] \/
  exists perms, Forall (perm_on tmp) perms /\
                eio_ops s loc pid gid cpv chunks k = store_ops_with s loc pid cpv chunks perms.
Proof.
  unfold eio_ops. cbv zeta. destruct (nth_error _ k) as [[]|]; auto; right; right.
  - exists [Chown (tmp_path loc pid cpv) None (Some gid)]. split; [repeat constructor|reflexivity].
  - exists []. split; [constructor|reflexivity].
Qed.

Lemma framed_read lay s sk loc pid cpv d :
  framed s sk (tmp_path loc pid cpv) (target_path loc cpv) d ->
  read_entry lay sk loc cpv = read_entry lay s loc cpv \/ read_entry lay sk loc cpv = parse lay d.
Proof.
  intros [_ [H|(m & u & g & t & i & H)]]; unfold read_entry; rewrite H; [now left|now right].
Qed.

Lemma framed_others lay s sk loc pid cpv d cpv' :
  framed s sk (tmp_path loc pid cpv) (target_path loc cpv) d ->
  cpv' <> cpv -> target_path loc cpv' <> tmp_path loc pid cpv -> lookup s (target_path loc cpv') <> None ->
  read_entry lay sk loc cpv' = read_entry lay s loc cpv'.
Proof.
  intros [Hfr _] Hd Ht Hb.
  destruct (Hfr (target_path loc cpv')) as [E|[E _]]; [intro E; apply Hd, (app_inv_head loc _ _ E)|exact Ht| |contradiction].
  unfold read_entry. rewrite E. reflexivity.
Qed.

(* what a framed state binds a path other than the staging file to: its old node, at the target
   possibly the complete new file, or a directory where nothing was *)
Lemma framed_lookup s sk tmp target d p : framed s sk tmp target d -> p <> tmp ->
  lookup sk p = lookup s p \/
  (p = target /\ exists m u g t i, lookup sk p = Some (File d m u g t i)) \/
  (lookup s p = None /\ is_dir_opt (lookup sk p)).
Proof.
  intros [Hfr Htg] Hnt. destruct (path_eq_dec p target) as [->|Hng].
  - destruct Htg; auto.
  - destruct (Hfr p Hng Hnt); auto.
Qed.

Lemma framed_listing lay s sk loc pid cpv d :
  framed s sk (tmp_path loc pid cpv) (target_path loc cpv) d ->
  listing_ok lay s sk loc cpv (parse lay d).
Proof.
  intros F key Hin. apply keys_gen_spec in Hin as (p & n & E & L & ->).
  destruct (path_eq_dec p (tmp_path loc pid cpv)) as [->|Hnt]; [now rewrite tmp_not_listable in L|].
  destruct (framed_lookup _ _ _ _ _ p F Hnt) as [Eq|[(-> & m & u & g & t & i & Hi)|(_ & m & u & g & t & Ed)]].
  - left. apply keys_gen_spec. exists p, n. rewrite <- Eq. auto.
  - right. unfold target_path at 1. rewrite skipn_app_exact. split; [reflexivity|].
    unfold read_entry. now rewrite Hi.
  - rewrite Ed in E. injection E as <-. now rewrite dir_not_listable in L.
Qed.

Lemma framed_keeps s sk loc pid cpv d key :
  framed s sk (tmp_path loc pid cpv) (target_path loc cpv) d ->
  In key (keys s loc) -> In key (keys sk loc).
Proof.
  intros F Hin. apply keys_gen_spec in Hin as (p & n & E & L & ->).
  destruct (path_eq_dec p (tmp_path loc pid cpv)) as [->|Hnt]; [now rewrite tmp_not_listable in L|].
  apply keys_gen_spec.
  destruct (framed_lookup _ _ _ _ _ p F Hnt) as [Eq|[(-> & m & u & g & t & i & Hi)|(En & _)]]; [| |congruence].
  - exists p, n. rewrite Eq. auto.
  - exists (target_path loc cpv), (File d m u g t i). split; [exact Hi|]. split; [|reflexivity].
    exact (listable_file _ _ _ _ (File d m u g t i) L eq_refl).
Qed.

(* non-vacuity: the rename of a REPLACING store fails; the previous entry is still there, the
   staging file is gone, and the listing is what it was *)
Example ex_fault_rename :
  let k := (length ex_ops_buffered - 1)%nat in
  let sk := run (eio_ops ex_fs LOC 4242 250 ex_cpv (chunks_at_close ex_content) k) ex_fs in
  nth_error ex_ops_buffered k = Some (Rename (tmp_path LOC 4242 ex_cpv) (target_path LOC ex_cpv)) /\
  read_entry Flat sk LOC ex_cpv = read_entry Flat ex_fs LOC ex_cpv /\
  lookup sk (tmp_path LOC 4242 ex_cpv) = None /\ keys sk LOC = keys ex_fs LOC.
Proof. repeat split; vm_compute; reflexivity. Qed.
