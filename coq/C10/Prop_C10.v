(* [S solve] is the recorded contract of snakeoil.constraints.Problem (Spec_C10.v);
   [outside_known rs] = no ||, ^^ or ?? group of rs has a use-conditional group as an immediate
   child (finding cond-member-of-group); [everything] = all trees. *)
From Coq Require Import List Bool.
From Verif Require Import C10.Model_C10 C10.Spec_C10 C10.Proofs_C10.

(* compile: the constraints together are the tree's PMS meaning — outside the known class *)
Theorem constraint_is_match_partial : cim_stmt outside_known.
Proof.
  intros rs cs on Hk H. rewrite sat_pms_impl by assumption. now apply compile_sem.
Qed.
Print Assumptions constraint_is_match_partial.

(* ... and not for all trees: || ( a? ( b ) c ) with nothing enabled *)
Theorem constraint_is_match_refuted : ~ cim_stmt everything.
Proof.
  intro H. destruct (compile_total rs_or eq_refl) as (cs & E).
  specialize (H rs_or cs (on_of all_off) I E). rewrite (proj1 (compile_sem _ _ E)) in H.
  destruct rs_or_all_off. congruence.
Qed.
Print Assumptions constraint_is_match_refuted.

(* for ALL trees the constraints together are the implication meaning of the tree *)
Theorem constraint_is_implication : forall rs cs on,
  compile rs = Ok cs -> forallb (fun c : constr => fst c on) cs = sat_impl rs on.
Proof. intros rs cs on H. now apply compile_sem. Qed.
Print Assumptions constraint_is_implication.

(* every compiled constraint reads only the variables it is registered with *)
Theorem constraints_read_their_variables : forall rs cs c vs,
  compile rs = Ok cs -> In (c, vs) cs -> local c vs /\ incl vs (flags_all rs).
Proof.
  intros rs cs c vs H Hin. destruct (compile_sem rs cs H) as (_ & K).
  destruct (K c vs Hin) as (L & V & _). now split.
Qed.
Print Assumptions constraints_read_their_variables.

(* the contract is satisfiable: the reference DFS meets it *)
Theorem solve_ref_satisfies_S : S solve_ref.
Proof.
  intros p cs (Hk & Hd & Hv). unfold solve_ref. split; [|split].
  - now apply NoDup_filter, nodup_enum.
  - intro a. now rewrite filter_In, in_enum.
  - intros a Ha Hs. destruct (enum_head p a Ha) as (t & ->). cbn. now rewrite Hs.
Qed.
Print Assumptions solve_ref_satisfies_S.

(* the error branch: forced-on and forced-off sharing an IUSE flag raises; otherwise no error *)
Theorem precondition_error : forall solve rs iuse ft ff pt,
  (exists v, In v iuse /\ In v ft /\ In v ff) -> fcs solve rs iuse ft ff pt = Fail EAssert.
Proof.
  intros solve rs iuse ft ff pt H%overlap_iff. unfold fcs, problem. now rewrite domains_eq, H.
Qed.
Print Assumptions precondition_error.

Theorem no_error : forall solve rs iuse ft ff pt,
  overlap iuse ft ff = false -> wf_all rs = true ->
  exists p cs, problem rs iuse ft ff pt = Ok (p, cs) /\ fcs solve rs iuse ft ff pt = Ok (solve p cs).
Proof.
  intros solve rs iuse ft ff pt Ho Hw. destruct (compile_total rs Hw) as (cs & Hc).
  exists (add_missing cs (iuse_domains iuse ft ff pt)), cs. unfold fcs, problem.
  now rewrite domains_eq, Ho, Hc.
Qed.
Print Assumptions no_error.

(* the variables of every solution: IUSE plus the flags the constraint mentions *)
Theorem variables : forall rs iuse ft ff pt p cs,
  problem rs iuse ft ff pt = Ok (p, cs) ->
  NoDup (keys p) /\ incl iuse (keys p) /\ incl (keys p) (iuse ++ flags_all rs).
Proof.
  intros rs iuse ft ff pt p cs H. destruct (final_props _ _ _ _ _ _ _ H) as (A & B & C & _). auto.
Qed.
Print Assumptions variables.

(* under S, for ALL well-formed trees: exactly the allowed assignments satisfying the
   implication meaning, each once, preferred first *)
Theorem solutions_exact_impl : forall solve, S solve -> exact_impl_stmt solve.
Proof. exact solutions_exact. Qed.
Print Assumptions solutions_exact_impl.

(* forced-on on, forced-off off, non-IUSE off — full *)
Theorem forced_respected : forall solve, S solve -> forced_stmt solve everything.
Proof.
  intros solve HS rs iuse ft ff pt p cs a _ Hw H Hin.
  destruct (solutions_exact solve HS _ _ _ _ _ _ _ Hw H) as (_ & E & _). apply E in Hin. tauto.
Qed.
Print Assumptions forced_respected.

Theorem sound_partial : forall solve, S solve -> sound_stmt solve outside_known.
Proof.
  intros solve HS rs iuse ft ff pt p cs a Hk Hw H Hin.
  destruct (solutions_exact solve HS _ _ _ _ _ _ _ Hw H) as (_ & E & _).
  apply E in Hin as (_ & _ & Hs). now rewrite sat_pms_impl.
Qed.
Print Assumptions sound_partial.
Theorem sound_refuted : forall solve, S solve -> ~ sound_stmt solve everything.
Proof.
  intros solve HS H. destruct (rs_or_witness solve HS) as (cs & E & Hin).
  apply (H rs_or _ _ _ _ _ _ _ I eq_refl E) in Hin. destruct rs_or_all_off. congruence.
Qed.
Print Assumptions sound_refuted.

Theorem complete_nodup_partial : forall solve, S solve -> complete_stmt solve outside_known.
Proof.
  intros solve HS rs iuse ft ff pt p cs Hk Hw H.
  destruct (solutions_exact solve HS _ _ _ _ _ _ _ Hw H) as (N & E & _).
  split; [assumption|]. intros a A1 A2 A3. apply E. rewrite <- sat_pms_impl by assumption. auto.
Qed.
Print Assumptions complete_nodup_partial.
Theorem complete_perm_partial : forall solve, S solve -> complete_perm_stmt solve outside_known.
Proof.
  intros solve HS rs iuse ft ff pt p cs Hk Hw H.
  rewrite (filter_ext _ (fun a => allowed iuse ft ff a && sat_impl rs (on_of a)))
    by (intro; now rewrite sat_pms_impl).
  now apply (solutions_perm solve HS rs iuse ft ff pt).
Qed.
Print Assumptions complete_perm_partial.
Theorem complete_refuted : forall solve, S solve -> ~ complete_stmt solve everything.
Proof.
  intros solve HS H. destruct (rs_one_witness solve HS) as (cs & E & Hout).
  apply Hout, (H rs_one _ _ _ _ _ _ I eq_refl E); [reflexivity | reflexivity | apply rs_one_only_c].
Qed.
Print Assumptions complete_refuted.

Theorem preferred_first_partial : forall solve, S solve -> preferred_stmt solve outside_known.
Proof.
  intros solve HS rs iuse ft ff pt p cs Hk Hw H Hp.
  destruct (solutions_exact solve HS _ _ _ _ _ _ _ Hw H) as (_ & _ & F). apply F.
  now rewrite <- sat_pms_impl.
Qed.
Print Assumptions preferred_first_partial.
Theorem preferred_refuted : forall solve, S solve -> ~ preferred_stmt solve everything.
Proof.
  intros solve HS H. destruct (rs_one_witness solve HS) as (cs & E & Hout).
  specialize (H rs_one _ _ _ _ _ _ I eq_refl E (proj2 rs_one_only_c)). apply Hout.
  destruct (solve dom3 cs); [discriminate H | injection H as ->; now left].
Qed.
Print Assumptions preferred_refuted.
