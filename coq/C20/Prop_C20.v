(* Prop_C20.v — the closed property theorems of C20; the lemmas they rest on are in Proofs_C20.v. *)
From Coq Require Import List.
Import ListNotations.
From Verif Require Import Base.Val C18.Fs C18.Model_C18 gen.Tables_C20 C20.Model_C20 C20.Spec_C20 C20.Proofs_C20.

Theorem unmerge_never_raises : forall i t s' e, run_engine i = (t, s', e) -> e = false.
Proof. intros i t s' e H. apply (engine_ok i t s' e H). Qed.
Print Assumptions unmerge_never_raises.

Theorem unmerge_trace_is_effect : forall i t s' e, run_engine i = (t, s', e) -> s' = replay (u_fs i) t.
Proof. intros i t s' e H. apply engine_run_of, run_of_replay in H. exact H. Qed.
Print Assumptions unmerge_trace_is_effect.

Theorem unmerge_nondirs_gone : forall i t s' e, run_engine i = (t, s', e) -> nondirs_gone i s'.
Proof. intros i t s' e H. exact (proj2 (engine_ok i t s' e H)). Qed.
Print Assumptions unmerge_nondirs_gone.

Theorem unmerge_nothing_unlisted : forall i t s' e, run_engine i = (t, s', e) -> nothing_unlisted i s'.
Proof.
  intros i t s' e H q. apply engine_run_of in H.
  destruct (run_of_frame _ _ _ _ _ H q) as [Q|(Q & x & Hx & Hr)]; [left; exact Q|].
  right. split; [exact Q|]. destruct (run_of_sound _ _ _ _ _ _ H (sub_refl _) x q Hx Hr) as (A & _ & C).
  exists (ev_lit x). split; [|exact A]. apply In_engine_attempts in C. apply C.
Qed.
Print Assumptions unmerge_nothing_unlisted.

(* every successful call: the name is removable, the object is the one the UNFOLLOWED name denotes in
   the tree the unmerge started from, unlink for live non-directories / rmdir for live directories *)
Theorem unmerge_calls_exact : forall i t s' e, run_engine i = (t, s', e) ->
  forall x c, In x t -> ev_res x = Some c ->
    removable i (ev_lit x) /\ lstat (u_fs i) (ev_lit x) = Some (c, ev_rm x).
Proof.
  intros i t s' e H x c Hx Hr. apply engine_run_of in H.
  destruct (run_of_sound _ _ _ _ _ _ H (sub_refl _) x c Hx Hr) as (A & _ & C).
  apply In_engine_attempts in C. destruct C as (R & c' & L). split; [exact R|].
  pose proof (lstat_some _ _ _ _ L) as (A' & _). rewrite A in A'. injection A' as <-. exact L.
Qed.
Print Assumptions unmerge_calls_exact.

Theorem unmerge_dirs_iff_empty : forall i t s' e p c0, run_engine i = (t, s', e) ->
  removable i p -> lstat (u_fs i) p = Some (c0, true) ->
  exists t1 res t2, t = t1 ++ Ev true p res :: t2 /\
    let sk := replay (u_fs i) t1 in
    forall c, res = Some c <->
      (canon sk p = WOk c /\ (exists n, lookup sk c = Some n /\ is_dir_node n = true) /\ has_child sk c = false).
Proof.
  intros i t s' e p c0 H R L. pose proof (unmerge_never_raises _ _ _ _ H) as ->. apply engine_run_of in H.
  destruct (run_of_attempts _ _ _ _ true p H) as (t1 & res & t2 & -> & Hs); [apply In_engine_attempts; eauto|].
  exists t1, res, t2. split; [reflexivity|]. intros sk c. rewrite <- rmdir_step_iff. destruct res as [c1|].
  - destruct Hs as (sx & Hs). split.
    + intros E; injection E as <-. eauto.
    + intros (sy & E). cbn in Hs. fold sk in Hs. rewrite Hs in E. injection E as -> _. reflexivity.
  - split; [discriminate|]. intros (sy & E). cbn in Hs. fold sk in Hs. rewrite Hs in E. discriminate.
Qed.
Print Assumptions unmerge_dirs_iff_empty.

Theorem unmerge_symlink_targets_kept : forall i t s' e, run_engine i = (t, s', e) -> symlink_targets_kept i s'.
Proof.
  intros i t s' e H p c r tg u g m _ _ _ _ NO.
  destruct (unmerge_nothing_unlisted _ _ _ _ H r) as [Q|(_ & O)]; [exact Q|contradiction].
Qed.
Print Assumptions unmerge_symlink_targets_kept.

Theorem protected_never_listed : forall i t s' e, run_engine i = (t, s', e) ->
  forall x, In x t -> In (ev_lit x) (protected_names i) -> ev_res x = None.
Proof.
  intros i t s' e H x Hx Hp. destruct (ev_res x) as [c|] eqn:Hr; [|reflexivity]. exfalso.
  destruct (unmerge_calls_exact _ _ _ _ H x c Hx Hr) as ((_ & _ & NP & _) & _). exact (NP Hp).
Qed.
Print Assumptions protected_never_listed.

(* outside the known class: no protected object also has an unprotected removable name (an alias
   through a symlinked directory) *)
Theorem protected_kept_partial : forall i t s' e, run_engine i = (t, s', e) ->
  ~ alias_to_protected i -> protected_kept_full i s'.
Proof.
  intros i t s' e H NA p c Hp Hc.
  destruct (unmerge_nothing_unlisted _ _ _ _ H c) as [Q|(_ & p' & R & C)]; [exact Q|].
  exfalso. apply NA. exists p, p', c. auto.
Qed.
Print Assumptions protected_kept_partial.

Theorem protected_kept_full_refuted :
  exists i t s' e, run_engine i = (t, s', e) /\ ~ protected_kept_full i s'.
Proof.
  exists (dec_case alias_witness). destruct (run_engine (dec_case alias_witness)) as [[t s'] e] eqn:E.
  exists t, s', e. split; [reflexivity|]. intros H.
  destruct alias_witness_protected as [A B]. specialize (H _ _ A B).
  destruct alias_witness_removed as [C D]. rewrite E in C. cbn [fst snd] in C. rewrite C, D in H. discriminate.
Qed.
Print Assumptions protected_kept_full_refuted.

Theorem replace_keeps_new : forall i t s' e, run_engine i = (t, s', e) ->
  new_kept i s' /\
  (forall n d, In n (new_names i) -> ~ In (n, d) (uninstall_cset i)) /\
  (forall x, In x t -> In (ev_lit x) (new_names i) -> ev_res x = None).
Proof.
  intros i t s' e H. split; [|split].
  - intros n c Hn Hc.
    destruct (unmerge_nothing_unlisted _ _ _ _ H c) as [Q|(_ & p' & R & C)]; [exact Q|].
    exfalso. destruct R as (_ & _ & _ & _ & R). exact (R n c Hn Hc C).
  - intros n d Hn Hin. apply In_uninstall_cset in Hin. destruct Hin as ((_ & _ & _ & NN & _) & _). exact (NN Hn).
  - intros x Hx Hn. destruct (ev_res x) as [c|] eqn:Hr; [|reflexivity]. exfalso.
    destruct (unmerge_calls_exact _ _ _ _ H x c Hx Hr) as ((_ & _ & _ & NN & _) & _). exact (NN Hn).
Qed.
Print Assumptions replace_keeps_new.

(* the regenerated protection list covers every base-system directory of the statement, under
   every offset *)
Theorem protected_covers_base_system : forall i b, In b base_system_dirs ->
  In (u_off i ++ b) (protected_names i).
Proof.
  intros i b Hb. pose proof covers_base_bool as H. rewrite forallb_forall in H.
  specialize (H b Hb). apply mem_path_In in H. apply in_map_iff in H. destruct H as (x & <- & Hx).
  unfold protected_names, protected. apply in_map_iff. exists x. auto.
Qed.
Print Assumptions protected_covers_base_system.

(* completeness of the deepest-first pass, lifted to the final tree: when no listed name goes through a
   symlinked directory, a removable listed directory is either gone (its name denotes nothing) or
   still has a child in the final tree - it is never left behind empty *)
Theorem unmerge_dirs_complete : forall i t s' e p,
  run_engine i = (t, s', e) -> alias_free i ->
  removable i p -> lstat (u_fs i) p = Some (p, true) -> p <> [] ->
  lstat s' p = None \/ has_child s' p = true.
Proof.
  intros i t s' e p H AF R L NE. pose proof (unmerge_never_raises _ _ _ _ H) as ->. apply engine_run_of in H.
  destruct (attempts_split (uninstall_cset i) p) as (l1 & l2 & El & After); [apply In_uninstall_cset; eauto|].
  rewrite El in H. apply (rmdir_complete (u_fs i) _ _ _ _ _ _ H (sub_refl _) NE L).
  intros rm x c Hx Cx. apply in_map_iff in Hx as (x' & [= <- <-] & Hx). destruct (After _ Hx) as [Hc Hlt].
  apply In_uninstall_cset in Hc. destruct Hc as ((Ho & _) & c' & Lx).
  rewrite (AF x' Ho) in Cx by congruence. injection Cx as <-. exact Hlt.
Qed.
Print Assumptions unmerge_dirs_complete.

(* for every engine mode: whenever the unmerge trigger runs in the `unmerge` hook, the protection
   trigger has run before it in the same hook *)
Theorem protection_before_unmerge : forall m, In m engine_modes ->
  In name_unmerge (run_names m name_unmerge) ->
  runs_before name_protection name_unmerge (run_names m name_unmerge) = true.
Proof. intros m [<-|[<-|[<-|[]]]] H; vm_compute; try reflexivity; vm_compute in H; tauto. Qed.
Print Assumptions protection_before_unmerge.

(* the removal really is scheduled in both uninstalling modes, in no other hook, and never in install mode *)
Theorem unmerge_scheduled :
  In name_unmerge (run_names REPLACE_MODE name_unmerge) /\
  In name_unmerge (run_names UNINSTALL_MODE name_unmerge) /\
  run_names INSTALL_MODE name_unmerge = [] /\
  (forall m h, In m engine_modes -> In h (mode_hooks m) -> In name_unmerge (run_names m h) -> h = name_unmerge).
Proof.
  split; [vm_compute; tauto|]. split; [vm_compute; tauto|]. split; [vm_compute; reflexivity|].
  intros m h Hm Hh H.
  assert (D : forall l : list str, In name_unmerge l ->
            forallb (fun x => negb (str_eqb name_unmerge x)) l = true -> False).
  { intros l Hl F. rewrite forallb_forall in F. specialize (F _ Hl).
    rewrite str_eqb_refl in F. discriminate. }
  destruct Hm as [<-|[<-|[<-|[]]]]; vm_compute in Hh;
    repeat (destruct Hh as [<-|Hh]; [try reflexivity; exfalso; apply (D _ H); vm_compute; reflexivity|]);
    destruct Hh.
Qed.
Print Assumptions unmerge_scheduled.

(* the model's [protect_first] IS this order, and for the engines the model describes it holds *)
Theorem protection_applied : forall i,
  In (engine_mode i) engine_modes /\
  protect_first (engine_mode i) =
    runs_before name_protection name_unmerge (run_names (engine_mode i) name_unmerge) /\
  protect_first (engine_mode i) = true.
Proof.
  intros i. split; [|split; [reflexivity|apply protect_first_true]].
  unfold engine_mode. destruct (u_new i); vm_compute; tauto.
Qed.
Print Assumptions protection_applied.
