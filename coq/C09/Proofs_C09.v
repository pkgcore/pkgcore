(* Proofs_C09.v — dependency trees (reading under a USE set, PMS 8.3.4, evaluate_depset keeps
   the meaning), then the parser against the grammar (both directions, printing); examples last. *)
From Coq Require Import List NArith Bool Lia Wf_nat.
Import ListNotations.
From Verif Require Import Base.Val Base.Lists C09.Model_C09 C09.Spec_C09.

Section NodeInd.
  Variable P : node -> Prop.
  Hypothesis HL : forall l, P (L l).
  Hypothesis HOp : forall k cs, Forall P cs -> P (Op k cs).
  Hypothesis HCond : forall ng f cs, Forall P cs -> P (Cond ng f cs).
  Fixpoint node_ind' (n : node) : P n :=
    let go := fix go (l : list node) : Forall P l :=
      match l with [] => Forall_nil P | x :: r => Forall_cons x (node_ind' x) (go r) end in
    match n with
    | L l => HL l
    | Op k cs => HOp k cs (go cs)
    | Cond ng f cs => HCond ng f cs (go cs)
    end.
End NodeInd.

(* what a node puts into the member list of its parent: nothing when it is void *)
Definition group_member (use : list str) (ls : leaf -> bool) (n : node) : list bool :=
  if void use n then [] else [sat_gen use ls n].
Definition group_members (use : list str) (ls : leaf -> bool) (cs : list node) : list bool :=
  flat_map (group_member use ls) cs.

Lemma sat_op use ls k cs : sat_gen use ls (Op k cs) = agg (kind_of k) (group_members use ls cs).
Proof. reflexivity. Qed.
Lemma sat_cond use ls ng f cs :
  sat_gen use ls (Cond ng f cs) = if off use ng f then true else forallb id (group_members use ls cs).
Proof. reflexivity. Qed.

Lemma agg_nil k : agg k [] = true.
Proof. destruct k; reflexivity. Qed.

Lemma members_nil use ls cs : is_nil (group_members use ls cs) = forallb (void use) cs.
Proof.
  induction cs as [|c cs IH]; [reflexivity|]. unfold group_members. cbn [flat_map forallb].
  unfold group_member at 1. destruct (void use c); [exact IH | reflexivity].
Qed.
Lemma members_void use ls cs : forallb (void use) cs = true -> group_members use ls cs = [].
Proof. rewrite <- (members_nil use ls). destruct (group_members use ls cs); [reflexivity | discriminate]. Qed.

Lemma void_sat use ls n : void use n = true -> sat_gen use ls n = true.
Proof.
  destruct n as [l|k cs|ng f cs]; cbn [void]; intro H.
  - discriminate.
  - rewrite sat_op, (members_void use ls cs H). apply agg_nil.
  - rewrite sat_cond. fold (off use ng f) in H. destruct (off use ng f); [reflexivity|].
    rewrite (members_void use ls cs H). reflexivity.
Qed.

Lemma forall_members use ls cs : forallb id (group_members use ls cs) = forallb (sat_gen use ls) cs.
Proof.
  induction cs as [|c cs IH]; [reflexivity|]. unfold group_members. cbn [flat_map forallb].
  rewrite forallb_app. fold (group_members use ls cs). rewrite IH. f_equal.
  unfold group_member. destruct (void use c) eqn:V; [rewrite (void_sat use ls c V); reflexivity | apply andb_true_r].
Qed.

Lemma member_op use ls k cs : group_member use ls (Op k cs) =
  if is_nil (group_members use ls cs) then [] else [agg (kind_of k) (group_members use ls cs)].
Proof. rewrite (members_nil use ls). reflexivity. Qed.
(* a use-conditional group whose condition is on reads as an all-of group *)
Lemma member_cond use ls ng f cs :
  group_member use ls (Cond ng f cs) = if off use ng f then [] else group_member use ls (Op [] cs).
Proof. unfold group_member. cbn [void sat_gen]. destruct (off use ng f); reflexivity. Qed.

Lemma members_ext u ls u' ls' cs :
  (forall c, In c cs -> group_member u ls c = group_member u' ls' c) -> group_members u ls cs = group_members u' ls' cs.
Proof. intro H. unfold group_members. rewrite !flat_map_concat_map. f_equal. apply map_ext_in, H. Qed.

Lemma sat_either use ls x A B :
  forallb (sat_gen use ls) [Cond false x A; Cond true x B]
  = forallb (sat_gen use ls) (if mem x use then A else B).
Proof.
  cbn [forallb]. rewrite !sat_cond. unfold off.
  destruct (mem x use); cbn [Bool.eqb]; rewrite forall_members, ?andb_true_r; reflexivity.
Qed.

Lemma expand_sat use S base : forall vs forced,
  forallb (sat_gen use S) (expand base forced vs) = S (mkleaf base (forced ++ ev_flags use vs)).
Proof.
  induction vs as [|u r IH]; intro forced.
  - cbn. rewrite app_nil_r, andb_true_r. reflexivity.
  - cbn [expand ev_flags].
    destruct (u_iseq u), (u_neg u); rewrite sat_either; destruct (mem (u_raw u) use);
      rewrite IH, <- ?app_assoc; reflexivity.
Qed.

Theorem transitive_use_expansion_proof use S l :
  leaf_sat use S l = S (ev_leaf use l).
Proof.
  unfold leaf_sat, ev_leaf, expand_leaf. destruct (transitive l); [|reflexivity].
  apply expand_sat.
Qed.

Lemma variable_minus f : variable (c_minus :: f) = variable f.
Proof. destruct f; reflexivity. Qed.

Lemma existsb_insert (P : str -> bool) x l : existsb P (insert x l) = P x || existsb P l.
Proof.
  induction l as [|y r IH]; cbn; [reflexivity|]. destruct (str_leb x y); cbn; [reflexivity|].
  rewrite IH. destruct (P x), (P y); reflexivity.
Qed.
Lemma existsb_sort (P : str -> bool) l : existsb P (sort l) = existsb P l.
Proof. unfold sort. induction l as [|x r IH]; cbn; [reflexivity|]. rewrite existsb_insert, IH. reflexivity. Qed.

Lemma ev_flags_static use us : forallb (fun u => negb (variable u) || negb (variable (u_flag u))) us = true ->
  existsb variable (ev_flags use (filter variable us)) = false.
Proof.
  induction us as [|u r IH]; cbn [forallb filter]; [reflexivity|]. intro H.
  apply andb_true_iff in H as [Hu H]. specialize (IH H).
  destruct (variable u); [|exact IH]. apply negb_true_iff in Hu. cbn [ev_flags].
  destruct (u_iseq u), (Bool.eqb (mem (u_raw u) use) (u_neg u)), (u_neg u); cbn [existsb];
    rewrite ?variable_minus, ?Hu; exact IH.
Qed.

Lemma ev_leaf_static use l : leaf_wf l = true -> transitive (ev_leaf use l) = false.
Proof.
  intro W. unfold ev_leaf. destruct (transitive l) eqn:T; [|exact T].
  unfold transitive, mkleaf. cbn [luse]. rewrite existsb_sort, existsb_app, (ev_flags_static use _ W).
  rewrite orb_false_r. apply existsb_false. intros u Hu. apply filter_In in Hu as [_ Hu].
  apply negb_true_iff, Hu.
Qed.

Lemma flat_nonvoid u m : flatb m = true -> void u m = false.
Proof.
  induction m as [l|k cs IH|ng f cs IH] using node_ind'; cbn; intro H; try reflexivity; try discriminate.
  destruct IH as [|c cs Hc _]; [discriminate|]. cbn in H |- *. apply andb_true_iff in H as [H _].
  rewrite (Hc H). reflexivity.
Qed.

Lemma flat_group k l : l <> [] -> forallb flatb l = true -> forallb flatb [Op k l] = true.
Proof. intros NE F. cbn [forallb flatb]. rewrite F. destruct l; [congruence | reflexivity]. Qed.

Lemma members_flat u ls l : forallb flatb l = true -> group_members u ls l = map (sat_gen u ls) l.
Proof.
  induction l as [|m r IH]; cbn; [reflexivity|]. intro H. apply andb_true_iff in H as [H1 H2].
  unfold group_member at 1. rewrite (flat_nonvoid u m H1). cbn. f_equal. exact (IH H2).
Qed.

(* a parent of kind k cannot tell the two member lists apart *)
Definition read_alike (k : kind) (bs bs' : list bool) : Prop :=
  (bs = [] <-> bs' = []) /\
  match k with
  | KAll => forallb id bs = forallb id bs'
  | KAny => existsb id bs = existsb id bs'
  | _ => bs = bs'
  end.

Lemma read_alike_refl k bs : read_alike k bs bs.
Proof. split; [tauto | destruct k; reflexivity]. Qed.

Lemma read_alike_app k a a' b b' : read_alike k a a' -> read_alike k b b' -> read_alike k (a ++ b) (a' ++ b').
Proof.
  intros [Na Ea] [Nb Eb]. split.
  - split; intro H; apply app_eq_nil in H as [H1 H2]; apply Na in H1; apply Nb in H2; subst; reflexivity.
  - destruct k; rewrite ?forallb_app, ?existsb_app; congruence.
Qed.

Lemma read_alike_nil k bs bs' : read_alike k bs bs' -> is_nil bs = is_nil bs'.
Proof.
  intros [[N1 N2] _]. destruct bs, bs'; try reflexivity; [discriminate (N1 eq_refl) | discriminate (N2 eq_refl)].
Qed.

Lemma agg_read_alike k bs bs' : read_alike k bs bs' -> agg k bs = agg k bs'.
Proof.
  intro A. pose proof (read_alike_nil k bs bs' A) as N. destruct A as [_ E].
  destruct k; cbn [agg]; congruence.
Qed.

Lemma agg_single k b : kind_eqb k KMost = false -> agg k [b] = b.
Proof. destruct k, b; intro H; try reflexivity; discriminate. Qed.

Lemma read_alike_splice p k bs bs' : splice p k = true -> bs' <> [] ->
  read_alike (kind_of k) bs bs' -> read_alike (pkind p) bs [agg (kind_of k) bs'].
Proof.
  unfold splice. intros SP NE [N E]. split.
  - split; [intro H; apply N in H; contradiction | discriminate].
  - destruct bs' as [|b' r]; [contradiction|].
    destruct (kind_of k), (pkind p); try discriminate; rewrite E; cbn; unfold id.
    + rewrite andb_true_r. reflexivity.
    + rewrite orb_false_r. reflexivity.
Qed.

Section Eval.
  Variable use use' : list str.
  Variable S : leaf -> bool.
  Let sat1 := sat use' S.
  Let mem0 := group_member use (leaf_sat use S).

  Lemma sat1_op k Lc : forallb flatb Lc = true -> sat1 (Op k Lc) = agg (kind_of k) (map sat1 Lc).
  Proof. intro F. unfold sat1, sat. rewrite sat_op, (members_flat _ _ _ F). reflexivity. Qed.

  (* L: what evaluation left of nodes with members bs *)
  Definition reads_as (k : kind) (L : list node) (bs : list bool) : Prop :=
    forallb flatb L = true /\ read_alike k (map sat1 L) bs.

  Lemma reads_as_nil k : reads_as k [] [].
  Proof. split; [reflexivity | apply read_alike_refl]. Qed.
  Definition ev_ok (n : node) : Prop :=
    leaves_wf n = true -> forall p, reads_as (pkind p) (ev use p n) (mem0 n).

  Lemma children_inv q cs : Forall ev_ok cs -> forallb leaves_wf cs = true ->
    reads_as (pkind q) (flat_map (ev use q) cs) (flat_map mem0 cs).
  Proof.
    induction 1 as [|c cs Hc _ IH]; cbn [flat_map forallb]; intro W; [apply reads_as_nil|].
    apply andb_true_iff in W as [Wc W]. destruct (Hc Wc q) as [Fc Ac], (IH W) as [F A]. split.
    - rewrite forallb_app, Fc, F. reflexivity.
    - rewrite map_app. apply read_alike_app; assumption.
  Qed.

  Lemma wrap_inv p k Lc bs : reads_as (kind_of k) Lc bs ->
    reads_as (pkind p) (wrap p k Lc) (if is_nil bs then [] else [agg (kind_of k) bs]).
  Proof.
    intros [F A]. rewrite <- (agg_read_alike _ _ _ A), <- (read_alike_nil _ _ _ A).
    destruct Lc as [|m [|m2 Lr]]; cbn [wrap map is_nil].
    - apply reads_as_nil.
    - destruct (kind_eqb (kind_of k) KMost) eqn:KM; (split; [|cbn [map]]).
      + apply flat_group; [discriminate | exact F].
      + rewrite sat1_op by exact F. apply read_alike_refl.
      + exact F.
      + rewrite (agg_single _ _ KM). apply read_alike_refl.
    - destruct (splice p k) eqn:SP; (split; [|cbn [map]]).
      + exact F.
      + apply (read_alike_splice p k _ _ SP); [discriminate | apply read_alike_refl].
      + apply flat_group; [discriminate | exact F].
      + rewrite sat1_op by exact F. apply read_alike_refl.
  Qed.

  Lemma ev_op_inv k cs : Forall ev_ok cs -> ev_ok (Op k cs).
  Proof. intros IH W p. unfold mem0. rewrite member_op. apply wrap_inv, children_inv; assumption. Qed.

  Lemma ev_inv n : ev_ok n.
  Proof.
    induction n as [l|k cs IH|ng f cs IH] using node_ind'.
    - intros W p. cbn in W. split; cbn; [rewrite (ev_leaf_static use l W); reflexivity|].
      unfold sat1, sat, leaf_sat at 1. cbn [sat_gen]. rewrite (ev_leaf_static use l W).
      rewrite transitive_use_expansion_proof. apply read_alike_refl.
    - apply ev_op_inv, IH.
    - intros W p. unfold mem0. rewrite member_cond. unfold off. cbn [ev].
      destruct (Bool.eqb (mem f use) ng); [apply reads_as_nil | exact (ev_op_inv [] cs IH W p)].
  Qed.

  Lemma evs_inv q cs : forallb leaves_wf cs = true ->
    reads_as (pkind q) (flat_map (ev use q) cs) (flat_map mem0 cs).
  Proof. apply children_inv, Forall_forall. intros c _. apply ev_inv. Qed.
End Eval.

Lemma ev_flat use d : forallb leaves_wf d = true -> forallb flatb (flat_map (ev use None) d) = true.
Proof. intro W. apply (evs_inv use use (fun _ => true) None d W). Qed.
Lemma ev_sat use use' S d : forallb leaves_wf d = true ->
  sat_all use' S (flat_map (ev use None) d) = sat_all use S d.
Proof.
  intro W. destruct (evs_inv use use' S None d W) as [_ [_ A]]. cbn [pkind] in A.
  unfold sat_all, sat. rewrite <- (forall_members use _ d). unfold group_members. rewrite <- A.
  symmetry. apply (forallb_map id).
Qed.

Lemma flat_cond_free n : flatb n = true -> cond_free n = true.
Proof.
  induction n as [l|k cs IH|ng f cs IH] using node_ind'; cbn; intro H; try exact H.
  apply andb_true_iff in H as [_ H]. rewrite forallb_forall in *. rewrite Forall_forall in IH. auto.
Qed.

Lemma cond_free_no_cond n : cond_free n = true -> has_cond n = false.
Proof.
  induction n as [l|k cs IH|ng f cs IH] using node_ind'; cbn; intro H; try reflexivity; try discriminate.
  rewrite forallb_forall in H. rewrite Forall_forall in IH.
  destruct (existsb has_cond cs) eqn:E; [|reflexivity].
  apply existsb_exists in E as (x & Hx & Ex). rewrite (IH x Hx (H x Hx)) in Ex. discriminate.
Qed.

Lemma nocond_free n : has_cond n = false -> has_trans n = false -> cond_free n = true.
Proof.
  induction n as [l|k cs IH|ng f cs IH] using node_ind'; cbn; intros H1 H2; try discriminate.
  - rewrite H2. reflexivity.
  - rewrite forallb_forall. rewrite Forall_forall in IH. intros x Hx.
    apply (IH x Hx); [exact (proj1 (existsb_false _ _) H1 x Hx) | exact (proj1 (existsb_false _ _) H2 x Hx)].
Qed.

Lemma cond_free_indep u u' S n : cond_free n = true ->
  group_member u (leaf_sat u S) n = group_member u' (leaf_sat u' S) n.
Proof.
  induction n as [l|k cs IH|ng f cs IH] using node_ind'; cbn [cond_free]; intro H; try discriminate.
  - unfold group_member, leaf_sat. cbn. apply negb_true_iff in H. rewrite H. reflexivity.
  - rewrite !member_op. rewrite Forall_forall in IH. rewrite forallb_forall in H.
    rewrite (members_ext u _ u' (leaf_sat u' S) cs) by auto. reflexivity.
Qed.
Lemma cond_free_indep_all u u' S d : forallb cond_free d = true -> sat_all u S d = sat_all u' S d.
Proof.
  intro H. unfold sat_all, sat. rewrite <- !forall_members. f_equal. rewrite forallb_forall in H.
  apply members_ext. intros c Hc. apply cond_free_indep, H, Hc.
Qed.

Lemma evaluate_no_cond c use d : forallb leaves_wf d = true -> no_cond (evaluate c use d) = true.
Proof.
  intro W. unfold evaluate, no_cond. rewrite forallb_forall. intros x Hx. apply negb_true_iff.
  destruct (node_conds c d) eqn:NC.
  - pose proof (ev_flat use d W) as F. rewrite forallb_forall in F.
    apply cond_free_no_cond, flat_cond_free, F, Hx.
  - apply orb_false_iff in NC as [NC _]. exact (proj1 (existsb_false _ _) NC x Hx).
Qed.

Lemma evaluate_same_use c use d S : forallb leaves_wf d = true ->
  sat_all use S (evaluate c use d) = sat_all use S d.
Proof. intro W. unfold evaluate. destruct (node_conds c d); [apply ev_sat, W | reflexivity]. Qed.

Lemma evaluate_indep c use d : forallb leaves_wf d = true ->
  node_conds c d = true \/ existsb has_trans d = false ->
  forallb cond_free (evaluate c use d) = true /\
  forall S use', sat_all use' S (evaluate c use d) = sat_all use S d.
Proof.
  intros W H. unfold evaluate. destruct (node_conds c d) eqn:NC.
  - split; [|intros; apply ev_sat, W]. pose proof (ev_flat use d W) as F.
    rewrite forallb_forall in *. intros x Hx. apply flat_cond_free, F, Hx.
  - destruct H as [H|NT]; [discriminate|]. apply orb_false_iff in NC as [NC _].
    pose proof (nocond_free (Op [] d) NC NT) as CF. split; [exact CF|].
    intros S use'. apply cond_free_indep_all, CF.
Qed.

Lemma last_is_split ch s : last_is ch s = true -> s = removelast s ++ [ch].
Proof.
  induction s as [|x r IH]; [discriminate|]. destruct r as [|y r'].
  - cbn. intro H. apply N.eqb_eq in H. subst. reflexivity.
  - intro H. change (last_is ch (y :: r') = true) in H. specialize (IH H).
    change (x :: y :: r' = x :: (removelast (y :: r') ++ [ch])). rewrite <- IH. reflexivity.
Qed.
Lemma last_is_app ch s : last_is ch (s ++ [ch]) = true.
Proof.
  induction s as [|x r IH]; cbn; [apply N.eqb_refl|].
  destruct (r ++ [ch]) eqn:E; [destruct r; discriminate|]. exact IH.
Qed.

Section Parser.
  Variable c : cfg.
  Variable lf : str -> option str -> option leaf.
  Notation items := (items c lf).
  Notation item := (item c lf).
  Notation run := (run c lf).

  (* neither empty nor a parenthesis *)
  Definition is_word (k : str) : Prop :=
    k <> [] /\ str_eqb k s_close = false /\ str_eqb k s_open = false.

  Lemma classify_spec k :
    match classify c k with
    | TClose => k = s_close
    | TOpen => k = s_open
    | TGroup => is_word k /\ (mem k (ops c) = false -> last_is c_q k = true)
    | TPlain => is_word k
    | TBad => True
    end.
  Proof.
    unfold classify, is_word. destruct k as [|x r]; [exact I|]. cbn [is_nil].
    destruct (str_eqb_spec (x :: r) s_close) as [E1|_]; [exact E1|].
    destruct (str_eqb_spec (x :: r) s_open) as [E2|_]; [exact E2|].
    assert (W : x :: r <> [] /\ false = false /\ false = false) by (repeat split; discriminate).
    destruct (last_is c_q (x :: r)); [split; [exact W | reflexivity]|]. cbn [orb].
    destruct (mem (x :: r) (ops c)); [split; [exact W | discriminate]|].
    destruct (has_bar (x :: r)); [exact I | exact W].
  Qed.
  Lemma group_word k : classify c k = TGroup -> is_word k.
  Proof. intro H. pose proof (classify_spec k) as K. rewrite H in K. apply K. Qed.
  Lemma plain_word k : plain c k -> is_word k.
  Proof. intro H. pose proof (classify_spec k) as K. rewrite H in K. exact K. Qed.

  Lemma classify_open : classify c s_open = TOpen.
  Proof. reflexivity. Qed.
  Lemma classify_close : classify c s_close = TClose.
  Proof. reflexivity. Qed.
  Lemma cond_tok_q ng f : last_is c_q (cond_tok ng f) = true.
  Proof. unfold cond_tok. rewrite app_assoc. apply last_is_app. Qed.
  Lemma cond_tok_nonnil ng f : cond_tok ng f <> [].
  Proof. unfold cond_tok. destruct ng; cbn; [discriminate|]. destruct f; discriminate. Qed.
  Lemma classify_cond ng f : classify c (cond_tok ng f) = TGroup.
  Proof.
    assert (NE : forall s, last_is c_q s = false -> str_eqb (cond_tok ng f) s = false).
    { intros s H. apply str_eqb_neq. intro E. rewrite <- E, cond_tok_q in H. discriminate. }
    unfold classify. rewrite (NE s_close), (NE s_open), cond_tok_q by reflexivity.
    destruct (cond_tok ng f) eqn:E; [destruct (cond_tok_nonnil _ _ E) | reflexivity].
  Qed.

  Lemma opener_cons k : k <> [] -> opener k = [k; s_open].
  Proof. destruct k; [congruence | reflexivity]. Qed.
  Lemma pr_cond ng f cs :
    pr_node (Cond ng f cs) = opener (cond_tok ng f) ++ print cs ++ [s_close].
  Proof. rewrite (opener_cons _ (cond_tok_nonnil ng f)). reflexivity. Qed.

  Lemma build_single key n : mem key (ops c) = true -> (key = s_most -> mem key (badops c) = true) ->
    build c key [n] = Some n.
  Proof.
    intros M B. unfold build. rewrite M. destruct (str_eqb_spec key s_most) as [E|_]; [|reflexivity].
    rewrite (B E). reflexivity.
  Qed.
  Lemma build_group key ns : mem key (ops c) = true -> mem key (badops c) = false ->
    (length ns >= 2)%nat \/ (key = s_most /\ length ns = 1%nat) -> build c key ns = Some (Op key ns).
  Proof.
    intros M B H. unfold build. rewrite M, B. destruct ns as [|a [|b r]]; cbn in H.
    - destruct H as [H|[_ H]]; [lia | discriminate].
    - destruct H as [H|[H _]]; [lia|]. subst. reflexivity.
    - reflexivity.
  Qed.
  Lemma build_cond ng f ns : mem (cond_tok ng f) (ops c) = false -> (ng = false -> first_is c_bang f = false) ->
    build c (cond_tok ng f) ns = Some (Cond ng f ns).
  Proof.
    intros M B. unfold build. rewrite M. unfold cond_tok. destruct ng.
    - cbn. rewrite removelast_last. reflexivity.
    - specialize (B eq_refl). cbn [app]. destruct f as [|x r]; [reflexivity|].
      cbn in B. cbn [app]. rewrite B. change (x :: r ++ [c_q]) with ((x :: r) ++ [c_q]).
      rewrite removelast_last. reflexivity.
  Qed.

  Lemma cond_key key : last_is c_q key = true ->
    exists ng f, key = cond_tok ng f /\ (ng = false -> first_is c_bang f = false).
  Proof.
    destruct key as [|x r]; [discriminate|]. intro Q. destruct (N.eqb_spec x c_bang) as [->|X].
    - exists true, (removelast r). split; [|discriminate].
      unfold cond_tok. cbn. f_equal. destruct r; [discriminate|]. apply last_is_split, Q.
    - exists false, (removelast (x :: r)). split; [apply last_is_split, Q|]. intros _.
      destruct r; [reflexivity | apply N.eqb_neq, X].
  Qed.

  (* after an element, "->" would be read as a rename *)
  Definition arrow_ok (rest : list str) : Prop :=
    renames c = true -> match rest with k :: _ => str_eqb k s_arrow = false | [] => True end.

  Inductive runs : list str -> list node -> list (str * list node) -> list node -> Prop :=
  | R_end d : runs [] d [] d
  | R_close key parent stk cur n rest d : cur <> [] -> build c key cur = Some n ->
      runs rest (parent ++ [n]) stk d -> runs (s_close :: rest) cur ((key, parent) :: stk) d
  | R_open rest cur stk d : runs rest [] (([], cur) :: stk) d -> runs (s_open :: rest) cur stk d
  | R_group k rest cur stk d : classify c k = TGroup ->
      runs rest [] ((k, cur) :: stk) d -> runs (k :: s_open :: rest) cur stk d
  | R_leaf k l rest cur stk d : plain c k -> lf k None = Some l -> arrow_ok rest ->
      runs rest (cur ++ [L l]) stk d -> runs (k :: rest) cur stk d
  | R_rename k r l rest cur stk d : renames c = true -> plain c k -> lf k (Some r) = Some l ->
      runs rest (cur ++ [L l]) stk d -> runs (k :: s_arrow :: r :: rest) cur stk d.

  (* by induction on the length: a group opener consumes two tokens, a rename three *)
  Lemma run_runs toks : forall cur stk d, run toks cur stk = Some d -> runs toks cur stk d.
  Proof.
    induction toks as [toks IH] using (induction_ltof1 _ (@length str)). unfold ltof in IH.
    intros cur stk d. destruct toks as [|k rest]; cbn [Model_C09.run].
    { destruct stk; [|discriminate]. intro H. injection H as <-. apply R_end. }
    pose proof (classify_spec k) as K. destruct (classify c k) eqn:CL; cbn in K.
    - subst k. destruct stk as [|[key parent] stk]; [discriminate|].
      destruct cur as [|n0 cur]; [discriminate|]. destruct (build c key (n0 :: cur)) as [n|] eqn:B; [|discriminate].
      intro H. apply (R_close key parent stk (n0 :: cur) n); [discriminate | exact B|].
      apply IH; [cbn; lia | exact H].
    - subst k. intro H. apply R_open, IH; [cbn; lia | exact H].
    - destruct rest as [|k2 rest]; [discriminate|]. destruct (str_eqb_spec k2 s_open) as [->|_]; [|discriminate].
      intro H. apply R_group; [exact CL|]. apply IH; [cbn; lia | exact H].
    - discriminate.
    - assert (LEAF : arrow_ok rest ->
                match lf k None with Some l => run rest (cur ++ [L l]) stk | None => None end = Some d ->
                runs (k :: rest) cur stk d).
      { intros A H. destruct (lf k None) as [l|] eqn:E; [|discriminate].
        apply (R_leaf k l); [exact CL | exact E | exact A|]. apply IH; [cbn; lia | exact H]. }
      destruct (renames c) eqn:RN; [|apply LEAF; intro; congruence].
      destruct rest as [|k2 rest]; [apply LEAF; intros _; exact I|].
      destruct (str_eqb k2 s_arrow) eqn:EA; [|apply LEAF; intros _; exact EA].
      apply str_eqb_eq in EA. subst k2. destruct rest as [|r rest]; [discriminate|].
      destruct (lf k (Some r)) as [l|] eqn:E; [|discriminate]. intro H.
      apply (R_rename k r l); [exact RN | exact CL | exact E|]. apply IH; [cbn; lia | exact H].
  Qed.

  Lemma runs_run toks cur stk d : runs toks cur stk d -> run toks cur stk = Some d.
  Proof.
    induction 1 as [d|key parent stk cur n rest d NE B _ IH|rest cur stk d _ IH|k rest cur stk d G _ IH
                   |k l rest cur stk d P E A _ IH|k r l rest cur stk d RN P E _ IH].
    - reflexivity.
    - cbn [Model_C09.run]. rewrite classify_close. destruct cur; [congruence|]. rewrite B. exact IH.
    - exact IH.
    - (* the tail is hidden so that only the first token is stepped over *)
      remember (s_open :: rest) as t eqn:Et. cbn [Model_C09.run]. rewrite G. subst t. exact IH.
    - cbn [Model_C09.run]. rewrite P, E. destruct (renames c) eqn:RN; [|exact IH].
      destruct rest; [exact IH|]. rewrite (A RN). exact IH.
    - remember (s_arrow :: r :: rest) as t eqn:Et. cbn [Model_C09.run]. rewrite P, RN. subst t.
      cbn iota. rewrite E. exact IH.
  Qed.

  Lemma item_head t n : item t n -> exists k t', t = k :: t' /\ not_arrow c k.
  Proof.
    assert (G : forall key ts, okkey c key -> exists k t', opener key ++ ts = k :: t' /\ not_arrow c k).
    { intros key ts [_ A]. unfold opener. destruct key; cbn; [exists s_open; eexists; split; [reflexivity|discriminate] | eauto]. }
    destruct 1 as [k l ? A ?|k r l ? ? A ?|key ts n O ? ? ?|key ts ns O ? ? ? ?|ng f ts ns A ? ? ? ?]; eauto.
    apply G. split; [right; apply classify_cond | exact A].
  Qed.
  Lemma items_arrow_ok ts ns rest : items ts ns -> arrow_ok rest -> arrow_ok (ts ++ rest).
  Proof.
    destruct 1 as [|t1 n t2 ns' H1 H2]; [auto|]. intros _ R.
    destruct (item_head _ _ H1) as (k & t' & -> & A). cbn. apply str_eqb_neq, A, R.
  Qed.

  Scheme item_mind := Minimality for Spec_C09.item Sort Prop
    with items_mind := Minimality for Spec_C09.items Sort Prop.
  Combined Scheme gram_mind from items_mind, item_mind.

  Lemma gram_run :
    (forall ts ns, items ts ns -> forall rest cur stk d, arrow_ok rest ->
       runs rest (cur ++ ns) stk d -> runs (ts ++ rest) cur stk d) /\
    (forall t n, item t n -> forall rest cur stk d, arrow_ok rest ->
       runs rest (cur ++ [n]) stk d -> runs (t ++ rest) cur stk d).
  Proof.
    assert (GRP : forall key ts ns n, okkey c key -> ns <> [] -> build c key ns = Some n ->
      (forall rest cur stk d, arrow_ok rest -> runs rest (cur ++ ns) stk d -> runs (ts ++ rest) cur stk d) ->
      forall rest cur stk d, runs rest (cur ++ [n]) stk d ->
        runs ((opener key ++ ts ++ [s_close]) ++ rest) cur stk d).
    { intros key ts ns n O NE B IH rest cur stk d H. rewrite <- !app_assoc.
      assert (H' : runs (ts ++ [s_close] ++ rest) [] ((key, cur) :: stk) d).
      { apply IH; [intros _; reflexivity|]. apply (R_close key cur stk ns n); assumption. }
      destruct O as [[->|G] _]; [apply R_open, H'|].
      rewrite (opener_cons key (proj1 (group_word key G))). apply R_group; assumption. }
    apply gram_mind.
    - intros k l P A E rest cur stk d R H. exact (R_leaf k l _ _ _ _ P E R H).
    - intros k r l RN P A E rest cur stk d R H. exact (R_rename k r l _ _ _ _ RN P E H).
    - intros key ts n O M B _ IH rest cur stk d R.
      apply (GRP key ts [n]); [exact O | discriminate | apply build_single; assumption | exact IH].
    - intros key ts ns O M B Hl _ IH rest cur stk d R.
      apply (GRP key ts ns); [exact O | | apply build_group; assumption | exact IH].
      intros ->. cbn in Hl. destruct Hl as [Hl|[_ Hl]]; [lia | discriminate].
    - intros ng f ts ns A M B NE _ IH rest cur stk d R.
      apply (GRP _ ts ns); [|exact NE | apply build_cond; assumption | exact IH].
      split; [right; apply classify_cond | exact A].
    - intros rest cur stk d _ H. rewrite app_nil_r in H. exact H.
    - intros t1 n t2 ns H1 IH1 H2 IH2 rest cur stk d R H. rewrite <- app_assoc.
      apply IH1; [eapply items_arrow_ok; eauto|]. apply IH2; [exact R|]. rewrite <- app_assoc. exact H.
  Qed.

  Hypothesis AR : arrow_reserved c lf.

  Lemma items_snoc t1 ns t2 n : items t1 ns -> item t2 n -> items (t1 ++ t2) (ns ++ [n]).
  Proof.
    intros H1 H2. induction H1 as [|t1 n1 t1' ns1 Hi _ IH].
    - cbn. rewrite <- (app_nil_r t2). apply I_cons; [exact H2 | apply I_nil].
    - rewrite <- app_assoc. cbn. apply I_cons; [exact Hi | exact IH].
  Qed.

  Lemma leaf_not_arrow k r l : lf k r = Some l -> not_arrow c k.
  Proof. intros E RN K. subst. destruct (AR RN) as [A _]. rewrite A in E. discriminate. Qed.

  Lemma okkey_nil : okkey c [].
  Proof. split; [left; reflexivity | intros _; discriminate]. Qed.
  Lemma okkey_group k : classify c k = TGroup -> okkey c k.
  Proof.
    intro G. split; [right; exact G|]. intros RN ->. destruct (AR RN) as [_ M].
    unfold classify in G. rewrite M in G. discriminate.
  Qed.

  Lemma build_item key ct cur n : okkey c key -> items ct cur -> cur <> [] ->
    build c key cur = Some n -> item (opener key ++ ct ++ [s_close]) n.
  Proof.
    intros O I NE. destruct (mem key (ops c)) eqn:M.
    - unfold build. rewrite M. destruct cur as [|a [|b r]]; [congruence | |].
      + destruct (str_eqb key s_most && negb (mem key (badops c))) eqn:E; intro B; injection B as <-.
        * apply andb_true_iff in E as [E1 E2]. apply str_eqb_eq in E1. apply negb_true_iff in E2.
          apply G_group; auto.
        * apply G_single; auto. intros ->. rewrite str_eqb_refl in E. apply negb_false_iff, E.
      + destruct (mem key (badops c)) eqn:Bad; [discriminate|]. intro B; injection B as <-.
        apply G_group; auto. left. cbn. lia.
    - destruct O as [[->|G] A]; [unfold build; rewrite M; discriminate|].
      pose proof (classify_spec key) as Q. rewrite G in Q.
      destruct (cond_key key (proj2 Q M)) as (ng & f & -> & Ff).
      rewrite (build_cond ng f cur M Ff). intro B; injection B as <-. apply G_cond; auto.
  Qed.

  (* the tokens read so far: each open frame has read the items of its parent, then its opener *)
  Inductive run_ctx : list str -> list node -> list (str * list node) -> Prop :=
  | C_top ct cur : items ct cur -> run_ctx ct cur []
  | C_in pre key parent stk ct cur : run_ctx pre parent stk -> okkey c key -> items ct cur ->
      run_ctx (pre ++ opener key ++ ct) cur ((key, parent) :: stk).

  Lemma run_ctx_snoc pre cur stk t n : run_ctx pre cur stk -> item t n -> run_ctx (pre ++ t) (cur ++ [n]) stk.
  Proof.
    intros H I. destruct H as [ct cur Ic|pre key parent stk ct cur H O Ic].
    - apply C_top, items_snoc; assumption.
    - rewrite <- !app_assoc. apply C_in; [exact H | exact O | apply items_snoc; assumption].
  Qed.
  Lemma run_ctx_open pre cur stk key : run_ctx pre cur stk -> okkey c key ->
    run_ctx (pre ++ opener key) [] ((key, cur) :: stk).
  Proof. intros H O. rewrite <- (app_nil_r (opener key)). apply C_in; [exact H | exact O | apply I_nil]. Qed.

  Lemma run_sound toks cur stk d : runs toks cur stk d ->
    forall pre, run_ctx pre cur stk -> items (pre ++ toks) d.
  Proof.
    induction 1 as [d|key parent stk cur n rest d NE B _ IH|rest cur stk d _ IH|k rest cur stk d G _ IH
                   |k l rest cur stk d P E _ _ IH|k r l rest cur stk d RN P E _ IH]; intros pre C.
    - inversion C; subst. rewrite app_nil_r. assumption.
    - inversion C as [|pre' ? ? ? ct ? C' O Ic]; subst.
      specialize (IH _ (run_ctx_snoc _ _ _ _ _ C' (build_item _ _ _ _ O Ic NE B))).
      rewrite <- !app_assoc in *. exact IH.
    - specialize (IH _ (run_ctx_open _ _ _ [] C okkey_nil)).
      rewrite <- app_assoc in IH. exact IH.
    - specialize (IH _ (run_ctx_open _ _ _ k C (okkey_group k G))).
      rewrite (opener_cons k (proj1 (group_word k G))), <- app_assoc in IH. exact IH.
    - specialize (IH _ (run_ctx_snoc _ _ _ _ _ C (G_leaf c lf k l P (leaf_not_arrow _ _ _ E) E))).
      rewrite <- app_assoc in IH. exact IH.
    - specialize (IH _ (run_ctx_snoc _ _ _ _ _ C (G_rename c lf k r l RN P (leaf_not_arrow _ _ _ E) E))).
      rewrite <- app_assoc in IH. exact IH.
  Qed.

  Theorem accepted_grammatical_proof toks d : parse c lf toks = Some d -> items toks d.
  Proof. intro H. exact (run_sound _ _ _ _ (run_runs _ _ _ _ H) [] (C_top _ _ (I_nil c lf))). Qed.

  Hypothesis LG : lf_good c lf.

  Lemma items_of_forall ns : Forall (fun n => item (pr_node n) n) ns -> items (print ns) ns.
  Proof. induction 1; cbn; [apply I_nil | apply I_cons; assumption]. Qed.

  Lemma print_gram :
    (forall ts ns, items ts ns -> Forall (fun n => item (pr_node n) n) ns) /\
    (forall t n, item t n -> item (pr_node n) n).
  Proof.
    apply gram_mind.
    - intros k l P A E. destruct (LG k None l P A E) as (P' & A' & R & E').
      cbn [pr_node]. unfold pr_leaf. rewrite R. apply G_leaf; assumption.
    - intros k r l RN P A E. destruct (LG k (Some r) l P A E) as (P' & A' & R & E').
      cbn [pr_node]. unfold pr_leaf. rewrite R. apply G_rename; assumption.
    - intros key ts n O M B _ IH. inversion IH; assumption.
    - intros key ts ns O M B Hl _ IH. apply G_group; auto. apply items_of_forall, IH.
    - intros ng f ts ns A M B NE _ IH. rewrite pr_cond. apply G_cond; auto. apply items_of_forall, IH.
    - constructor.
    - intros; constructor; assumption.
  Qed.

End Parser.

(* the premises are satisfiable *)
Lemma lf_id_good c : lf_good c lf_id.
Proof.
  intros k r l P A E. unfold lf_id in E. injection E as <-. cbn. repeat split; assumption.
Qed.

Lemma lf_uri_good c : lf_good c lf_uri.
Proof.
  intros k r l P A E. unfold lf_uri in *. destruct (str_eqb k s_arrow) eqn:K; [discriminate|].
  unfold lf_id in E. injection E as <-. cbn. rewrite K. repeat split; assumption.
Qed.
Lemma lf_uri_reserved c : mem s_arrow (ops c) = false -> arrow_reserved c lf_uri.
Proof. intros M _. split; [|exact M]. intro r. unfold lf_uri. rewrite str_eqb_refl. reflexivity. Qed.
Lemma no_renames_reserved c lf : renames c = false -> arrow_reserved c lf.
Proof. intros H RN. congruence. Qed.

Definition a_b : str := [97;47;98].            (* "a/b" *)
Definition fx : str := [120].                  (* "x" *)
Definition atom_with (u : list str) : leaf := {| lstr := []; lbase := a_b; luse := u; lren := None |}.
Definition only (tok : str) : leaf -> bool := fun l => str_eqb (lstr l) tok.

(* the four rows of PMS 8.3.4, under x on / x off *)
Example row_cond_on : ev_leaf [fx] (atom_with [[120;63]]) = mkleaf a_b [[120]].            (* a[x?]  x  -> a[x]  *)
Proof. reflexivity. Qed.
Example row_cond_off : ev_leaf [] (atom_with [[120;63]]) = mkleaf a_b [].                  (* a[x?] -x  -> a     *)
Proof. reflexivity. Qed.
Example row_ncond_on : ev_leaf [fx] (atom_with [[33;120;63]]) = mkleaf a_b [].             (* a[!x?] x  -> a     *)
Proof. reflexivity. Qed.
Example row_ncond_off : ev_leaf [] (atom_with [[33;120;63]]) = mkleaf a_b [[45;120]].      (* a[!x?] -x -> a[-x] *)
Proof. reflexivity. Qed.
Example row_eq_on : ev_leaf [fx] (atom_with [[120;61]]) = mkleaf a_b [[120]].              (* a[x=]  x  -> a[x]  *)
Proof. reflexivity. Qed.
Example row_eq_off : ev_leaf [] (atom_with [[120;61]]) = mkleaf a_b [[45;120]].            (* a[x=] -x  -> a[-x] *)
Proof. reflexivity. Qed.
Example row_neq_on : ev_leaf [fx] (atom_with [[33;120;61]]) = mkleaf a_b [[45;120]].       (* a[!x=] x  -> a[-x] *)
Proof. reflexivity. Qed.
Example row_neq_off : ev_leaf [] (atom_with [[33;120;61]]) = mkleaf a_b [[120]].           (* a[!x=] -x -> a[x]  *)
Proof. reflexivity. Qed.
Example mkleaf_str : lstr (mkleaf a_b [[121]; [45;120]]) = [97;47;98;91;45;120;44;121;93].  (* "a/b[-x,y]" *)
Proof. reflexivity. Qed.

(* "|| ( x? ( a ) )": the one-member any-of group is its member already after parsing;
   "|| ( x? ( a ) b )" with x off evaluates to "b" *)
Definition ex_any : list str := [s_or; s_open; [120;63]; s_open; [97]; s_close; s_close].
Example ex_any_parses : parse (cfg_of 2) lf_id ex_any
  = Some [Cond false [120] [L {| lstr := [97]; lbase := [97]; luse := []; lren := None |}]].
Proof. reflexivity. Qed.
Example ex_any_emptied :
  option_map (evaluate (cfg_of 2) []) (parse (cfg_of 2) lf_id [s_or; s_open; [120;63]; s_open; [97]; s_close; [98]; s_close])
  = Some [L {| lstr := [98]; lbase := [98]; luse := []; lren := None |}].
Proof. reflexivity. Qed.
Example ex_most_single :        (* "?? ( a )" stays an at-most-one-of group, satisfied by {} and by {a} *)
  option_map (fun d => (d, sat_all [] (fun _ => false) d, sat_all [] (fun _ => true) d))
             (parse (cfg_of 5) lf_id [s_most; s_open; [97]; s_close])
  = Some ([Op s_most [L {| lstr := [97]; lbase := [97]; luse := []; lren := None |}]], true, true).
Proof. reflexivity. Qed.
Example ex_roundtrip :          (* "^^ ( a b )" prints as itself *)
  option_map print (parse (cfg_of 5) lf_id [s_one; s_open; [97]; [98]; s_close]) = Some [s_one; s_open; [97]; [98]; s_close].
Proof. reflexivity. Qed.
Example ex_unbalanced : balance 0 [s_open; [97]] = false /\ dangling (cfg_of 0) [[97]; s_or] = true.
Proof. split; reflexivity. Qed.
Example ex_rename : parse (cfg_of 4) lf_id [[117]; s_arrow; [110]]
  = Some [L {| lstr := [117]; lbase := [117]; luse := []; lren := Some [110] |}].
Proof. reflexivity. Qed.
