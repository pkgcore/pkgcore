(* Proofs_C17.v — the proofs behind Prop_C17: relational reasoning on the planner monad, the invariant [Inv], histories. *)
From Coq Require Import List NArith Bool Arith Lia.
Import ListNotations.
From Verif Require Import Base.Lists C17.Model_C17 C17.Spec_C17.

(* memN stays folded under cbn: the lemmas below are stated about memN, not about its existsb *)
Arguments memN : simpl never.

Definition reflects {A} (eqb : A -> A -> bool) := forall a b, eqb a b = true <-> a = b.
Existing Class reflects.

Lemma N_reflects : reflects N.eqb.
Proof. intros a b. apply N.eqb_eq. Qed.
Lemma pair_reflects : reflects pair_eqb.
Proof.
  intros [a1 a2] [b1 b2]. unfold pair_eqb. cbn. rewrite andb_true_iff, !N.eqb_eq.
  split; [intros [-> ->]; reflexivity | intros H; injection H; auto].
Qed.
Lemma trip_reflects : reflects trip_eqb.
Proof.
  intros [a1 a2] [b1 b2]. unfold trip_eqb. cbn. rewrite andb_true_iff, N.eqb_eq.
  rewrite (pair_reflects a2 b2). split; [intros [-> ->]; reflexivity | intros H; injection H; auto].
Qed.
#[export] Existing Instances N_reflects pair_reflects trip_reflects.

(* the equality test and its [reflects] instance are found from the goal *)
Section Count.
Context {A : Type} {eqb : A -> A -> bool} {Hr : reflects eqb}.

Lemma eqb_refl' x : eqb x x = true.
Proof. apply Hr. reflexivity. Qed.
Lemma eqb_sym' x y : eqb x y = eqb y x.
Proof.
  destruct (eqb x y) eqn:H1, (eqb y x) eqn:H2; try reflexivity.
  - apply Hr in H1. subst. rewrite eqb_refl' in H2. discriminate.
  - apply Hr in H2. subst. rewrite eqb_refl' in H1. discriminate.
Qed.

Lemma count_app x l1 l2 : count eqb x (l1 ++ l2) = count eqb x l1 + count eqb x l2.
Proof. induction l1; cbn; [reflexivity | rewrite IHl1; lia]. Qed.

Lemma count_one x y : count eqb x [y] = if eqb x y then 1 else 0.
Proof. cbn. lia. Qed.

Lemma count_filter x f l : count eqb x (filter f l) = if f x then count eqb x l else 0.
Proof.
  induction l as [|z l IH]; cbn; [destruct (f x); reflexivity|].
  destruct (f z) eqn:Hz; cbn; rewrite IH.
  all: destruct (eqb x z) eqn:Hxz; [apply Hr in Hxz; subst; rewrite Hz; reflexivity|].
  all: destruct (f x); reflexivity.
Qed.

Lemma count_remove1 x y l :
  count eqb x (remove1 eqb y l) = if eqb y x then pred (count eqb x l) else count eqb x l.
Proof.
  induction l as [|z l IH]; cbn.
  - destruct (eqb y x); reflexivity.
  - destruct (eqb y z) eqn:Hyz.
    + apply Hr in Hyz. subst z. rewrite (eqb_sym' x y).
      destruct (eqb y x); cbn; lia.
    + cbn. rewrite IH. destruct (eqb y x) eqn:Hyx; [|reflexivity].
      apply Hr in Hyx. subst x. rewrite Hyz. cbn. reflexivity.
Qed.

Lemma existsb_count x l : existsb (eqb x) l = negb (Nat.eqb (count eqb x l) 0).
Proof.
  induction l as [|z l IH]; cbn; [reflexivity|].
  destruct (eqb x z); cbn; [reflexivity | exact IH].
Qed.

Lemma count_In x l : count eqb x l <> 0 <-> In x l.
Proof.
  induction l as [|z l IH]; cbn; [tauto|].
  destruct (eqb x z) eqn:H; cbn.
  - apply Hr in H. subst. split; [auto | discriminate].
  - rewrite IH. split; [auto | intros [->|H1]; [rewrite eqb_refl' in H; discriminate | exact H1]].
Qed.

Lemma same_count_nil l1 l2 :
  (forall x, count eqb x l1 = count eqb x l2) -> is_nil l1 = is_nil l2.
Proof.
  intros H. destruct l1 as [|a l1], l2 as [|b l2]; cbn; try reflexivity.
  - specialize (H b). cbn in H. rewrite eqb_refl' in H. lia.
  - specialize (H a). cbn in H. rewrite eqb_refl' in H. lia.
Qed.

Lemma count_remove1_last x y l : count eqb y (remove1 eqb x (l ++ [x])) = count eqb y l.
Proof.
  rewrite count_remove1, count_app. cbn. rewrite (eqb_sym' y x).
  destruct (eqb x y); lia.
Qed.
Lemma count_filter_last x y l :
  count eqb x l = 0 -> count eqb y (filter (fun z => negb (eqb x z)) (l ++ [x])) = count eqb y l.
Proof.
  intros H0. rewrite count_filter, count_app. cbn. rewrite (eqb_sym' y x).
  destruct (eqb x y) eqn:H; cbn; [apply Hr in H; subst|]; lia.
Qed.
Lemma count_filter_readd x y l :
  count eqb x l = 1 -> count eqb y (filter (fun z => negb (eqb x z)) l ++ [x]) = count eqb y l.
Proof.
  intros H1. rewrite count_app, count_filter. cbn. rewrite (eqb_sym' y x).
  destruct (eqb x y) eqn:H; cbn; [apply Hr in H; subst|]; lia.
Qed.

Lemma count_remove1_readd x y l :
  count eqb x l <> 0 -> count eqb y (remove1 eqb x l ++ [x]) = count eqb y l.
Proof.
  intros H0. rewrite count_app, count_remove1. cbn. rewrite (eqb_sym' y x).
  destruct (eqb x y) eqn:H; [apply Hr in H; subst|]; lia.
Qed.
Lemma existsb_last x l : existsb (eqb x) (l ++ [x]) = true.
Proof. rewrite existsb_app. cbn. rewrite eqb_refl', orb_true_r. reflexivity. Qed.
Lemma count_existsb x l : count eqb x l <> 0 <-> existsb (eqb x) l = true.
Proof. rewrite existsb_count. destruct (count eqb x l); cbn; split; congruence. Qed.

Lemma count_map_remove1 (f : A -> N) a y l :
  count eqb a l <> 0 ->
  count N.eqb y (map f l) = (if N.eqb y (f a) then 1 else 0) + count N.eqb y (map f (remove1 eqb a l)).
Proof.
  induction l as [|z l IH]; cbn; [lia|].
  destruct (eqb a z) eqn:Haz.
  - apply Hr in Haz. subst z. reflexivity.
  - intros H. cbn. rewrite IH by exact H. lia.
Qed.
Lemma same_count_map (f : A -> N) : forall l1 l2,
  (forall x, count eqb x l1 = count eqb x l2) ->
  forall y, count N.eqb y (map f l1) = count N.eqb y (map f l2).
Proof.
  induction l1 as [|a l1 IH]; intros l2 H y.
  - destruct l2 as [|b l2]; [reflexivity|]. specialize (H b). cbn in H.
    rewrite eqb_refl' in H. discriminate.
  - pose proof (H a) as Ha. cbn in Ha. rewrite eqb_refl' in Ha.
    cbn. rewrite (count_map_remove1 f a y l2) by lia. f_equal. apply IH.
    intros x. rewrite count_remove1, <- H. cbn. rewrite (eqb_sym' x a).
    destruct (eqb a x); reflexivity.
Qed.
Lemma same_count_length l1 l2 : (forall x, count eqb x l1 = count eqb x l2) -> length l1 = length l2.
Proof.
  intros H. pose proof (same_count_map (fun _ => 0%N) l1 l2 H 0%N) as Hm.
  assert (Hc : forall l : list A, count N.eqb 0%N (map (fun _ => 0%N) l) = length l).
  { induction l as [|x l IH]; cbn; [reflexivity | rewrite IH; reflexivity]. }
  rewrite !Hc in Hm. exact Hm.
Qed.

End Count.

Lemma memN_count x l : memN x l = negb (Nat.eqb (count N.eqb x l) 0).
Proof. apply existsb_count. Qed.
Lemma countN_count x l : countN x l = count N.eqb x l.
Proof. induction l; cbn; congruence. Qed.
Lemma count_notmem x l : memN x l = false -> count N.eqb x l = 0.
Proof. rewrite memN_count. destruct (count N.eqb x l); [reflexivity | discriminate]. Qed.
Lemma count_mem x l : memN x l = true -> count N.eqb x l <> 0.
Proof. apply count_existsb. Qed.
Lemma memN_app x l y : memN x (l ++ [y]) = memN x l || N.eqb x y.
Proof. unfold memN. rewrite existsb_app. cbn. rewrite orb_false_r. reflexivity. Qed.
Lemma memN_refl_app x l : memN x (l ++ [x]) = true.
Proof. apply existsb_last. Qed.
Lemma memN_filter_ne x p l : memN x (filter (fun z => negb (N.eqb z p)) l) = memN x l && negb (N.eqb x p).
Proof.
  rewrite !memN_count, count_filter.
  destruct (N.eqb x p); cbn; [rewrite andb_false_r | rewrite andb_true_r]; reflexivity.
Qed.
Lemma memN_remove1_last b l : memN b (remove1 N.eqb b (l ++ [b])) = memN b l.
Proof. rewrite !memN_count, count_remove1_last. reflexivity. Qed.

(* the same for the slot table, where the model writes the test the other way round *)
Lemma count_del_last p y l : count N.eqb p l = 0 ->
  count N.eqb y (filter (fun z => negb (N.eqb z p)) (l ++ [p])) = count N.eqb y l.
Proof.
  rewrite (filter_ext _ (fun z => negb (N.eqb p z)) (fun z => f_equal negb (N.eqb_sym z p))).
  apply count_filter_last.
Qed.
Lemma count_del_readd p y l : count N.eqb p l = 1 ->
  count N.eqb y (filter (fun z => negb (N.eqb z p)) l ++ [p]) = count N.eqb y l.
Proof.
  rewrite (filter_ext _ (fun z => negb (N.eqb p z)) (fun z => f_equal negb (N.eqb_sym z p))).
  apply count_filter_readd.
Qed.
Lemma memN_del_last x y l : memN x l = false ->
  memN y (filter (fun z => negb (N.eqb z x)) (l ++ [x])) = memN y l.
Proof. intros H. rewrite !memN_count, count_del_last by (apply count_notmem, H). reflexivity. Qed.

Lemma is_nil_map {A B} (f : A -> B) l : is_nil (map f l) = is_nil l.
Proof. destruct l; reflexivity. Qed.
Lemma is_nil_eq {A} (l : list A) : is_nil l = true -> l = [].
Proof. destruct l; [reflexivity | discriminate]. Qed.

Lemma filter_nil_false {A} (f : A -> bool) l x : filter f l = [] -> In x l -> f x = false.
Proof.
  intros H Hin. destruct (f x) eqn:Hx; [|reflexivity].
  assert (Hf : In x (filter f l)) by (apply filter_In; auto). rewrite H in Hf. destruct Hf.
Qed.
Lemma filter_sub_nil {A} (g h : A -> bool) l : filter g l = [] -> filter g (filter h l) = [].
Proof.
  induction l as [|x l IH]; cbn; [reflexivity|]. destruct (g x) eqn:Hg; [discriminate|].
  intros H. destruct (h x); cbn; [rewrite Hg|]; apply IH; exact H.
Qed.
Lemma filter_same {A} (g h : A -> bool) l :
  (forall x, In x l -> h x = false -> g x = false) -> filter g (filter h l) = filter g l.
Proof.
  induction l as [|x l IH]; cbn; [reflexivity|]. intros H.
  destruct (h x) eqn:Hh; cbn.
  - destruct (g x); [f_equal|]; apply IH; intros; apply H; auto.
  - rewrite (H x (or_introl eq_refl) Hh). apply IH. intros; apply H; auto.
Qed.
Lemma map_filter_comm {A B} (g : A -> B) (f : B -> bool) l :
  map g (filter (fun x => f (g x)) l) = filter f (map g l).
Proof. induction l as [|x l IH]; cbn; [reflexivity|]. destruct (f (g x)); cbn; congruence. Qed.

Lemma lookup_filter_ne p q l :
  lookup p (filter (fun qc => negb (N.eqb (fst qc) q)) l) = if N.eqb p q then None else lookup p l.
Proof.
  induction l as [|[r c] l IH]; cbn; [destruct (N.eqb p q); reflexivity|].
  destruct (N.eqb r q) eqn:Hrq; cbn.
  - rewrite IH. destruct (N.eqb p q) eqn:Hpq; [reflexivity|].
    apply N.eqb_eq in Hrq. subst r. rewrite Hpq. reflexivity.
  - rewrite IH. destruct (N.eqb p r) eqn:Hpr; [|reflexivity].
    apply N.eqb_eq in Hpr. subst r. rewrite Hrq. reflexivity.
Qed.

Lemma obs_refl s : obs_eq s s.
Proof. constructor; reflexivity. Qed.
Lemma obs_sym s1 s2 : obs_eq s1 s2 -> obs_eq s2 s1.
Proof. intros []. constructor; intros; symmetry; auto. Qed.
Lemma obs_trans s1 s2 s3 : obs_eq s1 s2 -> obs_eq s2 s3 -> obs_eq s1 s3.
Proof. intros [] []. constructor; intros; etransitivity; eauto. Qed.
Lemma obs_set_plan v s : obs_eq (set_plan v s) s.
Proof. constructor; reflexivity. Qed.

Lemma obs_set_plans v1 v2 s1 s2 : obs_eq s1 s2 -> obs_eq (set_plan v1 s1) (set_plan v2 s2).
Proof. intros []. constructor; auto. Qed.
Lemma set_plan_same s : set_plan (plan s) s = s.
Proof. destruct s; reflexivity. Qed.

Lemma equiv_refl s : equiv s s.
Proof. split; [apply obs_refl | reflexivity]. Qed.
Lemma equiv_sym s1 s2 : equiv s1 s2 -> equiv s2 s1.
Proof. intros [H1 H2]. split; [apply obs_sym; exact H1 | symmetry; exact H2]. Qed.
Lemma equiv_trans s1 s2 s3 : equiv s1 s2 -> equiv s2 s3 -> equiv s1 s3.
Proof. intros [H1 H2] [H3 H4]. split; [eapply obs_trans; eauto | congruence]. Qed.

Lemma equivw_refl s : equivw s s.
Proof. split; [apply obs_refl | reflexivity]. Qed.
Lemma equivw_sym s1 s2 : equivw s1 s2 -> equivw s2 s1.
Proof. intros [H1 H2]. split; [apply obs_sym; exact H1 | symmetry; exact H2]. Qed.
Lemma equivw_trans s1 s2 s3 : equivw s1 s2 -> equivw s2 s3 -> equivw s1 s3.
Proof. intros [H1 H2] [H3 H4]. split; [eapply obs_trans; eauto | congruence]. Qed.
Lemma equiv_equivw s1 s2 : equiv s1 s2 -> equivw s1 s2.
Proof. intros [H1 H2]. split; [exact H1 | rewrite H2; reflexivity]. Qed.

Definition Rres {A B} (R : A -> B -> Prop) (r1 : Res A) (r2 : Res B) : Prop :=
  match r1, r2 with
  | Ok a, Ok b => R a b
  | Ex e1, Ex e2 => e1 = e2
  | _, _ => False
  end.

(* two computations respect a relation Q on states: from Q-related states they reach Q-related states
   with related results.  [Mrel R] below is [Resp obs_eq R] written out (the two are convertible, and
   the lemmas of this section are applied to [Mrel] goals as they stand); calls respect ≈w; what neither
   reads nor writes the plan respects obs_eq with both plans held fixed ([Mprim]), which gives the other two and ≈. *)
Section Respects.
Variable Q : state -> state -> Prop.
Definition Resp {A B} (R : A -> B -> Prop) (m1 : M A) (m2 : M B) : Prop :=
  forall s1 s2, Q s1 s2 -> Q (fst (m1 s1)) (fst (m2 s2)) /\ Rres R (snd (m1 s1)) (snd (m2 s2)).

Lemma resp_ret {A B} (R : A -> B -> Prop) a b : R a b -> Resp R (ret a) (ret b).
Proof. intros H s1 s2 Hs. cbn. auto. Qed.
Lemma resp_raise {A B} (R : A -> B -> Prop) e : Resp R (raise e) (raise e).
Proof. intros s1 s2 Hs. cbn. auto. Qed.
Lemma resp_bind {A B A' B'} (R : A -> B -> Prop) (R' : A' -> B' -> Prop) m1 m2 f1 f2 :
  Resp R m1 m2 -> (forall a b, R a b -> Resp R' (f1 a) (f2 b)) -> Resp R' (bind m1 f1) (bind m2 f2).
Proof.
  intros Hm Hf s1 s2 Hs. unfold bind. destruct (Hm s1 s2 Hs) as [H1 H2].
  destruct (m1 s1) as [t1 [a|e1]], (m2 s2) as [t2 [b|e2]]; cbn in *; try contradiction.
  - apply Hf; assumption.
  - auto.
Qed.
End Respects.

Lemma bind_ok {A B} (m : M A) (f : A -> M B) s s' a : m s = (s', Ok a) -> bind m f s = f a s'.
Proof. intros H. unfold bind. rewrite H. reflexivity. Qed.

Definition Mrel {A B} (R : A -> B -> Prop) (m1 : M A) (m2 : M B) : Prop :=
  forall s1 s2, obs_eq s1 s2 ->
    obs_eq (fst (m1 s1)) (fst (m2 s2)) /\ Rres R (snd (m1 s1)) (snd (m2 s2)).
Definition Rtrue {A B} (_ : A) (_ : B) : Prop := True.
Definition Rnil {A B} (l1 : list A) (l2 : list B) : Prop := is_nil l1 = is_nil l2.

Lemma Mrel_weaken {A B} (R R' : A -> B -> Prop) m1 m2 :
  (forall a b, R a b -> R' a b) -> Mrel R m1 m2 -> Mrel R' m1 m2.
Proof.
  intros HR H s1 s2 Hs. destruct (H s1 s2 Hs) as [H1 H2]. split; [exact H1|].
  destruct (snd (m1 s1)), (snd (m2 s2)); cbn in *; auto.
Qed.

Definition plans (p1 p2 : list op) (s1 s2 : state) : Prop := obs_eq s1 s2 /\ plan s1 = p1 /\ plan s2 = p2.
Definition Mprim {A B} (R : A -> B -> Prop) (m1 : M A) (m2 : M B) : Prop :=
  forall p1 p2, Resp (plans p1 p2) R m1 m2.

Lemma prim_intro {A} (R : A -> A -> Prop) m :
  Mrel R m m -> (forall s, plan (fst (m s)) = plan s) -> Mprim R m m.
Proof.
  intros H F p1 p2 s1 s2 (Ho & <- & <-). destruct (H s1 s2 Ho) as [H1 H2].
  unfold plans. rewrite !F. auto.
Qed.
Lemma prim_rel {A B} (R : A -> B -> Prop) m1 m2 : Mprim R m1 m2 -> Mrel R m1 m2.
Proof. intros H s1 s2 Ho. destruct (H _ _ s1 s2 (conj Ho (conj eq_refl eq_refl))) as [[H1 _] H2]. auto. Qed.
Lemma prim_plans {A B} (P : list op -> list op -> Prop) (R : A -> B -> Prop) m1 m2 : Mprim R m1 m2 ->
  Resp (fun s1 s2 => obs_eq s1 s2 /\ P (plan s1) (plan s2)) R m1 m2.
Proof.
  intros H s1 s2 [Ho Hp]. destruct (H _ _ s1 s2 (conj Ho (conj eq_refl eq_refl))) as [(H1 & -> & ->) H2].
  auto.
Qed.
Lemma prim_frame {A} (R : A -> A -> Prop) m s : Mprim R m m -> plan (fst (m s)) = plan s.
Proof. intros H. apply (H _ _ s s (conj (obs_refl s) (conj eq_refl eq_refl))). Qed.

Lemma prim_ret {A B} (R : A -> B -> Prop) a b : R a b -> Mprim R (ret a) (ret b).
Proof. intros H p1 p2. apply resp_ret, H. Qed.
Lemma prim_raise {A B} (R : A -> B -> Prop) e : Mprim R (raise e) (raise e).
Proof. intros p1 p2. apply resp_raise. Qed.
Lemma prim_bind {A B A' B'} (R : A -> B -> Prop) (R' : A' -> B' -> Prop) m1 m2 f1 f2 :
  Mprim R m1 m2 -> (forall a b, R a b -> Mprim R' (f1 a) (f2 b)) -> Mprim R' (bind m1 f1) (bind m2 f2).
Proof. intros Hm Hf p1 p2. eapply resp_bind; [apply Hm | intros a b Hab; apply Hf, Hab]. Qed.

Lemma modify_prim f :
  (forall s1 s2, obs_eq s1 s2 -> obs_eq (f s1) (f s2)) -> (forall s, plan (f s) = plan s) ->
  Mprim (@Rtrue unit unit) (modify f) (modify f).
Proof. intros H F. apply prim_intro; [|exact F]. intros s1 s2 Hs. cbn. split; [auto | exact I]. Qed.
Lemma guard_prim (g : state -> bool) f e :
  (forall s1 s2, obs_eq s1 s2 -> g s1 = g s2 /\ obs_eq (f s1) (f s2)) -> (forall s, plan (f s) = plan s) ->
  Mprim (@Rtrue unit unit) (fun s => if g s then (f s, Ok tt) else (s, Ex e))
                           (fun s => if g s then (f s, Ok tt) else (s, Ex e)).
Proof.
  intros H F. apply prim_intro.
  - intros s1 s2 Hs. destruct (H s1 s2 Hs) as [-> Hf].
    destruct (g s2); cbn; [split; [exact Hf | exact I] | split; [exact Hs | reflexivity]].
  - intros s. destruct (g s); [apply F | reflexivity].
Qed.

(* obs_eq of two states that differ from H's in one component: the others by H, the changed one is left *)
Ltac obs_split H := constructor; cbn; intros; try apply H.

Section Prims.
Variable E : env.

Lemma existsb_obs {A} {eqb : A -> A -> bool} {Hr : reflects eqb} l1 l2 x :
  (forall y, count eqb y l1 = count eqb y l2) -> existsb (eqb x) l1 = existsb (eqb x) l2.
Proof. intros H. rewrite !existsb_count, H. reflexivity. Qed.
Lemma memN_obs l1 l2 x : (forall y, count N.eqb y l1 = count N.eqb y l2) -> memN x l1 = memN x l2.
Proof. apply existsb_obs. Qed.
Lemma filter_nil_obs {A} {eqb : A -> A -> bool} {Hr : reflects eqb} f l1 l2 :
  (forall y, count eqb y l1 = count eqb y l2) -> is_nil (filter f l1) = is_nil (filter f l2).
Proof. intros H. apply same_count_nil. intros x. rewrite !count_filter, H. reflexivity. Qed.

Lemma check_limiters_nil s1 s2 p :
  obs_eq s1 s2 -> is_nil (check_limiters E p s1) = is_nil (check_limiters E p s2).
Proof. intros H. unfold check_limiters. rewrite !is_nil_map. apply filter_nil_obs, H. Qed.
Lemma slot_conflicts_nil s1 s2 p :
  obs_eq s1 s2 -> is_nil (slot_conflicts E p s1) = is_nil (slot_conflicts E p s2).
Proof. intros H. apply filter_nil_obs, H. Qed.
Lemma rb_of_nil s1 s2 c : obs_eq s1 s2 -> is_nil (rb_of c s1) = is_nil (rb_of c s2).
Proof. intros H. unfold rb_of. rewrite !is_nil_map. apply filter_nil_obs, H. Qed.

Lemma fill_nil p s :
  is_nil (map IB (check_limiters E p s) ++ map IP (slot_conflicts E p s))
  = is_nil (check_limiters E p s) && is_nil (slot_conflicts E p s).
Proof. destruct (check_limiters E p s), (slot_conflicts E p s); reflexivity. Qed.

Lemma fill_slotting_prim p f : Mprim Rnil (fill_slotting E p f) (fill_slotting E p f).
Proof.
  apply prim_intro.
  - intros s1 s2 H. unfold fill_slotting, Rnil. cbn. rewrite !fill_nil.
    rewrite (check_limiters_nil s1 s2 p H), (slot_conflicts_nil s1 s2 p H). split; [|reflexivity].
    destruct (_ || f); [|exact H]. obs_split H. rewrite !count_app, (oe_slots _ _ H). reflexivity.
  - intros s. unfold fill_slotting. cbn. destruct (_ || f); reflexivity.
Qed.
Lemma add_limiter_prim b k : Mprim (@Rtrue (list item) (list item)) (add_limiter E b k) (add_limiter E b k).
Proof.
  apply prim_intro; [|reflexivity]. intros s1 s2 H. split; [|exact I].
  obs_split H. rewrite !count_app, (oe_lims _ _ H). reflexivity.
Qed.
Lemma remove_slotting_prim p : Mprim (@Rtrue unit unit) (remove_slotting p) (remove_slotting p).
Proof.
  apply guard_prim; [|reflexivity]. intros s1 s2 H. split; [apply memN_obs, H|].
  obs_split H. rewrite !count_filter, (oe_slots _ _ H). reflexivity.
Qed.
Lemma remove_limiter_prim b k : Mprim (@Rtrue unit unit) (remove_limiter b k) (remove_limiter b k).
Proof.
  apply guard_prim; [|reflexivity]. intros s1 s2 H. split; [apply existsb_obs, H|].
  obs_split H. rewrite !count_filter, (oe_lims _ _ H). reflexivity.
Qed.
Lemma pc_set_prim p c : Mprim (@Rtrue unit unit) (pc_set p c) (pc_set p c).
Proof.
  apply modify_prim; [|reflexivity]. intros s1 s2 H. obs_split H.
  rewrite !lookup_filter_ne, (oe_pc _ _ H). reflexivity.
Qed.
Lemma pc_del_prim p : Mprim (@Rtrue unit unit) (pc_del p) (pc_del p).
Proof.
  apply prim_intro.
  - intros s1 s2 H. unfold pc_del. rewrite (oe_pc _ _ H p).
    destruct (lookup p (pc s2)); cbn; [|split; [exact H | reflexivity]].
    split; [|exact I]. obs_split H. rewrite !lookup_filter_ne, (oe_pc _ _ H). reflexivity.
  - intros s. unfold pc_del. destruct (lookup p (pc s)); reflexivity.
Qed.
Lemma rb_append_prim c b k : Mprim (@Rtrue unit unit) (rb_append c b k) (rb_append c b k).
Proof.
  apply modify_prim; [|reflexivity]. intros s1 s2 H. obs_split H.
  rewrite !count_app, (oe_rb _ _ H). reflexivity.
Qed.
Lemma rb_remove_prim c b k : Mprim (@Rtrue unit unit) (rb_remove c b k) (rb_remove c b k).
Proof.
  apply prim_intro.
  - intros s1 s2 H. unfold rb_remove. rewrite (rb_of_nil s1 s2 c H).
    destruct (is_nil (rb_of c s2)); cbn; [split; [exact H | reflexivity]|].
    rewrite (existsb_obs (rb s1) (rb s2)) by apply H.
    destruct (existsb _ (rb s2)); cbn; [|split; [exact H | reflexivity]].
    split; [|exact I]. obs_split H. rewrite !count_remove1, (oe_rb _ _ H). reflexivity.
  - intros s. unfold rb_remove. destruct (is_nil _); [reflexivity|]. destruct (existsb _ _); reflexivity.
Qed.
Lemma brc_add_prim b : Mprim (@Rtrue unit unit) (brc_add b) (brc_add b).
Proof.
  apply modify_prim; [|reflexivity]. intros s1 s2 H. obs_split H.
  rewrite !count_app, (oe_brc _ _ H). reflexivity.
Qed.
Lemma brc_remove_prim b : Mprim (@Rtrue unit unit) (brc_remove b) (brc_remove b).
Proof.
  apply guard_prim; [|reflexivity]. intros s1 s2 H. split; [apply memN_obs, H|].
  obs_split H. rewrite !count_remove1, (oe_brc _ _ H). reflexivity.
Qed.
Lemma vf_add_prim p : Mprim (@Rtrue unit unit) (vf_add p) (vf_add p).
Proof.
  apply modify_prim.
  - intros s1 s2 H. rewrite (oe_vf _ _ H p).
    destruct (memN p (vf s2)); [exact H|]. obs_split H. rewrite !memN_app, (oe_vf _ _ H). reflexivity.
  - intros s. destruct (memN p (vf s)); reflexivity.
Qed.
Lemma vf_remove_prim p : Mprim (@Rtrue unit unit) (vf_remove p) (vf_remove p).
Proof.
  apply guard_prim; [|reflexivity]. intros s1 s2 H. split; [apply H|].
  obs_split H. rewrite !memN_filter_ne, (oe_vf _ _ H). reflexivity.
Qed.
Lemma fr_add_prim r : Mprim (@Rtrue unit unit) (fr_add r) (fr_add r).
Proof.
  apply modify_prim; [|reflexivity]. intros s1 s2 H. obs_split H.
  rewrite !count_app, (oe_fr _ _ H). reflexivity.
Qed.
Lemma fr_remove_prim r : Mprim (@Rtrue unit unit) (fr_remove r) (fr_remove r).
Proof.
  apply guard_prim; [|reflexivity]. intros s1 s2 H. split; [apply memN_obs, H|].
  obs_split H. rewrite !count_remove1, (oe_fr _ _ H). reflexivity.
Qed.
Lemma gets_brc_prim b : Mprim eq (gets (fun s => memN b (brc s))) (gets (fun s => memN b (brc s))).
Proof.
  apply prim_intro; [|reflexivity]. intros s1 s2 H. split; [exact H|]. apply memN_obs, H.
Qed.
Lemma when_prim b m : Mprim (@Rtrue unit unit) m m -> Mprim (@Rtrue unit unit) (when b m) (when b m).
Proof. intros H. destruct b; [exact H | apply prim_ret; exact I]. Qed.

End Prims.

Create HintDb prims discriminated.
#[export] Hint Resolve prim_ret prim_raise fill_slotting_prim add_limiter_prim remove_slotting_prim
  remove_limiter_prim pc_set_prim pc_del_prim rb_append_prim rb_remove_prim brc_add_prim brc_remove_prim
  vf_add_prim vf_remove_prim fr_add_prim fr_remove_prim gets_brc_prim when_prim : prims.
#[export] Hint Extern 0 (Rtrue _ _) => exact I : prims.

Ltac prim_step := first [ solve [auto with prims] | eapply prim_bind; [solve [auto with prims] | intros ? ? ?] ].

Section Congruence.
Variable E : env.

Lemma revert_prim o : Mprim (@Rtrue unit unit) (revert E o) (revert E o).
Proof.
  destruct o; cbn [revert]; unfold incref_revert, decref_revert.
  1-4: repeat prim_step.
  - prim_step. eapply prim_bind; [apply fill_slotting_prim | intros l1 l2 Hl].
    unfold Rnil in Hl. rewrite Hl. destruct (Bool.eqb _ force_old); repeat prim_step.
  - do 2 prim_step. eapply prim_bind; [apply gets_brc_prim | intros inb ? <-]. prim_step.
  - prim_step. eapply prim_bind; [apply gets_brc_prim | intros inb ? <-].
    eapply prim_bind with (R := @Rtrue unit unit); [destruct inb|]; repeat prim_step.
Qed.

Lemma revert_seq_plan l : forall d s, plan (fst (revert_seq E l d s)) = plan s
  \/ exists e, snd (revert_seq E l d s) = Ex e.
Proof.
  induction l as [|o l IH]; intros d s; cbn; [left; reflexivity|].
  pose proof (prim_frame _ _ s (revert_prim o)) as Hf. destruct (revert E o s) as [s' [u|e]]; cbn in *.
  - destruct (IH (S d) s') as [H|H]; [left; congruence | right; exact H].
  - right. eexists. reflexivity.
Qed.


Lemma revert_seq_cong l : forall d s1 s2, equiv s1 s2 ->
  equiv (fst (revert_seq E l d s1)) (fst (revert_seq E l d s2))
  /\ snd (revert_seq E l d s1) = snd (revert_seq E l d s2).
Proof.
  induction l as [|o l IH]; intros d s1 s2 He; cbn; [auto|].
  destruct (prim_plans eq _ _ _ (revert_prim o) s1 s2 He) as [[H1 Hp] H2].
  destruct (revert E o s1) as [t1 [u1|e1]], (revert E o s2) as [t2 [u2|e2]]; cbn in *; try contradiction.
  - apply IH. split; assumption.
  - subst e2. rewrite Hp. split; [split|]; [apply obs_set_plans, H1 | reflexivity | reflexivity].
Qed.

Lemma backtrack_cong k s1 s2 : equiv s1 s2 ->
  equiv (backtrack_s E k s1) (backtrack_s E k s2) /\ snd (backtrack E k s1) = snd (backtrack E k s2).
Proof.
  intros Heq. pose proof Heq as [Ho Hp]. unfold backtrack_s, backtrack. rewrite Hp.
  destruct (Nat.ltb _ k); [auto|]. destruct (Nat.eqb _ k); [auto|].
  destruct (revert_seq_cong (rev (skipn k (plan s2))) 0 s1 s2 Heq) as [[H1 H1p] H2].
  destruct (revert_seq E _ 0 s1) as [t1 [n1|e1]], (revert_seq E _ 0 s2) as [t2 [n2|e2]];
    cbn in *; try discriminate.
  - injection H2 as ->. rewrite H1p. split; [split|]; [apply obs_set_plans, H1 | reflexivity | reflexivity].
  - split; [split; assumption | congruence].
Qed.

End Congruence.

Section Backtrack.
Variable E : env.

Fixpoint undo_seq (l : list op) : M unit :=
  match l with [] => ret tt | o :: r => revert E o ;;; undo_seq r end.

Lemma undo_seq_app l1 l2 s :
  undo_seq (l1 ++ l2) s =
  match undo_seq l1 s with (s', Ok _) => undo_seq l2 s' | (s', Ex e) => (s', Ex e) end.
Proof.
  revert s. induction l1 as [|o l1 IH]; intros s; cbn; [reflexivity|].
  unfold bind. destruct (revert E o s) as [s' [u|e]]; [apply IH | reflexivity].
Qed.

Lemma undo_seq_prim l : Mprim (@Rtrue unit unit) (undo_seq l) (undo_seq l).
Proof.
  induction l as [|o l IH]; cbn; [prim_step|].
  eapply prim_bind; [apply revert_prim | intros ? ? ?; exact IH].
Qed.

Lemma revert_seq_undo l : forall d s,
  match undo_seq l s with
  | (u, Ok _) => revert_seq E l d s = (u, Ok (d + length l))
  | (u, Ex e) => exists u', revert_seq E l d s = (u', Ex e)
  end.
Proof.
  induction l as [|o l IH]; intros d s; cbn.
  - unfold ret. rewrite Nat.add_0_r. reflexivity.
  - unfold bind. destruct (revert E o s) as [s' [u|e]]; [|eexists; reflexivity].
    specialize (IH (S d) s'). destruct (undo_seq l s') as [u' [x|e]]; [|exact IH].
    rewrite IH. f_equal. f_equal. lia.
Qed.


Lemma backtrack_here s : backtrack E (length (plan s)) s = (s, Ok tt).
Proof. unfold backtrack. rewrite Nat.ltb_irrefl, Nat.eqb_refl. reflexivity. Qed.

Lemma backtrack_char s k : k <= length (plan s) ->
  match undo_seq (rev (skipn k (plan s))) s with
  | (u, Ok _) => backtrack E k s = (set_plan (firstn k (plan s)) u, Ok tt)
  | (u, Ex e) => exists u', backtrack E k s = (u', Ex e)
  end.
Proof.
  intros Hk. unfold backtrack.
  destruct (Nat.ltb (length (plan s)) k) eqn:Hlt; [apply Nat.ltb_lt in Hlt; lia|].
  destruct (Nat.eqb (length (plan s)) k) eqn:Heq.
  - apply Nat.eqb_eq in Heq. subst k. rewrite skipn_all. cbn. rewrite firstn_all, set_plan_same. reflexivity.
  - apply Nat.eqb_neq in Heq.
    pose proof (revert_seq_undo (rev (skipn k (plan s))) 0 s) as H.
    pose proof (prim_frame _ _ s (undo_seq_prim (rev (skipn k (plan s))))) as Hf.
    destruct (undo_seq (rev (skipn k (plan s))) s) as [u [x|e]]; cbn in Hf.
    + rewrite H. cbn. rewrite Hf, rev_length, skipn_length. f_equal. f_equal. f_equal. lia.
    + destruct H as [u' H]. rewrite H. eexists. reflexivity.
Qed.

Lemma backtrack_stages s n n' t : n' <= n -> n <= length (plan s) -> backtrack E n s = (t, Ok tt) ->
  snd (backtrack E n' t) = snd (backtrack E n' s) /\
  (snd (backtrack E n' s) = Ok tt -> equiv (backtrack_s E n' t) (backtrack_s E n' s)).
Proof.
  intros Hn' Hn H1.
  pose proof (backtrack_char s n Hn) as C1.
  destruct (undo_seq (rev (skipn n (plan s))) s) as [u [x|e]] eqn:U1;
    [|destruct C1 as [u' C1]; congruence].
  rewrite C1 in H1. injection H1 as <-.
  assert (Hn't : n' <= length (plan (set_plan (firstn n (plan s)) u))) by (cbn; rewrite firstn_length; lia).
  pose proof (backtrack_char _ n' Hn't) as C2. cbn [plan set_plan] in C2.
  assert (Hn's : n' <= length (plan s)) by lia.
  pose proof (backtrack_char s n' Hn's) as C3.
  assert (Hsplit : skipn n' (plan s) = skipn n' (firstn n (plan s)) ++ skipn n (plan s)).
  { rewrite <- (firstn_skipn n (plan s)) at 1. rewrite skipn_app.
    rewrite firstn_length. replace (n' - Nat.min n (length (plan s))) with 0 by lia. reflexivity. }
  rewrite Hsplit, rev_app_distr, undo_seq_app, U1 in C3.
  destruct (prim_rel _ _ _ (undo_seq_prim (rev (skipn n' (firstn n (plan s))))) _ _
              (obs_set_plan (firstn n (plan s)) u)) as [Ho Hr].
  unfold backtrack_s.
  destruct (undo_seq _ (set_plan _ u)) as [u2 [x2|e2]], (undo_seq _ u) as [u3 [x3|e3]];
    cbn in Hr; try contradiction.
  - rewrite C2, C3. cbn. split; [reflexivity|]. intros _. split; [apply obs_set_plans, Ho|].
    cbn. rewrite firstn_firstn. f_equal. lia.
  - destruct C2 as [? ->], C3 as [? ->]. cbn. subst. split; [reflexivity | discriminate].
Qed.

Definition Back (k : nat) (s sb : state) : Prop :=
  snd (backtrack E k s) = Ok tt /\ equiv (backtrack_s E k s) sb.

Lemma back_iff k s sb : Back k s sb <-> exists s', backtrack E k s = (s', Ok tt) /\ equiv s' sb.
Proof.
  unfold Back, backtrack_s. split.
  - destruct (backtrack E k s) as [s' r]. cbn. intros [-> H]. eauto.
  - intros (s' & -> & H). auto.
Qed.
Lemma back_here s : Back (length (plan s)) s s.
Proof. apply back_iff. exists s. split; [apply backtrack_here | apply equiv_refl]. Qed.
Lemma back_le k s sb : Back k s sb -> k <= length (plan s).
Proof.
  intros [H _]. unfold backtrack in H. destruct (Nat.ltb (length (plan s)) k) eqn:Hlt; [discriminate|].
  apply Nat.ltb_ge in Hlt. exact Hlt.
Qed.
Lemma back_equiv k s s' sb sb' : equiv s' s -> equiv sb sb' -> Back k s sb -> Back k s' sb'.
Proof.
  intros He He' [H1 H2]. destruct (backtrack_cong E k s' s He) as [H3 H4].
  split; [congruence|]. eapply equiv_trans; [exact H3|]. eapply equiv_trans; eauto.
Qed.
Lemma back_stages s n n' t u : n' <= n -> Back n s t -> (Back n' t u <-> Back n' s u).
Proof.
  intros Hn' Hb. pose proof (back_le _ _ _ Hb) as Hn. destruct Hb as [H1 H2]. unfold backtrack_s in H2.
  destruct (backtrack E n s) as [t0 r] eqn:B. cbn in H1, H2. subst r.
  destruct (backtrack_stages s n n' t0 Hn' Hn B) as [A1 A2].
  destruct (backtrack_cong E n' t0 t H2) as [C1 C2]. unfold Back. rewrite <- A1, <- C2.
  split; intros [S Hu]; (split; [exact S|]); rewrite A1 in S; specialize (A2 S).
  - eapply equiv_trans; [apply equiv_sym, A2|]. eapply equiv_trans; [exact C1 | exact Hu].
  - eapply equiv_trans; [apply equiv_sym, C1|]. eapply equiv_trans; [exact A2 | exact Hu].
Qed.

(* a call is undoable in s: it does not raise, only appends to the plan, and rolling back to where
   it started restores s up to ≈ *)
Definition Undoable (s : state) (a : api) : Prop :=
  exists s1 r seg, call E a s = (s1, Ok r) /\ plan s1 = plan s ++ seg /\
    exists s2, backtrack E (length (plan s)) s1 = (s2, Ok tt) /\ equiv s2 s.

Lemma undoable_back s a : Undoable s a ->
  Back (length (plan s)) (call_s E a s) s /\
  (length (plan (call_s E a s)) = length (plan s) -> equiv (call_s E a s) s).
Proof.
  intros (s1 & r & seg & Hcall & Hp & Hb). unfold call_s. rewrite Hcall. cbn.
  split; [apply back_iff, Hb|]. intros Hl. destruct Hb as (s2 & Hb & He).
  rewrite <- Hl, backtrack_here in Hb. injection Hb as <-. exact He.
Qed.

(* newest first: (position the call started at, state it started in, the call) *)
Inductive Chain : state -> list (nat * state * api) -> Prop :=
| Ch_nil s : Chain s []
| Ch_cons s n sb a L :
    length (plan sb) = n -> Undoable sb a -> equiv s (call_s E a sb) -> Chain sb L ->
    Chain s ((n, sb, a) :: L).

Lemma chain_equiv s s' L : equiv s' s -> Chain s L -> Chain s' L.
Proof.
  intros He Hc. destruct Hc; constructor; auto. eapply equiv_trans; eauto.
Qed.

Lemma chain_head s n sb a L : Chain s ((n, sb, a) :: L) -> Back n s sb.
Proof.
  intros Hc. inversion Hc as [|s' n' sb' a' L' Hn Hu He Hc']; subst.
  eapply back_equiv; [exact He | apply equiv_refl | apply undoable_back, Hu].
Qed.

Lemma chain_rollback s L : Chain s L -> forall n sb a, In (n, sb, a) L -> Back n s sb.
Proof.
  induction 1 as [|s n sb a L Hn Hu He Hc IH]; intros n' sb' a' Hin; [destruct Hin|].
  assert (Hhead : Back n s sb) by (eapply chain_head; econstructor; eauto).
  destruct Hin as [Heq|Hin]; [injection Heq as <- <- <-; exact Hhead|].
  pose proof (IH _ _ _ Hin) as Hb. apply (back_stages s n n' sb sb'); [|exact Hhead | exact Hb].
  apply back_le in Hb. lia.
Qed.

Lemma chain_pos s L n sb a : Chain s L -> In (n, sb, a) L -> n <= length (plan s).
Proof. intros Hc Hin. eapply back_le, chain_rollback; eauto. Qed.

Lemma chain_saved_len s L : Chain s L -> forall n sb a, In (n, sb, a) L -> length (plan sb) = n.
Proof.
  induction 1 as [|s n sb a L Hn Hu He Hc IH]; intros n' sb' a' Hin; [destruct Hin|].
  destruct Hin as [Heq|Hin]; [injection Heq as <- <- <-; exact Hn | eapply IH; eauto].
Qed.

Lemma chain_suffix s L : Chain s L -> forall n sb a L1 L2, L = L1 ++ (n, sb, a) :: L2 -> Chain sb L2.
Proof.
  induction 1 as [|s n sb a L Hn Hu He Hc IH]; intros n' sb' a' L1 L2 HL.
  - destruct L1; discriminate.
  - destruct L1 as [|x L1]; cbn in HL.
    + injection HL as <- <- <- <-. exact Hc.
    + injection HL as _ HL. eapply IH; eauto.
Qed.

End Backtrack.

Section Invariant.
Variable E : env.

Definition blockers_of (l : list (N * (N * N))) : list N := map (fun e => fst (snd e)) l.

(* what every reachable planner state satisfies: no package is slotted twice and no two packages share a
   (key, slot); a blocker's refcount is the number of its entries in rev_blockers; its limiter is filed
   exactly once, under the blocker's own key, while the refcount is positive, and nowhere otherwise;
   rev_blockers files every blocker under its own key *)
Record Inv (s : state) : Prop := {
  I_nodup : forall p, count N.eqb p (slots s) <= 1;
  I_slot : forall p q, count N.eqb p (slots s) <> 0 -> count N.eqb q (slots s) <> 0 ->
                       same_slot E p q = true -> p = q;
  I_brc : forall b, count N.eqb b (brc s) = count N.eqb b (blockers_of (rb s));
  I_lims : forall k b, count pair_eqb (k, b) (lims s)
                       = if memN b (brc s) && N.eqb k (bkey E b) then 1 else 0;
  I_rbkey : forall c b k, count trip_eqb (c, (b, k)) (rb s) <> 0 -> k = bkey E b }.

Lemma Inv_init : Inv init.
Proof. constructor; cbn; intros; try reflexivity; try lia; try congruence. Qed.

Lemma Inv_obs s1 s2 : obs_eq s1 s2 -> Inv s1 -> Inv s2.
Proof.
  intros [Hsl Hli Hpc Hrb Hbr Hvf Hfr] [J1 J2 J3 J4 J5]. constructor; intros.
  - rewrite <- Hsl. apply J1.
  - rewrite <- Hsl in *. apply J2; assumption.
  - rewrite <- Hbr. unfold blockers_of. rewrite <- (same_count_map _ _ _ Hrb). apply J3.
  - rewrite <- Hli, J4, (memN_obs (brc s1) (brc s2) b Hbr). reflexivity.
  - rewrite <- Hrb in *. eapply J5; eauto.
Qed.

Lemma inv_rb_entry s c b k : Inv s -> count trip_eqb (c, (b, k)) (rb s) <> 0 ->
  memN b (brc s) = true /\ k = bkey E b /\ count pair_eqb (k, b) (lims s) = 1.
Proof.
  intros HI Hin. assert (Hb : memN b (brc s) = true).
  { rewrite memN_count, (I_brc s HI). apply count_In in Hin.
    assert (Hc : count N.eqb b (blockers_of (rb s)) <> 0).
    { apply count_In. unfold blockers_of. apply in_map_iff. exists (c, (b, k)). auto. }
    destruct (count N.eqb b (blockers_of (rb s))); [contradiction | reflexivity]. }
  pose proof (I_rbkey s HI c b k Hin) as Hk. repeat split; auto.
  rewrite (I_lims s HI), Hb, Hk, N.eqb_refl. reflexivity.
Qed.

Lemma undoable_intro s a s1 r seg :
  call E a s = (s1, Ok r) -> plan s1 = plan s ++ seg ->
  (exists s2, undo_seq E (rev seg) s1 = (s2, Ok tt) /\ obs_eq s2 s) -> Undoable E s a.
Proof.
  intros Hc Hp (s2 & Hu & Ho). exists s1, r, seg. split; [exact Hc|]. split; [exact Hp|].
  assert (Hle : length (plan s) <= length (plan s1)) by (rewrite Hp, app_length; lia).
  pose proof (backtrack_char E s1 _ Hle) as C.
  rewrite Hp, skipn_app_exact, Hu, firstn_app_exact in C.
  eexists. split; [exact C|]. split; [|reflexivity].
  eapply obs_trans; [apply obs_set_plan | exact Ho].
Qed.
Lemma undoable_noop s a r : call E a s = (s, Ok r) -> Undoable E s a.
Proof.
  intros H. apply (undoable_intro s a s r []); [exact H | rewrite app_nil_r; reflexivity|].
  exists s. split; [reflexivity | apply obs_refl].
Qed.


Lemma rb_of_nonnil c bk l : count trip_eqb (c, bk) l <> 0 ->
  is_nil (map snd (filter (fun e : N * (N * N) => N.eqb (fst e) c) l)) = false.
Proof.
  intros H. apply count_In in H.
  assert (Hin : In bk (map snd (filter (fun e : N * (N * N) => N.eqb (fst e) c) l))).
  { apply in_map_iff. exists (c, bk). split; [reflexivity|]. apply filter_In. split; [exact H|].
    cbn. apply N.eqb_refl. }
  destruct (map snd _); [destruct Hin | reflexivity].
Qed.

Lemma same_slot_trans p a b : same_slot E p a = true -> same_slot E p b = true -> same_slot E a b = true.
Proof.
  unfold same_slot. intros H1 H2. apply andb_true_iff in H1. apply andb_true_iff in H2.
  destruct H1 as [A1 A2], H2 as [B1 B2]. apply N.eqb_eq in A1, A2, B1, B2.
  rewrite B1, B2, <- A1, <- A2, !N.eqb_refl. reflexivity.
Qed.
Lemma same_slot_sym p q : same_slot E p q = same_slot E q p.
Proof. unfold same_slot. rewrite (N.eqb_sym (pkey E q)), (N.eqb_sym (pslot E q)). reflexivity. Qed.

Definition slots_ok (v : list N) : Prop :=
  (forall p, count N.eqb p v <= 1) /\
  (forall p q, count N.eqb p v <> 0 -> count N.eqb q v <> 0 -> same_slot E p q = true -> p = q).
Lemma inv_slots s : Inv s -> slots_ok (slots s).
Proof. intros []. split; assumption. Qed.
Lemma inv_set_slots s s' : Inv s -> slots_ok (slots s') ->
  lims s' = lims s -> rb s' = rb s -> brc s' = brc s -> Inv s'.
Proof. intros [J1 J2 J3 J4 J5] [S1 S2] Hl Hr Hb. constructor; rewrite ?Hl, ?Hr, ?Hb; eauto. Qed.
Lemma slots_ok_del v x : slots_ok v -> slots_ok (filter (fun z => negb (N.eqb z x)) v).
Proof.
  intros [S1 S2]. split; intros p; [|intros q]; rewrite !count_filter.
  - specialize (S1 p). destruct (negb (N.eqb p x)); lia.
  - destruct (negb (N.eqb p x)), (negb (N.eqb q x)); try contradiction. apply S2.
Qed.
Lemma slots_ok_add v p : slots_ok v -> count N.eqb p v = 0 ->
  (forall q, count N.eqb q v <> 0 -> same_slot E p q = false) -> slots_ok (v ++ [p]).
Proof.
  intros [S1 S2] Hp Hfree. split; intros x; [|intros y]; rewrite !count_app; cbn.
  - specialize (S1 x). destruct (N.eqb x p) eqn:Hx; [apply N.eqb_eq in Hx; subst|]; lia.
  - destruct (N.eqb x p) eqn:Hx, (N.eqb y p) eqn:Hy; intros Cx Cy Hs.
    + apply N.eqb_eq in Hx, Hy. congruence.
    + apply N.eqb_eq in Hx. subst x. rewrite Hfree in Hs; [discriminate | lia].
    + apply N.eqb_eq in Hy. subst y. rewrite same_slot_sym, Hfree in Hs; [discriminate | lia].
    + apply S2; [lia | lia | exact Hs].
Qed.

Lemma add_ok s c p f : Inv s -> wf_api_b E s (AAdd c p f) = true ->
  Undoable E s (AAdd c p f) /\ Inv (call_s E (AAdd c p f) s).
Proof.
  intros HI H. cbn [wf_api_b] in H. rewrite !andb_true_iff, !negb_true_iff in H.
  destruct H as [[[Hb Hsl] Hvf] Hf]. unfold bound in Hb.
  destruct (lookup (peq E p) (pc s)) eqn:Hlk; [discriminate|]. apply count_notmem in Hsl.
  set (l := map IB (check_limiters E p s) ++ map IP (slot_conflicts E p s)).
  destruct (negb (is_nil l) && negb f) eqn:Hcase.
  - (* the add is refused: nothing changes *)
    apply andb_true_iff in Hcase. destruct Hcase as [H1 H2]. apply negb_true_iff in H1, H2.
    assert (Hcall : call E (AAdd c p f) s = (s, Ok (Some l))).
    { cbn [call]. unfold add_apply, bind, fill_slotting. fold l. rewrite H1, H2. reflexivity. }
    split; [eapply undoable_noop, Hcall | unfold call_s; rewrite Hcall; exact HI].
  - assert (Hgo : is_nil l || f = true) by (destruct (is_nil l), f; cbn in *; congruence).
    eassert (Hcall : call E (AAdd c p f) s = (_, Ok None)).
    { cbn [call]. unfold add_apply, bind, fill_slotting. fold l. rewrite Hgo, Hcase. cbn. reflexivity. }
    split.
    + eapply (undoable_intro _ _ _ _ [OAdd c p f]); [exact Hcall | reflexivity|].
      eexists. split.
      * cbn. unfold bind, remove_slotting. cbn. rewrite memN_refl_app. cbn.
        unfold pc_del. cbn. rewrite N.eqb_refl. cbn. reflexivity.
      * constructor; cbn; intros; try reflexivity; [apply count_del_last, Hsl|].
        rewrite !lookup_filter_ne.
        destruct (N.eqb p0 (peq E p)) eqn:Hpp; [apply N.eqb_eq in Hpp; subst; auto | reflexivity].
    + unfold call_s. rewrite Hcall. cbn [fst].
      assert (Hnil : slot_conflicts E p s = []).
      { apply is_nil_eq. destruct f; cbn in Hf, Hgo; [exact Hf|].
        rewrite orb_false_r in Hgo. unfold l in Hgo. rewrite fill_nil in Hgo.
        apply andb_true_iff in Hgo. tauto. }
      assert (Hfree : forall q, count N.eqb q (slots s) <> 0 -> same_slot E p q = false).
      { intros q Hq. apply count_In in Hq. eapply filter_nil_false; [exact Hnil | exact Hq]. }
      apply (inv_set_slots s); [exact HI | | reflexivity..].
      apply slots_ok_add; [apply inv_slots, HI | exact Hsl | exact Hfree].
Qed.

Lemma hardref_ok s r : Inv s -> Undoable E s (AHardref r) /\ Inv (call_s E (AHardref r) s).
Proof.
  intros [J1 J2 J3 J4 J5]. split; [|constructor; cbn; auto].
  eapply (undoable_intro _ _ _ _ [OHardref r]); [reflexivity | reflexivity|]. eexists. split.
  - cbn. unfold bind, fr_remove. cbn. rewrite memN_refl_app. cbn. reflexivity.
  - constructor; cbn; intros; try reflexivity. apply count_remove1_last.
Qed.
Lemma backref_ok s c p : Inv s -> Undoable E s (ABackref c p) /\ Inv (call_s E (ABackref c p) s).
Proof.
  intros [J1 J2 J3 J4 J5]. split; [|constructor; cbn; auto].
  eapply (undoable_intro _ _ _ _ [OBackref c p]); [reflexivity | reflexivity|]. eexists. split; [reflexivity|].
  constructor; cbn; intros; reflexivity.
Qed.

Lemma block_ok s c b k : Inv s -> N.eqb k (bkey E b) = true ->
  Undoable E s (ABlock c b k) /\ Inv (call_s E (ABlock c b k) s).
Proof.
  intros HI Hk. apply N.eqb_eq in Hk. pose proof HI as [J1 J2 J3 J4 J5].
  (* the limiter is added with the first reference only *)
  set (X := mkS (slots s) (if memN b (brc s) then lims s else lims s ++ [(k, b)])
                (plan s ++ [OIncref c b k]) (pc s) (rb s ++ [(c, (b, k))]) (brc s ++ [b]) (vf s) (fr s)).
  assert (Hcall : exists r, call E (ABlock c b k) s = (X, Ok r)).
  { cbn [call]. unfold incref_apply, bind, plan_append, modify, gets, X. cbn.
    destruct (memN b (brc s)); eexists; reflexivity. }
  destruct Hcall as [r Hcall]. split.
  - eapply (undoable_intro _ _ _ _ [OIncref c b k]); [exact Hcall | reflexivity|].
    cbn. unfold bind, incref_revert, bind, rb_remove, rb_of, X. cbn.
    rewrite (rb_of_nonnil c (b, k)), existsb_last by (rewrite count_app; cbn; rewrite eqb_refl'; lia). cbn. unfold brc_remove. cbn. rewrite memN_refl_app. cbn.
    unfold gets. cbn. rewrite memN_remove1_last.
    destruct (memN b (brc s)) eqn:Hin; cbn; [|unfold remove_limiter; cbn; rewrite existsb_last; cbn].
    all: eexists; split; [reflexivity|]; constructor; cbn; intros; try reflexivity; try apply count_remove1_last.
    apply count_filter_last. rewrite J4, Hin. reflexivity.
  - unfold call_s. rewrite Hcall. constructor; cbn; intros; auto.
    + unfold blockers_of. rewrite map_app, !count_app. cbn. rewrite J3. reflexivity.
    + rewrite memN_app. destruct (N.eqb b0 b) eqn:Hb0.
      * apply N.eqb_eq in Hb0. subst b0. rewrite orb_true_r. cbn.
        destruct (memN b (brc s)) eqn:Hin; [rewrite J4, Hin; reflexivity|].
        rewrite count_app, J4, Hin. cbn. unfold pair_eqb. cbn. rewrite N.eqb_refl, andb_true_r, Hk.
        destruct (N.eqb k0 (bkey E b)); reflexivity.
      * rewrite orb_false_r. destruct (memN b (brc s)); [apply J4|].
        rewrite count_app, J4. cbn. unfold pair_eqb. cbn. rewrite Hb0, andb_false_r. lia.
    + rewrite count_app in H. cbn in H. destruct (trip_eqb (c0, (b0, k0)) (c, (b, k))) eqn:Hc.
      * apply trip_reflects in Hc. congruence.
      * eapply J5. rewrite Nat.add_0_r in H. exact H.
Qed.

Definition decref_result (s : state) (c b k : N) : state :=
  mkS (slots s)
      (if memN b (remove1 N.eqb b (brc s)) then lims s
       else filter (fun kb => negb (pair_eqb (k, b) kb)) (lims s))
      (plan s ++ [ODecref c b k]) (pc s) (remove1 trip_eqb (c, (b, k)) (rb s))
      (remove1 N.eqb b (brc s)) (vf s) (fr s).


Lemma decref_apply_ok s c b k :
  memN b (brc s) = true -> count pair_eqb (k, b) (lims s) <> 0 -> count trip_eqb (c, (b, k)) (rb s) <> 0 ->
  decref_apply c b k s = (decref_result s c b k, Ok tt).
Proof.
  intros Hb Hl Hin. apply count_existsb in Hl.
  pose proof (rb_of_nonnil c (b, k) (rb s) Hin) as Hn. fold (rb_of c s) in Hn. apply count_existsb in Hin.
  unfold decref_apply, bind, plan_append, modify, brc_remove, gets, decref_result. cbn. rewrite Hb. cbn.
  destruct (memN b (remove1 N.eqb b (brc s))); cbn.
  - unfold rb_remove, rb_of. cbn. fold (rb_of c s). rewrite Hn, Hin. reflexivity.
  - unfold remove_limiter. cbn. rewrite Hl. cbn.
    unfold rb_remove, rb_of. cbn. fold (rb_of c s). rewrite Hn, Hin. reflexivity.
Qed.

Lemma inv_decref s c b k : Inv s -> count trip_eqb (c, (b, k)) (rb s) <> 0 -> Inv (decref_result s c b k).
Proof.
  intros HI Hin. destruct (inv_rb_entry s c b k HI Hin) as (Hb & Hk & _). pose proof HI as [J1 J2 J3 J4 J5].
  constructor; cbn; intros; auto.
  - rewrite count_remove1. unfold blockers_of.
    pose proof (count_map_remove1 (fun e => fst (snd e)) (c, (b, k)) b0 (rb s) Hin) as Hm.
    cbn in Hm. specialize (J3 b0). unfold blockers_of in J3. rewrite (N.eqb_sym b0 b) in Hm.
    destruct (N.eqb b b0); lia.
  - destruct (N.eqb b b0) eqn:Hbb.
    + apply N.eqb_eq in Hbb. subst b0.
      destruct (memN b (remove1 N.eqb b (brc s))); [rewrite J4, Hb; reflexivity|].
      cbn. rewrite count_filter. unfold pair_eqb at 1. cbn.
      rewrite N.eqb_refl, andb_true_r. destruct (N.eqb k k0) eqn:Hkk; [reflexivity|].
      cbn. rewrite J4, <- Hk, (N.eqb_sym k0 k), Hkk, andb_false_r. reflexivity.
    + replace (memN b0 (remove1 N.eqb b (brc s))) with (memN b0 (brc s))
        by (rewrite !memN_count, count_remove1, Hbb; reflexivity).
      destruct (memN b (remove1 N.eqb b (brc s))); [apply J4|].
      rewrite count_filter. unfold pair_eqb at 1. cbn. rewrite Hbb, andb_false_r. apply J4.
  - rewrite count_remove1 in H. eapply J5.
    destruct (trip_eqb (c, (b, k)) (c0, (b0, k0))); [|exact H].
    intros H0. rewrite H0 in H. cbn in H. contradiction.
Qed.

Lemma decref_revert_ok s c b k : Inv s -> count trip_eqb (c, (b, k)) (rb s) <> 0 ->
  exists s'', decref_revert E c b k (decref_result s c b k) = (s'', Ok tt) /\ obs_eq s'' s.
Proof.
  intros HI Hin. destruct (inv_rb_entry s c b k HI Hin) as (Hb & Hk & Hl). apply count_mem in Hb.
  unfold decref_revert, decref_result, bind, rb_append, modify, gets. cbn.
  destruct (memN b (remove1 N.eqb b (brc s))); cbn.
  all: eexists; split; [reflexivity|]; constructor; cbn; intros; try reflexivity.
  all: try (apply count_remove1_readd; assumption).
  apply count_filter_readd, Hl.
Qed.

Definition dops (c : N) (l : list (N * N)) : list op := map (fun bk => ODecref c (fst bk) (snd bk)) l.


(* the nested decrefs of a remove/replace: sb is the state after dropping the blockers l of choice point c *)
Record Dropped (c : N) (l : list (N * N)) (s sb : state) : Prop := {
  dr_run : forall v, decref_all c l (set_slots v s) = (set_slots v sb, Ok tt);  (* whatever the slot table *)
  dr_inv : Inv sb;
  dr_plan : plan sb = plan s ++ dops c l;
  dr_slots : slots sb = slots s; dr_pc : pc sb = pc s; dr_vf : vf sb = vf s; dr_fr : fr sb = fr s;
  dr_rb : forall e, count trip_eqb e (rb sb)
          = count trip_eqb e (rb s) - (if N.eqb (fst e) c then count pair_eqb (snd e) l else 0);
  (* which limiters may have gone *)
  dr_lims : exists h, lims sb = filter h (lims s) /\ forall kb, h kb = false -> In (snd kb, fst kb) l;
  dr_undo : forall t, obs_eq t sb ->
            exists t', undo_seq E (rev (dops c l)) t = (t', Ok tt) /\ obs_eq t' s }.

Lemma dropped_nil c s : Inv s -> Dropped c [] s s.
Proof.
  intros HI. constructor; cbn; auto using app_nil_r.
  - intros e. destruct (N.eqb (fst e) c); lia.
  - exists (fun _ => true). rewrite filter_all_true by reflexivity. split; [reflexivity | discriminate].
  - intros t Ht. exists t. auto.
Qed.
Lemma dropped_cons c b k r s sb : Inv s -> count trip_eqb (c, (b, k)) (rb s) <> 0 ->
  Dropped c r (decref_result s c b k) sb -> Dropped c ((b, k) :: r) s sb.
Proof.
  intros HI Hin D. destruct (inv_rb_entry s c b k HI Hin) as (Hb & _ & Hl). destruct D.
  constructor; try assumption.
  - intros v. cbn [decref_all].
    rewrite (bind_ok _ _ _ _ _ (decref_apply_ok (set_slots v s) c b k Hb ltac:(cbn; lia) Hin)). apply dr_run0.
  - rewrite dr_plan0. cbn. rewrite <- app_assoc. reflexivity.
  - intros [c0 e0]. rewrite dr_rb0. cbn. rewrite count_remove1. unfold trip_eqb at 1. cbn.
    rewrite (N.eqb_sym c c0), (eqb_sym' (b, k) e0). destruct (N.eqb c0 c), (pair_eqb e0 (b, k)); cbn; lia.
  - destruct dr_lims0 as (h & Hh & Hhf). rewrite Hh. cbn.
    destruct (memN b (remove1 N.eqb b (brc s))).
    + exists h. split; [reflexivity|]. intros kb Hkb. right. apply Hhf, Hkb.
    + exists (fun kb => negb (pair_eqb (k, b) kb) && h kb). split; [apply filter_filter|].
      intros [k0 b0] Hkb. apply andb_false_iff in Hkb. destruct Hkb as [Hkb|Hkb]; [|right; apply Hhf, Hkb].
      apply negb_false_iff, pair_reflects in Hkb. injection Hkb as <- <-. left. reflexivity.
  - intros t Ht. cbn [dops map rev]. fold (dops c r). rewrite undo_seq_app.
    destruct (dr_undo0 t Ht) as (t'' & Hu & Ho). rewrite Hu. cbn [undo_seq revert fst snd]. unfold bind.
    destruct (decref_revert_ok s c b k HI Hin) as (s'' & Hrv & Hos).
    destruct (prim_rel _ _ _ (revert_prim E (ODecref c b k)) t'' _ Ho) as [H1 H2].
    cbn [revert] in H1, H2. rewrite Hrv in H1, H2.
    destruct (decref_revert E c b k t'') as [t3 [[]|e]]; cbn [fst snd Rres] in H1, H2; [|contradiction].
    exists t3. split; [reflexivity | eapply obs_trans; eauto].
Qed.

Lemma decref_all_ok c : forall l s, Inv s ->
  (forall e, count pair_eqb e l <= count trip_eqb (c, e) (rb s)) -> exists sb, Dropped c l s sb.
Proof.
  induction l as [|[b k] r IH]; intros s HI Hc; [exists s; apply dropped_nil, HI|].
  assert (Hin : count trip_eqb (c, (b, k)) (rb s) <> 0).
  { specialize (Hc (b, k)). cbn in Hc. rewrite eqb_refl' in Hc. lia. }
  destruct (IH _ (inv_decref s c b k HI Hin)) as [sb D]; [|exists sb; apply dropped_cons; assumption].
  intros e. specialize (Hc e). cbn in Hc |- *. rewrite count_remove1. unfold trip_eqb at 1. cbn.
  rewrite N.eqb_refl, (eqb_sym' (b, k) e). cbn. destruct (pair_eqb e (b, k)); lia.
Qed.

Lemma count_rb_of c e s : count pair_eqb e (rb_of c s) = count trip_eqb (c, e) (rb s).
Proof.
  unfold rb_of. induction (rb s) as [|[c0 e0] l IH]; cbn; [reflexivity|].
  unfold trip_eqb at 1. cbn. rewrite (N.eqb_sym c c0). destruct (N.eqb c0 c); cbn; [rewrite IH; reflexivity | exact IH].
Qed.
Lemma drop_all c s : Inv s -> exists sb, Dropped c (rb_of c s) s sb.
Proof. intros HI. apply decref_all_ok; [exact HI|]. intros e. rewrite count_rb_of. lia. Qed.

Lemma decref_ok s c b k : Inv s -> wf_api_b E s (ADecref c b k) = true ->
  Undoable E s (ADecref c b k) /\ Inv (call_s E (ADecref c b k) s).
Proof.
  intros HI H. cbn [wf_api_b] in H. apply andb_true_iff in H. destruct H as [_ Hin].
  apply count_existsb in Hin.
  assert (Hcall : call E (ADecref c b k) s = (decref_result s c b k, Ok None)).
  { destruct (inv_rb_entry s c b k HI Hin) as (Hb & _ & Hl).
    cbn [call]. rewrite (bind_ok _ _ _ _ _ (decref_apply_ok s c b k Hb ltac:(lia) Hin)). reflexivity. }
  split; [|unfold call_s; rewrite Hcall; apply inv_decref; assumption].
  eapply (undoable_intro _ _ _ _ [ODecref c b k]); [exact Hcall | reflexivity|].
  destruct (decref_revert_ok s c b k HI Hin) as (s'' & Hrv & Hos). exists s''. split; [|exact Hos].
  cbn [rev app undo_seq revert]. rewrite (bind_ok _ _ _ _ _ Hrv). reflexivity.
Qed.

Lemma wf_remove_facts s c p : Inv s -> wf_api_b E s (ARemove c p) = true ->
  memN p (slots s) = true /\ lookup (peq E p) (pc s) = Some c /\ memN (peq E p) (vf s) = false /\
  count N.eqb p (slots s) = 1.
Proof.
  intros HI H. cbn [wf_api_b] in H. apply andb_true_iff in H. destruct H as [H Hvf].
  apply andb_true_iff in H. destruct H as [Hsl Hpc]. apply negb_true_iff in Hvf.
  unfold opt_eqb in Hpc. destruct (lookup (peq E p) (pc s)) as [c0|] eqn:Hlk; [|discriminate].
  apply N.eqb_eq in Hpc. subst c0. repeat split; auto.
  pose proof (I_nodup s HI p). pose proof (count_mem _ _ Hsl). lia.
Qed.

Definition remove_result (s : state) (c p : N) (sb : state) : state :=
  mkS (filter (fun x => negb (N.eqb x p)) (slots s)) (lims sb) (plan sb ++ [ORemove c p])
      (filter (fun qc : N * N => negb (N.eqb (fst qc) (peq E p))) (pc s))
      (rb sb) (brc sb) (vf s ++ [peq E p]) (fr sb).

Lemma call_remove s c p sb : Inv s -> wf_api_b E s (ARemove c p) = true -> Dropped c (rb_of c s) s sb ->
  call E (ARemove c p) s = (remove_result s c p sb, Ok None).
Proof.
  intros HI H D. destruct (wf_remove_facts s c p HI H) as (Hsl & Hlk & Hvf & _). destruct D.
  cbn [call]. unfold remove_apply, bind, remove_slotting. rewrite Hsl.
  unfold remove_pkg_blockers. cbn [rb_of rb set_slots]. fold (rb_of c s). rewrite dr_run0.
  unfold pc_del. cbn [pc set_slots]. rewrite dr_pc0, Hlk. cbn.
  rewrite dr_vf0, Hvf. cbn. reflexivity.
Qed.

Lemma remove_ok s c p : Inv s -> wf_api_b E s (ARemove c p) = true ->
  Undoable E s (ARemove c p) /\ Inv (call_s E (ARemove c p) s).
Proof.
  intros HI H. destruct (wf_remove_facts s c p HI H) as (Hsl & Hlk & Hvf & Hc1).
  destruct (drop_all c s HI) as [sb D]. pose proof (call_remove s c p sb HI H D) as Hcall. destruct D.
  split.
  - eapply (undoable_intro _ _ _ _ (dops c (rb_of c s) ++ [ORemove c p])); [exact Hcall | |].
    { cbn. rewrite dr_plan0, <- app_assoc. reflexivity. }
    rewrite rev_app_distr. cbn [rev app undo_seq revert].
    eassert (Hr : (fill_slotting E p true;;; pc_set (peq E p) c;;; vf_remove (peq E p))
                    (remove_result s c p sb) = (_, Ok tt)).
    { unfold bind, fill_slotting. cbn. rewrite orb_true_r. cbn. unfold vf_remove. cbn.
      rewrite memN_refl_app. reflexivity. }
    rewrite (bind_ok _ _ _ _ _ Hr). apply dr_undo0.
    constructor; cbn; intros; try reflexivity.
    + rewrite dr_slots0. apply count_del_readd, Hc1.
    + rewrite dr_pc0. destruct (N.eqb p0 (peq E p)) eqn:Hpp; cbn.
      * apply N.eqb_eq in Hpp. subst. symmetry. exact Hlk.
      * rewrite !lookup_filter_ne, Hpp. reflexivity.
    + rewrite dr_vf0. apply memN_del_last, Hvf.
  - unfold call_s. rewrite Hcall. apply (inv_set_slots sb); [exact dr_inv0 | | reflexivity..].
    apply slots_ok_del, inv_slots, HI.
Qed.


(* what a well-formed replace of [old] (bound to choice point oc) by p knows; sb is the state after
   old's blockers are dropped.  rf_lim_old is the subtle one: dropping them does not change which
   limiters hit old (wf_api_b: none of oc's own blockers matches old), so revert computes the same force_old *)
Record ReplaceFacts (s : state) (p old oc : N) (sb : state) : Prop := {
  rf_old_in : count N.eqb old (slots s) = 1;
  rf_p_out : count N.eqb p (slots s) = 0;
  rf_p_unbound : N.eqb (peq E p) (peq E old) = false -> lookup (peq E p) (pc s) = None;
  rf_old_vf : memN (peq E old) (vf s) = false;
  rf_oc : lookup (peq E old) (pc s) = Some oc;
  rf_ne : N.eqb p old = false;
  rf_drop : Dropped oc (rb_of oc s) s sb;
  rf_lim_p : check_limiters E p sb = [];
  rf_lim_old : check_limiters E old sb = check_limiters E old s;
  rf_others : forall x, count N.eqb x (slots s) <> 0 -> N.eqb x old = false -> same_slot E p x = false;
  rf_others_old : forall x, count N.eqb x (slots s) <> 0 -> N.eqb x old = false -> same_slot E old x = false }.

Lemma wf_replace_unforced s c p f : wf_api_b E s (AReplace c p f) = true -> f = false.
Proof. destruct f; [discriminate | reflexivity]. Qed.

Lemma replace_facts s c p : Inv s -> wf_api_b E s (AReplace c p false) = true ->
  exists old oc sb, get_conflicting_slot E p s = Some old /\ ReplaceFacts s p old oc sb.
Proof.
  intros HI H. cbn [wf_api_b negb andb] in H.
  destruct (get_conflicting_slot E p s) as [old|] eqn:Hold; [|rewrite andb_false_r in H; discriminate].
  destruct (lookup (peq E old) (pc s)) as [oc|] eqn:Hoc; [|rewrite !andb_false_r in H; discriminate].
  rewrite !andb_true_iff, !negb_true_iff in H. destruct H as [[[Hsl Hvf] Hlim] [[Hb Hovf] Hm]].
  apply find_some in Hold. destruct Hold as [Hin Hsame]. apply count_notmem in Hsl.
  assert (Hcold : count N.eqb old (slots s) = 1).
  { pose proof (I_nodup s HI old). apply count_In in Hin. lia. }
  assert (Hne : N.eqb p old = false).
  { destruct (N.eqb p old) eqn:Hpo; [|reflexivity]. apply N.eqb_eq in Hpo. subst old. lia. }
  destruct (drop_all oc s HI) as [sb D]. destruct (dr_lims _ _ _ _ D) as (h & Hh & Hhf).
  exists old, oc, sb. split; [reflexivity|].
  assert (Hothers_old : forall x, count N.eqb x (slots s) <> 0 -> N.eqb x old = false -> same_slot E old x = false).
  { intros x Hx Hxo. destruct (same_slot E old x) eqn:Hs; [|reflexivity].
    assert (old = x) by (apply (I_slot s HI); [lia | exact Hx | exact Hs]).
    subst x. rewrite N.eqb_refl in Hxo. discriminate. }
  constructor; auto.
  - intros Hpe. rewrite Hpe, orb_false_r in Hb. apply negb_true_iff in Hb. unfold bound in Hb.
    destruct (lookup (peq E p) (pc s)); [discriminate | reflexivity].
  - unfold check_limiters. rewrite Hh. apply is_nil_eq in Hlim. unfold check_limiters in Hlim.
    apply map_eq_nil in Hlim. rewrite filter_sub_nil; [reflexivity | exact Hlim].
  - unfold check_limiters. rewrite Hh. f_equal. apply filter_same.
    intros [k0 b0] _ Hk0. apply Hhf in Hk0. cbn in Hk0. cbn.
    rewrite forallb_forall in Hm. specialize (Hm _ Hk0). cbn in Hm. apply negb_true_iff in Hm.
    rewrite Hm, andb_false_r. reflexivity.
  - intros x Hx Hxo. destruct (same_slot E p x) eqn:Hs; [|reflexivity].
    rewrite <- (Hothers_old x Hx Hxo). symmetry. exact (same_slot_trans p old x Hsame Hs).
Qed.

Definition replace_result (s : state) (c p old oc : N) (sb : state) : state :=
  mkS (filter (fun z => negb (N.eqb z old)) (slots s) ++ [p]) (lims sb)
      (plan sb ++ [OReplace c p false old oc (negb (is_nil (check_limiters E old s)))])
      ((peq E p, c) :: filter (fun qc : N * N => negb (N.eqb (fst qc) (peq E p)))
                          (filter (fun qc : N * N => negb (N.eqb (fst qc) (peq E old))) (pc s)))
      (rb sb) (brc sb) (vf s ++ [peq E old]) (fr sb).

Lemma In_filter_ne x old l : In x (filter (fun z => negb (N.eqb z old)) l) ->
  count N.eqb x l <> 0 /\ N.eqb x old = false.
Proof.
  intros H. apply filter_In in H. destruct H as [H1 H2]. apply negb_true_iff in H2.
  split; [apply count_In, H1 | exact H2].
Qed.

Lemma call_replace s c p old oc sb :
  get_conflicting_slot E p s = Some old -> ReplaceFacts s p old oc sb ->
  call E (AReplace c p false) s = (replace_result s c p old oc sb, Ok None).
Proof.
  intros Hold F. destruct F. destruct rf_drop0.
  assert (Hmem : memN old (slots s) = true) by (rewrite memN_count, rf_old_in0; reflexivity).
  cbn [call]. unfold replace_apply, bind, gets. rewrite Hold. cbn [fst snd].
  unfold remove_slotting. rewrite Hmem. cbn [pc set_slots]. rewrite rf_oc0.
  unfold remove_pkg_blockers. cbn [rb_of rb set_slots]. fold (rb_of oc s). rewrite dr_run0.
  unfold fill_slotting. change (check_limiters E p (set_slots _ sb)) with (check_limiters E p sb). rewrite rf_lim_p0.
  assert (Hsc : slot_conflicts E p (set_slots (filter (fun x => negb (N.eqb x old)) (slots s)) sb) = []).
  { apply filter_all_false. intros x Hx. apply In_filter_ne in Hx. apply rf_others0; apply Hx. }
  rewrite Hsc. cbn [map app is_nil negb orb]. cbn iota.
  unfold pc_del. cbn [pc set_slots]. rewrite dr_pc0, rf_oc0. cbn.
  rewrite dr_vf0, rf_old_vf0. cbn. unfold replace_result. reflexivity.
Qed.

Lemma revert_replace s c p old oc sb : ReplaceFacts s p old oc sb ->
  exists t, revert E (OReplace c p false old oc (negb (is_nil (check_limiters E old s))))
                   (replace_result s c p old oc sb) = (t, Ok tt) /\ obs_eq t sb.
Proof.
  intros F. destruct F. destruct rf_drop0. set (fo := negb (is_nil (check_limiters E old s))).
  eexists. split.
  - cbn [revert]. unfold bind, remove_slotting, replace_result. cbn [slots].
    rewrite memN_refl_app. unfold fill_slotting.
    match goal with |- context [slot_conflicts E old ?X] =>
      assert (Hsc : slot_conflicts E old X = []) end.
    { apply filter_all_false. intros x Hx.
      apply filter_In in Hx. destruct Hx as [Hx Hxp]. apply negb_true_iff in Hxp.
      apply in_app_or in Hx. destruct Hx as [Hx|[Hx|[]]].
      - apply In_filter_ne in Hx. apply rf_others_old0; apply Hx.
      - subst x. rewrite N.eqb_refl in Hxp. discriminate. }
    rewrite Hsc.
    match goal with |- context [check_limiters E old ?X] =>
      change (check_limiters E old X) with (check_limiters E old sb) end.
    rewrite rf_lim_old0, app_nil_r, is_nil_map. fold fo.
    replace (is_nil (check_limiters E old s)) with (negb fo) by (unfold fo; apply negb_involutive).
    replace (negb fo || fo) with true by (destruct fo; reflexivity).
    rewrite eqb_reflx.
    unfold pc_del. cbn. rewrite N.eqb_refl. cbn. unfold vf_remove. cbn. rewrite memN_refl_app.
    reflexivity.
  - constructor; cbn; intros; try reflexivity.
    + rewrite dr_slots0, count_app, count_del_last, <- count_app.
      * apply count_del_readd, rf_old_in0.
      * rewrite count_filter, rf_ne0. exact rf_p_out0.
    + rewrite dr_pc0. destruct (N.eqb p0 (peq E old)) eqn:Hpo; cbn.
      * apply N.eqb_eq in Hpo. subst. symmetry. exact rf_oc0.
      * rewrite !lookup_filter_ne, Hpo. cbn. destruct (N.eqb p0 (peq E p)) eqn:Hpp; [|reflexivity].
        apply N.eqb_eq in Hpp. subst p0. cbn. symmetry. apply rf_p_unbound0. exact Hpo.
    + rewrite dr_vf0. apply memN_del_last, rf_old_vf0.
Qed.

Lemma replace_ok s c p f : Inv s -> wf_api_b E s (AReplace c p f) = true ->
  Undoable E s (AReplace c p f) /\ Inv (call_s E (AReplace c p f) s).
Proof.
  intros HI H. pose proof (wf_replace_unforced s c p f H). subst f.
  destruct (replace_facts s c p HI H) as (old & oc & sb & Hold & F).
  pose proof (call_replace s c p old oc sb Hold F) as Hcall.
  destruct (revert_replace s c p old oc sb F) as (t & Hr & Ht). destruct F. destruct rf_drop0.
  split.
  - eapply (undoable_intro _ _ _ _ (dops oc (rb_of oc s) ++ [OReplace c p false old oc _])); [exact Hcall | |].
    { unfold replace_result. cbn. rewrite dr_plan0, <- app_assoc. reflexivity. }
    rewrite rev_app_distr. cbn [rev app undo_seq]. rewrite (bind_ok _ _ _ _ _ Hr). apply dr_undo0, Ht.
  - unfold call_s. rewrite Hcall. apply (inv_set_slots sb); [exact dr_inv0 | | reflexivity..].
    apply slots_ok_add; [apply slots_ok_del, inv_slots, HI | rewrite count_filter, rf_ne0; exact rf_p_out0|].
    intros q Hq. rewrite count_filter in Hq. destruct (N.eqb q old) eqn:Hqo; [contradiction|].
    apply rf_others0; assumption.
Qed.

Lemma call_ok s a : Inv s -> wf_api_b E s a = true -> Undoable E s a /\ Inv (call_s E a s).
Proof.
  intros HI Hwf.
  destruct a; [apply add_ok | apply hardref_ok | apply backref_ok | apply remove_ok | apply replace_ok
              | apply block_ok | apply decref_ok]; assumption.
Qed.

End Invariant.

Lemma plan_append_rel o1 o2 : Mrel (@Rtrue unit unit) (plan_append o1) (plan_append o2).
Proof. intros s1 s2 H. split; [apply obs_set_plans, H | exact I]. Qed.
Lemma plan_append_relw o1 o2 : Resp equivw (@Rtrue unit unit) (plan_append o1) (plan_append o2).
Proof.
  intros s1 s2 [Ho Hl]. split; [|exact I]. split; [apply obs_set_plans, Ho|].
  cbn. rewrite !app_length, Hl. reflexivity.
Qed.

(* the calls without nested decrefs are sequences of primitives and plan_append: they respect
   every relation that those respect *)
Section SimpleCalls.
Variable E : env.
Variable Q : state -> state -> Prop.
Hypothesis Q_prim : forall A B (R : A -> B -> Prop) m1 m2, Mprim R m1 m2 -> Resp Q R m1 m2.
Hypothesis Q_log : forall o1 o2, Resp Q (@Rtrue unit unit) (plan_append o1) (plan_append o2).

Ltac call_step :=
  first [ apply resp_ret; exact I | apply Q_log | apply Q_prim; solve [auto with prims]
        | eapply resp_bind; [first [apply Q_log | apply Q_prim; solve [auto with prims]] | intros ? ? ?] ].

Lemma add_apply_resp c p f : Resp Q (@Rtrue _ _) (add_apply E c p f) (add_apply E c p f).
Proof.
  unfold add_apply. eapply resp_bind; [apply Q_prim, fill_slotting_prim | intros l1 l2 Hl].
  unfold Rnil in Hl. rewrite Hl. destruct (_ && negb f); repeat call_step.
Qed.
Lemma incref_apply_resp c b k : Resp Q (@Rtrue _ _) (incref_apply E c b k) (incref_apply E c b k).
Proof.
  unfold incref_apply. call_step. eapply resp_bind; [apply Q_prim, gets_brc_prim | intros inb ? <-].
  eapply resp_bind with (R := @Rtrue (list item) (list item)); [destruct inb | intros ? ? ?]; repeat call_step.
Qed.
Lemma decref_apply_resp c b k : Resp Q (@Rtrue unit unit) (decref_apply c b k) (decref_apply c b k).
Proof.
  unfold decref_apply. do 2 call_step. eapply resp_bind; [apply Q_prim, gets_brc_prim | intros inb ? <-].
  repeat call_step.
Qed.

Lemma simple_call_resp a :
  match a with ARemove _ _ | AReplace _ _ _ => False | _ => True end ->
  Resp Q (@Rtrue _ _) (call E a) (call E a).
Proof.
  destruct a; intros H; try contradiction; cbn [call].
  - apply add_apply_resp.
  - repeat call_step.
  - repeat call_step.
  - eapply resp_bind; [apply incref_apply_resp | intros ? ? ?; call_step].
  - eapply resp_bind; [apply decref_apply_resp | intros ? ? ?; call_step].
Qed.
End SimpleCalls.

Lemma decref_apply_rel c b k : Mrel (@Rtrue unit unit) (decref_apply c b k) (decref_apply c b k).
Proof. exact (decref_apply_resp obs_eq (@prim_rel) plan_append_rel c b k). Qed.

Section CallCong.
Variable E : env.

(* under the invariant the blocker refcounts and the limiters are functions of rev_blockers *)
Lemma inv_blk_determined a b : Inv E a -> Inv E b ->
  (forall e, count trip_eqb e (rb a) = count trip_eqb e (rb b)) ->
  (forall x, count N.eqb x (brc a) = count N.eqb x (brc b)) /\
  (forall kb, count pair_eqb kb (lims a) = count pair_eqb kb (lims b)).
Proof.
  intros Ia Ib Hrb.
  assert (Hbrc : forall x, count N.eqb x (brc a) = count N.eqb x (brc b)).
  { intros x. rewrite (I_brc E a Ia), (I_brc E b Ib). apply same_count_map, Hrb. }
  split; [exact Hbrc|]. intros [k x]. rewrite (I_lims E a Ia), (I_lims E b Ib).
  rewrite (memN_obs (brc a) (brc b) x Hbrc). reflexivity.
Qed.

Lemma rb_of_counts s1 s2 c : obs_eq s1 s2 ->
  forall e, count pair_eqb e (rb_of c s1) = count pair_eqb e (rb_of c s2).
Proof. intros H e. rewrite !count_rb_of. apply H. Qed.

(* remove/replace in two ≈w states: the nested decrefs end in states that agree on rev_blockers, hence
   (inv_blk_determined) on refcounts and limiters; their logs have the same length, maybe another order *)
Lemma result_cong c s1 s2 sb1 sb2 v1 v2 q1 q2 f1 f2 e1 e2 : equivw s1 s2 ->
  Dropped E c (rb_of c s1) s1 sb1 -> Dropped E c (rb_of c s2) s2 sb2 ->
  (forall p, count N.eqb p v1 = count N.eqb p v2) -> (forall p, lookup p q1 = lookup p q2) ->
  (forall p, memN p f1 = memN p f2) ->
  equivw (mkS v1 (lims sb1) (plan sb1 ++ [e1]) q1 (rb sb1) (brc sb1) f1 (fr sb1))
         (mkS v2 (lims sb2) (plan sb2 ++ [e2]) q2 (rb sb2) (brc sb2) f2 (fr sb2)).
Proof.
  intros [Ho Hlen] D1 D2 Hv Hq Hf.
  assert (Hrb : forall e, count trip_eqb e (rb sb1) = count trip_eqb e (rb sb2)).
  { intros e. rewrite (dr_rb _ _ _ _ _ D1), (dr_rb _ _ _ _ _ D2), (oe_rb _ _ Ho e), (rb_of_counts s1 s2 c Ho).
    reflexivity. }
  destruct (inv_blk_determined sb1 sb2 (dr_inv _ _ _ _ _ D1) (dr_inv _ _ _ _ _ D2) Hrb) as [Hb Hl].
  split.
  - constructor; cbn; auto. intros r. rewrite (dr_fr _ _ _ _ _ D1), (dr_fr _ _ _ _ _ D2). apply Ho.
  - cbn. rewrite (dr_plan _ _ _ _ _ D1), (dr_plan _ _ _ _ _ D2), !app_length. unfold dops.
    rewrite !map_length, (same_count_length _ _ (rb_of_counts s1 s2 c Ho)), Hlen. reflexivity.
Qed.


Lemma conflicting_slot_obs s1 s2 p old : Inv E s1 -> obs_eq s1 s2 ->
  get_conflicting_slot E p s1 = Some old -> get_conflicting_slot E p s2 = Some old.
Proof.
  intros HI Ho H. unfold get_conflicting_slot in *. apply find_some in H. destruct H as [Hin Hs].
  apply count_In in Hin.
  destruct (find (same_slot E p) (slots s2)) as [x|] eqn:Hf.
  - apply find_some in Hf. destruct Hf as [Hin2 Hs2]. f_equal. symmetry.
    apply (I_slot E s1 HI); [exact Hin | rewrite (oe_slots _ _ Ho); apply count_In, Hin2|].
    eapply same_slot_trans; eauto.
  - rewrite (oe_slots _ _ Ho) in Hin. apply count_In in Hin.
    rewrite (find_none _ _ Hf old Hin) in Hs. discriminate.
Qed.

Lemma remove_cong s1 s2 c p : Inv E s1 -> equivw s1 s2 ->
  wf_api_b E s1 (ARemove c p) = true -> wf_api_b E s2 (ARemove c p) = true ->
  equivw (call_s E (ARemove c p) s1) (call_s E (ARemove c p) s2).
Proof.
  intros HI He W1 W2. pose proof He as [Ho _]. pose proof (Inv_obs E s1 s2 Ho HI) as HI2.
  destruct (drop_all E c s1 HI) as [sb1 D1]. destruct (drop_all E c s2 HI2) as [sb2 D2].
  unfold call_s. rewrite (call_remove E s1 c p sb1 HI W1 D1), (call_remove E s2 c p sb2 HI2 W2 D2).
  apply (result_cong c s1 s2); [exact He | exact D1 | exact D2 | intros x..].
  - rewrite !count_filter, (oe_slots _ _ Ho). reflexivity.
  - rewrite !lookup_filter_ne, (oe_pc _ _ Ho). reflexivity.
  - rewrite !memN_app, (oe_vf _ _ Ho). reflexivity.
Qed.

Lemma replace_cong s1 s2 c p f : Inv E s1 -> equivw s1 s2 ->
  wf_api_b E s1 (AReplace c p f) = true -> wf_api_b E s2 (AReplace c p f) = true ->
  equivw (call_s E (AReplace c p f) s1) (call_s E (AReplace c p f) s2).
Proof.
  intros HI He W1 W2. pose proof He as [Ho _]. pose proof (Inv_obs E s1 s2 Ho HI) as HI2.
  pose proof (wf_replace_unforced E s1 c p f W1). subst f.
  destruct (replace_facts E s1 c p HI W1) as (old & oc & sb1 & Hold1 & F1).
  destruct (replace_facts E s2 c p HI2 W2) as (old2 & oc2 & sb2 & Hold2 & F2).
  (* both runs replace the same package, bound to the same choice point *)
  pose proof (conflicting_slot_obs s1 s2 p old HI Ho Hold1) as Hold. assert (old2 = old) by congruence. subst old2.
  assert (oc2 = oc).
  { pose proof (rf_oc E _ _ _ _ _ F1) as A. pose proof (rf_oc E _ _ _ _ _ F2) as B.
    rewrite (oe_pc _ _ Ho) in A. congruence. }
  subst oc2. unfold call_s.
  rewrite (call_replace E s1 c p old oc sb1 Hold1 F1), (call_replace E s2 c p old oc sb2 Hold2 F2).
  apply (result_cong oc s1 s2);
    [exact He | exact (rf_drop E _ _ _ _ _ F1) | exact (rf_drop E _ _ _ _ _ F2) | intros x..].
  - rewrite !count_app, !count_filter, (oe_slots _ _ Ho). reflexivity.
  - cbn. destruct (N.eqb x (peq E p)); [reflexivity|]. rewrite !lookup_filter_ne, (oe_pc _ _ Ho). reflexivity.
  - rewrite !memN_app, (oe_vf _ _ Ho). reflexivity.
Qed.

Lemma wf_obs s1 s2 a : Inv E s1 -> obs_eq s1 s2 -> wf_api_b E s1 a = true -> wf_api_b E s2 a = true.
Proof.
  intros HI Ho. destruct a; cbn [wf_api_b]; auto.
  - unfold bound. rewrite (oe_pc _ _ Ho), (memN_obs (slots s1) (slots s2) p (oe_slots _ _ Ho)),
      (oe_vf _ _ Ho), (slot_conflicts_nil E s1 s2 p Ho). auto.
  - rewrite (oe_pc _ _ Ho), (memN_obs (slots s1) (slots s2) p (oe_slots _ _ Ho)), (oe_vf _ _ Ho). auto.
  - unfold bound. rewrite (memN_obs (slots s1) (slots s2) p (oe_slots _ _ Ho)),
      (oe_vf _ _ Ho (peq E p)), (check_limiters_nil E s1 s2 p Ho).
    intros H. apply andb_true_iff in H. destruct H as [H Hm]. rewrite H. cbn [andb].
    destruct (get_conflicting_slot E p s1) as [old|] eqn:Hold; [|discriminate].
    rewrite (conflicting_slot_obs s1 s2 p old HI Ho Hold).
    rewrite <- (oe_pc _ _ Ho (peq E p)), <- (oe_pc _ _ Ho (peq E old)), <- (oe_vf _ _ Ho (peq E old)).
    apply andb_true_iff in Hm. destruct Hm as [Hm1 Hm]. rewrite Hm1. cbn [andb].
    destruct (lookup (peq E old) (pc s1)) as [oc|]; [|discriminate].
    apply forallb_forall. intros x Hx. rewrite forallb_forall in Hm. apply Hm.
    apply count_In. rewrite (rb_of_counts s1 s2 oc Ho). apply count_In. exact Hx.
  - rewrite (existsb_obs (rb s1) (rb s2) _ (oe_rb _ _ Ho)). auto.
Qed.

Lemma call_cong s1 s2 a : Inv E s1 -> equivw s1 s2 -> wf_api_b E s1 a = true ->
  equivw (call_s E a s1) (call_s E a s2).
Proof.
  intros HI He W. pose proof (wf_obs s1 s2 a HI (proj1 He) W) as W2.
  pose proof (simple_call_resp E equivw (fun A B => prim_plans (fun p1 p2 => length p1 = length p2))
                plan_append_relw) as Hs.
  destruct a; try (apply Hs; [exact I | exact He]).
  - apply remove_cong; assumption.
  - apply replace_cong; assumption.
Qed.

End CallCong.


Section History.
Variable E : env.

Lemma run_app h1 h2 s : run E (h1 ++ h2) s = run E h2 (run E h1 s).
Proof. unfold run. apply fold_left_app. Qed.
Lemma trun_app h1 h2 t : trun E (h1 ++ h2) t = trun E h2 (trun E h1 t).
Proof. unfold trun. apply fold_left_app. Qed.
Lemma wf_from_app h1 h2 t : wf_from E (h1 ++ h2) t = wf_from E h1 t && wf_from E h2 (trun E h1 t).
Proof.
  revert t. induction h1 as [|e h1 IH]; intros t; cbn; [reflexivity|].
  rewrite IH, andb_assoc. reflexivity.
Qed.
Lemma trun_state h : forall t, fst (trun E h t) = run E h (fst t).
Proof.
  induction h as [|e h IH]; intros t; [reflexivity|].
  change (fst (trun E h (tstep E e t)) = run E h (step_s E e (fst t))).
  rewrite IH. f_equal. destruct e as [a|k]; [reflexivity|].
  cbn. unfold step_s, step, bind, backtrack_s. destruct (backtrack E k (fst t)) as [s' [u|e]]; reflexivity.
Qed.
Lemma replay_snoc l a s : replay E (l ++ [a]) s = call_s E a (replay E l s).
Proof. unfold replay. rewrite fold_left_app. reflexivity. Qed.

(* the run with, for every call still in effect, the state it started in (newest first) *)
Definition cstep (e : event) (c : state * list (nat * state * api)) : state * list (nat * state * api) :=
  match e with
  | C a => (call_s E a (fst c), (length (plan (fst c)), fst c, a) :: snd c)
  | R k => (backtrack_s E k (fst c), filter (fun x => Nat.ltb (fst (fst x)) k) (snd c))
  end.
Local Notation cfold h c0 := (fold_left (fun c e => cstep e c) h c0).
Local Notation ltk k := (fun x : nat * state * api => Nat.ltb (fst (fst x)) k).

Definition sorted_below (s : state) (L : list (nat * state * api)) : Prop :=
  forall n sb a, In (n, sb, a) L -> n <= length (plan s).

Lemma cfold_state h : forall c t, fst c = fst t ->
  fst (fold_left (fun c e => cstep e c) h c) = fst (trun E h t).
Proof.
  induction h as [|e h IH]; intros c t H; [exact H|].
  cbn [fold_left]. change (trun E (e :: h) t) with (trun E h (tstep E e t)).
  apply IH. destruct e; cbn; rewrite H; reflexivity.
Qed.

(* Spec's tracker is this run with the saved states left out *)
Definition track (c : state * list (nat * state * api)) : tstate :=
  (fst c, rev (map (fun x => (fst (fst x), snd x)) (snd c))).
Lemma track_step e c : tstep E e (track c) = track (cstep e c).
Proof.
  destruct e as [a|k]; unfold track; cbn [cstep tstep fst snd]; [reflexivity|].
  f_equal. rewrite filter_rev. f_equal. symmetry.
  apply (map_filter_comm (fun x : nat * state * api => (fst (fst x), snd x)) (fun na => Nat.ltb (fst na) k)).
Qed.
Lemma track_run h : forall c, trun E h (track c) = track (cfold h c).
Proof.
  induction h as [|e h IH]; intros c; [reflexivity|].
  change (trun E (e :: h) (track c)) with (trun E h (tstep E e (track c))). rewrite track_step. apply IH.
Qed.
Lemma cfold_run h c : fst (cfold h c) = run E h (fst c).
Proof. rewrite (cfold_state h c (track c) eq_refl). apply trun_state. Qed.

(* the calls that remain, oldest first *)
Definition apis (L : list (nat * state * api)) : list api := rev (map snd L).
Lemma surviving_apis h : surviving E h = apis (snd (cfold h (init, []))).
Proof.
  unfold surviving, apis. change (init, []) with (track (init, [])) at 1. rewrite track_run.
  cbn [track snd]. rewrite map_rev, map_map. reflexivity.
Qed.

(* the invariant of a well-formed run: the chain of saved states, and the current state and
   every saved state satisfy Inv and are ≈w the replay of the calls below them *)
Definition Live (s : state) (L : list (nat * state * api)) : Prop :=
  Inv E s /\ equivw s (replay E (apis L) init).
Fixpoint Saved (L : list (nat * state * api)) : Prop :=
  match L with [] => True | (_, sb, _) :: L' => Live sb L' /\ Saved L' end.
Definition Good (s : state) (L : list (nat * state * api)) : Prop := Chain E s L /\ Live s L /\ Saved L.

Lemma good_inv s L : Good s L -> Inv E s.
Proof. intros (_ & [HI _] & _). exact HI. Qed.
Lemma good_replay s L : Good s L -> equivw s (replay E (apis L) init).
Proof. intros (_ & [_ Hr] & _). exact Hr. Qed.
Lemma good_equiv s s' L : equiv s' s -> Good s L -> Good s' L.
Proof.
  intros He (Hc & [HI Hr] & Hs). split; [eapply chain_equiv; eauto|]. split; [split|exact Hs].
  - eapply Inv_obs; [apply obs_sym, He | exact HI].
  - eapply equivw_trans; [apply equiv_equivw, He | exact Hr].
Qed.
Lemma good_suffix s L1 n sb a L2 : Good s (L1 ++ (n, sb, a) :: L2) -> Good sb L2.
Proof.
  intros (Hc & _ & Hs). split; [eapply chain_suffix; eauto|]. clear Hc.
  induction L1 as [|[[n1 s1] a1] L1 IH]; cbn in Hs; [exact Hs | apply IH, Hs].
Qed.

Lemma chain_sorted L1 : forall s n sb a L2, Chain E s (L1 ++ (n, sb, a) :: L2) ->
  forall x, In x L1 -> n <= fst (fst x).
Proof.
  induction L1 as [|[[n1 s1] a1] L1 IH]; intros s n sb a L2 Hc x Hin; [destruct Hin|].
  inversion Hc as [|s' n' sb' a' L' Hn Hu He Hc']; subst. destruct Hin as [<-|Hin]; [|eapply IH; eauto].
  cbn. eapply chain_pos; [exact Hc' | apply in_elt].
Qed.

(* calls that appended nothing can be forgotten *)
Lemma good_trim s L : Good s L -> Good s (filter (ltk (length (plan s))) L).
Proof.
  intros (Hc & Hl & Hs). revert Hl Hs. induction Hc as [|s n sb a L Hn Hu He Hc IH]; intros Hl Hs.
  - exact (conj (Ch_nil E s) (conj Hl Hs)).
  - pose proof (back_le E _ _ _ (chain_head E s n sb a L (Ch_cons E s n sb a L Hn Hu He Hc))) as Hle.
    cbn [filter fst]. destruct (Nat.ltb n (length (plan s))) eqn:Hlt.
    + apply Nat.ltb_lt in Hlt. rewrite filter_all_true; [exact (conj (Ch_cons E s n sb a L Hn Hu He Hc) (conj Hl Hs))|].
      intros [[n1 s1] a1] Hin. apply Nat.ltb_lt. cbn.
      pose proof (chain_pos E _ _ _ _ _ Hc Hin). lia.
    + apply Nat.ltb_ge in Hlt. destruct He as [Ho Hp]. assert (Hnl : length (plan s) = length (plan sb)) by lia.
      apply (good_equiv sb).
      * eapply equiv_trans; [split; [exact Ho | exact Hp]|]. apply (undoable_back E sb a Hu). congruence.
      * rewrite Hnl. apply IH; apply Hs.
Qed.

Lemma good_rollback k s L : Good s L -> k = length (plan s) \/ (exists sb a, In (k, sb, a) L) ->
  snd (backtrack E k s) = Ok tt /\ Good (backtrack_s E k s) (filter (ltk k) L).
Proof.
  intros Hg [->|(sb & a & Hin)].
  - unfold backtrack_s. rewrite backtrack_here. split; [reflexivity | apply good_trim, Hg].
  - pose proof Hg as (Hc & _). destruct (chain_rollback E s L Hc k sb a Hin) as [Hok He].
    split; [exact Hok|]. apply (good_equiv sb); [exact He|].
    pose proof (chain_saved_len E s L Hc k sb a Hin) as Hlen.
    apply in_split in Hin. destruct Hin as (L1 & L2 & ->).
    rewrite filter_app. cbn [filter fst]. rewrite Nat.ltb_irrefl, filter_all_false, <- Hlen.
    + apply good_trim. eapply good_suffix, Hg.
    + intros x Hx. apply Nat.ltb_ge. eapply chain_sorted; eauto.
Qed.

Lemma good_step e c : Good (fst c) (snd c) -> wf_event_b E e (track c) = true ->
  Good (fst (cstep e c)) (snd (cstep e c)) /\
  match e with C a => Undoable E (fst c) a | R k => snd (backtrack E k (fst c)) = Ok tt end.
Proof.
  intros Hg Hwf. destruct e as [a|k]; cbn [wf_event_b track fst snd] in Hwf; cbn [cstep fst snd].
  - destruct Hg as (Hc & [HI Hr] & Hs). destruct (call_ok E _ a HI Hwf) as [Hu HI'].
    split; [|exact Hu]. split; [econstructor; eauto using equiv_refl|]. split; [|split; [split|]; assumption].
    split; [exact HI'|]. unfold apis. cbn [map snd rev]. rewrite replay_snoc. apply call_cong; assumption.
  - destruct (good_rollback k _ _ Hg) as [Hok Hg']; [|auto].
    apply orb_true_iff in Hwf. destruct Hwf as [Hk|Hk]; [left; apply Nat.eqb_eq, Hk | right].
    apply existsb_exists in Hk. destruct Hk as ([n1 a1] & Hin1 & Heq1). cbn in Heq1.
    apply Nat.eqb_eq in Heq1. subst n1. apply in_rev, in_map_iff in Hin1.
    destruct Hin1 as ([[n2 sb2] a2] & Heq2 & Hin2). cbn in Heq2. injection Heq2 as -> ->. eauto.
Qed.

Lemma good_run h : forall c, Good (fst c) (snd c) -> wf_from E h (track c) = true ->
  Good (fst (cfold h c)) (snd (cfold h c)).
Proof.
  induction h as [|e h IH]; intros c Hg Hwf; [exact Hg|].
  cbn in Hwf. apply andb_true_iff in Hwf. destruct Hwf as [H1 H2]. rewrite track_step in H2.
  apply IH; [apply good_step; assumption | exact H2].
Qed.

Lemma wf_good h : WF E h -> Good (run E h init) (snd (cfold h (init, []))).
Proof.
  intros Hwf. change init with (fst (init, @nil (nat * state * api))) at 1. rewrite <- cfold_run. apply good_run; [|exact Hwf].
  exact (conj (Ch_nil E init) (conj (conj (Inv_init E) (equivw_refl init)) I)).
Qed.

(* what rolling back to k gives is not changed by later events that stay at or above k *)
Lemma restore_run s1 k h : forall c, Good (fst c) (snd c) -> wf_from E h (track c) = true ->
  (forall k', In (R k') h -> k <= k') -> Back E k (fst c) s1 -> Back E k (fst (cfold h c)) s1.
Proof.
  induction h as [|e h IH]; intros c Hg Hwf Hge Hb; [exact Hb|].
  cbn in Hwf. apply andb_true_iff in Hwf. destruct Hwf as [H1 H2]. rewrite track_step in H2.
  destruct (good_step e c Hg H1) as [Hg' He].
  apply IH; [exact Hg' | exact H2 | intros k' Hin; apply Hge; right; exact Hin|].
  destruct e as [a|k']; cbn [cstep fst].
  - apply (back_stages E _ (length (plan (fst c))) k (fst c)); [eapply back_le, Hb | apply undoable_back, He | exact Hb].
  - apply (back_stages E (fst c) k' k); [apply Hge; left; reflexivity | split; [exact He | apply equiv_refl] | exact Hb].
Qed.

Lemma rollback_restores h1 h2 : WF E (h1 ++ h2) ->
  (forall k', In (R k') h2 -> length (plan (run E h1 init)) <= k') ->
  Back E (length (plan (run E h1 init))) (run E (h1 ++ h2) init) (run E h1 init).
Proof.
  intros Hwf Hge. unfold WF in Hwf. rewrite wf_from_app in Hwf.
  apply andb_true_iff in Hwf. destruct Hwf as [Hw1 Hw2].
  change (init, []) with (track (init, [])) in Hw2. rewrite track_run in Hw2.
  pose proof (wf_good h1 Hw1) as Hg1. pose proof (cfold_run h1 (init, [])) as H1. cbn [fst] in H1.
  rewrite run_app. rewrite <- H1 in *. rewrite <- cfold_run.
  apply restore_run; [exact Hg1 | exact Hw2 | exact Hge | apply back_here].
Qed.

End History.

Lemma run_calls E l s : run E (map C l) s = replay E l s.
Proof. revert s. induction l as [|a l IH]; intros s; cbn; [reflexivity | apply IH]. Qed.
(* rollback_restores when the first part of the history is calls only: rolling back to their end gives
   the replay of those calls from the empty state *)
Lemma backtrack_is_replay_partial_proof : forall E l h2 k,
  WF E (map C l ++ h2) -> k = length (plan (replay E l init)) ->
  (forall k', In (R k') h2 -> k <= k') ->
  exists s', backtrack E k (run E (map C l ++ h2) init) = (s', Ok tt) /\ equiv s' (replay E l init).
Proof.
  intros E l h2 k Hwf -> Hge. rewrite <- run_calls in *. apply back_iff, rollback_restores; assumption.
Qed.

Definition E0 : env := env_of {| ckeys := [0;0;0;1]%N; cslots := [0;0;1;0]%N; cbkeys := [0;1]%N;
                                 cmatch := [[false;true;false;false];[false;false;false;true]];
                                 ceqs := [0;1;2;3]%N |}.
(* the hypotheses are satisfiable by a history with conflicts, blockers shared by two choice
   points, and nested rollbacks *)
Definition h_ex : list event :=
  [C (AHardref 0); C (AAdd 0 0 false); C (ABlock 0 0 0); C (AAdd 1 1 false); C (ABlock 1 0 0);
   C (AAdd 2 3 true); C (ABlock 2 1 1); R 5; C (ABlock 1 1 1); R 3; R 1]%N.
Example wf_ex : WF E0 h_ex.
Proof. vm_compute. reflexivity. Qed.
(* a well-formed history with the compound operations (replace with nested decrefs, remove) *)
Definition h_ex2 : list event :=
  [C (AAdd 0 0 true); C (ABlock 0 1 1); C (ABlock 0 1 1); C (AReplace 1 1 false); R 3;
   C (AReplace 1 1 false); C (ARemove 1 1); R 1]%N.
Example wf_ex2 : WF E0 h_ex2.
Proof. vm_compute. reflexivity. Qed.

(* re-merge of the installed version: p0 (vdb) and p1 (repo) are two objects that compare equal,
   so they share one pkg_choices / vdb_filter key; the history is well-formed and rolling back over
   the replace restores p0's binding *)
Definition E3 : env := env_of {| ckeys := [0;0;0;1]%N; cslots := [0;0;1;0]%N; cbkeys := [0;1]%N;
                                 cmatch := [[false;false;false;false];[false;false;false;false]];
                                 ceqs := [0;0;2;3]%N |}.
Definition h_equal : list event :=
  [C (AAdd 0 0 true); C (ABlock 0 1 1); C (AReplace 1 1 false); R 2; C (AReplace 2 1 false); R 1; R 0]%N.
Example wf_equal : WF E3 h_equal /\
  lookup 0%N (pc (run E3 [C (AAdd 0 0 true); C (ABlock 0 1 1); C (AReplace 1 1 false); R 2]%N init)) = Some 0%N.
Proof. split; vm_compute; reflexivity. Qed.

(* without WF the statement is false of the faithful model (and of the code: known findings) *)
Definition h_forced_dup : list event := [C (AAdd 2 3 true); C (AAdd 0 3 true); R 1]%N.
Lemma forced_add_of_bound_package_refuted :
  lookup 3%N (pc (run E0 h_forced_dup init)) = None /\
  lookup 3%N (pc (replay E0 (surviving E0 h_forced_dup) init)) = Some 2%N.
Proof. split; vm_compute; reflexivity. Qed.
Definition E1 : env := env_of {| ckeys := [0;0;0;1]%N; cslots := [0;0;1;0]%N; cbkeys := [0;1]%N;
                                 cmatch := [[true;false;false;false];[false;false;false;false]];
                                 ceqs := [0;1;2;3]%N |}.
Definition h_selfblocked : list event :=
  [C (AAdd 0 0 false); C (ABlock 0 0 0); C (AReplace 1 1 false)]%N.
Lemma replace_old_blocked_by_own_blocker_refuted :
  snd (backtrack E1 2 (run E1 h_selfblocked init)) = Ex AssertionError.
Proof. vm_compute. reflexivity. Qed.
Definition E2 : env := env_of {| ckeys := [0;0;0;1]%N; cslots := [0;0;1;0]%N; cbkeys := [0;1]%N;
                                 cmatch := [[true;true;false;false];[false;false;false;false]];
                                 ceqs := [0;1;2;3]%N |}.
Lemma replace_failure_path_refuted :
  let s := run E2 [C (AAdd 0 0 true); C (ABlock 1 0 0)]%N init in
  snd (call E2 (AReplace 1 1 false) s) = Ex AssertionError /\
  memN 0%N (slots s) = true /\ memN 0%N (slots (call_s E2 (AReplace 1 1 false) s)) = false.
Proof. vm_compute. repeat split; reflexivity. Qed.
