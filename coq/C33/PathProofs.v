(* C33/PathProofs.v — lemmas about the path functions of Path.v, and the proof that the
   relative link computed by get_relative_dosym_target resolves lexically to the requested
   absolute target, for EVERY absolute target and EVERY link name. *)
From Coq Require Import List NArith Bool Lia.
Import ListNotations.
From Verif Require Import Base.Val Base.Lists C33.Path.

Lemma rev_nonnil {A} (l : list A) : l <> [] -> exists x r, rev l = x :: r /\ l = rev r ++ [x].
Proof.
  intro H. destruct (rev l) as [|x r] eqn:E.
  - apply (f_equal (@rev A)) in E. rewrite rev_involutive in E. now destruct H.
  - exists x, r. split; [reflexivity|]. now rewrite <- (rev_involutive l), E.
Qed.

Lemma Forall_skipn {A} (P : A -> Prop) n l : Forall P l -> Forall P (skipn n l).
Proof. revert l; induction n; intros l H; [exact H|]. destruct l; [constructor|]. inversion H; now apply IHn. Qed.

Definition noslash (c : str) : Prop := forallb (fun x => negb (is_sl x)) c = true.
Definition plain (c : str) : Prop := c <> [] /\ c <> dot /\ c <> dotdot.

Lemma split_sl_nonnil s : split_sl s <> [].
Proof. destruct s as [|c r]; cbn; [discriminate|]. destruct (is_sl c); [discriminate|].
  destruct (split_sl r); discriminate. Qed.

Lemma split_app a b : split_sl (a ++ SL :: b) = split_sl a ++ split_sl b.
Proof.
  induction a as [|c a IH]; cbn.
  - reflexivity.
  - destruct (is_sl c).
    + now rewrite IH.
    + rewrite IH. pose proof (split_sl_nonnil a). destruct (split_sl a); [congruence|reflexivity].
Qed.

Lemma split_noslash_single c : noslash c -> split_sl c = [c].
Proof.
  unfold noslash. induction c as [|x c IH]; cbn; intro H; [reflexivity|].
  apply andb_true_iff in H as [H1 H2]. apply negb_true_iff in H1. rewrite H1, (IH H2). reflexivity.
Qed.

Lemma split_all_noslash s : Forall noslash (split_sl s).
Proof.
  induction s as [|c r IH]; cbn.
  - repeat constructor.
  - destruct (is_sl c) eqn:E.
    + constructor; [reflexivity|exact IH].
    + destruct (split_sl r) as [|h t]; [repeat constructor; unfold noslash; cbn; now rewrite E|].
      inversion IH; subst. constructor; [|assumption]. unfold noslash in *. cbn. now rewrite E.
Qed.

Lemma split_join cs : Forall noslash cs -> cs <> [] -> split_sl (join_sl cs) = cs.
Proof.
  induction cs as [|c r IH]; intros HF HN; [congruence|].
  inversion HF; subst. destruct r as [|c2 r'].
  - cbn. now apply split_noslash_single.
  - change (join_sl (c :: c2 :: r')) with (c ++ SL :: join_sl (c2 :: r')).
    rewrite split_app, split_noslash_single by assumption. rewrite IH; [reflexivity|assumption|discriminate].
Qed.

Lemma noslash_dotdot : noslash dotdot. Proof. reflexivity. Qed.
Lemma noslash_dot : noslash dot. Proof. reflexivity. Qed.

Lemma isabs_noslash c r : c <> [] -> noslash c -> isabs (c ++ r) = false.
Proof.
  destruct c as [|x c]; [congruence|]. unfold noslash. cbn. intros _ H.
  apply andb_true_iff in H as [H _]. now apply negb_true_iff in H.
Qed.

Lemma isabs_join_sl c r : c <> [] -> noslash c -> isabs (join_sl (c :: r)) = false.
Proof.
  intros Hc N. destruct r; [rewrite <- (app_nil_r c)|]; now apply isabs_noslash.
Qed.

Lemma last_noslash c : c <> [] -> noslash c -> exists x l, rev c = x :: l /\ is_sl x = false.
Proof.
  intros HN H. destruct (rev_nonnil c HN) as (x & l & E & _).
  exists x, l. split; [exact E|]. unfold noslash in H. rewrite forallb_forall in H.
  apply negb_true_iff, H, in_rev. rewrite E. now left.
Qed.

Definition run (stk : list str) (cs : list str) : list str := fold_left (norm_step true) cs stk.

Lemma run_cons stk c r : run stk (c :: r) = run (norm_step true stk c) r.
Proof. reflexivity. Qed.
Global Arguments run : simpl never.

Lemma run_app stk a b : run stk (a ++ b) = run (run stk a) b.
Proof. apply fold_left_app. Qed.

Lemma step_plain ab stk c : plain c -> norm_step ab stk c = c :: stk.
Proof.
  intros (H1 & H2 & H3). unfold norm_step. apply str_eqb_neq in H2, H3.
  destruct c; [congruence|]. cbn [is_nil orb]. now rewrite H2, H3.
Qed.

Lemma step_keeps stk c : Forall plain stk -> Forall plain (norm_step true stk c).
Proof.
  intro H. unfold norm_step.
  destruct (is_nil c) eqn:E1; [exact H|]. cbn [orb].
  destruct (str_eqb c dot) eqn:E2; [exact H|].
  destruct (str_eqb c dotdot) eqn:E3; cbn [negb].
  - destruct stk as [|top rest]; [exact H|]. inversion H; subst.
    destruct H2 as (_ & _ & H2). apply str_eqb_neq in H2. now rewrite H2.
  - constructor; [|exact H]. repeat split; intro; subst; cbn in *; congruence.
Qed.

Lemma step_keeps_noslash ab stk c : Forall noslash stk -> noslash c -> Forall noslash (norm_step ab stk c).
Proof.
  intros H Hc. unfold norm_step.
  destruct (is_nil c || str_eqb c dot); [exact H|].
  destruct (negb (str_eqb c dotdot)); [constructor; assumption|].
  destruct stk as [|top rest].
  - destruct ab; [exact H|constructor; assumption].
  - destruct (str_eqb top dotdot); [constructor; assumption|now inversion H].
Qed.

Lemma run_keeps cs : forall stk, Forall plain stk -> Forall plain (run stk cs).
Proof. induction cs as [|c r IH]; intros stk H; [exact H|]. rewrite run_cons. apply IH, step_keeps, H. Qed.

Lemma run_keeps_noslash cs : forall stk, Forall noslash stk -> Forall noslash cs -> Forall noslash (run stk cs).
Proof.
  induction cs as [|c r IH]; intros stk H Hc; [exact H|]. inversion Hc; subst. rewrite run_cons.
  apply IH; [apply step_keeps_noslash; assumption|assumption].
Qed.

Lemma fold_plain ab cs : forall stk, Forall plain cs -> fold_left (norm_step ab) cs stk = rev cs ++ stk.
Proof.
  induction cs as [|c r IH]; intros stk H; [reflexivity|]. inversion H; subst.
  cbn [fold_left rev]. rewrite step_plain, IH, <- app_assoc by assumption. reflexivity.
Qed.
Lemma run_plain cs stk : Forall plain cs -> run stk cs = rev cs ++ stk.
Proof. apply fold_plain. Qed.

Lemma run_pops s1 : forall s2, Forall plain s1 -> run (s1 ++ s2) (repeat dotdot (length s1)) = s2.
Proof.
  induction s1 as [|c r IH]; intros s2 H; [reflexivity|]. inversion H; subst.
  destruct H2 as (_ & _ & H2). cbn [length repeat app]. rewrite run_cons.
  unfold norm_step. cbn [is_nil dotdot orb]. change (str_eqb [46%N; 46%N] dot) with false.
  change (str_eqb [46%N; 46%N] dotdot) with true. cbn [negb]. apply str_eqb_neq in H2. rewrite H2.
  apply IH. assumption.
Qed.

Lemma resolve_run p : resolve p = rev (run [] (split_sl p)).
Proof. reflexivity. Qed.

Lemma resolve_plain p : Forall plain (resolve p).
Proof. rewrite resolve_run. apply Forall_rev, run_keeps. constructor. Qed.
Lemma resolve_noslash p : Forall noslash (resolve p).
Proof. rewrite resolve_run. apply Forall_rev, run_keeps_noslash; [constructor|apply split_all_noslash]. Qed.

Lemma lead_abs p : isabs p = true -> lead_slashes p = 1 \/ lead_slashes p = 2.
Proof.
  destruct p as [|a r]; cbn; [discriminate|]. intros ->.
  destruct r as [|b r2]; [now left|]. destruct (is_sl b); [|now left].
  destruct r2 as [|c r3]; [now right|]. destruct (is_sl c); [now left|now right].
Qed.

Lemma normpath_abs p : isabs p = true ->
  normpath p = repeat SL (lead_slashes p) ++ join_sl (resolve p).
Proof.
  intro H. unfold normpath. destruct p as [|a r]; [discriminate|].
  destruct (lead_abs _ H) as [E|E]; rewrite E; reflexivity.
Qed.

Lemma filter_nonempty_plain cs : Forall plain cs -> filter (fun c : str => negb (is_nil c)) cs = cs.
Proof.
  induction 1 as [|c r (H & _) _ IH]; cbn; [reflexivity|]. destruct c; [congruence|]. cbn. now rewrite IH.
Qed.

Lemma comps_of_joined cs : Forall plain cs -> Forall noslash cs -> nonempty_comps (join_sl cs) = cs.
Proof.
  intros HP HN. unfold nonempty_comps. destruct cs as [|c r]; [reflexivity|].
  rewrite split_join by (assumption || discriminate). now apply filter_nonempty_plain.
Qed.

Lemma comps_normpath_abs p : isabs p = true -> nonempty_comps (normpath p) = resolve p.
Proof.
  intro H. rewrite normpath_abs by assumption.
  assert (E : forall s, nonempty_comps (SL :: s) = nonempty_comps s) by reflexivity.
  destruct (lead_abs _ H) as [-> | ->]; cbn [repeat app]; rewrite !E;
    apply comps_of_joined; (apply resolve_plain || apply resolve_noslash).
Qed.

Lemma join2_abs cwd p : isabs p = true -> join2 cwd p = p.
Proof. unfold join2. now intros ->. Qed.

Lemma common_len_spec a : forall b,
  firstn (common_len a b) a = firstn (common_len a b) b
  /\ common_len a b <= length a /\ common_len a b <= length b.
Proof.
  induction a as [|x a IH]; intros [|y b]; cbn; try (repeat split; lia).
  destruct (str_eqb x y) eqn:E; cbn; [|repeat split; lia].
  apply str_eqb_eq in E; subst. destruct (IH b) as (H1 & H2 & H3). rewrite H1. repeat split; lia.
Qed.

Lemma join_many_plain rest : forall acc c,
  Forall (fun c => c <> [] /\ noslash c) (c :: rest) ->
  join_many (acc ++ c) rest = acc ++ join_sl (c :: rest).
Proof.
  induction rest as [|d r IH]; intros acc c H; [reflexivity|].
  inversion H as [|? ? [Hc1 Hc2] H']; subst. inversion H' as [|? ? [Hd1 Hd2] H'']; subst.
  unfold join_many. cbn [fold_left]. fold (join_many (join2 (acc ++ c) d) r).
  assert (Hd : isabs d = false) by (rewrite <- (app_nil_r d); now apply isabs_noslash).
  unfold join2. rewrite Hd.
  rewrite rev_app_distr. destruct (last_noslash c Hc1 Hc2) as (x & l & E & Ex). rewrite E. cbn [app]. rewrite Ex.
  replace ((acc ++ c) ++ SL :: d) with ((acc ++ c ++ [SL]) ++ d) by (rewrite <- !app_assoc; reflexivity).
  rewrite IH by assumption.
  change (join_sl (c :: d :: r)) with (c ++ SL :: join_sl (d :: r)).
  rewrite <- !app_assoc. reflexivity.
Qed.

Lemma is_sl_eq c : is_sl c = true -> c = SL.
Proof. unfold is_sl. intro H. now apply N.eqb_eq in H. Qed.

Lemma run_split_join2 S D R : D <> [] -> isabs R = false ->
  run S (split_sl (join2 D R)) = run (run S (split_sl D)) (split_sl R).
Proof.
  intros HD HR. unfold join2. rewrite HR. destruct (rev_nonnil D HD) as (c & l & -> & HDl).
  destruct (is_sl c) eqn:Ec.
  - apply is_sl_eq in Ec. subst c. rewrite HDl at 1 2. rewrite <- app_assoc. cbn [app].
    rewrite !split_app, !run_app. reflexivity.
  - now rewrite split_app, run_app.
Qed.

(* the relative string x reads as the components cs: resolving it from any directory does what
   stepping through cs does *)
Definition spells (x : str) (cs : list str) : Prop :=
  isabs x = false /\ forall S, run S (split_sl x) = run S cs.

Lemma spells_join_sl cs : cs <> [] -> Forall (fun c => c <> [] /\ noslash c) cs -> spells (join_sl cs) cs.
Proof.
  intros Hn H. destruct cs as [|c r]; [congruence|]. inversion H as [|? ? [Hc Nc] _]; subst.
  split; [now apply isabs_join_sl|]. intro S. rewrite split_join; [reflexivity| |discriminate].
  eapply Forall_impl; [|exact H]. now intros a [_ Na].
Qed.

Lemma resolve_join2 D x cs : D <> [] -> spells x cs -> resolve (join2 D x) = rev (run (rev (resolve D)) cs).
Proof.
  intros HD [A R]. rewrite !resolve_run, run_split_join2, R, rev_involutive by assumption. reflexivity.
Qed.

Lemma plain_nonempty_noslash cs : Forall plain cs -> Forall noslash cs ->
  Forall (fun c => c <> [] /\ noslash c) cs.
Proof.
  intros HP HN. rewrite Forall_forall in *. intros c Hc. split; [apply (HP c Hc)|apply (HN c Hc)].
Qed.

Lemma repeat_dotdot_ok k : Forall (fun c => c <> [] /\ noslash c) (repeat dotdot k).
Proof. induction k; cbn; constructor; [split; [discriminate|reflexivity]|assumption]. Qed.

Lemma Forall_firstn {A} (P : A -> Prop) n l : Forall P l -> Forall P (firstn n l).
Proof. apply Forall_firstn. Qed.

(* relpath between absolute paths: one ".." for each component start has beyond the common
   prefix, then what path has beyond it ("." when nothing is left) *)
Lemma relpath_abs cwd t D : isabs t = true -> isabs D = true ->
  relpath cwd t D <> []
  /\ spells (relpath cwd t D)
            (repeat dotdot (length (resolve D) - common_len (resolve D) (resolve t))
             ++ skipn (common_len (resolve D) (resolve t)) (resolve t)).
Proof.
  intros Ht HD. unfold relpath, abspath. rewrite (join2_abs cwd t Ht), (join2_abs cwd D HD).
  rewrite !comps_normpath_abs by assumption. cbv zeta.
  set (cs := repeat dotdot _ ++ skipn _ _).
  assert (Hall : Forall (fun c => c <> [] /\ noslash c) cs).
  { apply Forall_app. split; [apply repeat_dotdot_ok|].
    apply Forall_skipn, plain_nonempty_noslash; [apply resolve_plain|apply resolve_noslash]. }
  destruct cs as [|c rest] eqn:E; [repeat split; discriminate|].
  inversion Hall as [|? ? [Hc1 Hc2] Hrest]; subst.
  rewrite (join_many_plain rest [] c Hall : join_many c rest = join_sl (c :: rest)).
  split; [|apply spells_join_sl; [discriminate|assumption]].
  destruct c; [congruence|]. destruct rest; discriminate.
Qed.

Theorem rel_resolves cwd t D : isabs t = true -> isabs D = true ->
  resolve (join2 D (relpath cwd t D)) = resolve t.
Proof.
  intros Ht HD. destruct (relpath_abs cwd t D Ht HD) as [_ Hsp].
  rewrite (resolve_join2 D _ _ (ltac:(destruct D; discriminate)) Hsp).
  set (sl := resolve D). set (pl := resolve t).
  destruct (common_len_spec sl pl) as (Hpre & _). set (i := common_len sl pl) in *.
  rewrite run_app. rewrite <- (firstn_skipn i sl) at 1. rewrite rev_app_distr.
  replace (length sl - i) with (length (rev (skipn i sl))) by (rewrite rev_length, skipn_length; reflexivity).
  rewrite run_pops by (apply Forall_rev, Forall_skipn, resolve_plain).
  rewrite run_plain by (apply Forall_skipn, resolve_plain).
  rewrite Hpre, <- rev_app_distr, firstn_skipn, rev_involutive. reflexivity.
Qed.

Lemma absdir_isabs l : isabs (absdir l) = true.
Proof.
  unfold absdir, join2. destruct (isabs (dirname l)) eqn:E; [exact E|]. reflexivity.
Qed.

Theorem dosym_r_resolves_proof : forall cwd t l, isabs t = true ->
  resolve (join2 (absdir l) (relative_target cwd t l)) = resolve t.
Proof. intros. apply rel_resolves; [assumption|apply absdir_isabs]. Qed.

Lemma dropwhile_snoc {A} (f : A -> bool) l x :
  (exists l', dropwhile f (l ++ [x]) = l' ++ [x]) \/ forallb f (l ++ [x]) = true.
Proof.
  induction l as [|y l IH]; cbn.
  - destruct (f x); [now right|left; now exists []].
  - destruct (f y); cbn; [exact IH|left; now exists (y :: l)].
Qed.

(* dirname of an absolute path is absolute, so for an absolute link name the directory the
   link lives in is just dirname *)
Lemma dirname_abs l : isabs l = true -> isabs (dirname l) = true.
Proof.
  destruct l as [|a l']; [discriminate|]. cbn [isabs]. intro Ha. apply is_sl_eq in Ha. subst a.
  unfold dirname. cbn [rev].
  destruct (dropwhile_snoc (fun c => negb (is_sl c)) (rev l') SL) as [(r' & E)|E].
  - rewrite E. destruct (forallb is_sl (r' ++ [SL])) eqn:F.
    + rewrite rev_app_distr. reflexivity.
    + destruct (dropwhile_snoc is_sl r' SL) as [(r2 & E2)|E2]; [|congruence].
      rewrite E2, rev_app_distr. reflexivity.
  - rewrite forallb_app in E. cbn in E. rewrite andb_false_r in E. discriminate.
Qed.

Lemma absdir_of_abs l : isabs l = true -> absdir l = dirname l.
Proof. intro H. unfold absdir. apply join2_abs, dirname_abs, H. Qed.

Lemma lead_join2 D R : isabs D = true -> R <> [] -> isabs R = false ->
  lead_slashes (join2 D R) = lead_slashes D /\ isabs (join2 D R) = true.
Proof.
  intros HD HR Hx. unfold join2. rewrite Hx. destruct R as [|x r]; [congruence|]. cbn [isabs] in Hx.
  destruct D as [|a [|b [|c D']]]; [discriminate| | |]; cbn [isabs] in HD.
  - cbn. rewrite HD. cbn. rewrite HD, Hx. split; reflexivity.
  - cbn [rev app]. destruct (is_sl b) eqn:Eb; cbn; rewrite HD, Eb, ?Hx; split; reflexivity.
  - destruct (rev_nonnil (a :: b :: c :: D')) as (z & zs & -> & _); [discriminate|].
    destruct (is_sl z); cbn; rewrite HD; split; reflexivity.
Qed.

(* in terms of Python's normpath the relative path leads back to the target whenever the two
   sides agree on the POSIX "exactly two leading slashes" special case *)
Theorem rel_normpath cwd t D : isabs t = true -> isabs D = true -> lead_slashes D = lead_slashes t ->
  normpath (join2 D (relpath cwd t D)) = normpath t.
Proof.
  intros Ht HD Hlead. destruct (relpath_abs cwd t D Ht HD) as (Hn & A & _).
  destruct (lead_join2 D _ HD Hn A) as [L A'].
  rewrite (normpath_abs _ A'), (normpath_abs _ Ht), L, Hlead, rel_resolves by assumption. reflexivity.
Qed.

(* the literal normpath statement is false when exactly one of the two sides starts with
   exactly two slashes (POSIX leaves "//" implementation-defined; Linux resolves it as "/") *)
Definition dosym_r_normpath_statement : Prop := forall cwd t l, isabs t = true -> isabs l = true ->
  normpath (join2 (dirname l) (relative_target cwd t l)) = normpath t.

(* a concrete pair with "..", "//" and a trailing slash *)
Example dosym_r_example :
  let t := [47;117;47;47;108;105;98;47;46;46;47;120;47]%N in       (* "/u//lib/../x/" *)
  let l := [47;117;47;98;105;110;47;47;102]%N in                   (* "/u/bin//f" *)
  relative_target [] t l = [46;46;47;120]%N                        (* "../x" *)
  /\ resolve (join2 (dirname l) (relative_target [] t l)) = [[117]; [120]]%N.
Proof. split; reflexivity. Qed.
