(* Version_C03.v — the greedy scanner that models isvalid_version_re ([ver_full], Model_C03)
   accepts exactly the PMS 3.2 version syntax as the spec writes it ([pms_version], split-based),
   up to the upper-case letter the regex additionally allows. *)
From Coq Require Import List NArith Bool Lia.
Import ListNotations.
From Verif Require Import Base.Val gen.Tables_C03 C03.Model_C03 C03.Spec_C03 C03.Proofs_C03.
Local Open Scope N_scope.

Definition digit_str (s : str) : bool := forallb is_digit s.
Lemma digits1_spec s : digits1 s = true <-> s <> [] /\ digit_str s = true.
Proof.
  unfold digits1, nonempty, digit_str. destruct s; cbn [andb]; split.
  - discriminate. - intros [H _]; congruence.
  - intros H; split; [discriminate | exact H]. - intros [_ H]; exact H.
Qed.

Lemma digits_no c s : is_digit c = false -> digit_str s = true -> ~ In c s.
Proof.
  intros Hc Hs Hin. unfold digit_str in Hs. rewrite forallb_forall in Hs. specialize (Hs _ Hin). congruence.
Qed.

Lemma names_same n : In n suffix_names <-> In n pms_suffix_names.
Proof.
  assert (A : forall l1 l2, forallb (fun m => existsb (str_eqb m) l2) l1 = true -> In n l1 -> In n l2).
  { intros l1 l2 H Hn. rewrite forallb_forall in H. now apply existsb_str_In, H. }
  split; apply A; reflexivity.
Qed.

Lemma suffix_name_no_us n : In n suffix_names -> ~ In c_us n /\ n <> [].
Proof.
  intros Hn.
  assert (A : forallb (fun m => negb (existsb (N.eqb c_us) m) && negb (is_nil m)) suffix_names = true) by (vm_compute; reflexivity).
  rewrite forallb_forall in A. specialize (A _ Hn). apply andb_true_iff in A as [A B]. split.
  - intros Hin. apply negb_true_iff in A.
    assert (existsb (N.eqb c_us) n = true) by (apply existsb_exists; exists c_us; split; [exact Hin | apply N.eqb_refl]).
    congruence.
  - intros ->. discriminate.
Qed.

Lemma pms_suffix_intro n ds : In n suffix_names -> digit_str ds = true -> pms_suffix (n ++ ds) = true.
Proof.
  intros Hn Hd. unfold pms_suffix. apply existsb_exists. exists n. split; [now apply names_same|].
  now rewrite strip_prefix_app.
Qed.

Lemma pms_suffix_elim x : pms_suffix x = true -> exists n ds, In n suffix_names /\ x = n ++ ds /\ digit_str ds = true.
Proof.
  unfold pms_suffix. intros H. apply existsb_exists in H as (n & Hn & H).
  destruct (strip_prefix n x) as [r|] eqn:E; [|discriminate].
  apply strip_prefix_spec in E. exists n, r. split; [now apply names_same | split; [exact E | exact H]].
Qed.

(* the ordered choice of the scanner picks the same name the grammar means *)
Lemma strip_any_names n ds tail :
  In n suffix_names -> digit_str ds = true ->
  (tail = [] \/ exists t, tail = c_us :: t) ->
  strip_any suffix_names (n ++ ds ++ tail) = Some (ds ++ tail).
Proof.
  intros Hn Hd Ht.
  assert (Hnext : forall k, is_digit k = false -> k <> c_us ->
                            match ds ++ tail with [] => True | x :: _ => x <> k end).
  { intros k Hk Hku. destruct ds as [|d ds']; cbn [app].
    - destruct Ht as [->|[t ->]]; [exact I | congruence].
    - cbn in Hd. apply andb_true_iff in Hd as [Hd _]. intros ->. congruence. }
  unfold suffix_names in *. cbn [In] in Hn.
  destruct Hn as [<-|[<-|[<-|[<-|[<-|[]]]]]]; cbn [app strip_any strip_prefix]; try reflexivity.
  (* n = "p": the longer "pre" must not match *)
  specialize (Hnext 114 eq_refl ltac:(discriminate)).
  destruct (ds ++ tail) as [|x r] eqn:E; [reflexivity|].
  assert (Ex : (114 =? x) = false) by (apply N.eqb_neq; congruence).
  cbn -[N.eqb]. rewrite Ex. reflexivity.
Qed.

Lemma sufs_sound fuel t :
  ver_sufs fuel t = true ->
  t = [] \/ exists t', t = c_us :: t' /\ forallb pms_suffix (split_on c_us t') = true.
Proof.
  revert t; induction fuel as [|f IH]; intros t; destruct t as [|c t0]; cbn [ver_sufs];
    [now left | discriminate | now left |].
  destruct (N.eqb_spec c c_us) as [->|]; [|discriminate].
  destruct (strip_any suffix_names t0) as [r|] eqn:E; [|discriminate].
  apply strip_any_spec in E as (n & Hn & ->).
  intros H. right. eexists; split; [reflexivity|].
  pose proof (take_drop is_digit r) as Htd.
  pose proof (take_while_all is_digit r) as Hds. fold (digit_str (take_while is_digit r)) in Hds.
  set (ds := take_while is_digit r) in *.
  assert (Hnus : ~ In c_us (n ++ ds)).
  { intros Hin. apply in_app_or in Hin as [Hin|Hin]; [exact (proj1 (suffix_name_no_us _ Hn) Hin)|].
    exact (digits_no c_us ds eq_refl Hds Hin). }
  destruct (IH _ H) as [E0|(t'' & E0 & Hall)]; rewrite Htd, E0.
  - rewrite app_nil_r. rewrite (split_on_nosep _ _ Hnus). cbn [forallb]. now rewrite (pms_suffix_intro _ _ Hn Hds).
  - rewrite app_assoc, (split_on_app_sep _ _ _ Hnus). cbn [forallb].
    now rewrite (pms_suffix_intro _ _ Hn Hds), Hall.
Qed.

Lemma sufs_complete fuel t' :
  (length t' < fuel)%nat ->
  forallb pms_suffix (split_on c_us t') = true -> ver_sufs fuel (c_us :: t') = true.
Proof.
  revert t'; induction fuel as [|f IH]; intros t' Hlen Hall; [lia|].
  cbn [ver_sufs]. rewrite N.eqb_refl.
  destruct (split_on c_us t') as [|ch chs] eqn:Es; [exfalso; exact (split_on_nonnil _ _ Es)|].
  cbn [forallb] in Hall. apply andb_true_iff in Hall as [Hch Hchs].
  apply pms_suffix_elim in Hch as (n & ds & Hn & -> & Hds).
  apply split_on_cons_inv in Es as [_ [[-> ->]|(s' & -> & ->)]].
  - rewrite <- (app_nil_r ds) at 1. rewrite (strip_any_names n ds [] Hn Hds (or_introl eq_refl)).
    rewrite app_nil_r, (drop_while_all _ _ Hds). destruct f; reflexivity.
  - rewrite <- app_assoc.
    rewrite (strip_any_names n ds (c_us :: s') Hn Hds (or_intror (ex_intro _ s' eq_refl))).
    rewrite (drop_while_stop is_digit ds c_us s' Hds eq_refl).
    apply IH; [|exact Hchs].
    rewrite !app_length in Hlen. cbn [length] in Hlen.
    destruct n as [|? ?]; [exfalso; exact (proj2 (suffix_name_no_us _ Hn) eq_refl)|]. cbn [length] in Hlen. lia.
Qed.

(* what the scanner leaves behind the numeric components: nothing, or a character that is neither a digit
   nor "." (otherwise it would have gone on) *)
Definition head_ok (r : str) : Prop :=
  match r with [] => True | c :: _ => is_digit c = false /\ c <> c_dot end.

Lemma nums_sound fuel s r :
  ver_nums fuel s = Some r ->
  exists comps, comps <> [] /\ forallb digits1 comps = true /\ s = join c_dot comps ++ r /\ head_ok r.
Proof.
  revert s r; induction fuel as [|f IH]; intros s r; cbn [ver_nums]; [discriminate|].
  destruct s as [|x t]; [discriminate|].
  destruct (is_digit x) eqn:Ex; [|discriminate].
  pose proof (take_drop is_digit (x :: t)) as Htd.
  pose proof (take_while_all is_digit (x :: t)) as Hds.
  assert (Hd1 : digits1 (take_while is_digit (x :: t)) = true).
  { apply digits1_spec. split; [cbn; rewrite Ex; discriminate | exact Hds]. }
  destruct (drop_while is_digit (x :: t)) as [|d r'] eqn:Ed.
  - intros H; injection H as <-. exists [x :: t]. rewrite app_nil_r in Htd. rewrite <- Htd in Hd1.
    repeat split; [discriminate | cbn [forallb]; now rewrite Hd1 | now rewrite app_nil_r].
  - pose proof (drop_while_head _ _ _ _ Ed) as Hdd.
    destruct (N.eqb_spec d c_dot) as [->|Hd].
    + intros H. destruct (IH _ _ H) as (comps & Hne & Hall & -> & Hr).
      exists (take_while is_digit (x :: t) :: comps). repeat split; [discriminate | | | exact Hr].
      * cbn [forallb]. now rewrite Hd1, Hall.
      * rewrite (join_cons _ _ _ Hne), <- app_assoc. exact Htd.
    + intros H; injection H as <-. exists [take_while is_digit (x :: t)].
      repeat split; [discriminate | cbn [forallb]; now rewrite Hd1 | exact Htd | exact Hdd | exact Hd].
Qed.

Lemma nums_complete comps r :
  comps <> [] -> forallb digits1 comps = true -> head_ok r ->
  forall fuel, (length (join c_dot comps) < fuel)%nat ->
  ver_nums fuel (join c_dot comps ++ r) = Some r.
Proof.
  intros Hne Hall Hr. induction comps as [|d rest IH]; [congruence|].
  cbn [forallb] in Hall. apply andb_true_iff in Hall as [Hd Hrest].
  apply digits1_spec in Hd as [Hdne Hdd].
  intros fuel Hlen. destruct fuel as [|f]; [lia|]. cbn [ver_nums].
  destruct d as [|x d']; [congruence|].
  assert (Hx : is_digit x = true) by (cbn in Hdd; now apply andb_true_iff in Hdd as [-> _]).
  destruct rest as [|d2 rest'].
  - cbn [join app]. rewrite Hx.
    change (x :: d' ++ r) with ((x :: d') ++ r).
    destruct r as [|c t].
    + rewrite app_nil_r, (drop_while_all _ _ Hdd). reflexivity.
    + destruct Hr as [Hc Hcd]. rewrite (drop_while_stop _ _ _ _ Hdd Hc).
      destruct (N.eqb_spec c c_dot); [congruence | reflexivity].
  - rewrite join_cons by discriminate. rewrite <- app_assoc. cbn [app]. rewrite Hx.
    change (x :: d' ++ c_dot :: join c_dot (d2 :: rest') ++ r)
      with ((x :: d') ++ c_dot :: (join c_dot (d2 :: rest') ++ r)).
    rewrite (drop_while_stop is_digit (x :: d') c_dot _ Hdd eq_refl). rewrite N.eqb_refl.
    apply IH; [discriminate | exact Hrest|].
    rewrite join_cons in Hlen by discriminate. rewrite app_length in Hlen. cbn [length] in Hlen. lia.
Qed.

Lemma join_digits_no c comps :
  is_digit c = false -> c <> c_dot -> forallb digits1 comps = true -> ~ In c (join c_dot comps).
Proof.
  intros Hc Hd Hall Hin. apply in_join in Hin as [->|(x & Hx & Hy)]; [congruence|].
  rewrite forallb_forall in Hall. specialize (Hall _ Hx). apply digits1_spec in Hall as [_ Hall].
  exact (digits_no _ _ Hc Hall Hy).
Qed.

Lemma split_join_tail comps L :
  comps <> [] -> forallb digits1 comps = true -> ~ In c_dot L ->
  split_on c_dot (join c_dot comps ++ L) = removelast comps ++ [last comps [] ++ L].
Proof.
  intros Hne Hall HL. induction comps as [|d rest IH]; [congruence|].
  cbn [forallb] in Hall. apply andb_true_iff in Hall as [Hd Hrest].
  apply digits1_spec in Hd as [_ Hd].
  assert (Hdd : ~ In c_dot d) by (apply digits_no; [reflexivity | exact Hd]).
  destruct rest as [|d2 rest'].
  - cbn [join removelast last app]. apply split_on_nosep. intros Hin.
    apply in_app_or in Hin as [Hin|Hin]; [exact (Hdd Hin) | exact (HL Hin)].
  - rewrite join_cons by discriminate. rewrite <- app_assoc. cbn [app].
    rewrite (split_on_app_sep _ _ _ Hdd). rewrite IH by (discriminate || exact Hrest). reflexivity.
Qed.

Lemma components_build comps X :
  forallb digits1 comps = true -> comps <> [] -> pms_last_component X = true ->
  pms_components (removelast comps ++ [X]) = true.
Proof.
  intros Hall Hne HX. induction comps as [|d rest IH]; [congruence|].
  cbn [forallb] in Hall. apply andb_true_iff in Hall as [Hd Hrest].
  destruct rest as [|d2 rest']; [cbn; exact HX|].
  change (removelast (d :: d2 :: rest')) with (d :: removelast (d2 :: rest')). cbn [app].
  specialize (IH Hrest ltac:(discriminate)).
  destruct (removelast (d2 :: rest') ++ [X]) as [|y ys] eqn:E; [now destruct (removelast (d2 :: rest'))|].
  change (pms_components (d :: y :: ys)) with (digits1 d && pms_components (y :: ys)). now rewrite Hd, IH.
Qed.

Lemma lower_facts c : s_lower c = true ->
  is_digit c = false /\ c <> c_dot /\ c <> c_us /\ c <> c_nl /\ in_ranges ver_letter_class c = true.
Proof.
  intros H. rewrite cls_ver_letter, H. unfold s_lower in H. apply andb_true_iff in H as [H1 H2].
  apply N.leb_le in H1, H2. unfold is_digit, c_dot, c_us, c_nl.
  repeat split; try lia. apply andb_false_iff. right. apply N.leb_gt. lia.
Qed.

Lemma version_sound v :
  ver_full v = true -> forallb (fun c => negb (s_upper c)) v = true -> pms_version v = true.
Proof.
  unfold ver_full. destruct (ver_nums _ v) as [r|] eqn:En; [|discriminate]. intros Hs Hup.
  apply nums_sound in En as (comps & Hne & Hall & Hv & Hr).
  assert (HL : exists L r', r = L ++ r' /\ ver_letter r = r'
                            /\ (L = [] \/ exists c, L = [c] /\ s_lower c = true)).
  { destruct r as [|c t]; [exists [], []; auto|]. unfold ver_letter.
    destruct (in_ranges ver_letter_class c) eqn:Ec.
    - exists [c], t. repeat split. right. exists c. split; [reflexivity|].
      rewrite cls_ver_letter in Ec. rewrite forallb_forall in Hup.
      assert (Hin : In c v) by (rewrite Hv; apply in_or_app; right; now left).
      specialize (Hup _ Hin). apply negb_true_iff in Hup. rewrite Hup, orb_false_r in Ec. exact Ec.
    - exists [], (c :: t). auto. }
  destruct HL as (L & r' & -> & Hlet & HLs). rewrite Hlet in Hs.
  assert (HLn : ~ In c_us L /\ ~ In c_dot L).
  { destruct HLs as [->|(c & -> & Hc)]; [split; intros []|].
    apply lower_facts in Hc as (_ & H1 & H2 & _). split; intros [E|[]]; congruence. }
  set (h := join c_dot comps ++ L).
  assert (Hh : ~ In c_us h).
  { intros Hin. apply in_app_or in Hin as [Hin|Hin]; [|exact (proj1 HLn Hin)].
    exact (join_digits_no c_us comps eq_refl ltac:(discriminate) Hall Hin). }
  assert (Hcomp : pms_components (split_on c_dot h) = true).
  { unfold h. rewrite (split_join_tail _ _ Hne Hall (proj2 HLn)). apply components_build; [exact Hall | exact Hne|].
    pose proof (last_in comps [] Hne) as Hin. rewrite forallb_forall in Hall. specialize (Hall _ Hin).
    unfold pms_last_component. destruct HLs as [->|(c & -> & Hc)].
    - now rewrite app_nil_r, Hall.
    - rewrite rev_app_distr. cbn [rev app]. rewrite Hc, rev_involutive, Hall. apply orb_true_r. }
  unfold pms_version. change 95 with c_us. change 46 with c_dot. rewrite Hv, app_assoc. fold h.
  destruct (sufs_sound _ _ Hs) as [->|(t' & -> & Hsuf)].
  - rewrite app_nil_r, (split_on_nosep _ _ Hh). now rewrite Hcomp.
  - rewrite (split_on_app_sep _ _ _ Hh). now rewrite Hcomp, Hsuf.
Qed.

Lemma components_inv cs :
  pms_components cs = true ->
  exists comps L, comps <> [] /\ forallb digits1 comps = true
                  /\ join c_dot cs = join c_dot comps ++ L
                  /\ (L = [] \/ exists c, L = [c] /\ s_lower c = true).
Proof.
  induction cs as [|x rest IH]; [discriminate|].
  destruct rest as [|y rest'].
  - cbn [pms_components]. unfold pms_last_component. intros H. apply orb_true_iff in H as [H|H].
    + exists [x], []. repeat split; [discriminate | cbn; now rewrite H | now rewrite app_nil_r | now left].
    + destruct (rev x) as [|l r] eqn:Er; [discriminate|]. apply andb_true_iff in H as [Hl Hd].
      exists [rev r], [l]. repeat split; [discriminate | cbn; now rewrite Hd | | right; eauto].
      cbn [join]. rewrite <- (rev_involutive x), Er. reflexivity.
  - intros H. change (pms_components (x :: y :: rest')) with (digits1 x && pms_components (y :: rest')) in H.
    apply andb_true_iff in H as [Hx H]. destruct (IH H) as (comps & L & Hne & Hall & Hj & HL).
    exists (x :: comps), L. repeat split; [discriminate | cbn [forallb]; now rewrite Hx, Hall | | exact HL].
    rewrite (join_cons _ _ _ Hne), join_cons by discriminate. rewrite Hj. now rewrite <- app_assoc.
Qed.

Lemma version_complete v : pms_version v = true -> ver_full v = true.
Proof.
  unfold pms_version. change 95 with c_us. change 46 with c_dot.
  destruct (split_on c_us v) as [|h sufs] eqn:Es; [discriminate|].
  intros H. apply andb_true_iff in H as [Hc Hs].
  apply components_inv in Hc as (comps & L & Hne & Hall & Hj & HL). rewrite join_split_on in Hj.
  apply split_on_cons_inv in Es as [_ Es].
  assert (Hv : exists rest, v = join c_dot comps ++ L ++ rest
                            /\ (rest = [] \/ exists t', rest = c_us :: t'
                                                        /\ forallb pms_suffix (split_on c_us t') = true)).
  { destruct Es as [[-> ->]|(s' & -> & ->)].
    - exists []. split; [now rewrite app_nil_r | now left].
    - exists (c_us :: s'). split; [now rewrite Hj, <- app_assoc | right; eauto]. }
  destruct Hv as (rest & Hv & Hrest).
  assert (Hhead : head_ok (L ++ rest)).
  { destruct HL as [->|(c & -> & Hc)]; cbn [app head_ok].
    - destruct Hrest as [->|(t' & -> & _)]; [exact I | split; [reflexivity | discriminate]].
    - apply lower_facts in Hc. tauto. }
  unfold ver_full.
  rewrite Hv at 2. rewrite (nums_complete comps (L ++ rest) Hne Hall Hhead).
  2:{ rewrite Hv, app_length. lia. }
  assert (Hlet : ver_letter (L ++ rest) = rest).
  { destruct HL as [->|(c & -> & Hc)]; cbn [app].
    - destruct Hrest as [->|(t' & -> & _)]; reflexivity.
    - unfold ver_letter. apply lower_facts in Hc as (_ & _ & _ & _ & ->). reflexivity. }
  rewrite Hlet. destruct Hrest as [->|(t' & -> & Hsuf)]; [destruct (length v); reflexivity|].
  apply sufs_complete; [|exact Hsuf]. rewrite Hv, !app_length. cbn [length]. lia.
Qed.

Lemma m_version_pms v :
  ~ In c_nl v -> forallb (fun c => negb (s_upper c)) v = true -> m_version v = pms_version v.
Proof.
  intros Hn Hup. unfold m_version. rewrite (strip_nl_id _ Hn).
  apply eq_true_iff_eq. split; [intros H; now apply version_sound | apply version_complete].
Qed.

Lemma pms_version_m v : pms_version v = true -> m_version v = true.
Proof.
  intros H. apply version_complete in H. unfold m_version. rewrite strip_nl_id; [exact H|].
  intros Hin. now apply (ver_full_chars _ _ H) in Hin.
Qed.
