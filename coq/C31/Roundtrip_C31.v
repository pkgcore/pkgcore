(* Roundtrip_C31.v — bash_eval (generate_env_str env) gives back env: lemmas from the single
   quoting forms up to the whole program. *)
From Coq Require Import List NArith Bool Lia Permutation.
Import ListNotations.
From Verif Require Import Base.Val Base.Lists C31.Model_C31 C31.Spec_C31 C31.Proofs_C31.
Local Open Scope N_scope.

Lemma neqb (a b : N) : a <> b -> (a =? b) = false.
Proof. apply N.eqb_neq. Qed.

Lemma memN_false c l : memN c l = false -> ~ In c l.
Proof. unfold memN. rewrite <- existsb_N_In. congruence. Qed.

(* where a word may stop *)
Definition stops (rest : str) : Prop :=
  match rest with [] => True | c :: _ => is_term c = true end.

Lemma word_plain_step arr c s :
  word arr MPlain (c :: s) =
  if is_term c then Some ([], c :: s)
  else if c =? c_sq then word arr MSq s
  else if c =? c_dq then word arr MDq s
  else if c =? c_dollar then
    match s with d :: s'' => if d =? c_sq then word arr MAnsi s'' else None | [] => None end
  else if plain_char c then cons1 c (word arr MPlain s)
  else None.
Proof. destruct s; reflexivity. Qed.

Lemma word_sq_step arr c s :
  word arr MSq (c :: s) =
  if c =? 0 then None else if c =? c_sq then word arr MPlain s else cons1 c (word arr MSq s).
Proof. destruct s; reflexivity. Qed.

Lemma word_dq_lit arr c s :
  (c =? 0) = false -> dq_unsafe c = false -> word arr MDq (c :: s) = cons1 c (word arr MDq s).
Proof.
  unfold dq_unsafe. intros H0 H.
  apply orb_false_iff in H as [H H127]. apply orb_false_iff in H as [H H1].
  apply orb_false_iff in H as [H Hbt]. apply orb_false_iff in H as [H Hdol].
  apply orb_false_iff in H as [Hbs Hdq].
  destruct s; cbn [word]; rewrite H0, Hdq, Hdol, Hbt, Hbs, H1, H127, andb_false_r; reflexivity.
Qed.
Lemma word_dq_close arr s : word arr MDq (c_dq :: s) = word arr MPlain s.
Proof. destruct s; reflexivity. Qed.

Lemma word_ansi_lit arr c s :
  (c =? 0) = false -> (c =? c_sq) = false -> (c =? c_bs) = false ->
  word arr MAnsi (c :: s) = cons1 c (word arr MAnsi s).
Proof. intros H0 H1 H2. destruct s; cbn [word]; rewrite H0, H1, H2; reflexivity. Qed.
Lemma word_ansi_close arr s : word arr MAnsi (c_sq :: s) = word arr MPlain s.
Proof. destruct s; reflexivity. Qed.
Lemma word_ansi_bs arr s : word arr MAnsi (c_bs :: c_bs :: s) = cons1 c_bs (word arr MAnsi s).
Proof. destruct s; reflexivity. Qed.
Lemma word_ansi_sq arr s : word arr MAnsi (c_bs :: c_sq :: s) = cons1 c_sq (word arr MAnsi s).
Proof. destruct s; reflexivity. Qed.

Lemma word_stop arr rest : stops rest -> word arr MPlain rest = Some ([], rest).
Proof.
  destruct rest as [|c r]; cbn [stops]; intro H; [reflexivity|].
  rewrite word_plain_step, H. reflexivity.
Qed.

(* the inside of a quoted form: every character c of the value is written as [f c] and read
   back as c in the same mode, up to the closing character *)
Lemma word_body arr m (f : N -> str) close v rest :
  (forall c s, In c v -> word arr m (f c ++ s) = cons1 c (word arr m s)) ->
  (forall s, word arr m (close :: s) = word arr MPlain s) -> stops rest ->
  word arr m (flat_map f v ++ close :: rest) = Some (v, rest).
Proof.
  intros H Hc Hr. induction v as [|a v IH]; cbn [flat_map app].
  - rewrite Hc. apply word_stop, Hr.
  - rewrite <- app_assoc, H, IH by auto using in_eq, in_cons. reflexivity.
Qed.

Lemma flat_map_single {A} (v : list A) : flat_map (fun c => [c]) v = v.
Proof. induction v; cbn; congruence. Qed.

Lemma word_sq_body arr v rest :
  ~ In c_sq v -> ~ In 0 v -> stops rest -> word arr MSq (v ++ c_sq :: rest) = Some (v, rest).
Proof.
  intros Hq H0 Hr. rewrite <- (flat_map_single v) at 1. apply word_body; [| |exact Hr].
  - intros c s I. cbn [app]. rewrite word_sq_step, !neqb by congruence. reflexivity.
  - intro s. rewrite word_sq_step. reflexivity.
Qed.

Lemma word_ansi_body arr v rest :
  ~ In 0 v -> stops rest -> word arr MAnsi (esc_ansi v ++ c_sq :: rest) = Some (v, rest).
Proof.
  intros H0 Hr. apply word_body; [|apply word_ansi_close|exact Hr].
  intros c s I. unfold esc_ansi_c.
  destruct (N.eqb_spec c c_bs) as [->|Eb]; [apply word_ansi_bs|].
  destruct (N.eqb_spec c c_sq) as [->|Eq]; [apply word_ansi_sq|].
  cbn [app]. apply word_ansi_lit; apply neqb; congruence.
Qed.

Lemma word_dq_body v rest :
  existsb dq_unsafe v = false -> ~ In 0 v -> stops rest ->
  word true MDq (v ++ c_dq :: rest) = Some (v, rest).
Proof.
  intros Hs H0 Hr. rewrite <- (flat_map_single v) at 1. apply word_body; [|apply word_dq_close|exact Hr].
  intros c s I. apply word_dq_lit; [apply neqb; congruence | exact (proj1 (existsb_false _ _) Hs c I)].
Qed.

Lemma word_quote_hard arr v rest :
  ~ In 0 v -> stops rest -> word arr MPlain (quote_hard v ++ rest) = Some (v, rest).
Proof.
  intros H0 Hr. unfold quote_hard.
  destruct (memN c_sq v) eqn:M; cbn [negb app]; rewrite word_plain_step; cbn; rewrite <- app_assoc; cbn [app].
  - apply word_ansi_body; assumption.
  - apply word_sq_body; auto using memN_false.
Qed.

(* what isalnum accepts lies above every character that is special to the shell: the ASCII
   ones are digits and letters, the others are >= 128 *)
Lemma alnum_c_plain U c : py_isalnum_c U c = true -> 48 <= c /\ plain_char c = true.
Proof.
  unfold py_isalnum_c, plain_char, is_name_char, is_name_start.
  destruct (N.ltb_spec c 128) as [L|L]; intro H.
  - split.
    + unfold is_digit, is_alpha_ascii in H.
      repeat (apply orb_true_iff in H as [H|H]); apply andb_true_iff in H as [H _]; apply N.leb_le in H; lia.
    + destruct (is_alpha_ascii c); [reflexivity|]. rewrite orb_false_r in H. rewrite H, orb_true_r. reflexivity.
  - split; [lia|]. rewrite (proj2 (N.leb_le 128 c) L), orb_true_r. reflexivity.
Qed.

Lemma word_bare U arr v rest :
  forallb (py_isalnum_c U) v = true -> stops rest ->
  word arr MPlain (v ++ rest) = Some (v, rest).
Proof.
  induction v as [|a v IH]; cbn [app forallb]; intros H Hr.
  - apply word_stop; exact Hr.
  - apply andb_true_iff in H as [Ha Hv]. destruct (alnum_c_plain U a Ha) as [L P].
    rewrite word_plain_step, P, (IH Hv Hr).
    unfold is_term, c_sp, c_tab, c_nl, c_rp, c_sq, c_dq, c_dollar. rewrite !neqb by lia. reflexivity.
Qed.

Lemma word_quote_scalar U v rest :
  ~ In 0 v -> stops rest -> word false MPlain (quote_scalar U v ++ rest) = Some (v, rest).
Proof.
  intros H0 Hr. unfold quote_scalar.
  destruct (py_isalnum U v) eqn:A.
  - apply word_bare with (U := U); [|exact Hr].
    unfold py_isalnum in A. destruct v; [discriminate | exact A].
  - apply word_quote_hard; assumption.
Qed.

Lemma word_quote_elem v rest :
  ~ In 0 v -> stops rest -> word true MPlain (quote_elem v ++ rest) = Some (v, rest).
Proof.
  intros H0 Hr. unfold quote_elem.
  destruct (existsb dq_unsafe v) eqn:D.
  - apply word_quote_hard; assumption.
  - cbn [app]. rewrite word_plain_step. cbn. rewrite <- app_assoc. cbn [app].
    apply word_dq_body; assumption.
Qed.

(* the quoted scalar does not start with `(`, so it is not taken for an array literal *)
Lemma quote_scalar_head U v :
  exists d r, quote_scalar U v = d :: r /\ (d =? c_lp) = false.
Proof.
  unfold quote_scalar, quote_hard.
  destruct (py_isalnum U v) eqn:A.
  - destruct v as [|a v]; [discriminate|]. exists a, v. split; [reflexivity|].
    cbn [py_isalnum forallb] in A. apply andb_true_iff in A as [A _].
    apply alnum_c_plain in A as [L _]. apply neqb. unfold c_lp. lia.
  - destruct (negb (memN c_sq v)); eexists; eexists; (split; reflexivity).
Qed.

Lemma name_char_not_eq c : is_name_char c = true -> (c =? c_eq) = false.
Proof.
  unfold is_name_char, is_name_start, is_alpha_ascii, is_digit, c_us, c_eq. intro H.
  apply N.eqb_neq. intro E. subst c. discriminate H.
Qed.

Lemma take_name_chars_ok k rest :
  forallb is_name_char k = true -> take_name_chars (k ++ c_eq :: rest) = Some (k, rest).
Proof.
  induction k as [|a k IH]; cbn [app forallb take_name_chars]; intro H.
  - reflexivity.
  - apply andb_true_iff in H as [Ha Hk].
    rewrite (name_char_not_eq _ Ha), Ha, (IH Hk). reflexivity.
Qed.

Lemma valid_name_chars k : valid_nameb k = true -> forallb is_name_char k = true.
Proof.
  destruct k as [|a k]; [discriminate|]. cbn [valid_nameb forallb]. intro H.
  apply andb_true_iff in H as [Ha Hk]. unfold is_name_char at 1. rewrite Ha, Hk. reflexivity.
Qed.

Lemma take_name_ok k rest :
  valid_nameb k = true -> take_name (k ++ c_eq :: rest) = Some (k, rest).
Proof.
  intro H. unfold take_name. rewrite (take_name_chars_ok _ _ (valid_name_chars _ H)), H. reflexivity.
Qed.

Lemma take_digits_ok d rest :
  forallb is_digit d = true -> take_digits (d ++ c_rb :: rest) = Some (d, rest).
Proof.
  induction d as [|a d IH]; cbn [app forallb take_digits]; intro H.
  - reflexivity.
  - apply andb_true_iff in H as [Ha Hd].
    assert (E : (a =? c_rb) = false).
    { unfold is_digit in Ha. apply andb_true_iff in Ha as [_ H2]. apply N.leb_le in H2.
      apply neqb. unfold c_rb. lia. }
    rewrite E, Ha, (IH Hd). reflexivity.
Qed.

Lemma take_index_ok i rest :
  take_index (dec i ++ c_rb :: c_eq :: rest) = Some (i, rest).
Proof.
  unfold take_index. rewrite (take_digits_ok _ _ (dec_digits i)), parse_dec_dec.
  rewrite N.eqb_refl. reflexivity.
Qed.

Lemma join_cons2 sep (x y : str) r : join sep (x :: y :: r) = x ++ sep ++ join sep (y :: r).
Proof. reflexivity. Qed.

Definition elem_str (i : N) (v : str) : str := [c_lb] ++ dec i ++ [c_rb; c_eq] ++ quote_elem v.

Lemma elems_cons i v r : elems i (v :: r) = elem_str i v :: elems (N.succ i) r.
Proof. reflexivity. Qed.

Lemma stops_sp s : stops (c_sp :: s).  Proof. reflexivity. Qed.
Lemma stops_rp s : stops (c_rp :: s).  Proof. reflexivity. Qed.
Lemma stops_nl s : stops (c_nl :: s).  Proof. reflexivity. Qed.

Lemma arr_elems_step f i v rest :
  ~ In 0 v -> stops rest ->
  arr_elems (S f) (elem_str i v ++ rest) =
  match arr_elems f rest with Some (l, r) => Some ((i, v) :: l, r) | None => None end.
Proof.
  intros H0 Hr. unfold elem_str. rewrite <- !app_assoc. cbn.
  rewrite take_index_ok, (word_quote_elem _ _ H0 Hr). reflexivity.
Qed.

Lemma arr_elems_sp f s : arr_elems (S f) (c_sp :: s) = arr_elems (S f) s.
Proof. reflexivity. Qed.

Lemma elem_str_len i v : (1 <= length (elem_str i v))%nat.
Proof. unfold elem_str. cbn [app length]. lia. Qed.

Lemma arr_elems_ok vs : forall i rest fuel,
  (forall v, In v vs -> ~ In 0 v) ->
  (length (join [c_sp] (elems i vs) ++ c_rp :: rest) < fuel)%nat ->
  arr_elems fuel (join [c_sp] (elems i vs) ++ c_rp :: rest) = Some (indexed i vs, rest).
Proof.
  induction vs as [|v vs IH]; intros i rest fuel H0 L.
  - destruct fuel; [inversion L | reflexivity].
  - destruct fuel as [|fuel]; [inversion L|]. specialize (IH (N.succ i) rest).
    pose proof (elem_str_len i v) as L1.
    rewrite elems_cons in *. cbn [indexed].
    destruct vs as [|v' vs].
    + cbn [elems join app] in *. rewrite app_length in L.
      rewrite arr_elems_step, IH; auto using in_eq, stops_rp. lia.
    + rewrite elems_cons, join_cons2, <- elems_cons, <- !app_assoc in *. cbn [app] in *.
      rewrite app_length in L. cbn [length] in L.
      rewrite arr_elems_step by auto using in_eq, stops_sp.
      destruct fuel as [|fuel]; [lia|]. rewrite arr_elems_sp, IH; auto using in_cons. lia.
Qed.

(* ascending subscripts are stored as they come *)
Lemma arr_set_append i v acc :
  (forall j w, In (j, w) acc -> j < i) -> arr_set i v acc = acc ++ [(i, v)].
Proof.
  induction acc as [|[j w] acc IH]; intro H; cbn [arr_set app]; [reflexivity|].
  assert (J : j < i) by (apply (H j w); left; reflexivity).
  rewrite (neqb i j), (proj2 (N.ltb_ge i j)), IH by (lia || eauto using in_cons). reflexivity.
Qed.

Lemma indexed_ge i vs j w : In (j, w) (indexed i vs) -> i <= j.
Proof.
  revert i. induction vs as [|v vs IH]; intros i H; cbn [indexed] in H; [destruct H|].
  destruct H as [E|H]; [injection E as <- _; lia | apply IH in H; lia].
Qed.

Lemma arr_norm_indexed_gen vs : forall i acc,
  (forall j w, In (j, w) acc -> j < i) ->
  fold_left (fun acc iv => arr_set (fst iv) (snd iv) acc) (indexed i vs) acc = acc ++ indexed i vs.
Proof.
  induction vs as [|v vs IH]; intros i acc H; cbn [indexed fold_left].
  - rewrite app_nil_r. reflexivity.
  - cbn [fst snd]. rewrite (arr_set_append _ _ _ H), IH.
    + rewrite <- app_assoc. reflexivity.
    + intros j w I. apply in_app_or in I as [I|[E|[]]].
      * apply H in I. lia.
      * injection E as <- _. lia.
Qed.

Lemma arr_norm_indexed vs : arr_norm (indexed 0 vs) = indexed 0 vs.
Proof. unfold arr_norm. rewrite arr_norm_indexed_gen; [reflexivity | intros ? ? []]. Qed.

(* the values for POther and for an unrenderable item are never looked at: every use is under item_ok *)
Definition bval_of (v : pyval) : bval :=
  match v with PStr s => BStr s | PList l => BArr (indexed 0 l) | POther => BStr [] end.
Definition item_str (U : uni) (kv : str * pyval) : str :=
  match render_val U (fst kv) (snd kv) with Some a => a | None => [] end.
Definition entry (exp : bool) (kv : str * pyval) : assignment := (fst kv, bval_of (snd kv), exp).
Definition item_ok (kv : str * pyval) : Prop := valid_nameb (fst kv) = true /\ value_ok (snd kv).

Lemma ends_word_stops rest : ends_word rest = true -> stops rest.
Proof.
  destruct rest as [|c r]; cbn [ends_word stops]; intro H; [exact I|].
  unfold is_term. rewrite H. reflexivity.
Qed.

Lemma name_start_facts c :
  is_name_start c = true ->
  (c =? c_sp) = false /\ (c =? c_tab) = false /\ (c =? c_nl) = false.
Proof.
  unfold is_name_start, is_alpha_ascii, c_us, c_sp, c_tab, c_nl. intro H.
  repeat split; apply N.eqb_neq; intro E; subst c; discriminate H.
Qed.

Lemma assigns_sp f exp s : assigns (S f) exp (c_sp :: s) = assigns (S f) exp s.
Proof. reflexivity. Qed.

Lemma assigns_step U f exp kv rest :
  item_ok kv -> ends_word rest = true ->
  (length (item_str U kv ++ rest) < S f)%nat ->
  assigns (S f) exp (item_str U kv ++ rest) =
  match assigns f exp rest with
  | Some (l, r3) => Some (entry exp kv :: l, r3)
  | None => None
  end.
Proof.
  destruct kv as [[|c k'] v]; intros [Hk Hv] Hr L; [discriminate|]. cbn [fst snd] in Hk, Hv.
  assert (Hc : is_name_start c = true) by (cbn [valid_nameb] in Hk; apply andb_true_iff in Hk; tauto).
  destruct (name_start_facts c Hc) as (Hsp & Htab & Hnl).
  destruct v as [s|l|]; [| |destruct Hv]; unfold item_str, entry in *; cbn [render_val fst snd bval_of] in *;
    rewrite <- !app_assoc in *; cbn [app] in *;
    (* up to the `=`: no leading blank, not the end of the line, the name *)
    cbn [assigns skip_sp]; rewrite Hsp, Htab; cbn [orb]; rewrite Hnl;
    change (take_name (c :: k' ++ ?x)) with (take_name ((c :: k') ++ x)); rewrite (take_name_ok (c :: k') _ Hk).
  - (* scalar *)
    destruct (quote_scalar_head U s) as (d & q & E & Hd).
    rewrite E at 1. cbn [app]. rewrite Hd.
    rewrite (word_quote_scalar U s rest Hv (ends_word_stops _ Hr)), Hr. reflexivity.
  - (* list *)
    rewrite N.eqb_refl, arr_elems_ok, arr_norm_indexed, Hr.
    + reflexivity.
    + exact Hv.
    + cbn [length] in L. rewrite app_length in L. cbn [length] in L. lia.
Qed.

(* what follows a line: the end of the text, or a newline and the rest *)
Definition tail_spec (tail rest : str) : Prop :=
  (tail = [] /\ rest = []) \/ tail = c_nl :: rest.

Lemma tail_ends tail rest : tail_spec tail rest -> ends_word tail = true.
Proof. intros [[-> _]| ->]; reflexivity. Qed.

Definition line_str (U : uni) (items : env) : str := join [c_sp] (map (item_str U) items).

Lemma item_str_head U kv :
  item_ok kv -> exists c k r, item_str U kv = (c :: k) ++ c_eq :: r
                              /\ is_name_start c = true /\ forallb is_name_char (c :: k) = true.
Proof.
  destruct kv as [[|c k] v]; intros [Hk Hv]; [discriminate|]. cbn [fst snd] in *.
  pose proof (valid_name_chars _ Hk) as Hn. apply andb_true_iff in Hk as [Hc _].
  destruct v; [| |destruct Hv]; unfold item_str; cbn [render_val fst snd];
    exists c, k; eexists; (split; [reflexivity | split; assumption]).
Qed.

Lemma item_str_len U kv : item_ok kv -> (1 <= length (item_str U kv))%nat.
Proof. intro H. destruct (item_str_head U kv H) as (c & k & r & -> & _). cbn [app length]. lia. Qed.

Lemma assigns_line U items : forall fuel exp tail rest,
  Forall item_ok items -> tail_spec tail rest ->
  (length (line_str U items ++ tail) < fuel)%nat ->
  assigns fuel exp (line_str U items ++ tail) = Some (map (entry exp) items, rest).
Proof.
  unfold line_str.
  induction items as [|kv items IH]; intros fuel exp tail rest Hok Ht L;
    (destruct fuel as [|fuel]; [inversion L|]).
  - destruct Ht as [[-> ->]| ->]; reflexivity.
  - inversion Hok as [|? ? Hkv Hrest]; subst. pose proof (item_str_len U kv Hkv) as L1.
    specialize (IH fuel exp tail rest Hrest Ht).
    destruct items as [|kv' items]; cbn [map] in *.
    + cbn [join app] in *. rewrite app_length in L.
      rewrite (assigns_step U fuel exp kv tail Hkv (tail_ends _ _ Ht)), IH by (rewrite ?app_length; lia).
      reflexivity.
    + rewrite join_cons2, <- !app_assoc in *. cbn [app] in *. rewrite app_length in L. cbn [length] in L.
      rewrite (assigns_step U fuel exp kv (c_sp :: _) Hkv eq_refl) by (rewrite app_length; cbn [length]; lia).
      destruct fuel as [|fuel]; [lia|]. rewrite assigns_sp, IH by lia. reflexivity.
Qed.

Lemma name_char_not_blank c : is_name_char c = true -> is_blank c = false.
Proof.
  unfold is_name_char, is_name_start, is_alpha_ascii, is_digit, is_blank, c_us, c_sp, c_tab. intro H.
  apply orb_false_iff; split; apply N.eqb_neq; intro E; subst c; discriminate H.
Qed.

(* what follows a name-like prefix p at the start of NAME=... is never a blank: either p is not a
   prefix at all, or the next character belongs to the name, or it is the `=` *)
Lemma strip_prefix_name p : forall k X c r,
  forallb is_name_char p = true -> forallb is_name_char k = true ->
  strip_prefix p (k ++ c_eq :: X) = Some (c :: r) -> is_blank c = false.
Proof.
  induction p as [|x p IH]; intros k X c r Hp Hk; cbn [forallb] in Hp.
  - destruct k as [|a k]; cbn [app strip_prefix]; intros [= <- _]; [reflexivity|].
    cbn [forallb] in Hk. apply andb_true_iff in Hk as [Ha _]. exact (name_char_not_blank _ Ha).
  - apply andb_true_iff in Hp as [Hx Hp].
    destruct k as [|a k]; cbn [app strip_prefix forallb] in *.
    + rewrite (name_char_not_eq _ Hx). discriminate.
    + apply andb_true_iff in Hk as [_ Hk]. destruct (x =? a); [apply IH; assumption | discriminate].
Qed.

(* a line is read as a command leaving the log, whatever follows the line *)
Definition reads_line (line : str) (log : list assignment) : Prop :=
  line <> [] /\
  forall fuel tail rest, tail_spec tail rest -> (length (line ++ tail) < fuel)%nat ->
    command fuel (line ++ tail) = Some (log, rest).

Lemma plain_line U kv items :
  Forall item_ok (kv :: items) ->
  reads_line (line_str U (kv :: items)) (map (entry false) (kv :: items)).
Proof.
  intro Hok. inversion Hok as [|? ? Hkv _]; subst.
  destruct (item_str_head U kv Hkv) as (c & k & r & E & Hc & Hk).
  assert (exists Y, line_str U (kv :: items) = (c :: k) ++ c_eq :: Y) as [Y EY].
  { unfold line_str. destruct items; cbn [map]; [cbn [join] | rewrite join_cons2]; rewrite E, <- ?app_assoc;
      eexists; reflexivity. }
  split; [rewrite EY; discriminate|].
  intros fuel tail rest Ht L. rewrite <- (assigns_line U (kv :: items) fuel false tail rest Hok Ht L).
  unfold command. rewrite EY, <- app_assoc. cbn [app skip_sp].
  destruct (name_start_facts c Hc) as (-> & -> & _). cbn [orb].
  destruct (strip_prefix EXPORT _) as [[|b s]|] eqn:S; try reflexivity.
  rewrite (strip_prefix_name EXPORT (c :: k) (Y ++ tail) b s eq_refl Hk S). reflexivity.
Qed.

Lemma export_line U kv items :
  Forall item_ok (kv :: items) ->
  reads_line (EXPORT ++ [c_sp] ++ line_str U (kv :: items)) (map (entry true) (kv :: items)).
Proof.
  intro Hok. split; [discriminate|]. intros fuel tail rest Ht L.
  rewrite <- !app_assoc in *. rewrite <- (assigns_line U (kv :: items) fuel true tail rest Hok Ht).
  - reflexivity.
  - rewrite !app_length in *. lia.
Qed.

Lemma program_nil f : program f [] = Some [].
Proof. destruct f; reflexivity. Qed.

Lemma program_step f s :
  s <> [] ->
  program (S f) s = match command (S f) s with
                    | Some (l, r) => match program f r with Some l' => Some (l ++ l') | None => None end
                    | None => None
                    end.
Proof. destruct s; [contradiction | reflexivity]. Qed.

Lemma program_lines lines : forall fuel,
  Forall (fun ll => reads_line (fst ll) (snd ll)) lines ->
  (length (join [c_nl] (map fst lines)) < fuel)%nat ->
  program fuel (join [c_nl] (map fst lines)) = Some (concat (map snd lines)).
Proof.
  induction lines as [|[line log] lines IH]; intros fuel H L; [apply program_nil|].
  inversion H as [|? ? [Hne Hcmd] Hrest]; subst. cbn [fst snd] in *.
  destruct fuel as [|fuel]; [inversion L|]. specialize (IH fuel Hrest).
  destruct lines as [|ll lines]; cbn [map concat fst snd] in *.
  - cbn [join] in *. rewrite <- (app_nil_r line).
    rewrite program_step, (Hcmd (S fuel) [] []), program_nil;
      [reflexivity | left; split; reflexivity | | ]; rewrite app_nil_r; assumption.
  - rewrite join_cons2 in *. rewrite app_length in L. cbn [app length] in *.
    rewrite program_step, (Hcmd (S fuel) _ _ (or_intror eq_refl)), IH;
      [reflexivity | lia | rewrite app_length; cbn [length]; lia | destruct line; [contradiction | discriminate]].
Qed.

Lemma bash_eval_lines U P X :
  Forall item_ok P -> Forall item_ok X ->
  bash_eval (join [c_nl] (lines_of (map (item_str U) P) (map (item_str U) X)))
  = Some (map (entry false) P ++ map (entry true) X).
Proof.
  intros HP HX. unfold bash_eval.
  pose (lines := match P with [] => [] | _ => [(line_str U P, map (entry false) P)] end
              ++ match X with [] => [] | _ => [(EXPORT ++ [c_sp] ++ line_str U X, map (entry true) X)] end).
  replace (lines_of _ _) with (map fst lines) by (destruct P, X; reflexivity).
  replace (map (entry false) P ++ map (entry true) X) with (concat (map snd lines))
    by (destruct P, X; cbn [lines map concat app snd]; rewrite ?app_nil_r; reflexivity).
  apply program_lines; [|lia].
  apply Forall_app. split; [destruct P | destruct X]; repeat first [apply Forall_nil | apply Forall_cons].
  - exact (plain_line U _ _ HP).
  - exact (export_line U _ _ HX).
Qed.

Definition sorted_items (e : env) : env := sort_env (remove_key MARKER e).
Definition kept (ro : list str) (l : env) : env := filter (fun kv => negb (mem_str (fst kv) ro)) l.
Definition plain_of (ro ne : list str) (l : env) : env := filter (fun kv => mem_str (fst kv) ne) (kept ro l).
Definition exp_of (ro ne : list str) (l : env) : env :=
  filter (fun kv => negb (mem_str (fst kv) ne)) (kept ro l).

Lemma name_start_alpha U c :
  is_name_start c = true -> negb (py_isalpha_c U c) && negb (c =? c_us) = false.
Proof.
  unfold is_name_start, py_isalpha_c. intro H. apply orb_true_iff in H as [H|H].
  - replace (c <? 128) with true.
    + rewrite H. reflexivity.
    + symmetry. apply N.ltb_lt. unfold is_alpha_ascii in H.
      apply orb_true_iff in H as [H|H]; apply andb_true_iff in H as [_ H]; apply N.leb_le in H; lia.
  - rewrite H. apply andb_false_r.
Qed.

Lemma render_all_ok U ro ne l :
  Forall item_ok l ->
  render_all U (render_val U) ro ne l
  = inr (map (item_str U) (plain_of ro ne l), map (item_str U) (exp_of ro ne l)).
Proof.
  induction l as [|[k v] r IH]; intro H; [reflexivity|].
  inversion H as [|? ? [Hk Hv] Hr]; subst. cbn [fst snd] in Hk, Hv.
  unfold plain_of, exp_of, kept in *. cbn [render_all filter fst].
  destruct (mem_str k ro) eqn:R; cbn [negb]; [exact (IH Hr)|].
  destruct k as [|c k']; [discriminate|].
  assert (Hc : is_name_start c = true) by (cbn [valid_nameb] in Hk; apply andb_true_iff in Hk; tauto).
  rewrite (name_start_alpha U c Hc).
  destruct v as [s|vs|]; [| |destruct Hv]; cbn [render_val]; rewrite (IH Hr); cbn [filter fst];
    destruct (mem_str (c :: k') ne); cbn [negb map]; reflexivity.
Qed.

(* [assoc] on environments and [sh_lookup] on shell states are the same search: first pair whose
   key is k; on a list with distinct keys that is membership *)
Lemma lookup_In {V} (look : str -> list (str * V) -> option V) :
  (forall k, look k [] = None) ->
  (forall k k' x r, look k ((k', x) :: r) = if str_eqb k k' then Some x else look k r) ->
  forall k x l, NoDup (map fst l) -> (look k l = Some x <-> In (k, x) l).
Proof.
  intros Hnil Hcons k x. induction l as [|[k' x'] l IH]; cbn [map fst In]; intro ND.
  - rewrite Hnil. split; [discriminate | intros []].
  - inversion ND as [|? ? Hn ND']; subst. specialize (IH ND'). rewrite Hcons.
    destruct (str_eqb_spec k k') as [<-|Hk].
    + split; [intros [= ->]; left; reflexivity|].
      intros [[= ->]|H]; [reflexivity|]. exfalso. apply Hn. exact (in_map fst _ _ H).
    + rewrite IH. split; [auto|]. intros [[= -> _]|H]; [contradiction | exact H].
Qed.

Lemma assoc_In k e v : NoDup (map fst e) -> (assoc k e = Some v <-> In (k, v) e).
Proof. apply (lookup_In assoc); reflexivity. Qed.

Lemma remove_key_filter m e : remove_key m e = filter (fun kv => negb (str_eqb m (fst kv))) e.
Proof.
  induction e as [|[k v] e IH]; cbn [remove_key filter fst]; [reflexivity|].
  destruct (str_eqb m k); cbn [negb]; congruence.
Qed.

Lemma insert_perm kv l : Permutation (insert_kv kv l) (kv :: l).
Proof.
  induction l as [|x l IH]; cbn [insert_kv]; [reflexivity|].
  destruct (str_leb (fst kv) (fst x)); [reflexivity|].
  rewrite IH. apply perm_swap.
Qed.
Lemma sort_perm l : Permutation (sort_env l) l.
Proof.
  induction l as [|kv l IH]; cbn [sort_env]; [reflexivity|].
  rewrite insert_perm. constructor. exact IH.
Qed.

Lemma filter_split_perm {A} (f : A -> bool) l :
  Permutation l (filter f l ++ filter (fun x => negb (f x)) l).
Proof.
  induction l as [|a l IH]; cbn [filter]; [constructor|].
  destruct (f a); cbn [negb app]; [constructor | apply Permutation_cons_app]; exact IH.
Qed.

Definition akey (a : assignment) : str := fst (fst a).
Definition binding (a : assignment) : str * (bval * bool) := (akey a, (snd (fst a), snd a)).

Lemma sh_set_fresh k v e st : ~ In k (map fst st) -> sh_set k v e st = st ++ [(k, (v, e))].
Proof.
  induction st as [|[k' [v' e']] st IH]; cbn [sh_set map fst app]; intro H; [reflexivity|].
  apply not_in_cons in H as [Hk H]. rewrite (proj2 (str_eqb_neq _ _) Hk), (IH H). reflexivity.
Qed.

Lemma run_log_fresh log : forall st,
  NoDup (map fst st ++ map akey log) -> run_log log st = st ++ map binding log.
Proof.
  induction log as [|[[k v] e] log IH]; intros st ND; cbn [map]; [symmetry; apply app_nil_r|].
  change (run_log ((k, v, e) :: log) st) with (run_log log (sh_set k v e st)).
  rewrite sh_set_fresh by (apply NoDup_remove_2 in ND; rewrite in_app_iff in ND; tauto).
  rewrite IH, <- app_assoc; [reflexivity|].
  rewrite map_app, <- app_assoc. exact ND.
Qed.

Lemma sh_lookup_In k x st : NoDup (map fst st) -> (sh_lookup k st = Some x <-> In (k, x) st).
Proof. apply (lookup_In sh_lookup); reflexivity. Qed.

Lemma final_lookup_In k log v e :
  NoDup (map akey log) -> (final_lookup k log = Some (v, e) <-> In (k, v, e) log).
Proof.
  intro ND. unfold final_lookup. rewrite (run_log_fresh log [] ND). cbn [app].
  rewrite sh_lookup_In by (rewrite map_map; exact ND). rewrite in_map_iff. split.
  - intros ([[k' v'] e'] & [= <- <- <-] & I). exact I.
  - intro I. exists (k, v, e). split; [reflexivity | exact I].
Qed.

Lemma option_ext {A} (a b : option A) : (forall x, a = Some x <-> b = Some x) -> a = b.
Proof.
  intro H. destruct a as [x|]; [symmetry; apply H; reflexivity|].
  destruct b as [y|]; [apply H|]; reflexivity.
Qed.

Lemma In_sorted_items e kv :
  In kv (sorted_items e) <-> In kv e /\ str_eqb MARKER (fst kv) = false.
Proof.
  unfold sorted_items. rewrite <- negb_true_iff, <- (filter_In (fun kv => negb (str_eqb MARKER (fst kv)))).
  rewrite <- remove_key_filter. split; apply Permutation_in; [|symmetry]; apply sort_perm.
Qed.

Lemma env_ok_items e : env_ok e -> Forall item_ok (sorted_items e).
Proof.
  intros [_ Hn Hv _]. apply Forall_forall. intros [k v] I. apply In_sorted_items in I as [I _].
  split; cbn [fst snd]; [exact (Hn k v I) | exact (Hv k v I)].
Qed.

Lemma nonexported_ok e : env_ok e -> nonexported_of e = inr (marked e).
Proof.
  intros [ND _ _ Hm]. unfold nonexported_of, marked.
  destruct (assoc MARKER e) as [v|] eqn:A; [|reflexivity].
  apply (assoc_In _ _ _ ND) in A. destruct (Hm v A) as [s ->]. reflexivity.
Qed.

(* the log the generated text evaluates to: the marked variables, then the exported ones *)
Definition the_log ro e : list assignment :=
  map (entry false) (plain_of ro (marked e) (sorted_items e))
  ++ map (entry true) (exp_of ro (marked e) (sorted_items e)).

Lemma generate_ok U ro e :
  env_ok e ->
  exists text, generate_env_str U ro e = inr text /\ bash_eval text = Some (the_log ro e).
Proof.
  intro Hok. unfold generate_env_str, generate_with.
  rewrite (nonexported_ok e Hok).
  fold (sorted_items e). rewrite (render_all_ok U ro (marked e) _ (env_ok_items e Hok)).
  eexists. split; [reflexivity|].
  apply bash_eval_lines; unfold plain_of, exp_of, kept; repeat apply Forall_filter;
    exact (env_ok_items e Hok).
Qed.

Lemma the_log_nodup ro e : env_ok e -> NoDup (map akey (the_log ro e)).
Proof.
  intros [ND _ _ _]. unfold the_log, plain_of, exp_of.
  rewrite map_app, !map_map, <- map_app.
  eapply Permutation_NoDup; [apply Permutation_map, filter_split_perm|].
  unfold kept. apply NoDup_map_filter. unfold sorted_items.
  eapply Permutation_NoDup; [apply Permutation_sym, Permutation_map, sort_perm|].
  rewrite remove_key_filter. apply NoDup_map_filter. exact ND.
Qed.

Lemma the_log_expected ro e k bv ex :
  env_ok e -> (In (k, bv, ex) (the_log ro e) <-> expected_lookup ro e k = Some (bv, ex)).
Proof.
  intros [ND _ Hv _]. unfold expected_lookup. rewrite (str_eqb_sym k MARKER).
  unfold the_log, plain_of, exp_of, kept. rewrite in_app_iff, !in_map_iff. split.
  - intros [([k' v] & [= <- <- <-] & I)|([k' v] & [= <- <- <-] & I)];
      apply filter_In in I as [I F1]; apply filter_In in I as [I F2]; apply In_sorted_items in I as [I F3];
      cbn [fst] in *; apply negb_true_iff in F2; specialize (Hv _ _ I);
      rewrite F3, F2, (proj2 (assoc_In _ _ _ ND) I); cbn [orb];
      [|apply negb_true_iff in F1]; rewrite F1; destruct v; (reflexivity || contradiction).
  - destruct (str_eqb MARKER k) eqn:F3; [discriminate|].
    destruct (mem_str k ro) eqn:F2; [discriminate|]. cbn [orb].
    destruct (assoc k e) as [v|] eqn:A; [|discriminate]. apply (assoc_In _ _ _ ND) in A. intro H.
    assert (K : In (k, v) (filter (fun kv => negb (mem_str (fst kv) ro)) (sorted_items e))).
    { apply filter_In. split; [apply In_sorted_items; split; assumption|]. cbn [fst]. rewrite F2. reflexivity. }
    assert (E : bv = bval_of v /\ ex = negb (mem_str k (marked e))) by (destruct v; inversion H; auto).
    destruct E as [-> ->]. destruct (mem_str k (marked e)) eqn:M; [left|right];
      exists (k, v); (split; [reflexivity|]); apply filter_In; (split; [exact K|]); cbn [fst]; rewrite M; reflexivity.
Qed.

(* non-vacuity: an environment that meets env_ok and exercises every quoting form *)
Definition U0 : uni := mkU [233] [233].
(* A = it's a \n b (a backslash and an n, not a newline); B = x y, marked non-exported;
   C = e-acute; L = a list of four: one with dquote dollar paren backtick, one plain,
   one ending in a backslash, one empty; E = the empty list *)
Definition ex_env : env :=
  [ ([66], PStr [120; 32; 121]);
    ([65], PStr [105; 116; 39; 115; 32; 97; 32; 92; 110; 32; 98]);
    (MARKER, PStr [66; 32; 32; 90]);
    ([76], PList [[113; 34; 36; 40; 105; 100; 41; 96]; [112; 108; 97; 105; 110]; [99; 92]; []]);
    ([67], PStr [233]);
    ([69], PList []) ].

Lemma mem_str_In x l : mem_str x l = true <-> In x l.
Proof.
  replace (mem_str x l) with (existsb (str_eqb x) l) by (induction l; cbn; congruence).
  apply existsb_str_In.
Qed.

Lemma nodup_dec_true l : nodupb l = true -> NoDup l.
Proof.
  induction l as [|x l IH]; cbn [nodupb]; intro H; [constructor|].
  apply andb_true_iff in H as [H1 H2]. constructor; [|exact (IH H2)].
  rewrite <- mem_str_In. apply negb_true_iff in H1. congruence.
Qed.

Lemma nul_free_sound s : nul_free s = true -> no_nul s.
Proof. unfold nul_free, no_nul. intro H. apply memN_false. apply negb_true_iff. exact H. Qed.

Lemma env_okb_sound e : env_okb e = true -> env_ok e.
Proof.
  unfold env_okb. intro H. apply andb_true_iff in H as [H Hm]. apply andb_true_iff in H as [Hn Hf].
  pose proof (nodup_dec_true _ Hn) as ND.
  rewrite forallb_forall in Hf.
  constructor.
  - exact ND.
  - intros k v I. specialize (Hf _ I). cbn [fst snd] in Hf. apply andb_true_iff in Hf as [Hf _]. exact Hf.
  - intros k v I. specialize (Hf _ I). cbn [fst snd] in Hf. apply andb_true_iff in Hf as [_ Hf].
    destruct v as [s|l|]; cbn [value_ok value_okb] in *.
    + apply nul_free_sound. exact Hf.
    + intros s Hs. rewrite forallb_forall in Hf. apply nul_free_sound. exact (Hf s Hs).
    + discriminate.
  - intros v I. rewrite (proj2 (assoc_In _ _ _ ND) I) in Hm. destruct v; [eauto | discriminate | discriminate].
Qed.

Example ex_env_ok : env_ok ex_env.
Proof. apply env_okb_sound. reflexivity. Qed.

(* two lines: the plain assignment of B, then the export line with A in the ANSI-C form, C bare,
   E empty, and the elements of L single-quoted where double quotes would be unsafe *)
Example ex_generated :
  generate_env_str U0 [] ex_env
  = inr ([66;61;39;120;32;121;39;10] ++
         [101;120;112;111;114;116;32] ++
         [65;61;36;39;105;116;92;39;115;32;97;32;92;92;110;32;98;39;32] ++
         [67;61;233;32] ++ [69;61;40;41;32] ++
         [76;61;40;91;48;93;61;39;113;34;36;40;105;100;41;96;39;32;
          91;49;93;61;34;112;108;97;105;110;34;32;91;50;93;61;39;99;92;39;32;91;51;93;61;34;34;41]).
Proof. vm_compute. reflexivity. Qed.

Example ex_evaluated :
  match generate_env_str U0 [] ex_env with
  | inr t => option_map (fun log => (final_lookup [65] log, final_lookup [66] log, final_lookup [76] log))
                        (bash_eval t)
  | inl _ => None
  end
  = Some (Some (BStr [105; 116; 39; 115; 32; 97; 32; 92; 110; 32; 98], true),
          Some (BStr [120; 32; 121], false),
          Some (BArr [(0, [113; 34; 36; 40; 105; 100; 41; 96]); (1, [112; 108; 97; 105; 110]);
                      (2, [99; 92]); (3, [])], true)).
Proof. vm_compute. reflexivity. Qed.

(* the statement the generator before the repair fails (Prop_C31: old_scalar_refuted) *)
Definition roundtrip_statement (gen : uni -> list str -> env -> gerr + str) : Prop :=
  forall U ro e, env_ok e ->
  exists text log, gen U ro e = inr text /\ bash_eval text = Some log /\
                   forall k, final_lookup k log = expected_lookup ro e k.
