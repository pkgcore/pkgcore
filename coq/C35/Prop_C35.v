From Coq Require Import List Bool.
Import ListNotations.
From Verif Require Import C41.Lts C35.Model_C35 C35.Spec_C35 C35.Proofs_C35.

(* table obligation, re-proved against the literals of today's sources: every command literal python
   writes is dispatched by the daemon to the intended arm, every reply literal python expects for a
   command is one the daemon's arm for it writes, every request/notice literal the daemon writes is
   one python handles as such *)
Theorem literals_agree : tables_agree = true.
Proof. vm_compute. reflexivity. Qed.
Print Assumptions literals_agree.

Theorem no_deadlock : forall c, reach c -> ~ deadlocked c.
Proof. intros c R. apply inv_not_deadlocked; [apply Inv_reach | apply Wb_reach]; exact R. Qed.
Print Assumptions no_deadlock.

(* FIFO matching for any number of outstanding expects, in every session not (yet) disturbed by a
   die/signal notice, an unlisted command or an error on the python side *)
Theorem replies_matched : forall c, reach c -> disturbed c \/ matched c.
Proof.
  intros c R. destruct (Inv_reach c R) as [D|H]; [left; exact D | right; exact (healthy_matched c H)].
Qed.
Print Assumptions replies_matched.

Theorem expect_reads_own_reply :
  forall c i w kok kbad r g rest,
    reach c -> ~ disturbed c -> py c = PRead1 (i, w) kok kbad -> d2p c = (r, g) :: rest ->
    answers (i, w) (r, g).
Proof.
  intros c i w kok kbad r g rest R N. destruct (Inv_reach c R) as [D|H]; [contradiction|].
  exact (healthy_own_reply c i w kok kbad r g rest H).
Qed.
Print Assumptions expect_reads_own_reply.

Theorem unknown_is_error_daemon :
  forall s c f s' out,
    sreact s c f = Some (s', out) -> listed s (see c) = false -> error_reaction s' out = true.
Proof.
  intros s c f s' out H L. rewrite see_id in L.
  pose proof (unlisted_is_error s c f L) as E. rewrite H in E. exact E.
Qed.
Print Assumptions unknown_is_error_daemon.

(* a line python reads in the handler loop is taken by a handler only if it is listed; the
   interception of notices comes first *)
Theorem unknown_is_error_python :
  forall c h kt r ch c',
    py c = PHand h kt -> isnotice r = false -> handled h r = false ->
    stepf c (LR r ch) = Some c' -> py c' = PExec Err.
Proof.
  intros c h kt r ch c' Hp N Hh H.
  destruct (step_read _ _ _ _ H) as (g & rest & _ & [[Ep _]|(pk & E & ->)]); [congruence|].
  unfold pnext in E. rewrite Hp, N in E. cbn [pplain] in E. rewrite (handle_unlisted _ _ _ _ Hh) in E.
  injection E as <-. reflexivity.
Qed.
Print Assumptions unknown_is_error_python.

(* a die / SIGINT / SIGTERM notice ends the session at the read that meets it, whatever was expected *)
Theorem notice_ends_session :
  forall c r ch c', isnotice r = true -> stepf c (LR r ch) = Some c' -> py_over (py c') = true.
Proof.
  intros c r ch c' N H.
  destruct (step_read _ _ _ _ H) as (g & rest & _ & [[Ep ->]|(pk & E & ->)]).
  - cbn [py pop]. rewrite Ep. reflexivity.
  - exact (pnext_notice _ _ _ _ N E).
Qed.
Print Assumptions notice_ends_session.

(* a trace the checker accepts is the python-side projection of a run of the LTS from an initial
   configuration: the theorems above speak about the configurations real sessions went through *)
Theorem accepted_trace_is_behaviour :
  forall sandbox os, accepts_obs sandbox os = true ->
    exists ls c, run conf label stepf (conf0 sandbox) ls = Some c
                 /\ obs_list_eqb (project ls) os = true /\ reach c.
Proof.
  intros b os H. unfold accepts_obs in H.
  destruct (elab (conf0 b) os []) as [ls|]; [|discriminate H].
  apply andb_true_iff in H as [Ha Hp].
  destruct (accepts_reachable conf label stepf init (conf0 b) ls) as (c & Hrun & Hreach);
    [exists b; reflexivity | exact Ha |].
  exists ls, c. auto.
Qed.
Print Assumptions accepted_trace_is_behaviour.
