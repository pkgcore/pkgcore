From Coq Require Import List ZArith.
Import ListNotations.
From Verif Require Import gen.Tables_C01 C01.Model_C01 C01.Spec_C01 C01.Order_C01 C01.Proofs_C01
  C01.Grammar_C01.

(* comparing any two valid versions, with or without revisions, gives the result of the PMS
   algorithm (the spec, written over the parsed version) *)
Theorem ver_cmp_is_pms : forall a b r1 r2,
  wf_vast a = true -> wf_vast b = true ->
  ver_cmp (print_vast a) r1 (print_vast b) r2 = pms_cmp a (rev_val r1) b (rev_val r2).
Proof. exact ver_cmp_is_pms_proof. Qed.
Print Assumptions ver_cmp_is_pms.

(* the resulting order is reflexive, antisymmetric and transitive (and three-valued, and versions
   that compare equal are interchangeable), for all valid version texts and all revisions *)
Theorem ver_cmp_total_preorder :
  forall v1 v2 v3 r1 r2 r3, is_version v1 -> is_version v2 -> is_version v3 ->
    (ver_cmp v1 r1 v2 r2 = (-1)%Z \/ ver_cmp v1 r1 v2 r2 = 0%Z \/ ver_cmp v1 r1 v2 r2 = 1%Z)
    /\ ver_cmp v1 r1 v1 r1 = 0%Z
    /\ ver_cmp v2 r2 v1 r1 = (- ver_cmp v1 r1 v2 r2)%Z
    /\ ((ver_cmp v1 r1 v2 r2 <= 0)%Z -> (ver_cmp v2 r2 v3 r3 <= 0)%Z -> (ver_cmp v1 r1 v3 r3 <= 0)%Z)
    /\ (ver_cmp v1 r1 v2 r2 = 0%Z -> ver_cmp v1 r1 v3 r3 = ver_cmp v2 r2 v3 r3).
Proof.
  intros v1 v2 v3 r1 r2 r3 [a [Wa <-]] [b [Wb <-]] [c [Wc <-]].
  rewrite !ver_cmp_kcmp by assumption. apply (good_laws _ good_kcmp).
Qed.
Print Assumptions ver_cmp_total_preorder.

(* every version-operator restriction (six operators, with and without negate) agrees with it *)
Theorem version_match_agrees :
  forall op negate a r p rp, (op <= 5)%N -> wf_vast a = true -> wf_vast p = true ->
    version_match op negate (print_vast a) r (print_vast p) rp
    = spec_match op negate a (rev_val r) p (rev_val rp).
Proof.
  intros op negate a r p rp Hop Ha Hp. unfold version_match, spec_match.
  destruct (op_vals_holds op (if N.eqb op 5 then pms_cmp p 0 a 0 else pms_cmp p (rev_val rp) a (rev_val r)) Hop)
    as [vals [E M]]; [destruct (N.eqb op 5); apply pms_cmp_range; assumption|].
  rewrite E. destruct (N.eqb op 5); rewrite ver_cmp_is_pms_proof by assumption; cbn [rev_val]; rewrite M; reflexivity.
Qed.
Print Assumptions version_match_agrees.

(* the six rich comparisons of CPV are the operators of one comparison (category, package,
   version order) ... *)
Theorem cpv_ops_are_order :
  forall a b,
    cpv_eq a b = Z.eqb (cpv_cmp a b) 0 /\ cpv_ne a b = negb (Z.eqb (cpv_cmp a b) 0)
    /\ cpv_lt a b = Z.ltb (cpv_cmp a b) 0 /\ cpv_le a b = Z.leb (cpv_cmp a b) 0
    /\ cpv_gt a b = Z.gtb (cpv_cmp a b) 0 /\ cpv_ge a b = Z.geb (cpv_cmp a b) 0.
Proof. exact cpv_ops_proof. Qed.
Print Assumptions cpv_ops_are_order.

(* ... which is a total preorder on CPVs with valid versions *)
Theorem cpv_cmp_total_preorder :
  forall a b c, cpv_valid a -> cpv_valid b -> cpv_valid c ->
    (cpv_cmp a b = (-1)%Z \/ cpv_cmp a b = 0%Z \/ cpv_cmp a b = 1%Z)
    /\ cpv_cmp a a = 0%Z
    /\ cpv_cmp b a = (- cpv_cmp a b)%Z
    /\ ((cpv_cmp a b <= 0)%Z -> (cpv_cmp b c <= 0)%Z -> (cpv_cmp a c <= 0)%Z)
    /\ (cpv_cmp a b = 0%Z -> cpv_cmp a c = cpv_cmp b c).
Proof. exact cpv_order_proof. Qed.
Print Assumptions cpv_cmp_total_preorder.

(* the suffix table regenerated from cpv.py realises _alpha < _beta < _pre < _rc < (none) < _p *)
Theorem suffix_table_order :
  (forall k1 k2, cmpZ (suffix_val (kind_name k1)) (suffix_val (kind_name k2)) = cmpZ (rank k1) (rank k2))
  /\ (forall k, cmpZ (suffix_val (kind_name k)) 0 = cmpZ (rank k) rank_none)
  /\ (forall k, assoc_str (kind_name k) suffix_value <> None)
  /\ (forall k d, all_digits d = true -> parse_suffix (kind_name k ++ d) = (kind_name k, d)).
Proof.
  repeat split.
  - apply suffix_val_rank.
  - intros k; destruct k; vm_compute; reflexivity.
  - intros k; destruct k; vm_compute; discriminate.
  - intros k d; apply parse_suffix_print.
Qed.
Print Assumptions suffix_table_order.

(* "valid version" in the theorems above (a printed well-formed AST) is exactly what the model of
   isvalid_version_re accepts (the regex additionally tolerates one trailing newline) *)
Theorem valid_version_iff : forall v, valid_version_core v = true <-> is_version v.
Proof. exact valid_version_iff_proof. Qed.
Print Assumptions valid_version_iff.
