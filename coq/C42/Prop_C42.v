From Coq Require Import List Sorting.Permutation.
From Verif Require Import C42.Model_C42 C42.Spec_C42 C42.Proofs_C42.

(* the core, on parsed lines: flattening the aliased deques = following one package sequentially *)
Theorem flatten_is_chain : forall ops k, result (run ops) k = chain_spec k ops.
Proof.
  intros ops k. pose proof (Inv_run ops) as I. unfold result.
  destruct (lookup k (mods (run ops))) as [[hd tl]|] eqn:E.
  - destruct (inv_pk _ _ I _ _ _ E) as [hd' [tl' [_ W]]]. exact (Walk_result _ _ _ _ W).
  - unfold chain_spec. rewrite (inv_none _ _ I _ E). reflexivity.
Qed.
Print Assumptions flatten_is_chain.

(* the commands reported for a name are the sequential reading of the update lines, taken in
   file order — for ALL directories: chains, cycles, reused names, redundant and malformed lines *)
Theorem updates_is_chain : forall eapi8 files k,
  exists ordered, is_file_order eapi8 files ordered /\
    read_updates eapi8 files k = chain_spec k (map parse_line (concat (map snd ordered))).
Proof.
  intros eapi8 files k. exists (scan eapi8 files). split; [apply scan_file_order | apply flatten_is_chain].
Qed.
Print Assumptions updates_is_chain.

(* file order is determined by the names, not by how the directory lists them *)
Theorem file_order_independent : forall eapi8 files files',
  Permutation files files' ->
  (forall a b, In a (keyed eapi8 files) -> In b (keyed eapi8 files) -> fst a = fst b -> a = b) ->
  scan eapi8 files = scan eapi8 files'.
Proof.
  intros eapi8 files files' P U.
  exact (file_order_unique _ _ _ _ _ P U (scan_file_order _ _) (scan_file_order _ _)).
Qed.
Print Assumptions file_order_independent.

(* commands recorded for a name after it became a move target are included *)
Theorem target_history_included : forall ops1 ops2 k,
  result (run (ops1 ++ ops2)) k = result (run ops1) k ++ result (run ops2) (current_name k ops1).
Proof. intros. rewrite !flatten_is_chain. apply chain_spec_app. Qed.
Print Assumptions target_history_included.

(* redundant lines: a name in the `moved` table is carried by no package, and a line about it is ignored *)
Theorem moved_means_unused : forall ops x,
  In x (moved (run ops)) -> forall k, current_name k ops <> x.
Proof. intros ops x. exact (inv_moved _ _ (Inv_run ops) x). Qed.
Print Assumptions moved_means_unused.

Theorem redundant_ignored : forall ops o rest src k,
  op_src o = Some src -> In src (moved (run ops)) ->
  result (run (ops ++ o :: rest)) k = result (run (ops ++ rest)) k.
Proof.
  intros ops o rest src k Ho Hm. unfold run. rewrite !fold_left_app. cbn [fold_left]. fold (run ops).
  apply mem_str_In in Hm.
  destruct o; try discriminate; injection Ho as ->; cbn [step]; rewrite Hm; reflexivity.
Qed.
Print Assumptions redundant_ignored.

(* a line that parse_line turns into OSkip (malformed atom, bad arity, unknown command) changes nothing *)
Theorem malformed_skipped : forall ops1 ops2 k,
  result (run (ops1 ++ OSkip :: ops2)) k = result (run (ops1 ++ ops2)) k.
Proof. intros. rewrite !flatten_is_chain. apply chain_skip. Qed.
Print Assumptions malformed_skipped.
