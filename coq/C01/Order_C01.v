(* Order_C01.v — a small theory of three-valued comparison functions (-1/0/1 in Z) that are total
   preorders, closed under pull-back, lexicographic sequencing and lexicographic lists.
   Shared lemma file of C01 (also used by C02). *)
From Coq Require Import List ZArith Lia.
Import ListNotations.
From Verif Require Import Base.Val C01.Model_C01.

Record good {A} (c : A -> A -> Z) : Prop := mk_good {
  g_range : forall a b, c a b = (-1)%Z \/ c a b = 0%Z \/ c a b = 1%Z;
  g_refl  : forall a, c a a = 0%Z;
  g_anti  : forall a b, c b a = (- c a b)%Z;
  g_eq    : forall a b d, c a b = 0%Z -> c a d = c b d;
  g_lt    : forall a b d, c a b = (-1)%Z -> c b d = (-1)%Z -> c a d = (-1)%Z }.
Arguments g_range {A c}. Arguments g_refl {A c}. Arguments g_anti {A c}.
Arguments g_eq {A c}. Arguments g_lt {A c}.

(* the laws as the property theorems state them, for three points *)
Definition preorder_laws {A} (c : A -> A -> Z) (a b d : A) : Prop :=
  (c a b = (-1)%Z \/ c a b = 0%Z \/ c a b = 1%Z)
  /\ c a a = 0%Z
  /\ c b a = (- c a b)%Z
  /\ ((c a b <= 0)%Z -> (c b d <= 0)%Z -> (c a d <= 0)%Z)
  /\ (c a b = 0%Z -> c a d = c b d).

Section Derived.
  Context {A} (c : A -> A -> Z) (G : good c).
  Lemma g_eq_r a b d : c b d = 0%Z -> c a b = c a d.
  Proof.
    intros H. assert (H' : c d b = 0%Z) by (rewrite (g_anti G b d), H; reflexivity).
    pose proof (g_eq G d b a H') as E. rewrite (g_anti G a d), (g_anti G a b) in E. lia.
  Qed.
  Lemma g_lt_eq a b d : c a b = (-1)%Z -> c b d = 0%Z -> c a d = (-1)%Z.
  Proof. intros H1 H2. rewrite <- (g_eq_r a b d H2). exact H1. Qed.
  Lemma g_trans_strong a b d : (c a b <= 0)%Z -> (c b d <= 0)%Z ->
    (c a d <= 0)%Z /\ (c a d = 0%Z -> c a b = 0%Z /\ c b d = 0%Z).
  Proof.
    intros H1 H2. destruct (g_range G a b) as [E1|[E1|E1]]; [| |lia].
    - destruct (g_range G b d) as [E2|[E2|E2]];
        [rewrite (g_lt G a b d E1 E2)|rewrite (g_lt_eq a b d E1 E2)|]; lia.
    - rewrite (g_eq G a b d E1). lia.
  Qed.
  Lemma g_le_trans a b d : (c a b <= 0)%Z -> (c b d <= 0)%Z -> (c a d <= 0)%Z.
  Proof. intros H1 H2. apply (g_trans_strong a b d H1 H2). Qed.
  Lemma good_laws a b d : preorder_laws c a b d.
  Proof.
    repeat split; [apply (g_range G)|apply (g_refl G)|apply (g_anti G)|apply g_le_trans|apply (g_eq G)].
  Qed.
End Derived.

Lemma good_ext {A} (c c' : A -> A -> Z) : (forall a b, c a b = c' a b) -> good c -> good c'.
Proof.
  intros E G. constructor; intros; rewrite <- ?E.
  - apply (g_range G). - apply (g_refl G). - apply (g_anti G).
  - rewrite <- E in H. apply (g_eq G); assumption.
  - rewrite <- E in H, H0. eapply (g_lt G); eassumption.
Qed.

Definition on {A B} (f : A -> B) (c : B -> B -> Z) : A -> A -> Z := fun a b => c (f a) (f b).

Lemma good_pull {A B} (f : A -> B) (c : B -> B -> Z) : good c -> good (on f c).
Proof.
  intros G. constructor; unfold on; intros.
  - apply (g_range G). - apply (g_refl G). - apply (g_anti G).
  - apply (g_eq G); assumption. - eapply (g_lt G); eassumption.
Qed.

Lemma sgn_cases c : sgn c = (-1)%Z \/ sgn c = 0%Z \/ sgn c = 1%Z.
Proof. destruct c; cbn; auto. Qed.

Lemma cmpZ_lt a b : cmpZ a b = (-1)%Z <-> (a < b)%Z.
Proof. unfold cmpZ. destruct (Z.compare_spec a b); cbn; split; intros; try lia; try discriminate. Qed.
Lemma cmpZ_eq a b : cmpZ a b = 0%Z <-> a = b.
Proof. unfold cmpZ. destruct (Z.compare_spec a b); cbn; split; intros; try lia; try discriminate; auto. Qed.
Lemma cmpZ_gt a b : cmpZ a b = 1%Z <-> (b < a)%Z.
Proof. unfold cmpZ. destruct (Z.compare_spec a b); cbn; split; intros; try lia; try discriminate. Qed.
Lemma cmpZ_refl a : cmpZ a a = 0%Z.
Proof. apply cmpZ_eq; reflexivity. Qed.

Lemma good_cmpZ : good cmpZ.
Proof.
  constructor.
  - intros; apply sgn_cases.
  - apply cmpZ_refl.
  - intros a b. unfold cmpZ. rewrite (Z.compare_antisym a b). destruct (Z.compare a b); reflexivity.
  - intros a b d H. apply (proj1 (cmpZ_eq _ _)) in H. subst; reflexivity.
  - intros a b d H1 H2. apply (proj1 (cmpZ_lt _ _)) in H1. apply (proj1 (cmpZ_lt _ _)) in H2. apply cmpZ_lt. lia.
Qed.

Lemma cmpN_cmpZ a b : cmpN a b = cmpZ (Z.of_N a) (Z.of_N b).
Proof. unfold cmpN, cmpZ. rewrite N2Z.inj_compare. reflexivity. Qed.

Lemma cmpN_eq a b : cmpN a b = 0%Z <-> a = b.
Proof. rewrite cmpN_cmpZ, cmpZ_eq. lia. Qed.
Lemma cmpN_gt a b : cmpN a b = 1%Z <-> (b < a)%N.
Proof. rewrite cmpN_cmpZ, cmpZ_gt. lia. Qed.
Lemma cmpN_refl a : cmpN a a = 0%Z.
Proof. apply cmpN_eq; reflexivity. Qed.

Lemma good_cmpN : good cmpN.
Proof.
  apply (good_ext (on Z.of_N cmpZ)); [intros; symmetry; apply cmpN_cmpZ|apply good_pull, good_cmpZ].
Qed.

Lemma cmp_len_refl n : cmp_len n n = 0%Z.
Proof. unfold cmp_len. rewrite Nat.compare_refl. reflexivity. Qed.

(* "return c unless it is 0": the step of every comparison cascade of the model and of the spec *)
Definition seqc (c k : Z) : Z := if Z.eqb c 0 then k else c.

Lemma seqc_negb c k : (if negb (Z.eqb c 0) then c else k) = seqc c k.
Proof. unfold seqc. destruct (Z.eqb c 0); reflexivity. Qed.

Lemma seqc_ext c k k' : (c = 0%Z -> k = k') -> seqc c k = seqc c k'.
Proof. unfold seqc. destruct (Z.eqb_spec c 0); auto. Qed.

Lemma seqc_assoc a b k : seqc (seqc a b) k = seqc a (seqc b k).
Proof. unfold seqc. destruct (Z.eqb a 0) eqn:E; [reflexivity|]. rewrite E. reflexivity. Qed.

Definition thenc {A} (c1 c2 : A -> A -> Z) (a b : A) : Z :=
  if Z.eqb (c1 a b) 0 then c2 a b else c1 a b.

Lemma thenc_zero {A} (c1 c2 : A -> A -> Z) a b :
  thenc c1 c2 a b = 0%Z <-> c1 a b = 0%Z /\ c2 a b = 0%Z.
Proof. unfold thenc. destruct (Z.eqb_spec (c1 a b) 0); split; intros; try tauto; lia. Qed.

Lemma good_thenc {A} (c1 c2 : A -> A -> Z) : good c1 -> good c2 -> good (thenc c1 c2).
Proof.
  intros G1 G2. constructor.
  - intros a b. unfold thenc. destruct (Z.eqb_spec (c1 a b) 0); [apply (g_range G2)|apply (g_range G1)].
  - intros a. unfold thenc. rewrite (g_refl G1). cbn. apply (g_refl G2).
  - intros a b. unfold thenc. rewrite (g_anti G1 a b), (g_anti G2 a b).
    destruct (Z.eqb_spec (c1 a b) 0), (Z.eqb_spec (- c1 a b) 0); lia.
  - intros a b d H. apply thenc_zero in H as [H1 H2]. unfold thenc.
    rewrite (g_eq G1 a b d H1), (g_eq G2 a b d H2). reflexivity.
  - intros a b d. unfold thenc.
    destruct (Z.eqb_spec (c1 a b) 0) as [E1|E1]; destruct (Z.eqb_spec (c1 b d) 0) as [E2|E2]; intros H1 H2.
    + rewrite (g_eq G1 a b d E1), E2. cbn. eapply (g_lt G2); eassumption.
    + rewrite (g_eq G1 a b d E1). destruct (Z.eqb_spec (c1 b d) 0); [lia|assumption].
    + rewrite (g_lt_eq c1 G1 a b d H1 E2). reflexivity.
    + rewrite (g_lt G1 a b d H1 H2). reflexivity.
Qed.

Fixpoint list_lex {A} (c : A -> A -> Z) (l1 l2 : list A) : Z :=
  match l1, l2 with
  | [], [] => 0
  | [], _ :: _ => -1
  | _ :: _, [] => 1
  | x :: t1, y :: t2 => if Z.eqb (c x y) 0 then list_lex c t1 t2 else c x y
  end%Z.

Lemma list_lex_ext {A} (c c' : A -> A -> Z) l1 l2 :
  (forall x y, In x l1 -> In y l2 -> c x y = c' x y) -> list_lex c l1 l2 = list_lex c' l1 l2.
Proof.
  revert l2; induction l1 as [|x t1 IH]; intros [|y t2] H; cbn; try reflexivity.
  rewrite (H x y) by (left; reflexivity).
  rewrite IH; [reflexivity|]. intros; apply H; right; assumption.
Qed.

Lemma list_lex_eq {A} (c : A -> A -> Z) : (forall x y, c x y = 0%Z <-> x = y) ->
  forall l1 l2, list_lex c l1 l2 = 0%Z <-> l1 = l2.
Proof.
  intros Hc. induction l1 as [|x t1 IH]; intros [|y t2]; cbn; split; intros H;
    try reflexivity; try discriminate.
  - destruct (Z.eqb_spec (c x y) 0) as [E|E]; [|contradiction].
    apply Hc in E. apply IH in H. congruence.
  - injection H as -> ->. rewrite (proj2 (Hc y y) eq_refl). cbn. apply IH. reflexivity.
Qed.

Lemma good_list_lex {A} (c : A -> A -> Z) : good c -> good (list_lex c).
Proof.
  intros G. constructor.
  - induction a as [|x a IH]; intros [|y b]; cbn; auto.
    destruct (Z.eqb_spec (c x y) 0); [apply IH|apply (g_range G)].
  - induction a as [|x a IH]; cbn; [reflexivity|]. rewrite (g_refl G). cbn. exact IH.
  - induction a as [|x a IH]; intros [|y b]; cbn; auto.
    rewrite (g_anti G x y). destruct (Z.eqb_spec (c x y) 0), (Z.eqb_spec (- c x y) 0); try lia. apply IH.
  - induction a as [|x a IH]; intros [|y b] [|z d]; cbn; intros H; try reflexivity; try discriminate.
    destruct (Z.eqb_spec (c x y) 0) as [E|E].
    + rewrite (g_eq G x y z E). rewrite (IH b d H). reflexivity.
    + destruct (g_range G x y) as [E'|[E'|E']]; lia.
  - induction a as [|x a IH]; intros [|y b] [|z d]; cbn; intros H1 H2; try reflexivity; try discriminate.
    destruct (Z.eqb_spec (c x y) 0) as [E1|E1]; destruct (Z.eqb_spec (c y z) 0) as [E2|E2].
    + rewrite (g_eq G x y z E1), E2. cbn. eapply IH; eassumption.
    + rewrite (g_eq G x y z E1). destruct (Z.eqb_spec (c y z) 0); [lia|assumption].
    + rewrite (g_lt_eq c G x y z H1 E2). reflexivity.
    + rewrite (g_lt G x y z H1 H2). reflexivity.
Qed.

Lemma str_cmp_lex a b : str_cmp a b = list_lex cmpN a b.
Proof.
  revert b; induction a as [|x a IH]; intros [|y b]; cbn; try reflexivity.
  unfold cmpN. rewrite IH. destruct (N.compare x y); reflexivity.
Qed.

Lemma good_str_cmp : good str_cmp.
Proof. apply (good_ext (list_lex cmpN)); [intros; symmetry; apply str_cmp_lex|apply good_list_lex, good_cmpN]. Qed.

Lemma str_cmp_refl a : str_cmp a a = 0%Z.
Proof. apply (g_refl good_str_cmp). Qed.

Lemma str_cmp_eq a b : str_cmp a b = 0%Z <-> a = b.
Proof. rewrite str_cmp_lex. apply list_lex_eq, cmpN_eq. Qed.

Lemma str_eqb_cmp a b : str_eqb a b = true <-> str_cmp a b = 0%Z.
Proof. rewrite str_eqb_eq, str_cmp_eq. tauto. Qed.

(* comparisons assembled from the combinators are total preorders by construction *)
Create HintDb good.
#[export] Hint Resolve good_thenc good_pull good_list_lex good_cmpZ good_cmpN good_str_cmp : good.
