(* Proofs_C16.v — stable sorting and the k-way merge for any total preorder, then the candidate order (from C01's) and the two strategies. *)
From Coq Require Import List ZArith Bool Permutation Lia.
Import ListNotations.
From Verif Require Import Base.Val Base.Lists C01.Proofs_C01 C01.Grammar_C01 C16.Model_C16 C16.Spec_C16.

Section G.
  Context {A : Type}.
  Variable lt : A -> A -> bool.
  Variable dom : A -> Prop.
  Hypothesis PO : preorder_on lt dom.

  Notation ge := (ge lt).
  Notation desc := (desc lt).
  Notation eqvb := (eqvb lt).

  Lemma po_asym x y : dom x -> dom y -> lt x y = true -> lt y x = false.
  Proof. apply PO. Qed.
  Lemma po_trans x y z : dom x -> dom y -> dom z -> ge x y -> ge y z -> ge x z.
  Proof. apply PO. Qed.
  Lemma po_irrefl x : dom x -> lt x x = false.
  Proof. intro D. destruct (lt x x) eqn:E; [|reflexivity]. rewrite (po_asym x x D D E) in E. discriminate. Qed.
  Lemma eqvb_refl x : dom x -> eqvb x x = true.
  Proof. intro D. unfold Spec_C16.eqvb. rewrite po_irrefl by exact D. reflexivity. Qed.

  Lemma insert_desc_perm x l : Permutation (insert_desc lt x l) (x :: l).
  Proof.
    induction l as [|y l IH]; cbn; [reflexivity|].
    destruct (lt x y); [|reflexivity].
    rewrite IH. apply perm_swap.
  Qed.
  Lemma sort_desc_perm l : Permutation (sort_desc lt l) l.
  Proof. induction l as [|x l IH]; cbn; [reflexivity|]. rewrite insert_desc_perm. constructor. exact IH. Qed.

  Lemma insert_desc_desc x l : dom x -> Forall dom l -> desc l -> desc (insert_desc lt x l).
  Proof.
    intros Dx. induction l as [|y l IH]; intros Dl S; cbn; [split; [constructor|exact I]|].
    inversion Dl as [|? ? Dy Dl']; subst. destruct S as [Fy S].
    destruct (lt x y) eqn:E.
    - cbn. split.
      + eapply Permutation_Forall; [symmetry; apply insert_desc_perm|].
        constructor; [apply po_asym; assumption | exact Fy].
      + apply IH; assumption.
    - cbn. split; [|split; assumption].
      constructor; [exact E|].
      rewrite Forall_forall in *. intros z Iz. apply (po_trans x y z); auto.
  Qed.
  Lemma sort_desc_desc l : Forall dom l -> desc (sort_desc lt l).
  Proof.
    induction l as [|x l IH]; intro D; cbn; [exact I|].
    inversion D; subst. apply insert_desc_desc; auto.
    eapply Permutation_Forall; [symmetry; apply sort_desc_perm | assumption].
  Qed.

  Lemma insert_desc_filter_other x a l :
    eqvb x a = false -> filter (eqvb x) (insert_desc lt a l) = filter (eqvb x) l.
  Proof.
    intro E. induction l as [|y l IH]; cbn; [rewrite E; reflexivity|].
    destruct (lt a y); cbn; [rewrite IH; reflexivity | rewrite E; reflexivity].
  Qed.
  Lemma insert_desc_filter_same x a l :
    dom x -> dom a -> Forall dom l -> eqvb x a = true ->
    filter (eqvb x) (insert_desc lt a l) = a :: filter (eqvb x) l.
  Proof.
    intros Dx Da Dl E. induction l as [|y l IH]; cbn; [rewrite E; reflexivity|].
    inversion Dl; subst.
    destruct (lt a y) eqn:L; cbn; [|rewrite E; reflexivity].
    rewrite IH by assumption.
    (* a < y and x ~ a  ==> x < y, so y is not equivalent to x *)
    assert (X : eqvb x y = false).
    { unfold Spec_C16.eqvb in *. apply andb_true_iff in E as [E1 E2].
      apply negb_true_iff in E1, E2.
      destruct (lt x y) eqn:XY; [reflexivity|].
      (* ge a x (E2) and ge x y (XY) give ge a y, contradiction with L *)
      pose proof (po_trans a x y Da Dx H1 E2 XY) as T. unfold Spec_C16.ge in T. congruence. }
    rewrite X. reflexivity.
  Qed.
  Lemma sort_desc_stable l x : Forall dom l -> dom x -> filter (eqvb x) (sort_desc lt l) = filter (eqvb x) l.
  Proof.
    intros Dl Dx. induction l as [|a l IH]; [reflexivity|].
    change (sort_desc lt (a :: l)) with (insert_desc lt a (sort_desc lt l)). cbn [filter].
    inversion Dl; subst.
    assert (Ds : Forall dom (sort_desc lt l))
      by (eapply Permutation_Forall; [symmetry; apply sort_desc_perm | assumption]).
    destruct (eqvb x a) eqn:E.
    - rewrite insert_desc_filter_same by assumption. rewrite IH by assumption. reflexivity.
    - rewrite insert_desc_filter_other by assumption. apply IH; assumption.
  Qed.

  Theorem sort_desc_is_stable_sorter : stable_sorter lt dom (sort_desc lt).
  Proof.
    intros l D. split; [apply sort_desc_perm|]. split; [apply sort_desc_desc; exact D|].
    intros x Dx. apply sort_desc_stable; assumption.
  Qed.

  Lemma filter_In_head (p : A -> bool) l a r : filter p l = a :: r -> In a l /\ p a = true.
  Proof.
    intro H. assert (I : In a (filter p l)) by (rewrite H; left; reflexivity).
    apply filter_In in I. exact I.
  Qed.

  (* a descending list is determined by its equivalence classes in order *)
  Lemma desc_classes_unique l1 : forall l2,
    Forall dom l1 -> Forall dom l2 -> desc l1 -> desc l2 ->
    (forall x, dom x -> filter (eqvb x) l1 = filter (eqvb x) l2) -> l1 = l2.
  Proof.
    induction l1 as [|a l1 IH]; intros l2 D1 D2 S1 S2 H.
    - destruct l2 as [|b l2]; [reflexivity|]. inversion D2; subst.
      specialize (H b H2). cbn in H. rewrite eqvb_refl in H by assumption. discriminate.
    - inversion D1 as [|? ? Da D1']; subst. destruct S1 as [Fa S1].
      pose proof (H a Da) as Ha. cbn in Ha. rewrite eqvb_refl in Ha by assumption.
      destruct l2 as [|b l2]; [discriminate|].
      inversion D2 as [|? ? Db D2']; subst. destruct S2 as [Fb S2].
      assert (Eab : b = a).
      { cbn in Ha. destruct (eqvb a b) eqn:E; [injection Ha; auto|].
        exfalso.
        (* a occurs in l2, so b >= a; b occurs in l1, so a >= b *)
        symmetry in Ha. apply filter_In_head in Ha as [Ia _].
        pose proof (H b Db) as Hb. cbn in Hb. rewrite eqvb_refl in Hb by assumption.
        assert (Eba : eqvb b a = false).
        { unfold Spec_C16.eqvb in *. rewrite andb_comm. exact E. }
        rewrite Eba in Hb. apply filter_In_head in Hb as [Ib _].
        rewrite Forall_forall in Fa, Fb.
        pose proof (Fa b Ib) as G1. pose proof (Fb a Ia) as G2.
        unfold Spec_C16.eqvb, Spec_C16.ge in *. rewrite G1, G2 in E. discriminate. }
      subst b. f_equal. apply IH; try assumption.
      intros x Dx. specialize (H x Dx). cbn in H.
      destruct (eqvb x a); [injection H; auto | exact H].
  Qed.

  Theorem stable_sort_unique s1 s2 :
    stable_sorter lt dom s1 -> stable_sorter lt dom s2 -> forall l, Forall dom l -> s1 l = s2 l.
  Proof.
    intros G1 G2 l D. destruct (G1 l D) as [P1 [S1 F1]]. destruct (G2 l D) as [P2 [S2 F2]].
    apply desc_classes_unique; try assumption.
    - eapply Permutation_Forall; [symmetry; exact P1 | exact D].
    - eapply Permutation_Forall; [symmetry; exact P2 | exact D].
    - intros x Dx. rewrite F1, F2 by assumption. reflexivity.
  Qed.
End G.

Section M.
  Context {A : Type}.
  Variable lt : A -> A -> bool.
  Variable dom : A -> Prop.
  Hypothesis PO : preorder_on lt dom.

  Notation ge := (ge lt).
  Notation desc := (desc lt).
  Definition ltE (a b : entry (A:=A)) : bool := lt (fst a) (fst b).
  Definition domE (e : entry (A:=A)) : Prop := dom (fst e).
  Definition flat (e : entry (A:=A)) : list A := fst e :: snd e.
  Definition elems (l : list (entry (A:=A))) : list A := flat_map flat l.
  (* a [head, iterator] pair of the merge: the stream it stands for is valid and descending *)
  Definition entry_ok (e : entry (A:=A)) : Prop := Forall dom (flat e) /\ desc (flat e).

  Lemma PO_E : preorder_on ltE domE.
  Proof.
    destruct PO as [P1 P2]. split.
    - intros x y Dx Dy. apply P1; assumption.
    - intros x y z Dx Dy Dz. apply (P2 (fst x) (fst y) (fst z)); assumption.
  Qed.

  Lemma elems_perm l l' : Permutation l l' -> Permutation (elems l) (elems l').
  Proof. apply Permutation_flat_map. Qed.

  Lemma domE_of_ok l : Forall entry_ok l -> Forall domE l.
  Proof.
    intro H. eapply Forall_impl; [|exact H]. intros e [D _]. inversion D; assumption.
  Qed.

  Lemma tl_dominated h tl :
    dom h -> Forall entry_ok tl -> Forall (fun e => ge h (fst e)) tl -> Forall (ge h) (elems tl).
  Proof.
    intros Dh. induction tl as [|e tl IH]; intros OK F; [constructor|].
    inversion OK as [|? ? [De Se] OKtl]; subst. inversion F as [|? ? Ge F']; subst.
    unfold elems. cbn [flat_map]. apply Forall_app. split; [|apply IH; assumption].
    unfold flat in *. inversion De as [|? ? Dfe Dse]; subst. destruct Se as [Fe _].
    constructor; [exact Ge|].
    rewrite Forall_forall in *. intros z Iz.
    apply (po_trans lt dom PO h (fst e) z); auto.
  Qed.

  Lemma head_dominates h rest tl :
    Forall entry_ok ((h, rest) :: tl) -> Spec_C16.desc ltE ((h, rest) :: tl) ->
    Forall (ge h) (rest ++ elems tl).
  Proof.
    intros OK S. inversion OK as [|? ? [Dh Sh] OKtl]; subst. cbn in Dh, Sh.
    destruct S as [Fh _]. apply Forall_app. split; [apply Sh|].
    inversion Dh as [|? ? Dhh _]; subst.
    apply tl_dominated; assumption.
  Qed.

  Lemma desc_tail_entry y rest' (h : A) :
    entry_ok (h, y :: rest') -> entry_ok (y, rest').
  Proof.
    intros [D S]. cbn in *. inversion D; subst. destruct S as [_ S]. split; assumption.
  Qed.

  Variable sorter : list (entry (A:=A)) -> list (entry (A:=A)).
  Hypothesis SORT : stable_sorter ltE domE sorter.

  (* every round yields one element, so as many rounds of fuel as there are elements suffice *)
  Lemma merge_loop_spec fuel : forall l,
    (length (elems l) <= fuel)%nat -> Forall entry_ok l -> Spec_C16.desc ltE l ->
    Permutation (merge_loop sorter fuel l) (elems l) /\ desc (merge_loop sorter fuel l).
  Proof.
    induction fuel as [|f IH]; intros l Len OK S.
    - destruct l as [|[h rest] tl]; cbn in *; [split; [reflexivity|exact I] | lia].
    - destruct l as [|[h rest] tl]; [cbn; split; [reflexivity|exact I]|].
      pose proof (head_dominates h rest tl OK S) as Dom.
      inversion OK as [|? ? OKh OKtl]; subst.
      (* the head is yielded; what follows is a descending rearrangement of all the rest *)
      assert (Step : forall X, Permutation X (rest ++ elems tl) -> desc X ->
                Permutation (h :: X) (elems ((h, rest) :: tl)) /\ desc (h :: X)).
      { intros X PX SX. split; [cbn; constructor; exact PX|].
        cbn. split; [|exact SX]. eapply Permutation_Forall; [symmetry; exact PX | exact Dom]. }
      cbn [merge_loop]. destruct rest as [|y rest'].
      + (* the head stream is exhausted: the rest is merged as it stands, or drained if it is one stream *)
        assert (Htl : Permutation (merge_loop sorter f tl) (elems tl) /\ desc (merge_loop sorter f tl)).
        { apply IH; [unfold elems in *; cbn in Len; lia | exact OKtl | apply S]. }
        destruct tl as [|[h2 r2] [|e3 tl3]]; apply Step; try apply Htl.
        * cbn. rewrite app_nil_r. reflexivity.
        * inversion OKtl as [|? ? [_ S2] _]; subst. exact S2.
      + (* pull the next element of the head stream and re-sort *)
        set (l' := (y, rest') :: tl).
        assert (OK' : Forall entry_ok l') by (constructor; [eapply desc_tail_entry; exact OKh | exact OKtl]).
        destruct (SORT l' (domE_of_ok _ OK')) as [P [S' _]].
        assert (PE : Permutation (elems (sorter l')) (elems l')) by (apply elems_perm; exact P).
        destruct (IH (sorter l')) as [P1 S1]; [|eapply Permutation_Forall; [symmetry; exact P | exact OK'] | exact S'|].
        { rewrite (Permutation_length PE). cbn in Len |- *. lia. }
        apply Step; [rewrite P1, PE; reflexivity | exact S1].
  Qed.

  Lemma elems_heads streams : elems (heads streams) = concat streams.
  Proof.
    induction streams as [|s ss IH]; [reflexivity|].
    destruct s as [|h r].
    - change (elems (heads ([] :: ss))) with (elems (heads ss)). rewrite IH. reflexivity.
    - change (elems (heads ((h :: r) :: ss))) with ((h :: r) ++ elems (heads ss)). rewrite IH. reflexivity.
  Qed.
  Lemma heads_ok streams :
    Forall (fun s => Forall dom s /\ desc s) streams -> Forall entry_ok (heads streams).
  Proof.
    induction 1 as [|s ss [D S] _ IH]; cbn; [constructor|].
    destruct s as [|h r]; cbn; [exact IH|]. constructor; [split; assumption | exact IH].
  Qed.

  Theorem iter_sort_spec streams :
    Forall (fun s => Forall dom s /\ desc s) streams ->
    Permutation (iter_sort_gen sorter streams) (concat streams) /\ desc (iter_sort_gen sorter streams).
  Proof.
    intro H. pose proof (heads_ok streams H) as OK. pose proof (elems_heads streams) as EH.
    unfold iter_sort_gen.
    assert (Gen : Permutation (merge_loop sorter (S (length (concat streams))) (sorter (heads streams))) (concat streams)
                  /\ desc (merge_loop sorter (S (length (concat streams))) (sorter (heads streams)))).
    { destruct (SORT _ (domE_of_ok _ OK)) as [P [S' _]].
      assert (PE := elems_perm _ _ P).
      destruct (merge_loop_spec (S (length (concat streams))) (sorter (heads streams))) as [P1 S1].
      - rewrite (Permutation_length PE), EH. lia.
      - eapply Permutation_Forall; [symmetry; exact P | exact OK].
      - exact S'.
      - split; [rewrite P1, PE, EH; reflexivity | exact S1]. }
    destruct (heads streams) as [|[h r] [|e2 l2]] eqn:E; try exact Gen.
    rewrite <- EH. cbn. rewrite app_nil_r. split; [reflexivity|].
    inversion OK as [|? ? [_ S] _]; subst. exact S.
  Qed.

  Variable sorter2 : list (entry (A:=A)) -> list (entry (A:=A)).
  Hypothesis SORT2 : stable_sorter ltE domE sorter2.

  Lemma merge_loop_det fuel : forall l,
    Forall entry_ok l -> merge_loop sorter fuel l = merge_loop sorter2 fuel l.
  Proof.
    induction fuel as [|f IH]; intros l OK; [reflexivity|].
    destruct l as [|[h rest] tl]; [reflexivity|]. cbn [merge_loop].
    inversion OK as [|? ? OKh OKtl]; subst. f_equal.
    destruct rest as [|y rest'].
    - destruct tl as [|[h2 r2] [|e3 tl3]]; try reflexivity; apply IH; assumption.
    - set (l' := (y, rest') :: tl).
      assert (OK' : Forall entry_ok l') by (constructor; [eapply desc_tail_entry; exact OKh | exact OKtl]).
      rewrite <- (stable_sort_unique ltE domE PO_E sorter sorter2 SORT SORT2 l' (domE_of_ok _ OK')).
      apply IH. destruct (SORT l' (domE_of_ok _ OK')) as [P _].
      eapply Permutation_Forall; [symmetry; exact P | exact OK'].
  Qed.

  Theorem iter_sort_det streams :
    Forall (fun s => Forall dom s /\ desc s) streams ->
    iter_sort_gen sorter streams = iter_sort_gen sorter2 streams.
  Proof.
    intro H. pose proof (heads_ok streams H) as OK. unfold iter_sort_gen.
    pose proof (stable_sort_unique ltE domE PO_E sorter sorter2 SORT SORT2 _ (domE_of_ok _ OK)) as U.
    destruct (SORT _ (domE_of_ok _ OK)) as [P _].
    assert (OKs : Forall entry_ok (sorter (heads streams)))
      by (eapply Permutation_Forall; [symmetry; exact P | exact OK]).
    destruct (heads streams) as [|[h r] [|e2 l2]] eqn:E; try reflexivity;
      rewrite <- U; apply merge_loop_det; exact OKs.
  Qed.
End M.

Definition cdom (c : cand) : Prop := cpv_valid (cc c).
Definition ccmp (x y : cand) : Z := cpv_cmp (cc x) (cc y).

Lemma cvalid_cdom c : cvalid c -> cdom c.
Proof. unfold cvalid, cdom, cpv_valid. apply valid_version_iff_proof. Qed.

Lemma ccmp_range x y : cdom x -> cdom y -> ccmp x y = (-1)%Z \/ ccmp x y = 0%Z \/ ccmp x y = 1%Z.
Proof. intros Dx Dy. apply (cpv_order_proof _ _ _ Dx Dy Dx). Qed.
Lemma ccmp_antisym x y : cdom x -> cdom y -> ccmp y x = (- ccmp x y)%Z.
Proof. intros Dx Dy. apply (cpv_order_proof _ _ _ Dx Dy Dx). Qed.
Lemma ccmp_ge_trans x y z : cdom x -> cdom y -> cdom z ->
  (0 <= ccmp x y)%Z -> (0 <= ccmp y z)%Z ->
  (0 <= ccmp x z)%Z /\ (ccmp x z = 0%Z -> ccmp x y = 0%Z /\ ccmp y z = 0%Z).
Proof.
  intros Dx Dy Dz Cxy Cyz.
  destruct (cpv_order_proof _ _ _ Dz Dy Dx) as (_ & _ & _ & T & _).
  destruct (cpv_order_proof _ _ _ Dx Dz Dy) as (_ & _ & _ & _ & I).
  pose proof (ccmp_antisym x y Dx Dy). pose proof (ccmp_antisym y z Dy Dz).
  pose proof (ccmp_antisym x z Dx Dz). fold (ccmp z y) (ccmp y x) (ccmp z x) in T.
  fold (ccmp x z) (ccmp x y) (ccmp z y) in I. split; [lia|]. intros E. specialize (I E). lia.
Qed.

Lemma lt_pkg_ccmp x y : lt_pkg x y = Z.ltb (ccmp x y) 0.
Proof. unfold lt_pkg, ccmp. apply cpv_ops_proof. Qed.

Lemma pcmp_ccmp x y : cdom x -> cdom y -> pcmp x y = ccmp x y.
Proof.
  intros Dx Dy. unfold pcmp. destruct (cpv_ops_proof (cc x) (cc y)) as (_ & _ & L & _ & G & _).
  rewrite L, G. fold (ccmp x y). destruct (ccmp_range x y Dx Dy) as [R|[R|R]]; rewrite R; reflexivity.
Qed.

(* x is not below y in highest-first order: not older, and at equal version installed if y is *)
Lemma ge_highest_spec x y : cdom x -> cdom y ->
  ge lt_highest x y <->
  (0 <= ccmp x y)%Z /\ (ccmp x y = 0%Z -> clive y = true -> clive x = true).
Proof.
  intros Dx Dy. unfold ge, lt_highest, f_highest. rewrite pcmp_ccmp by assumption. cbv zeta.
  destruct (ccmp_range x y Dx Dy) as [R|[R|R]]; rewrite R; destruct (clive x), (clive y); cbn;
    intuition (discriminate || lia).
Qed.

Lemma PO_highest : preorder_on lt_highest cdom.
Proof.
  split.
  - (* twelve cases: sign of the comparison, the two flags *)
    intros x y Dx Dy. unfold lt_highest, f_highest.
    rewrite !pcmp_ccmp, (ccmp_antisym x y) by assumption. cbv zeta.
    destruct (ccmp_range x y Dx Dy) as [R|[R|R]]; rewrite R; destruct (clive x), (clive y); cbn; congruence.
  - intros x y z Dx Dy Dz Gxy Gyz. apply ge_highest_spec in Gxy, Gyz; try assumption.
    destruct Gxy as [Cxy Lxy], Gyz as [Cyz Lyz].
    destruct (ccmp_ge_trans x y z Dx Dy Dz Cxy Cyz) as [Cxz Mid].
    apply ge_highest_spec; try assumption. split; [exact Cxz|]. intros E Lz.
    destruct (Mid E) as [Exy Eyz]. auto.
Qed.

Lemma PO_pkg : preorder_on lt_pkg cdom.
Proof.
  split.
  - intros x y Dx Dy. rewrite !lt_pkg_ccmp, (ccmp_antisym x y Dx Dy), Z.ltb_lt, Z.ltb_ge. lia.
  - intros x y z Dx Dy Dz. unfold ge. rewrite !lt_pkg_ccmp, !Z.ltb_ge.
    intros Cxy Cyz. apply (ccmp_ge_trans x y z); assumption.
Qed.

Lemma PO_on_head {B} (lt : cand -> cand -> bool) :
  preorder_on lt cdom -> preorder_on (on_head (B:=B) lt) (fun e => cdom (fst e)).
Proof.
  intros [P1 P2]. split.
  - intros x y. apply P1.
  - intros x y z. apply (P2 (fst x) (fst y) (fst z)).
Qed.

Lemma highest_iter_sort_stable : stable_sorter (ltE lt_highest) (domE cdom) highest_iter_sort.
Proof.
  unfold highest_iter_sort. apply (sort_desc_is_stable_sorter (ltE lt_highest) (domE cdom)).
  apply PO_E. exact PO_highest.
Qed.

Lemma desc_filter {A} (lt : A -> A -> bool) p l : desc lt l -> desc lt (filter p l).
Proof.
  induction l as [|x l IH]; intro S; [exact I|]. destruct S as [F S]. cbn.
  destruct (p x); [|apply IH; exact S]. cbn. split; [|apply IH; exact S].
  rewrite Forall_forall in *. intros y Iy. apply filter_In in Iy as [Iy _]. apply F; exact Iy.
Qed.
Lemma desc_map_fst {B} (lt : cand -> cand -> bool) (l : list (cand * B)) :
  desc (on_head lt) l -> desc lt (map fst l).
Proof.
  induction l as [|x l IH]; intro S; [exact I|]. destruct S as [F S]. cbn. split; [|apply IH; exact S].
  rewrite Forall_forall in *. intros y Iy. apply in_map_iff in Iy as [e [<- Ie]]. apply (F e Ie).
Qed.
Lemma desc_weaken {A} (lt1 lt2 : A -> A -> bool) (P : A -> Prop) l :
  (forall x y, P x -> P y -> ge lt1 x y -> ge lt2 x y) -> Forall P l -> desc lt1 l -> desc lt2 l.
Proof.
  intros W. induction l as [|x l IH]; intros Pl S; [exact I|]. inversion Pl; subst. destruct S as [F S].
  split; [|apply IH; assumption]. rewrite Forall_forall in *. intros y Iy. apply W; auto.
Qed.

Lemma filter_perm {A} (p : A -> bool) l l' : Permutation l l' -> Permutation (filter p l) (filter p l').
Proof.
  induction 1; cbn.
  - reflexivity.
  - destruct (p x); [constructor|]; assumption.
  - destruct (p x), (p y); try reflexivity. apply perm_swap.
  - etransitivity; eassumption.
Qed.

Lemma per_repo_perm r : Permutation (per_repo r) (offered [r]).
Proof.
  unfold per_repo, offered. cbn. rewrite app_nil_r. apply Permutation_map, filter_perm, sort_desc_perm.
Qed.

Lemma per_repo_ok r : repo_ok r ->
  Forall (fun c => cdom c /\ clive c = fst r) (per_repo r) /\ desc lt_highest (per_repo r).
Proof.
  intro OK. unfold repo_ok in OK.
  assert (D : Forall (fun e : cand * bool => cdom (fst e)) (snd r)).
  { eapply Forall_impl; [|exact OK]. intros e [_ V]. apply cvalid_cdom; exact V. }
  assert (All : Forall (fun c => cdom c /\ clive c = fst r) (per_repo r)).
  { eapply Permutation_Forall; [symmetry; apply per_repo_perm|]. unfold offered. cbn. rewrite app_nil_r.
    rewrite Forall_forall in *. intros c Ic. apply in_map_iff in Ic as [e [<- Ie]].
    apply filter_In in Ie as [Ie _]. destruct (OK e Ie) as [L V]. split; [apply cvalid_cdom; exact V | exact L]. }
  split; [exact All|].
  apply (desc_weaken lt_pkg lt_highest (fun c => cdom c /\ clive c = fst r)); [|exact All|].
  - (* inside one repository the livefs flags agree *)
    intros x y [Dx Lx] [Dy Ly] G. apply ge_highest_spec; try assumption.
    unfold ge in G. rewrite lt_pkg_ccmp in G. apply Z.ltb_ge in G. split; [exact G | congruence].
  - unfold per_repo. apply desc_map_fst, desc_filter.
    apply (sort_desc_desc (on_head lt_pkg) (fun e => cdom (fst e)) (PO_on_head lt_pkg PO_pkg)). exact D.
Qed.

Lemma streams_ok dbs : Forall repo_ok dbs ->
  Forall (fun s => Forall cdom s /\ desc lt_highest s) (map per_repo dbs).
Proof.
  intro H. apply Forall_map. eapply Forall_impl; [|exact H]. intros r OK.
  destruct (per_repo_ok r OK) as [A S]. split; [|exact S].
  eapply Forall_impl; [|exact A]. intros c [D _]. exact D.
Qed.

Lemma concat_per_repo_perm dbs : Permutation (concat (map per_repo dbs)) (offered dbs).
Proof.
  induction dbs as [|r dbs IH]; cbn; [reflexivity|].
  change (offered (r :: dbs)) with (map fst (filter snd (snd r)) ++ offered dbs).
  apply Permutation_app; [|exact IH]. rewrite per_repo_perm. unfold offered. cbn. rewrite app_nil_r. reflexivity.
Qed.

Lemma merged_spec dbs : Forall repo_ok dbs ->
  Permutation (iter_sort_highest (map per_repo dbs)) (offered dbs)
  /\ desc lt_highest (iter_sort_highest (map per_repo dbs)).
Proof.
  intro OK. unfold iter_sort_highest.
  destruct (iter_sort_spec lt_highest cdom PO_highest highest_iter_sort highest_iter_sort_stable
              _ (streams_ok dbs OK)) as [P S].
  split; [rewrite P; apply concat_per_repo_perm | exact S].
Qed.

Lemma filter_partition_perm {A} (p : A -> bool) l :
  Permutation (filter p l ++ filter (fun x => negb (p x)) l) l.
Proof.
  induction l as [|x l IH]; cbn; [reflexivity|]. destruct (p x); cbn.
  - constructor. exact IH.
  - symmetry. apply Permutation_cons_app. symmetry. exact IH.
Qed.

Lemma offered_perm dbs dbs' : Permutation dbs dbs' -> Permutation (offered dbs) (offered dbs').
Proof. apply Permutation_flat_map. Qed.

Lemma offered_cdom dbs : Forall repo_ok dbs -> Forall cdom (offered dbs).
Proof.
  intro OK. rewrite Forall_forall in *. intros c Ic. apply in_flat_map in Ic as [r [Ir Ic]].
  apply in_map_iff in Ic as [e [<- Ie]]. apply filter_In in Ie as [Ie _].
  specialize (OK r Ir). unfold repo_ok in OK. rewrite Forall_forall in OK. apply cvalid_cdom, (OK e Ie).
Qed.
Lemma offered_live b dbs : Forall repo_ok dbs -> Forall (fun r : repo => fst r = b) dbs ->
  Forall (fun c => clive c = b) (offered dbs).
Proof.
  intros OK B. rewrite Forall_forall in *. intros c Ic. apply in_flat_map in Ic as [r [Ir Ic]].
  apply in_map_iff in Ic as [e [<- Ie]]. apply filter_In in Ie as [Ie _].
  specialize (OK r Ir). unfold repo_ok in OK. rewrite Forall_forall in OK. rewrite <- (B r Ir). apply (OK e Ie).
Qed.

Theorem prefer_highest_sorted_proof : forall dbs, Forall repo_ok dbs ->
  Permutation (prefer_highest dbs) (offered dbs) /\ desc lt_highest (prefer_highest dbs).
Proof.
  intros dbs OK. unfold prefer_highest.
  assert (P : Permutation (livefs_first dbs) dbs) by apply filter_partition_perm.
  destruct (merged_spec (livefs_first dbs)) as [P1 S1]; [eapply Permutation_Forall; [symmetry; exact P | exact OK]|].
  split; [rewrite P1; apply offered_perm, P | exact S1].
Qed.

Lemma desc_head_max l L h tl : Permutation l L -> Forall cdom L -> desc lt_highest l -> l = h :: tl ->
  In h L /\ forall x, In x L ->
    (ccmp x h <= 0)%Z /\ (ccmp x h = 0%Z -> clive x = true -> clive h = true).
Proof.
  intros P D S ->. assert (Ih : In h L) by (eapply Permutation_in; [exact P | left; reflexivity]).
  split; [exact Ih|]. intros x Ix. rewrite Forall_forall in D.
  pose proof (D h Ih) as Dh. pose proof (D x Ix) as Dx.
  assert (G : ge lt_highest h x).
  { apply (Permutation_in _ (Permutation_sym P)) in Ix.
    destruct Ix as [<-|Ix]; [apply (po_irrefl lt_highest cdom PO_highest), Dh|].
    destruct S as [F _]. rewrite Forall_forall in F. apply F, Ix. }
  apply (ge_highest_spec h x Dh Dx) in G. rewrite (ccmp_antisym h x Dh Dx). split; [lia|].
  intros E. apply G. lia.
Qed.

Lemma reuse_split dbs : Forall repo_ok dbs ->
  let L := iter_sort_highest (map per_repo (filter (fun r => fst r) dbs)) in
  let N := iter_sort_highest (map per_repo (filter (fun r => negb (fst r)) dbs)) in
  Forall (fun c => clive c = true) L /\ Forall (fun c => clive c = false) N
  /\ Permutation (L ++ N) (offered dbs) /\ desc lt_highest L /\ desc lt_highest N.
Proof.
  intros OK. cbv zeta.
  pose proof (fun p => Forall_filter repo_ok p dbs OK) as Sub.
  destruct (merged_spec _ (Sub (fun r => fst r))) as [Pl Sl].
  destruct (merged_spec _ (Sub (fun r => negb (fst r)))) as [Pn Sn].
  repeat split; try assumption.
  - eapply Permutation_Forall; [symmetry; exact Pl | apply offered_live; [apply Sub|]].
    apply Forall_forall. intros r Ir. apply filter_In in Ir. apply Ir.
  - eapply Permutation_Forall; [symmetry; exact Pn | apply offered_live; [apply Sub|]].
    apply Forall_forall. intros r Ir. apply filter_In in Ir. apply negb_true_iff, Ir.
  - rewrite Pl, Pn. unfold offered. rewrite <- flat_map_app. apply offered_perm, filter_partition_perm.
Qed.
Lemma live_head (L N : list cand) x :
  Forall (fun c => clive c = true) L -> Forall (fun c => clive c = false) N ->
  In x (L ++ N) -> clive x = true -> exists h tl, L ++ N = h :: tl /\ clive h = true.
Proof.
  intros Fl Fn Ix Lx. destruct L as [|h tl]; [|exists h, (tl ++ N); inversion Fl; auto].
  rewrite Forall_forall in Fn. rewrite (Fn x Ix) in Lx. discriminate.
Qed.

(* non-vacuity: two repositories, an installed 1.0 and source 1.0 / 2.0 / 0.9 *)
Definition s_a : str := [97]%N.
Definition v10 : str := [49;46;48]%N.  Definition v20 : str := [50;46;48]%N.  Definition v09 : str := [48;46;57]%N.
Definition ex_dbs : list repo :=
  [ (false, [(mkc s_a s_a v10 None false 1, true); (mkc s_a s_a v20 None false 2, true); (mkc s_a s_a v09 None false 3, true)]);
    (true,  [(mkc s_a s_a v10 None true 4, true)]) ].
Example ex_dbs_ok : Forall repo_ok ex_dbs.
Proof. repeat constructor. Qed.
Example ex_highest : map ctag (prefer_highest ex_dbs) = [2;4;1;3]%N.
Proof. vm_compute. reflexivity. Qed.
Example ex_reuse : map ctag (prefer_reuse ex_dbs) = [4;2;1;3]%N.
Proof. vm_compute. reflexivity. Qed.
