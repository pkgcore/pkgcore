(* Prop_C25.v — the property theorems of C25, each followed by the audit of its assumptions. *)
From Coq Require Import List Bool Permutation.
Import ListNotations.
From Verif Require Import C25.Path_C25 C25.Model_C25 C25.Spec_C25 C25.SpecExt_C25 C25.SpecSym_C25 C25.Proofs_C25
                          C25.RoundtripExt_C25 C25.SymDir_C25.

(* an archive without members reads as the empty set *)
Theorem empty_archive : of_members [] = Ok [].
Proof. reflexivity. Qed.
Print Assumptions empty_archive.

(* the "./"-prefixed member name (and hardlink name) written for a location is read back as that
   location, and the member is not taken for the archive's own "./" root, which the reader skips *)
Theorem name_roundtrip : forall l, plain_loc l ->
  loc_of_name (member_name l) = l /\ loc_of_link (member_name l) = l
  /\ strip_sl (member_name l) <> dot.
Proof. exact name_roundtrip_proof. Qed.
Print Assumptions name_roundtrip.

(* The round trip, for every contents set of the kind a scan of a directory tree yields (distinct
   normalised paths, no entry beneath a symlink, parents present), in any iteration order, of any
   size: reading back what was written succeeds, returns exactly the written entries with equal
   path/type/mode/owner/mtime/target/data/device, and two files share an inode afterwards iff they
   were the same file (same path or same known (dev,inode)) before. *)
Theorem tar_roundtrip : forall c, wf c -> flat c -> parents_closed c ->
  exists r, of_members (to_members c) = Ok r /\ roundtrip_ok c r.
Proof.
  intros c Hwf Hflat Hcl. destruct (tar_roundtrip_dirs_proof c Hwf Hflat) as (r & E & H).
  exists r. split; [exact E|]. apply roundtrip_dirs_closed; assumption.
Qed.
Print Assumptions tar_roundtrip.

(* The round trip without [parents_closed] ("parents present or added"): for every well-formed set with
   no entry beneath a symlink, whatever directories are missing from it, what is read back is the written
   set (entries unchanged, hardlink classes preserved) plus exactly the missing ancestor directories:
   each extra entry is a fresh 0o775 root:root directory at an absent proper ancestor (not "/") of a
   written entry, every such ancestor is there, and no path occurs twice. *)
Theorem tar_roundtrip_dirs : forall c, wf c -> flat c ->
  exists r, of_members (to_members c) = Ok r /\ roundtrip_dirs_ok c r.
Proof. exact tar_roundtrip_dirs_proof. Qed.
Print Assumptions tar_roundtrip_dirs.

(* The round trip beyond [flat]: a set with entries recorded beneath ONE symlinked directory x (any
   number of them, none itself a symlink; x resolves to a plain path; no collisions) reads back as its
   live-merge resolution [resolve_syms x c] -- every entry beneath x moved to x's resolved target, all
   else unchanged, hardlink classes preserved -- plus exactly the missing ancestor directories. *)
Theorem tar_roundtrip_symdir : forall c x, wf c -> one_symdir c x ->
  exists r, of_members (to_members c) = Ok r /\ roundtrip_dirs_ok (resolve_syms x c) r.
Proof.
  intros c x Hwf Hx. rewrite resolve_syms_relocate. apply roundtrip_via; [exact Hwf| |].
  - rewrite <- map_loc_relocate, <- resolve_syms_relocate. apply (os_nodup c x Hx).
  - intros raw RB ND Hp. rewrite <- resolve_syms_relocate. apply (convert_symdir c); assumption.
Qed.
Print Assumptions tar_roundtrip_symdir.

(* read side alone, for the entries of ANY archive: a flat, parent-closed set of distinct plain
   locations is only reordered by convert_archive (nothing rewritten, nothing added) *)
Theorem read_flat_reorders : forall raw,
  NoDup (map loc raw) -> plain_locs raw -> flat_d raw -> closed_d raw ->
  exists r, convert raw = Ok r /\ Permutation r raw.
Proof. exact convert_flat. Qed.
Print Assumptions read_flat_reorders.

(* the full statement about symlinked directories ("resolved as for a live merge": afterwards nothing
   lies beneath a symlink) is false of the faithful model for chains of directory symlinks
   (known finding symdir-chain; witness replayed on the implementation by the check) *)
Theorem symdirs_resolved_refuted : ~ symdirs_resolved_full_statement.
Proof.
  intros H. destruct chain_set_read as (r & E & B).
  apply existsb_exists in B as (s & Hs & B). apply andb_true_iff in B as [S B].
  apply existsb_exists in B as (e & He & B).
  apply (H chain_set r (nodupb_ok (map loc chain_set) eq_refl) E s e Hs He).
  - apply kind_eqb_eq. exact S.
  - apply beneathb_iff. exact B.
Qed.
Print Assumptions symdirs_resolved_refuted.
