From Coq Require Import List NArith Bool.
Import ListNotations.
From Verif Require Import Base.Lists C15.Model_C15 C15.Spec_C15 C15.Proofs_C15 gen.Tables_choice_point.

(* a plan the checker accepts satisfies the statement: targets met, every clause of the five
   dependency classes of every merged package has a satisfied alternative, at most one package
   per (key, slot), nothing matched by a blocker of another planned package *)
Theorem check_plan_sound : forall c, check_plan c = true -> ValidPlan c.
Proof. intro c. apply check_plan_iff. Qed.
Print Assumptions check_plan_sound.

(* and a plan it rejects really violates the statement *)
Theorem check_plan_complete : forall c, ValidPlan c -> check_plan c = true.
Proof. intro c. apply check_plan_iff. Qed.
Print Assumptions check_plan_complete.

(* the rejection names the clause of the statement that fails *)
Theorem check_plan_why_correct : forall c,
  match check_plan_why c with
  | 0%N => ValidPlan c
  | 1%N => ~ OpsOk c (installed c) (cops c)
  | 2%N => ~ TargetsMet c
  | 3%N => ~ DepsClosed c
  | 4%N => ~ SlotsUnique c
  | _ => ~ NoBlocked c
  end.
Proof.
  intro c. unfold check_plan_why. cbv zeta.
  destruct (ops_okb c (installed c) (cops c)) eqn:E1; cbn; [|rewrite <- ops_okb_iff; congruence].
  destruct (targets_okb c (final_state c)) eqn:E2; cbn; [|rewrite <- targets_iff; congruence].
  destruct (forallb (closedb c (final_state c)) (merged c)) eqn:E3; cbn; [|rewrite <- closed_iff; congruence].
  destruct (slots_okb c (final_state c)) eqn:E4; cbn; [|rewrite <- slots_iff; congruence].
  destruct (blockers_okb c (final_state c)) eqn:E5; cbn; [|rewrite <- blockers_iff; congruence].
  apply check_plan_iff. unfold check_plan. cbv zeta. rewrite E1, E2, E3, E4, E5. reflexivity.
Qed.
Print Assumptions check_plan_why_correct.

(* the final state is a set *)
Theorem final_state_nodup : forall c, NoDup (final_state c).
Proof. intro c. apply fold_step_nodup, installed_from_nodup. Qed.
Print Assumptions final_state_nodup.

(* choice_point.py: each dependency class reads its own attribute, and all five
   iterators are filtered by reduce_atoms (table regenerated from the source on every run) *)
Theorem each_class_reads_its_own_attribute :
  (forall cl, In cl five_classes -> reads cl = Some cl)
  /\ (forall cl, In cl five_classes -> exists slot, assoc cl prop_slots = Some slot /\ In slot reduce_names).
Proof.
  pose proof table_ok_true as T. unfold table_ok in T. rewrite !andb_true_iff, !forallb_forall in T.
  destruct T as [[[T1 T2] _] _]. split; intros cl I; [apply opt_eqb_eq, T1, I|].
  specialize (T2 cl I). destruct (assoc cl prop_slots) as [slot|]; [|discriminate].
  exists slot. split; [reflexivity | apply existsb_str_In, T2].
Qed.
Print Assumptions each_class_reads_its_own_attribute.
