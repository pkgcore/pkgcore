(* C32: what `return ${ret}` makes of a status text, and so which failure codes the bash side misreports
   (finding status-multiple-of-256). *)
From Coq Require Import List ZArith Bool Lia String.
From Verif Require Import C32.Model_C32 C32.Proofs_C32.
Import ListNotations.
Local Open Scope N_scope.

Lemma dec_N_digits n : forallb is_dig (dec_N n) = true.
Proof.
  apply forallb_forall. intros c Hc. apply dec_N_chars in Hc. unfold is_dig.
  apply andb_true_iff. split; apply N.leb_le; lia.
Qed.

Lemma dec_N_0 : dec_N 0 = [48].
Proof. reflexivity. Qed.
Lemma dec_N_is_zero n : dec_N n = [48] <-> n = 0.
Proof. split; [apply dec_N_zero|intros ->; reflexivity]. Qed.

Lemma exit_status_pos n : exit_status (dec_N n) = dec_N (n mod 256).
Proof.
  unfold exit_status.
  destruct (dec_N n) as [|c r] eqn:E; [exfalso; now apply (dec_N_nonempty n)|].
  assert (Hc : 48 <= c /\ c <= 57) by (apply (dec_N_chars n); rewrite E; now left).
  assert (Hd : forallb is_dig (c :: r) = true) by (rewrite <- E; apply dec_N_digits).
  assert (Hn : num (c :: r) = n) by (rewrite <- E; apply num_dec_N).
  destruct (N.eqb_spec c 45) as [->|Hne]; [lia|].
  replace (match c with 45 => _ | _ => _ end) with
      (if forallb is_dig (c :: r) then dec_N (num (c :: r) mod 256) else [50]).
  - now rewrite Hd, Hn.
  - destruct c as [|p]; [reflexivity|].
    do 6 (destruct p as [p|p|]; try reflexivity). all: try (exfalso; apply Hne; reflexivity).
Qed.

Lemma exit_status_neg p :
  exit_status (45 :: dec_N (N.pos p)) = dec_N ((256 - N.pos p mod 256) mod 256).
Proof.
  unfold exit_status.
  destruct (dec_N (N.pos p)) as [|c r] eqn:E; [exfalso; now apply (dec_N_nonempty (N.pos p))|].
  assert (Hd : forallb is_dig (c :: r) = true) by (rewrite <- E; apply dec_N_digits).
  assert (Hn : num (c :: r) = N.pos p) by (rewrite <- E; apply num_dec_N).
  cbn match. now rewrite Hd, Hn.
Qed.

(* what the caller of a nonfatal helper sees in $?: the code modulo 256 *)
Theorem caller_sees_code_mod_256_proof code :
  exit_status (dec_Z code) = dec_N (Z.to_N (code mod 256)).
Proof.
  destruct code as [|p|p]; cbn [dec_Z].
  - reflexivity.
  - change (dec_N (Z.to_N (Z.pos p))) with (dec_N (N.pos p)). rewrite exit_status_pos. f_equal.
    rewrite Z2N.inj_mod by lia. reflexivity.
  - rewrite exit_status_neg. f_equal. apply N2Z.inj.
    rewrite Z2N.id by (apply Z.mod_pos_bound; reflexivity).
    assert (Hm : N.pos p mod 256 < 256) by (apply N.mod_upper_bound; discriminate).
    rewrite N2Z.inj_mod, N2Z.inj_sub by lia. rewrite N2Z.inj_mod.
    change (Z.of_N (N.pos p)) with (Z.pos p). change (Z.of_N 256) with 256%Z.
    change (Z.neg p) with (- Z.pos p)%Z. Z.div_mod_to_equations. lia.
Qed.

(* finding status-multiple-of-256, exactly: a failure code is taken for success by the caller iff it
   is a non-zero multiple of 256 *)
Theorem misreported_codes_proof code :
  code <> 0%Z -> (exit_status (dec_Z code) = [48] <-> (code mod 256 = 0)%Z).
Proof.
  intros _. rewrite caller_sees_code_mod_256_proof, dec_N_is_zero.
  pose proof (Z.mod_pos_bound code 256 eq_refl). lia.
Qed.

Example misreported_256 : exit_status (dec_Z 256) = [48] /\ exit_status (dec_Z 512) = [48]
                          /\ exit_status (dec_Z 255) = lit "255" /\ exit_status (dec_Z (-1)) = lit "255"
                          /\ exit_status (dec_Z 300) = lit "44".
Proof. vm_compute. repeat split. Qed.
