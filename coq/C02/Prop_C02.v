From Coq Require Import List ZArith.
Import ListNotations.
From Verif Require Import Base.Val C01.Model_C01 C01.Order_C01
  C01.Proofs_C01 C02.Model_C02 C02.Spec_C02 C02.Proofs_C02.

(* CPVs: every clause of the statement holds of ==,!=,<,<=,>,>= and the hash key, for ALL pairs,
   except "equal => equal hashes" inside the known class [cpv_known] (same category/package, version
   texts differ).  [cpv_parse] is the unmodelled CPV parser: only "the fields are a function of the
   normalised text" is assumed. *)
Theorem cpv_six_ops_consistent :
  forall cpv_parse a b, cpv_consistent cpv_parse a -> cpv_consistent cpv_parse b ->
    cpv_clauses a b (cpv_obs a b) = true.
Proof.
  intros cpv_parse a b Ca Cb. unfold cpv_clauses. rewrite (cpv_obs_of_cmp cpv_parse a b Ca Cb).
  destruct (order_clauses_of_Z (cpv_cmp a b) (str_eqb (cpv_hash_key a) (cpv_hash_key b)))
    as (-> & -> & -> & -> & -> & ->).
  unfold cl_eq_hash. cbn [o_eq o_hash obs_of].
  rewrite <- (proj1 (cpv_ops_proof a b)), cpv_hash_clause. reflexivity.
Qed.
Print Assumptions cpv_six_ops_consistent.

(* ... and the operators are those of one antisymmetric order *)
Theorem cpv_ops_symmetric :
  forall cpv_parse a b, cpv_valid a -> cpv_valid b -> cpv_consistent cpv_parse a -> cpv_consistent cpv_parse b ->
    cpv_eq2 a b = cpv_eq2 b a /\ cpv_lt a b = cpv_gt b a /\ cpv_le a b = cpv_ge b a.
Proof.
  intros cpv_parse a b Va Vb Ca Cb. rewrite !(cpv_eq2_eq cpv_parse) by assumption.
  destruct (cpv_ops_proof a b) as (-> & _ & -> & -> & _ & _).
  destruct (cpv_ops_proof b a) as (-> & _ & _ & _ & -> & ->).
  destruct (cpv_order_proof a b a Va Vb Va) as (_ & _ & -> & _).
  destruct (cpv_cmp a b); cbn; repeat split; reflexivity.
Qed.
Print Assumptions cpv_ops_symmetric.

(* equal CPVs with the same version text have the same hash key (the part of eq => hash that holds) *)
Theorem cpv_eq_hash_partial :
  forall a b, cpv_eq a b = true -> ver a = ver b -> cpv_hash_key a = cpv_hash_key b.
Proof. exact cpv_eq_same_text_key. Qed.
Print Assumptions cpv_eq_hash_partial.

(* the full clause is false of the faithful model: 1.0 == 1.00 and _alpha == _alpha0, different hash keys *)
Theorem cpv_eq_hash_refuted :
  (cpv_eq2 (mk_cpv [49;46;48]%N) (mk_cpv [49;46;48;48]%N) = true
   /\ cpv_hash_key (mk_cpv [49;46;48]%N) <> cpv_hash_key (mk_cpv [49;46;48;48]%N)
   /\ cpv_known (mk_cpv [49;46;48]%N) (mk_cpv [49;46;48;48]%N) = true)
  /\ (cpv_eq2 (mk_cpv [49;95;97;108;112;104;97]%N) (mk_cpv [49;95;97;108;112;104;97;48]%N) = true
      /\ cpv_hash_key (mk_cpv [49;95;97;108;112;104;97]%N) <> cpv_hash_key (mk_cpv [49;95;97;108;112;104;97;48]%N)).
Proof. exact Proofs_C02.cpv_eq_hash_refuted. Qed.
Print Assumptions cpv_eq_hash_refuted.

(* atoms: every clause holds for ALL pairs outside the known classes
     k_strength  (! vs !!)            : excuses eq => hash, eq => unordered, le/ge
     k_use_order (USE deps reordered) : excuses eq => hash
     k_blind     (sub-slot, slot operator or cpv text differ) : excuses neq => ordered, le/ge
   [atom_parse] is the unmodelled parser: only "category/package/version/revision are a function
   of operator and cpv text" and "a slot is never empty" are assumed. *)
Theorem atom_clauses_outside_known_classes :
  forall atom_parse a b, atom_consistent atom_parse a -> atom_consistent atom_parse b ->
    slot_wf a -> slot_wf b -> atom_clauses a b (atom_obs a b) = true.
Proof. exact atom_clauses_proof. Qed.
Print Assumptions atom_clauses_outside_known_classes.

Theorem atom_eq_hash_partial :
  forall a b, atom_eq a b = true -> k_strength a b = false -> k_use_order a b = false ->
    atom_hash_key a = atom_hash_key b.
Proof. exact atom_eq_hash_outside. Qed.
Print Assumptions atom_eq_hash_partial.

Theorem atom_eq_unordered_partial :
  forall atom_parse a b, atom_consistent atom_parse a -> atom_consistent atom_parse b ->
    atom_eq a b = true -> k_strength a b = false -> atom_cmp a b = 0%Z.
Proof. exact atom_eq_cmp_zero. Qed.
Print Assumptions atom_eq_unordered_partial.

Theorem atom_neq_strict_partial :
  forall a b, slot_wf a -> slot_wf b -> atom_cmp a b = 0%Z -> k_blind a b = false -> atom_eq a b = true.
Proof. exact atom_cmp_zero_eq. Qed.
Print Assumptions atom_neq_strict_partial.

(* the full clauses are false of the faithful model (witnesses, replayed on the implementation) *)
Theorem atom_blocker_strength_refuted :
  let x := weak (mk_atom true [] ab None None None) in let y := mk_atom true [] ab None None None in
  atom_eq x y = true /\ atom_hash_key x <> atom_hash_key y /\ atom_lt x y = true
  /\ k_strength x y = true /\ cl_eq_hash (atom_obs x y) = false /\ cl_eq_unordered (atom_obs x y) = false.
Proof. vm_compute. repeat split; try reflexivity; discriminate. Qed.
Print Assumptions atom_blocker_strength_refuted.

Theorem atom_use_order_refuted :
  let x := mk_atom false [] ab (Some [[120]; [121]]%N) None None in
  let y := mk_atom false [] ab (Some [[121]; [120]]%N) None None in
  atom_eq x y = true /\ atom_hash_key x <> atom_hash_key y /\ k_use_order x y = true
  /\ k_strength x y = false /\ cl_eq_hash (atom_obs x y) = false.
Proof. vm_compute. repeat split; try reflexivity; discriminate. Qed.
Print Assumptions atom_use_order_refuted.

Theorem atom_cmp_blind_refuted :
  (let x := mk_atom false [] ab None (Some [49]%N) None in let y := mk_atom false [] ab None (Some [50]%N) None in
   atom_eq x y = false /\ atom_cmp x y = 0%Z /\ k_blind x y = true /\ cl_neq_strict (atom_obs x y) = false)
  /\ (let x := mk_atom false [61]%N [97;47;98;45;49;46;48]%N None None (Some [49;46;48]%N) in
      let y := mk_atom false [61]%N [97;47;98;45;49;46;48;48]%N None None (Some [49;46;48;48]%N) in
      atom_eq x y = false /\ atom_cmp x y = 0%Z /\ k_blind x y = true /\ cl_neq_strict (atom_obs x y) = false).
Proof. vm_compute. repeat split. Qed.
Print Assumptions atom_cmp_blind_refuted.

(* atom.__cmp__ is a total preorder on parsed atoms with valid versions, and <,<=,>,>= are its
   mutually consistent operators (so sorting atoms is well defined, whatever == says) *)
Theorem atom_cmp_total_preorder :
  forall a b c, atom_valid a -> atom_valid b -> atom_valid c ->
    (atom_cmp a b = (-1)%Z \/ atom_cmp a b = 0%Z \/ atom_cmp a b = 1%Z)
    /\ atom_cmp a a = 0%Z
    /\ atom_cmp b a = (- atom_cmp a b)%Z
    /\ ((atom_cmp a b <= 0)%Z -> (atom_cmp b c <= 0)%Z -> (atom_cmp a c <= 0)%Z)
    /\ (atom_cmp a b = 0%Z -> atom_cmp a c = atom_cmp b c)
    /\ atom_lt a b = atom_gt b a /\ atom_le a b = atom_ge b a
    /\ atom_le a b = negb (atom_gt a b) /\ atom_ge a b = negb (atom_lt a b).
Proof.
  intros a b c Va Vb Vc. unfold atom_lt, atom_le, atom_gt, atom_ge.
  destruct (atom_cmp_keys a b c Va Vb Vc) as (ka & kb & kc & -> & -> & E & -> & ->). rewrite E.
  destruct (good_laws _ good_akcmp ka kb kc) as (R & Z0 & A & T & C).
  repeat split; try assumption; rewrite ?A; destruct (akcmp ka kb); reflexivity.
Qed.
Print Assumptions atom_cmp_total_preorder.
