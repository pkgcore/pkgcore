(* Proofs_C23.v — bit lemmas, the pre-merge stage as a map over the entries, and what that map
   does to one entry; the property theorems are in Prop_C23.v. *)
From Coq Require Import List NArith Bool.
Import ListNotations.
From Verif Require Import gen.Tables_triggers_perms C23.Model_C23 C23.Spec_C23.
Local Open Scope N_scope.

Lemma land_zero_iff m k : N.land m k = 0 <-> forall i, N.testbit k i = true -> N.testbit m i = false.
Proof.
  split.
  - intros H i Hk.
    assert (E : N.testbit (N.land m k) i = false) by (rewrite H; apply N.bits_0).
    rewrite N.land_spec, Hk, andb_true_r in E. exact E.
  - intro H. apply N.bits_inj. intro i. rewrite N.land_spec, N.bits_0.
    destruct (N.testbit k i) eqn:Hk; [rewrite (H i Hk) | rewrite andb_false_r]; reflexivity.
Qed.

(* every bit of a is a bit of b *)
Definition subset (a b : N) : Prop := N.ldiff a b = 0.

Lemma subset_spec a b : subset a b <-> forall i, N.testbit a i = true -> N.testbit b i = true.
Proof.
  unfold subset. split.
  - intros H i Ha.
    assert (E : N.testbit (N.ldiff a b) i = false) by (rewrite H; apply N.bits_0).
    rewrite N.ldiff_spec, Ha in E. cbn in E. apply negb_false_iff in E. exact E.
  - intro H. apply N.bits_inj. intro i. rewrite N.ldiff_spec, N.bits_0.
    destruct (N.testbit a i) eqn:Ha; [rewrite (H i Ha)|]; reflexivity.
Qed.

Lemma land_zero_subset m a b : subset a b -> N.land m b = 0 -> N.land m a = 0.
Proof.
  rewrite subset_spec, !land_zero_iff. intros S H i Ha. apply H, S, Ha.
Qed.

Lemma land_ldiff_zero m c a : subset a c -> N.land (N.ldiff m c) a = 0.
Proof.
  rewrite subset_spec, land_zero_iff. intros S i Ha.
  rewrite N.ldiff_spec, (S i Ha). apply andb_false_r.
Qed.

Lemma ldiff_ldiff_subset m w k : subset w k -> N.ldiff (N.ldiff m w) k = N.ldiff m k.
Proof.
  rewrite subset_spec. intro S. apply N.bits_inj. intro i. rewrite !N.ldiff_spec.
  destruct (N.testbit w i) eqn:Hw; [rewrite (S i Hw), !andb_false_r | rewrite andb_true_r]; reflexivity.
Qed.

Lemma nz_true x : nz x = true <-> x <> 0.
Proof. unfold nz. rewrite negb_true_iff, N.eqb_neq. reflexivity. Qed.
Lemma nz_false x : nz x = false <-> x = 0.
Proof. unfold nz. rewrite negb_false_iff, N.eqb_eq. reflexivity. Qed.

(* How the masks regenerated from triggers.py relate to the POSIX constants of the spec.
   These are re-checked by the kernel against today's table on every build. *)
Lemma table_masks :
  subset S_ISUGID sb_sel_setid /\ subset sb_sel_setid S_ISUGID /\
  subset S_IWOTH sb_sel_ww /\ subset sb_sel_ww S_IWOTH /\
  subset sb_wipe (N.lor S_ISUGID S_IWOTH).
Proof. unfold subset. repeat split; vm_compute; reflexivity. Qed.

(* what is wiped covers the world-writable bit, or covers both set-id bits: either suffices for
   harden_mode_safe, and the proof takes whichever today's table satisfies *)
Lemma table_wipe : subset S_IWOTH sb_wipe \/ subset S_ISUGID sb_wipe.
Proof. unfold subset. first [left; vm_compute; reflexivity | right; vm_compute; reflexivity]. Qed.

Lemma table_ww : subset S_IWOTH ww_sel /\ subset S_IWOTH ww_wipe.
Proof. unfold subset. split; vm_compute; reflexivity. Qed.

Lemma table_roots : root_uid = ROOT /\ root_gid = ROOT.
Proof. split; vm_compute; reflexivity. Qed.

Lemma land_nonzero_same m a b : subset a b -> subset b a -> (N.land m a <> 0 <-> N.land m b <> 0).
Proof. intros Sab Sba. split; intros H Z; apply H; eapply land_zero_subset; eassumption. Qed.

Lemma unsafe_iff m : unsafe m = true <-> mode_unsafe m.
Proof.
  destruct table_masks as (S1 & S2 & S3 & S4 & _).
  unfold unsafe, mode_unsafe.
  rewrite andb_true_iff, !nz_true, (land_nonzero_same m _ _ S2 S1), (land_nonzero_same m _ _ S4 S3).
  reflexivity.
Qed.

Lemma mode_unsafeb_iff m : mode_unsafeb m = true <-> mode_unsafe m.
Proof.
  unfold mode_unsafeb, mode_unsafe. rewrite andb_true_iff, !negb_true_iff, !N.eqb_neq. reflexivity.
Qed.

(* detect_world_writable(fix_perms=True) clears the world-writable bit of every mode *)
Lemma unww_mode_clears m : N.land (unww_mode m) S_IWOTH = 0.
Proof.
  destruct table_ww as [S1 S2]. unfold unww_mode, ww. destruct (nz _) eqn:W.
  - apply land_ldiff_zero. exact S2.
  - apply nz_false in W. exact (land_zero_subset m _ _ S1 W).
Qed.

(* non-vacuity: the hardening does something, on a setuid and on a setgid mode, and keeps type bits *)
Example harden_4777 : harden_mode 2559 <> 2559 /\ N.ldiff (harden_mode 2559) 3074 = 509.   (* 0o4777 -> 0o775 *)
Proof. split; vm_compute; [discriminate | reflexivity]. Qed.
Example harden_2777_dir : N.ldiff (harden_mode (16384 + 1535)) 3074 = 16384 + 509.   (* 0o42777 -> 0o40775 *)
Proof. vm_compute. reflexivity. Qed.
Example harden_4755 : harden_mode 2541 = 2541.         (* 0o4755: set-id, not world-writable *)
Proof. vm_compute. reflexivity. Qed.
Example unsafe_4777 : mode_unsafe 2559.
Proof. split; vm_compute; discriminate. Qed.

(* one trigger on one entry; [ok] is modes_ok of the WHOLE content set: when it fails the mode
   triggers raise and leave every entry as it was (engine_step_fst) *)
Definition step_entry (ok : bool) (t : trig) (e : entry) : entry :=
  match t with
  | FixUid b g => if oeqb (uid e) b then set_uid e (Some g) else e
  | FixGid b g => if oeqb (gid e) b then set_gid e (Some g) else e
  | FixSetBits => if ok then upd_mode sel_set_bits (fun m => N.ldiff m sb_wipe) e else e
  | DetectWW fp => if ok && fp then upd_mode sel_ww (fun m => N.ldiff m ww_wipe) e else e
  | NoCset => e
  end.
Definition entry_pipe (ok : bool) (ts : list trig) (e : entry) : entry :=
  fold_left (fun e t => step_entry ok t e) ts e.

Lemma engine_step_fst cs w t :
  fst (engine_step (cs, w) t) = map (step_entry (modes_ok cs) t) cs.
Proof.
  unfold engine_step. cbn [fst snd].
  destruct t as [b g|b g| |fp|]; cbn [run_trig step_entry negb andb fst].
  - reflexivity.
  - reflexivity.
  - (* a raised TypeError leaves cs as it is: map of the identity *)
    destruct (modes_ok cs); cbn [fst]; [reflexivity | symmetry; apply map_id].
  - destruct (modes_ok cs), fp; cbn [fst andb]; (reflexivity || (symmetry; apply map_id)).
  - symmetry. apply map_id.
Qed.

Lemma upd_mode_sym sel f e : is_sym (upd_mode sel f e) = is_sym e.
Proof. unfold upd_mode. destruct (sel e); reflexivity. Qed.
Lemma upd_mode_has_mode sel f e : has_mode (upd_mode sel f e) = has_mode e.
Proof. unfold upd_mode, has_mode. destruct (sel e); [|reflexivity]. cbn. destruct (mode e); reflexivity. Qed.

Lemma step_entry_keeps_sym_mode ok t e :
  is_sym (step_entry ok t e) = is_sym e /\ has_mode (step_entry ok t e) = has_mode e.
Proof.
  destruct t as [b g|b g| |fp|]; cbn [step_entry].
  - destruct (oeqb (uid e) b); split; reflexivity.
  - destruct (oeqb (gid e) b); split; reflexivity.
  - destruct ok; [split; [apply upd_mode_sym | apply upd_mode_has_mode] | split; reflexivity].
  - destruct (ok && fp); [split; [apply upd_mode_sym | apply upd_mode_has_mode] | split; reflexivity].
  - split; reflexivity.
Qed.

Lemma modes_ok_step ok t cs : modes_ok (map (step_entry ok t) cs) = modes_ok cs.
Proof.
  unfold modes_ok. induction cs as [|e cs IH]; cbn; [reflexivity|].
  destruct (step_entry_keeps_sym_mode ok t e) as [-> ->]. rewrite IH. reflexivity.
Qed.

(* engine.pre_merge() transforms new_cset entry by entry; the only global influence is whether
   every non-symlink entry has a mode *)
Lemma run_trigs_is_map ts : forall cs w,
  fst (fold_left engine_step ts (cs, w)) = map (entry_pipe (modes_ok cs) ts) cs.
Proof.
  induction ts as [|t ts IH]; intros cs w; cbn [fold_left].
  - symmetry. apply map_id.
  - rewrite (surjective_pairing (engine_step (cs, w) t)), IH, engine_step_fst, modes_ok_step, map_map.
    reflexivity.
Qed.

(* triggers that do not take new_cset do not matter *)
Definition touches_cset (t : trig) : bool := match t with NoCset => false | _ => true end.
Lemma entry_pipe_filter ok ts : forall e,
  entry_pipe ok ts e = entry_pipe ok (filter touches_cset ts) e.
Proof.
  unfold entry_pipe. induction ts as [|t ts IH]; intro e; cbn [fold_left filter]; [reflexivity|].
  destruct t; cbn [touches_cset fold_left step_entry]; apply IH.
Qed.

Definition installing (mode : N) : Prop := mode = INSTALL_MODE \/ mode = REPLACE_MODE.

(* computed from today's table: the default triggers an install/replace engine runs at pre_merge
   that receive new_cset, in execution order (priority, then registration order, which is the
   reverse (priority, name) order of default_plugins_triggers) *)
Theorem pre_merge_order_proof : forall emode cfg, installing emode ->
  filter touches_cset (pre_merge_trigs emode cfg) =
  [FixUid (fst cfg) root_uid; FixSetBits; FixGid (snd cfg) root_gid; DetectWW false].
Proof.
  intros emode [u g] [-> | ->]; vm_compute; reflexivity.
Qed.

Theorem uninstall_runs_no_pre_merge_proof : forall cfg, pre_merge_trigs UNINSTALL_MODE cfg = [].
Proof. intros [u g]. vm_compute. reflexivity. Qed.

Definition harden_entry (ok : bool) (cfg : N * N) (e : entry) : entry :=
  entry_pipe ok [FixUid (fst cfg) root_uid; FixSetBits; FixGid (snd cfg) root_gid; DetectWW false] e.

Lemma pre_merge_is_map emode cfg cs : installing emode ->
  fst (engine_pre_merge emode cfg cs) = map (harden_entry (modes_ok cs) cfg) cs.
Proof.
  intro I. unfold engine_pre_merge, run_trigs. rewrite run_trigs_is_map.
  apply map_ext. intro e. rewrite entry_pipe_filter, (pre_merge_order_proof emode cfg I). reflexivity.
Qed.

Lemma pre_merge_nth emode cfg cs i e : installing emode -> nth_error cs i = Some e ->
  nth_error (fst (engine_pre_merge emode cfg cs)) i = Some (harden_entry (modes_ok cs) cfg e).
Proof. intros I H. rewrite (pre_merge_is_map emode cfg cs I). apply map_nth_error. exact H. Qed.

Lemma reown_oeqb b o : (if oeqb o b then Some ROOT else o) = reown b o.
Proof. unfold oeqb, reown. destruct o as [x|]; [destruct (x =? b)|]; reflexivity. Qed.

(* every trigger is an update of one field *)
Lemma if_set_uid (c : bool) e o : (if c then set_uid e o else e) = set_uid e (if c then o else uid e).
Proof. destruct c, e; reflexivity. Qed.
Lemma if_set_gid (c : bool) e o : (if c then set_gid e o else e) = set_gid e (if c then o else gid e).
Proof. destruct c, e; reflexivity. Qed.

(* fix_set_bits and detect_world_writable select by a predicate p on the mode of non-symlinks *)
Lemma upd_mode_sel (p : N -> bool) f e :
  upd_mode (fun e => negb (is_sym e) && match mode e with Some m => p m | None => false end) f e
  = set_mode e (if is_sym e then mode e else option_map (fun m => if p m then f m else m) (mode e)).
Proof.
  destruct e as [k l [m|] u g t d r]; unfold upd_mode, is_sym, set_mode; cbn; destruct (k =? 2); cbn;
    try reflexivity.
  destruct (p m); reflexivity.
Qed.

Lemma harden_entry_eq ok cfg e :
  harden_entry ok cfg e =
  mkE (kind e) (loc e) (if ok && negb (is_sym e) then option_map harden_mode (mode e) else mode e)
      (reown (fst cfg) (uid e)) (reown (snd cfg) (gid e)) (target e) (data e) (rest e).
Proof.
  unfold harden_entry, entry_pipe. cbn [fold_left step_entry]. rewrite andb_false_r.
  destruct table_roots as [-> ->].
  rewrite if_set_uid, if_set_gid, !reown_oeqb.
  unfold sel_set_bits. rewrite upd_mode_sel. fold harden_mode.
  destruct ok, e as [k l m u g t d r]; unfold set_gid, set_mode, set_uid, is_sym; cbn;
    destruct (k =? 2); reflexivity.
Qed.

Lemma reown_not_build b o : b <> ROOT -> reown b o <> Some b.
Proof.
  intro H. unfold reown. destruct o as [x|]; [|discriminate].
  destruct (N.eqb_spec x b); congruence.
Qed.

Lemma modes_ok_iff cs : modes_ok cs = true <-> well_formed cs.
Proof.
  unfold modes_ok, well_formed. rewrite forallb_forall. split.
  - intros H e Hin Hs Hm. specialize (H e Hin). rewrite Hs in H. cbn in H.
    unfold has_mode in H. rewrite Hm in H. discriminate.
  - intros H e Hin. destruct (is_sym e) eqn:Hs; [reflexivity|]. cbn.
    unfold has_mode. specialize (H e Hin Hs). destruct (mode e); [reflexivity | contradiction].
Qed.

(* the well_formed premise of no_suid_world_writable is needed: one mode-less non-symlink entry
   makes fix_set_bits raise TypeError, the engine suppresses it, and no entry is hardened *)
Definition no_suid_world_writable_unconditional : Prop :=
  forall emode cfg cs, installing emode ->
  forall e' m, In e' (fst (engine_pre_merge emode cfg cs)) ->
    is_sym e' = false -> mode e' = Some m -> ~ mode_unsafe m.

(* non-vacuity of the stage theorems: a concrete content set on which every clause is exercised *)
Example stage_example :
  fst (engine_pre_merge INSTALL_MODE (250, 251)
         [mkE 0 1 (Some 2559) (Some 250) (Some 251) None (Some 7) 3;     (* file 0o4777 portage:portage *)
          mkE 1 2 (Some 1535) (Some 0) (Some 251) None None 4;           (* dir 0o2777 root:portage *)
          mkE 2 3 (Some 3583) (Some 250) (Some 100) (Some 9) None 5;     (* symlink 0o6777 portage:users *)
          mkE 0 4 (Some 2541) (Some 1000) (Some 100) None (Some 8) 6])   (* file 0o4755 user:users *)
  = [mkE 0 1 (Some (harden_mode 2559)) (Some 0) (Some 0) None (Some 7) 3;     (* 0o775 *)
     mkE 1 2 (Some (harden_mode 1535)) (Some 0) (Some 0) None None 4;
     mkE 2 3 (Some 3583) (Some 0) (Some 100) (Some 9) None 5;
     mkE 0 4 (Some 2541) (Some 1000) (Some 100) None (Some 8) 6].
Proof. vm_compute. reflexivity. Qed.

Example well_formed_example :
  well_formed [mkE 0 1 (Some 2559) (Some 250) (Some 251) None (Some 7) 3; mkE 2 3 None None None (Some 9) None 5].
Proof. apply modes_ok_iff. vm_compute. reflexivity. Qed.
