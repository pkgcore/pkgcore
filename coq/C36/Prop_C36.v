(* [fetch H i] = (result, final file at distdir/filename, events); for every checksum function H,
   target, URI list, outcome sequence of any length, attempt budget and initial file. *)
From Coq Require Import List Arith.
From Verif Require Import C36.Model_C36 C36.Spec_C36 C36.Proofs_C36.

(* a fetch returns a path only if the file there has the expected size and every checksum *)
Theorem only_verified : forall H i ff ev,
  fetch H i = (RPath, ff, ev) -> verified H (tgt i) ff.
Proof. intros H i ff ev E. eapply Run_only_verified; [apply fetch_Run, E | reflexivity]. Qed.
Print Assumptions only_verified.

(* a file with a wrong checksum (or size) is never reported as fetched *)
Theorem never_wrong_checksum : forall H i ff ev,
  fetch H i = (RPath, ff, ev) -> ~ wrong_checksum H (tgt i) ff /\ ~ wrong_size (tgt i) ff.
Proof.
  intros H i ff ev E. apply only_verified in E as [_ [d [-> [[S1 _] D]]]]. split.
  - intros [d' [a [v [[= <-] [Hin Hne]]]]]. apply Hne. now apply D.
  - intros [d' [n [[= <-] [Hs Hne]]]]. apply Hne. now apply S1.
Qed.
Print Assumptions never_wrong_checksum.

(* it does return one whenever the file is already good or some attempt leaves such a file
   (holds for the repaired loop; [legacy_last_attempt_unverified] is what the unpatched one does) *)
Theorem uses_every_attempt : forall H i r ff ev,
  fetch H i = (r, ff, ev) ->
  (verified H (tgt i) (file0 i) \/ exists e, In e ev /\ good_event H (tgt i) e) -> r = RPath.
Proof. intros H i r ff ev E. apply fetch_Run in E. exact (Run_uses_every_attempt H _ _ _ _ _ _ _ _ _ E). Qed.
Print Assumptions uses_every_attempt.

(* resumable partial files go unchanged to the resume command, which is used for nothing else,
   and a partial file present when the fetch ends is left in place *)
Theorem partial_kept_for_resume : forall H i r ff ev,
  fetch H i = (r, ff, ev) -> kept (tgt i) (file0 i) ev ff.
Proof. intros H i r ff ev E. apply fetch_Run in E. exact (Run_kept H _ _ _ _ _ _ _ _ _ E). Qed.
Print Assumptions partial_kept_for_resume.

(* a failing fetch has spent min(attempts, #URIs) commands — outside the known class: it raised
   ChksumFailure on an oversized / wrong-checksum file, which it leaves in place *)
Theorem gives_up_only_when_exhausted_partial : forall H i e ff ev,
  fetch H i = (RErr e, ff, ev) -> tbad (tgt i) = false ->
  length ev = Nat.min (attempts i) (length (uris i))
  \/ (chksum_err e /\ stuck H (tgt i) (last_state (file0 i) ev) /\ ff = last_state (file0 i) ev).
Proof. intros H i e ff ev E. apply fetch_Run in E. exact (Run_gives_up H _ _ _ _ _ _ _ _ _ E e eq_refl). Qed.
Print Assumptions gives_up_only_when_exhausted_partial.

(* an attempt within the budget whose outcome is good whatever it finds yields a path — or the
   fetch stopped before it in the known class *)
Theorem every_attempt_counts_partial : forall H i k r ff ev,
  fetch H i = (r, ff, ev) ->
  (k < Nat.min (attempts i) (length (uris i)))%nat -> robust_good H (tgt i) (nth k (outs i) idle) ->
  r = RPath \/ (exists e, r = RErr e /\ chksum_err e /\ (length ev <= k)%nat
                          /\ stuck H (tgt i) (last_state (file0 i) ev)).
Proof. intros H i k r ff ev E. apply fetch_Run in E. exact (Run_every_attempt H _ _ _ _ _ _ _ _ _ k E). Qed.
Print Assumptions every_attempt_counts_partial.

(* the full counterfactual statements are false of the code (witness: corrupt, then correct) *)
Theorem gives_up_only_when_exhausted_refuted : ~ gives_up_only_when_exhausted_full.
Proof. exact Proofs_C36.gives_up_only_when_exhausted_refuted. Qed.
Print Assumptions gives_up_only_when_exhausted_refuted.

Theorem every_attempt_counts_refuted : ~ every_attempt_counts_full.
Proof. exact Proofs_C36.every_attempt_counts_refuted. Qed.
Print Assumptions every_attempt_counts_refuted.

(* each spawned command gets the next URI, and is the scripted outcome applied to what it found *)
Theorem one_uri_per_attempt : forall H i r ff ev,
  fetch H i = (r, ff, ev) ->
  map euri ev = firstn (length ev) (uris i) /\ world_ok (has_resume i) (outs i) ev
  /\ (length ev <= Nat.min (attempts i) (length (uris i)))%nat.
Proof.
  intros H i r ff ev E. apply fetch_Run in E.
  split; [exact (Run_uris H _ _ _ _ _ _ _ _ _ E) | split; [exact (Run_world H _ _ _ _ _ _ _ _ _ E) | exact (Run_length H _ _ _ _ _ _ _ _ _ E)]].
Qed.
Print Assumptions one_uri_per_attempt.

(* the unpatched loop: one attempt, nothing in distdir => MissingDistfile whatever was downloaded *)
Theorem legacy_last_attempt_unverified : forall H hasres T u us outs,
  tbad T = false ->
  fst (fst (loop_legacy H hasres 1 T (u :: us) outs None EUnknown)) = RErr EMissing.
Proof.
  intros H hasres T u us outs B. cbn [loop_legacy].
  assert (V : verify H T None = VMissing) by (unfold verify; rewrite B; destruct (tsize T); reflexivity).
  rewrite V. cbn. destruct (pick (hd idle outs) (shown hasres CFetch)) as [a st]. reflexivity.
Qed.
Print Assumptions legacy_last_attempt_unverified.

(* a uri_list yields one URI per plain entry and per host of every mirror entry *)
Theorem uri_iter_count : forall fname l, length (uri_iter fname l) = uri_count l.
Proof. intros fname l. apply uri_iter_fuel_len, Nat.lt_succ_diag_r. Qed.
Print Assumptions uri_iter_count.
