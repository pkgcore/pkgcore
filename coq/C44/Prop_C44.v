(* Prop_C44.v — the property theorems of C44, each followed by the audit of its assumptions. *)
From Coq Require Import List Bool.
Import ListNotations.
From Verif Require Import C01.Model_C01 C04.Model_C04.
From Verif Require Import C44.Model_C44 C44.Spec_C44 C44.Proofs_C44.
From Verif Require C03.Model_C03.

(* the recursive matcher decides the shell-pattern language (a star stands for any string) *)
Theorem glob_match_is_shell : forall p s, glob_match p s = true <-> shell_match p s.
Proof. intros p s. split; [apply glob_sound | apply glob_complete]. Qed.
Print Assumptions glob_match_is_shell.

(* the regular expression convert_glob compiles (^..$, star -> dot-star, re.match) accepts exactly
   that language on newline-free values *)
Theorem regex_is_glob : forall p s, no_nl s = true -> rx_match (glob_items p) s = glob_match p s.
Proof. exact regex_is_glob_proof. Qed.
Print Assumptions regex_is_glob.

(* every accepted text selects exactly the packages it describes (repaired parse_match) *)
Theorem query_selects : forall t r p,
  wf_pkg p = true -> parse_match t = Ok r -> eval r p = describes t p.
Proof.
  intros t r p Hwf H. unfold describes, meaning_of.
  destruct (query_selects_fuel _ _ _ p Hwf H) as (m & -> & Hev). exact Hev.
Qed.
Print Assumptions query_selects.

(* a category/package text without glob and blocker marks is handed to the atom parser as a
   whole: it is accepted iff the atom is, and selects what the atom matches *)
Theorem plain_atom_same_as_atom : forall fix_ t,
  mem c_star t = false -> mem c_bang t = false -> mem c_slash (q_body (split_query t)) = true ->
  parse_match_gen fix_ t = atom_result t
  /\ forall a p, atom_result t = Ok (QAtom a) -> eval (QAtom a) p = atom_match ver_cmp (bridge a) p.
Proof.
  intros fix_ t Hs Hb Hsl. split; [|reflexivity].
  destruct (head_nostar t Hs Hb) as (rs & Hh & Hst).
  unfold parse_match_gen, atom_result. cbn [parse_match_fuel]. rewrite Hh.
  destruct (split_last_some _ _ Hsl) as (c & n & ->).
  rewrite Hst. cbn [negb]. rewrite orb_true_r.
  destruct (Model_C03.parse_atom None false (strip t)); reflexivity.
Qed.
Print Assumptions plain_atom_same_as_atom.

(* a text containing a blocker mark is rejected (unrepaired and repaired behaviour alike) *)
Theorem blocker_rejected : forall fix_ t, mem c_bang t = true -> parse_match_gen fix_ t = EParse.
Proof.
  intros fix_ t H. unfold parse_match_gen. cbn [parse_match_fuel]. unfold parse_head.
  rewrite mem_strip by reflexivity. rewrite H. reflexivity.
Qed.
Print Assumptions blocker_rejected.

(* the unrepaired parse_match: the full statement is false (">=*/alsa-*-1.1.7:0" selects slot 5 too) *)
Theorem query_selects_orig_refuted : ~ C44_orig_full_statement.
Proof.
  intros H. destruct globver_orig_differs as (Er & E1 & E2).
  specialize (H t_globver r_globver_orig alsa_lib_5 eq_refl Er). congruence.
Qed.
Print Assumptions query_selects_orig_refuted.

(* the unrepaired parse_match behaves like the repaired one on every text outside the known class
   (a text containing both ":" and "*") *)
Theorem orig_is_fixed_partial : forall t, known_class t = false -> parse_match_orig t = parse_match t.
Proof.
  intros t H. apply andb_false_iff in H as [H|H]; [apply nocolon_same, H | apply nostar_same, H].
Qed.
Print Assumptions orig_is_fixed_partial.

(* the known class of the atom clause, precisely: the head of parse_match rejects a (non-blocker) text
   exactly when its slot or sub-slot field is a star-containing token that is neither a lone star nor
   a well-formed pattern *)
Theorem head_rejects_iff : forall t, mem c_bang t = false ->
  (parse_head t = HBadGlob <-> head_rejects t = true).
Proof.
  intros t Hb. destruct (head_cases t Hb) as [[H1 H2]|[H1 [rs H2]]]; rewrite H1, H2; split; congruence.
Qed.
Print Assumptions head_rejects_iff.

(* every (non-blocker) text in that class ([head_rejects]) is rejected *)
Theorem class_rejected : forall fix_ t, mem c_bang t = false -> head_rejects t = true ->
  parse_match_gen fix_ t = EParse.
Proof.
  intros fix_ t Hb Hr. destruct (head_cases t Hb) as [[_ H2]|[H1 _]]; [|congruence].
  unfold parse_match_gen. cbn [parse_match_fuel]. rewrite H2. reflexivity.
Qed.
Print Assumptions class_rejected.

(* outside the class [head_rejects], a valid atom text that reads as an atom (a "/" left of :slot / ::repo, and a
   star there only behind a version operator) is accepted as that very atom — with or without stars
   (=cat/pkg-1*, cat/pkg:*, cat/pkg:*::repo[flag]) *)
Theorem atom_accepted_partial : forall fix_ t a,
  mem c_bang t = false -> head_rejects t = false -> atom_shaped t = true ->
  Model_C03.parse_atom None false (strip t) = Model_C03.Ok a ->
  parse_match_gen fix_ t = atom_result t
  /\ (Model_C03.a_transitive a = false -> parse_match_gen fix_ t = Ok (QAtom a)).
Proof.
  intros fix_ t a Hb Hr Hs Ha.
  destruct (head_cases t Hb) as [[H1 _]|[_ [rs Hh]]]; [congruence|].
  unfold atom_shaped in Hs. apply andb_true_iff in Hs as [Hsl Hop].
  unfold parse_match_gen, atom_result. cbn [parse_match_fuel]. rewrite Hh.
  destruct (split_last_some _ _ Hsl) as (c & n & ->). rewrite Hop, Ha.
  split; [reflexivity|]. intros ->. reflexivity.
Qed.
Print Assumptions atom_accepted_partial.

(* "every non-blocker atom text is accepted" is false: cat/pkg:*[flag] is rejected *)
Theorem atom_accepted_refuted : ~ C44_atom_full_statement.
Proof.
  intros H. destruct slotstar_rejected as [Ea E].
  specialize (H t_slotstar a_slotstar eq_refl Ea eq_refl). congruence.
Qed.
Print Assumptions atom_accepted_refuted.
