(* C24/Roundtrip.v — the line and file round trip of Model_C24; the invariant of the sets add() builds. *)
From Coq Require Import List ZArith Bool Lia Permutation.
From Coq Require Import DecimalZ HexadecimalN.
Import ListNotations.
From Verif Require Import Base.Val Base.Lists C22.Model_C22 C22.Proofs_C22.
From Verif Require Import C24.Model_C24 C24.Spec_C24.

Lemma split_sp_cons_ex s : exists h t, split_sp s = h :: t.
Proof.
  induction s as [|c r IH]; cbn; [eauto|].
  destruct (is_sp c); [eauto|]. destruct IH as (h & t & ->). eauto.
Qed.

Lemma split_sp_app a b : split_sp (a ++ SP :: b) = split_sp a ++ split_sp b.
Proof.
  induction a as [|c r IH]; cbn [app split_sp].
  - reflexivity.
  - destruct (is_sp c); [now rewrite IH|].
    rewrite IH. destruct (split_sp_cons_ex r) as (h & t & ->). reflexivity.
Qed.

Lemma join_split s : join_sp (split_sp s) = s.
Proof.
  induction s as [|c r IH]; [reflexivity|]. cbn [split_sp].
  destruct (is_sp c) eqn:E.
  - apply N.eqb_eq in E. subst c. cbn [join_sp].
    destruct (split_sp_cons_ex r) as (h & t & Hr). rewrite Hr in *. cbn [app]. now rewrite IH.
  - destruct (split_sp_cons_ex r) as (h & t & Hr). rewrite Hr in *.
    cbn [join_sp] in *. destruct t; cbn [app]; now rewrite <- IH.
Qed.

Definition plain (s : str) : Prop := Forall (fun c => py_space c = false) s.

Lemma plain_not_sp c : py_space c = false -> is_sp c = false.
Proof.
  intro H. unfold is_sp. destruct (N.eqb_spec c 32) as [->|]; [|reflexivity].
  vm_compute in H. discriminate.
Qed.
Lemma plain_not_eol c : py_space c = false -> is_eol c = false.
Proof.
  intro H. unfold is_eol.
  destruct (N.eqb_spec c 10) as [->|]; [vm_compute in H; discriminate|].
  destruct (N.eqb_spec c 13) as [->|]; [vm_compute in H; discriminate|reflexivity].
Qed.

Lemma split_plain s : plain s -> split_sp s = [s].
Proof.
  induction 1 as [|c r Hc _ IH]; [reflexivity|]. cbn [split_sp]. now rewrite (plain_not_sp c Hc), IH.
Qed.

Lemma uint_roundtrip u : uint_of_chars (chars_of_uint u) = Some u.
Proof. induction u; cbn [chars_of_uint uint_of_chars]; rewrite ?IHu; reflexivity. Qed.
Lemma hex_roundtrip u : hex_of_chars (chars_of_hex u) = Some u.
Proof. induction u; cbn [chars_of_hex hex_of_chars]; rewrite ?IHu; reflexivity. Qed.

Lemma plain_chars_of_uint u : plain (chars_of_uint u).
Proof. induction u; cbn [chars_of_uint]; constructor; (reflexivity || assumption). Qed.
Lemma plain_chars_of_hex u : plain (chars_of_hex u).
Proof. induction u; cbn [chars_of_hex]; constructor; (reflexivity || assumption). Qed.

Lemma chars_of_uint_nonnil u : u <> Decimal.Nil -> chars_of_uint u <> [].
Proof. destruct u; cbn; congruence. Qed.
Lemma chars_of_hex_nonnil u : u <> Hexadecimal.Nil -> chars_of_hex u <> [].
Proof. destruct u; cbn; congruence. Qed.

Lemma to_int_nonnil z : match Z.to_int z with Decimal.Pos u | Decimal.Neg u => u <> Decimal.Nil end.
Proof.
  destruct z; cbn; [discriminate| |]; apply DecimalPos.Unsigned.to_uint_nonnil.
Qed.

Lemma parse_nat_chars u : u <> Decimal.Nil -> parse_nat (chars_of_uint u) = Some (Z.of_uint u).
Proof.
  intro H. unfold parse_nat. rewrite uint_roundtrip.
  destruct (chars_of_uint u) eqn:E; [now apply chars_of_uint_nonnil in E|reflexivity].
Qed.

Lemma parse_int_digits u : parse_int (chars_of_uint u) = parse_nat (chars_of_uint u).
Proof. destruct u; reflexivity. Qed.

Lemma print_parse_int z : parse_int (print_int z) = Some z.
Proof.
  unfold print_int. pose proof (to_int_nonnil z) as Hn. pose proof (DecimalZ.of_to z) as Hz.
  destruct (Z.to_int z) as [u|u].
  - rewrite parse_int_digits, parse_nat_chars by exact Hn. cbn in Hz. now rewrite Hz.
  - cbn [parse_int]. rewrite parse_nat_chars by exact Hn. cbn [option_map]. cbn in Hz. now rewrite Hz.
Qed.

Lemma plain_print_int z : plain (print_int z).
Proof.
  unfold print_int. destruct (Z.to_int z); [apply plain_chars_of_uint|].
  constructor; [reflexivity|apply plain_chars_of_uint].
Qed.
Lemma print_int_nonempty z : print_int z <> [].
Proof.
  unfold print_int. pose proof (to_int_nonnil z) as Hn.
  destruct (Z.to_int z); [now apply chars_of_uint_nonnil|discriminate].
Qed.

Lemma to_hex_nonnil n : N.to_hex_uint n <> Hexadecimal.Nil.
Proof. destruct n; cbn; [discriminate|apply HexadecimalPos.Unsigned.to_uint_nonnil]. Qed.

(* print_md5 pads with "0" to 32 digits: as hexadecimal digits these are leading D0, which do not
   change the value *)
Fixpoint pad0 (k : nat) (u : Hexadecimal.uint) : Hexadecimal.uint :=
  match k with O => u | S k' => Hexadecimal.D0 (pad0 k' u) end.
Lemma hex_of_chars_pad k u :
  hex_of_chars (repeat 48%N k ++ chars_of_hex u) = Some (pad0 k u).
Proof.
  induction k as [|k IH]; cbn [repeat app pad0]; [apply hex_roundtrip|].
  cbn [hex_of_chars]. rewrite IH. reflexivity.
Qed.
Lemma of_hex_pad k u : N.of_hex_uint (pad0 k u) = N.of_hex_uint u.
Proof. induction k as [|k IH]; [reflexivity|]. cbn [pad0]. exact IH. Qed.

Lemma print_parse_md5 n : parse_hex (print_md5 n) = Some n.
Proof.
  unfold print_md5, parse_hex. rewrite hex_of_chars_pad. cbn [option_map].
  rewrite of_hex_pad, HexadecimalN.Unsigned.of_to.
  destruct (repeat 48%N (32 - length (chars_of_hex (N.to_hex_uint n))) ++ chars_of_hex (N.to_hex_uint n)) eqn:E;
    [|reflexivity].
  apply app_eq_nil in E. destruct E as [_ E]. apply chars_of_hex_nonnil in E; [easy|apply to_hex_nonnil].
Qed.
Lemma plain_print_md5 n : plain (print_md5 n).
Proof.
  unfold print_md5, plain. apply Forall_app. split; [|apply plain_chars_of_hex].
  apply Forall_forall. intros c Hc. apply repeat_spec in Hc. now subst.
Qed.

Lemma last_app2 {A} (l : list A) x y d : last (l ++ [x; y]) d = y.
Proof. induction l as [|a l IH]; [reflexivity|]. cbn [app]. rewrite <- IH at 2.
  destruct (l ++ [x; y]) eqn:E; [now destruct l|reflexivity]. Qed.
Lemma last_snoc {A} (l : list A) y d : last (l ++ [y]) d = y.
Proof. apply last_last. Qed.

Lemma second_last_app2 h (l : list str) x y : second_last (h :: l ++ [x; y]) = Some x.
Proof. unfold second_last. cbn [List.rev]. rewrite rev_app_distr. reflexivity. Qed.

Lemma parse_obj_tokens toks hx d m t :
  parse_hex hx = Some m -> parse_int d = Some t ->
  parse_tokens (t_obj :: toks ++ [hx; d]) = Ok (EObj (normpath (join_sp toks)) m t).
Proof.
  intros Hh Hd. unfold parse_tokens.
  change (str_eqb t_obj t_dir) with false. change (str_eqb t_obj t_dev) with false.
  change (str_eqb t_obj t_fif) with false. change (str_eqb t_obj t_obj) with true. cbv iota.
  rewrite second_last_app2, Hh.
  change (t_obj :: toks ++ [hx; d]) with ((t_obj :: toks) ++ [hx; d]) at 1. rewrite last_app2, Hd.
  replace (length (t_obj :: toks ++ [hx; d]) - 3) with (length toks)
    by (cbn [length]; rewrite app_length; cbn [length]; lia).
  now rewrite firstn_app_exact.
Qed.

Lemma index_of_first (a : list str) y b :
  Forall (fun x => str_eqb x y = false) a -> index_of y (a ++ y :: b) = Some (length a).
Proof.
  induction 1 as [|x a Hx _ IH]; cbn [app index_of length].
  - now rewrite str_eqb_refl.
  - now rewrite Hx, IH.
Qed.

Lemma parse_sym_tokens tl tg d t :
  Forall (fun x => str_eqb x arrow = false) tl -> parse_int d = Some t ->
  parse_tokens (t_sym :: tl ++ arrow :: tg ++ [d]) =
  Ok (ESym (normpath (join_sp tl)) (join_sp tg) t).
Proof.
  intros Hl Hd. unfold parse_tokens.
  change (str_eqb t_sym t_dir) with false. change (str_eqb t_sym t_dev) with false.
  change (str_eqb t_sym t_fif) with false. change (str_eqb t_sym t_obj) with false.
  change (str_eqb t_sym t_sym) with true. cbv iota.
  assert (Hi : index_of arrow (t_sym :: tl ++ arrow :: tg ++ [d]) = Some (S (length tl))).
  { change (t_sym :: tl ++ arrow :: tg ++ [d]) with ((t_sym :: tl) ++ arrow :: tg ++ [d]).
    rewrite index_of_first; [reflexivity|]. constructor; [reflexivity|exact Hl]. }
  rewrite Hi.
  assert (Hlast : last (t_sym :: tl ++ arrow :: tg ++ [d]) [] = d).
  { change (t_sym :: tl ++ arrow :: tg ++ [d]) with ((t_sym :: tl) ++ (arrow :: tg) ++ [d]).
    rewrite app_assoc. apply last_last. }
  rewrite Hlast, Hd.
  replace (S (length tl) - 1) with (length tl) by lia. rewrite firstn_app_exact.
  rewrite skipn_cons.
  replace (tl ++ arrow :: tg ++ [d]) with ((tl ++ [arrow]) ++ tg ++ [d]) by (now rewrite <- app_assoc).
  replace (S (length tl)) with (length (tl ++ [arrow])) by (rewrite app_length; cbn; lia).
  rewrite skipn_app_exact. now rewrite removelast_last.
Qed.

Lemma no_arrow_tokens l :
  has_arrow_token l = false -> Forall (fun x => str_eqb x arrow = false) (split_sp l).
Proof.
  unfold has_arrow_token. intro H. apply Forall_forall. intros x Hx.
  rewrite str_eqb_sym. exact (proj1 (existsb_false _ _) H x Hx).
Qed.

Lemma plain_t_obj : plain t_obj. Proof. repeat constructor. Qed.
Lemma plain_t_sym : plain t_sym. Proof. repeat constructor. Qed.
Lemma plain_t_dir : plain t_dir. Proof. repeat constructor. Qed.
Lemma plain_t_dev : plain t_dev. Proof. repeat constructor. Qed.
Lemma plain_t_fif : plain t_fif. Proof. repeat constructor. Qed.
Lemma plain_arrow : plain arrow. Proof. repeat constructor. Qed.

Lemma norm_eq l : str_eqb (normpath l) l = true -> normpath l = l.
Proof. apply str_eqb_eq. Qed.

Lemma parse_write_obj l m t : normpath l = l ->
  parse_line (write_line (EObj l m t)) = Ok (EObj l m t).
Proof.
  intro Hn. unfold parse_line, write_line. cbn [join_sp].
  rewrite split_sp_app, (split_plain _ plain_t_obj).
  rewrite split_sp_app, split_sp_app.
  rewrite (split_plain _ (plain_print_md5 m)), (split_plain _ (plain_print_int t)).
  cbn [app]. change (split_sp l ++ print_md5 m :: [print_int t]) with (split_sp l ++ [print_md5 m; print_int t]).
  rewrite (parse_obj_tokens _ _ _ m t (print_parse_md5 m) (print_parse_int t)).
  now rewrite join_split, Hn.
Qed.

Lemma parse_write_sym l g t : normpath l = l -> has_arrow_token l = false ->
  parse_line (write_line (ESym l g t)) = Ok (ESym l g t).
Proof.
  intros Hn Ha. unfold parse_line, write_line. cbn [join_sp].
  rewrite split_sp_app, (split_plain _ plain_t_sym).
  rewrite split_sp_app, split_sp_app, (split_plain _ plain_arrow), split_sp_app.
  rewrite (split_plain _ (plain_print_int t)).
  cbn [app].
  rewrite (parse_sym_tokens _ _ _ t (no_arrow_tokens _ Ha) (print_parse_int t)).
  now rewrite !join_split, Hn.
Qed.

Lemma parse_write_path t mk l : plain t ->
  (forall toks, parse_tokens (t :: toks) = Ok (mk (normpath (join_sp toks)))) ->
  normpath l = l -> parse_line (t ++ SP :: l) = Ok (mk l).
Proof.
  intros Ht Hp Hn. unfold parse_line. rewrite split_sp_app, (split_plain _ Ht). cbn [app].
  now rewrite Hp, join_split, Hn.
Qed.

Lemma ends_plain_app a b : b <> [] -> ends_plain (a ++ b) = ends_plain b.
Proof.
  intro Hb. unfold ends_plain. rewrite rev_app_distr.
  destruct (List.rev b) eqn:E; [|reflexivity].
  apply (f_equal (@List.rev N)) in E. rewrite rev_involutive in E. now subst.
Qed.
Lemma ends_plain_cons_app c a b : b <> [] -> ends_plain (c :: a ++ b) = ends_plain b.
Proof. intro H. change (c :: a ++ b) with ((c :: a) ++ b). now apply ends_plain_app. Qed.

Lemma ends_plain_plain s : s <> [] -> plain s -> ends_plain s = true.
Proof.
  intros Hs Hp. unfold ends_plain. destruct (List.rev s) as [|c r] eqn:E.
  - apply (f_equal (@List.rev N)) in E. rewrite rev_involutive in E. now subst.
  - assert (In c s) by (apply in_rev; rewrite E; now left).
    unfold plain in Hp. rewrite Forall_forall in Hp. now rewrite (Hp c H).
Qed.

Lemma strip_id a r : py_space a = false -> ends_plain (a :: r) = true -> strip (a :: r) = a :: r.
Proof.
  intros Ha He. unfold strip, lstrip. cbn [drop_while]. rewrite Ha.
  unfold ends_plain in He. destruct (List.rev (a :: r)) as [|c x] eqn:E; [discriminate|].
  cbn [drop_while]. apply negb_true_iff in He. rewrite He.
  rewrite <- E. apply rev_involutive.
Qed.

Lemma ends_plain_digits z : ends_plain (SP :: print_int z) = true.
Proof.
  change (SP :: print_int z) with ([SP] ++ print_int z).
  rewrite ends_plain_app by apply print_int_nonempty.
  apply ends_plain_plain; [apply print_int_nonempty|apply plain_print_int].
Qed.

Lemma ends_plain_write_line e : wf_base e = true -> ends_plain (write_line e) = true.
Proof.
  intro Hw. destruct e as [l m t|l g t|l|l|l]; unfold write_line; cbn [join_sp];
    rewrite ends_plain_app by discriminate.
  1-2: rewrite !ends_plain_cons_app by discriminate; apply ends_plain_digits.
  all: unfold wf_base in Hw; cbn [eloc] in Hw; apply andb_true_iff in Hw as [_ He];
    destruct l as [|c l]; [discriminate|]; change (SP :: c :: l) with ([SP] ++ c :: l);
    rewrite ends_plain_app by discriminate; exact He.
Qed.

(* the line begins with its type token and ends with a digit or the end of a path: strip() keeps it *)
Lemma strip_write_line e : wf_base e = true -> strip (write_line e) = write_line e.
Proof.
  intro Hw. pose proof (ends_plain_write_line e Hw) as He.
  destruct e; (apply strip_id; [reflexivity|exact He]).
Qed.

Lemma wf_base_norm e : wf_base e = true -> normpath (eloc e) = eloc e.
Proof.
  unfold wf_base. intro H. apply andb_true_iff in H as [H _]. apply andb_true_iff in H as [H _].
  now apply norm_eq.
Qed.

Theorem line_roundtrip_lemma e : WFpath e -> parse_line (strip (write_line e)) = Ok e.
Proof.
  intros [Hw Hk]. rewrite strip_write_line by exact Hw.
  pose proof (wf_base_norm e Hw) as Hn.
  destruct e as [l m t|l g t|l|l|l]; cbn [eloc] in Hn.
  - now apply parse_write_obj.
  - now apply parse_write_sym.
  - apply (parse_write_path t_dir EDir); [apply plain_t_dir|reflexivity|exact Hn].
  - apply (parse_write_path t_dev EDev); [apply plain_t_dev|reflexivity|exact Hn].
  - apply (parse_write_path t_fif EFif); [apply plain_t_fif|reflexivity|exact Hn].
Qed.

Definition eol_free (s : str) : Prop := Forall (fun c => is_eol c = false) s.

Lemma no_eol_free s : no_eol s = true -> eol_free s.
Proof.
  unfold no_eol, eol_free. intro H. rewrite forallb_forall in H. apply Forall_forall.
  intros c Hc. apply H in Hc. now apply negb_true_iff in Hc.
Qed.
Lemma plain_eol_free s : plain s -> eol_free s.
Proof. intro H. eapply Forall_impl; [|exact H]. apply plain_not_eol. Qed.
Lemma eol_free_sp a b : eol_free a -> eol_free b -> eol_free (a ++ SP :: b).
Proof. intros Ha Hb. apply Forall_app. split; [exact Ha|]. constructor; [reflexivity|exact Hb]. Qed.

Lemma write_line_eol_free e : wf_base e = true -> eol_free (write_line e).
Proof.
  intro Hw. unfold wf_base in Hw. apply andb_true_iff in Hw as [Hw Hk].
  apply andb_true_iff in Hw as [_ Hl]. apply no_eol_free in Hl.
  destruct e as [l m t|l g t|l|l|l]; cbn [eloc] in Hl; unfold write_line; cbn [join_sp].
  - apply eol_free_sp; [apply plain_eol_free, plain_t_obj|]. apply eol_free_sp; [exact Hl|].
    apply eol_free_sp; apply plain_eol_free; [apply plain_print_md5|apply plain_print_int].
  - apply eol_free_sp; [apply plain_eol_free, plain_t_sym|]. apply eol_free_sp; [exact Hl|].
    apply eol_free_sp; [apply plain_eol_free, plain_arrow|].
    apply eol_free_sp; [apply no_eol_free; exact Hk|apply plain_eol_free, plain_print_int].
  - apply eol_free_sp; [apply plain_eol_free, plain_t_dir|exact Hl].
  - apply eol_free_sp; [apply plain_eol_free, plain_t_dev|exact Hl].
  - apply eol_free_sp; [apply plain_eol_free, plain_t_fif|exact Hl].
Qed.

Lemma split_lines_app a b : eol_free a -> split_lines (a ++ NL :: b) = a :: split_lines b.
Proof.
  induction 1 as [|c r Hc _ IH]; cbn [List.app split_lines]; [reflexivity|].
  now rewrite Hc, IH.
Qed.

Lemma split_lines_concat ls : Forall eol_free ls ->
  split_lines (concat (map (fun l => l ++ [NL]) ls)) = ls ++ [[]].
Proof.
  induction 1 as [|l ls Hl _ IH]; [reflexivity|]. cbn [map concat].
  rewrite <- app_assoc. cbn [List.app]. now rewrite split_lines_app, IH.
Qed.

Lemma write_line_nonempty e : nonempty (write_line e) = true.
Proof. destruct e; reflexivity. Qed.

Lemma content_lines_write d : Forall (fun e => wf_base e = true) (sort_entries d) ->
  content_lines (write_contents d) = map write_line (sort_entries d).
Proof.
  intro H. unfold content_lines, write_contents.
  rewrite <- (map_map write_line (fun l => l ++ [NL])).
  rewrite split_lines_concat.
  2:{ apply Forall_map. eapply Forall_impl; [|exact H]. intros e He. now apply write_line_eol_free. }
  rewrite map_app, filter_app. cbn [map filter]. change (nonempty (strip [])) with false. cbv iota.
  rewrite app_nil_r. induction H as [|e l He _ IH]; [reflexivity|].
  cbn [map filter]. rewrite strip_write_line by exact He. rewrite write_line_nonempty. now rewrite IH.
Qed.

Lemma read_lines_write es : forall d0, Forall WFpath es ->
  read_lines (map write_line es) d0 = Ok (fold_left (fun d e => dset e d) es d0).
Proof.
  induction es as [|e es IH]; intros d0 H; [reflexivity|]. inversion H as [|? ? He Hes]; subst.
  cbn [map read_lines fold_left].
  pose proof (line_roundtrip_lemma e He) as Hr. destruct He as [Hw _].
  rewrite strip_write_line in Hr by exact Hw. rewrite Hr. now apply IH.
Qed.

Lemma dset_fresh e d : Forall (fun x => str_eqb (eloc x) (eloc e) = false) d -> dset e d = d ++ [e].
Proof. induction 1 as [|x d Hx _ IH]; [reflexivity|]. cbn [dset List.app]. now rewrite Hx, IH. Qed.

Lemma fold_dset_uniq es : forall acc, NoDup (map eloc (acc ++ es)) ->
  fold_left (fun d e => dset e d) es acc = acc ++ es.
Proof.
  induction es as [|e es IH]; intros acc H; [now rewrite app_nil_r|].
  cbn [fold_left]. rewrite dset_fresh.
  - rewrite IH; rewrite <- app_assoc; [reflexivity|exact H].
  - rewrite map_app in H. cbn [map] in H. apply NoDup_remove_2 in H.
    apply Forall_forall. intros x Hx. apply str_eqb_neq. intro E. apply H.
    apply in_or_app. left. rewrite <- E. now apply in_map.
Qed.

Lemma ins_sorted_perm e l : Permutation (ins_sorted e l) (e :: l).
Proof.
  induction l as [|x l IH]; [reflexivity|]. cbn [ins_sorted].
  destruct (str_ltb (eloc e) (eloc x)); [reflexivity|].
  rewrite IH. apply perm_swap.
Qed.
Lemma sort_perm l : Permutation (sort_entries l) l.
Proof.
  induction l as [|x l IH]; [reflexivity|]. cbn [sort_entries fold_right].
  fold (sort_entries l). rewrite ins_sorted_perm. now constructor.
Qed.

Theorem contents_roundtrip_exact d : uniq_locs d -> Forall WFpath d ->
  read_contents (write_contents d) = Ok (sort_entries d).
Proof.
  intros Hu Hw.
  assert (Hw' : Forall WFpath (sort_entries d))
    by (eapply Permutation_Forall; [apply Permutation_sym, sort_perm|exact Hw]).
  assert (Hu' : NoDup (map eloc (sort_entries d)))
    by (eapply Permutation_NoDup; [apply Permutation_map, Permutation_sym, sort_perm|exact Hu]).
  unfold read_contents. rewrite content_lines_write.
  2:{ eapply Forall_impl; [|exact Hw']. now intros e [He _]. }
  rewrite read_lines_write by exact Hw'. now rewrite fold_dset_uniq.
Qed.

Lemma dset_keys e d k : In k (map eloc (dset e d)) -> k = eloc e \/ In k (map eloc d).
Proof.
  induction d as [|x d IH]; cbn [dset map In]; [intuition|].
  destruct (str_eqb (eloc x) (eloc e)) eqn:E; cbn [map In]; [|intuition].
  apply str_eqb_eq in E. rewrite E. intuition.
Qed.

Lemma dset_uniq e d : uniq_locs d -> uniq_locs (dset e d).
Proof.
  unfold uniq_locs. induction d as [|x d IH]; cbn [dset map]; intros H; [repeat constructor; auto|].
  apply NoDup_cons_iff in H as [Hx Hd]. destruct (str_eqb (eloc x) (eloc e)) eqn:E; cbn [map].
  - apply str_eqb_eq in E. rewrite <- E. constructor; assumption.
  - constructor; [|auto]. intros K. apply dset_keys in K as [K|K]; [|auto].
    apply str_eqb_neq in E. congruence.
Qed.

Lemma dset_Forall (Q : entry -> Prop) e d : Q e -> Forall Q d -> Forall Q (dset e d).
Proof.
  intros He. induction 1 as [|x d Hx Hd IH]; cbn [dset]; [repeat constructor; exact He|].
  destruct (str_eqb (eloc x) (eloc e)); constructor; auto.
Qed.

(* what add() keeps, it keeps for every set it builds *)
Lemma cset_inv (P : list entry -> Prop) l :
  P [] -> (forall e d, In e l -> P d -> P (dset e d)) -> P (cset_of l).
Proof.
  unfold cset_of. generalize (@nil entry). induction l as [|e l IH]; intros acc H0 Hs; [exact H0|].
  cbn [fold_left]. apply IH; [apply Hs; [left; reflexivity|exact H0]|].
  intros e' d He'. apply Hs. right. exact He'.
Qed.

Theorem the_set_invariant raw :
  uniq_locs (the_set raw) /\ Forall (fun e => normpath (eloc e) = eloc e) (the_set raw).
Proof.
  unfold the_set. split; apply cset_inv; try constructor.
  - intros e d _. apply dset_uniq.
  - intros e d He. apply dset_Forall. apply in_map_iff in He as (r & <- & _).
    destruct r; apply normpath_idempotent_proof.
Qed.
