From Coq Require Import List ZArith Bool.
Import ListNotations.
From Verif Require Import C40.Model_C40 C40.Spec_C40 C40.Proofs_C40.

(* each arch of a yielded request is (a) validated against the known arches or inherited from
   cc, inside cc when cc is given, not already carried when only_new, inside the filter when a
   filter is given — or (b) an allarches stabilization candidate of that version *)
Theorem yield_general : forall c key p ks,
  In (key, p, ks) (fst (run c)) ->
  forall k, In k ks ->
    ( (In k (c_known c) \/ In k (o_cc (c_opts c)))
      /\ (o_cc (c_opts c) <> [] -> In k (o_cc (c_opts c)))
      /\ (o_only_new (c_opts c) = true -> ~ carried (o_stable (c_opts c)) p k)
      /\ (o_filt (c_opts c) <> [] -> In k (o_filt (c_opts c))) )
    \/ (allarches_active (c_opts c) = true /\ candidate (versions (c_repo c) key) p k).
Proof.
  intros c key p ks H k Hk. apply run_yields in H as [r [_ [<- [_ [_ [_ [kws [Hkn Hy]]]]]]]].
  destruct (Hy k Hk) as [[H1 [H2 [H3 H4]]]|H5]; [left|right; exact H5].
  repeat split; try assumption.
  destruct H1 as [H1|[_ H1]]; [left; apply Hkn; exact H1 | right; exact H1].
Qed.
Print Assumptions yield_general.

(* with an arch filter, every arch of a request passes the filter or is a stabilization candidate
   that allarches adds *)
Theorem filter_clause : forall c y, In y (fst (run c)) -> cl_filter c y.
Proof.
  intros c [[key p] ks] H Hf k Hk.
  destruct (yield_general c key p ks H k Hk) as [[_ [_ [_ H4]]]|[Ha Hc]]; [left; now apply H4|].
  right. apply allarches_active_spec in Ha as [A1 [A2 _]]. auto.
Qed.
Print Assumptions filter_clause.

(* arches ⊆ known arches: outside the class {cc has an unknown arch, or allarches is active and
   some candidate of the repository is not a known arch}; the full statement is false *)
Theorem known_partial : forall c y, known_class c = false -> In y (fst (run c)) -> cl_known c y.
Proof.
  intros c [[key p] ks] Hc H k Hk. apply orb_false_iff in Hc as [Hc1 Hc2].
  apply negb_false_iff in Hc1. rewrite forallb_forall in Hc1.
  destruct (yield_general c key p ks H k Hk) as [[[H1|H1] _]|[Ha Hcand]]; [exact H1 | |]; apply mem_str_In.
  - now apply Hc1.
  - exact (candidate_passes c _ key p ks k H Hc2 Ha Hcand).
Qed.
Print Assumptions known_partial.
Theorem C40_known_refuted : ~ C40_known_full.
Proof.
  intro H.
  assert (Hin : In (0%N, P 1 0 false [s_tx], [s_a]) (fst (run wit_known))) by (vm_compute; left; reflexivity).
  specialize (H _ _ Hin). cbn in H. destruct (H s_a (or_introl eq_refl)) as [E|[]]. discriminate.
Qed.
Print Assumptions C40_known_refuted.

(* arches ⊆ cc when cc is given: outside {allarches active and some candidate outside cc} *)
Theorem cc_partial : forall c y, cc_class c = false -> In y (fst (run c)) -> cl_cc c y.
Proof.
  intros c [[key p] ks] Hc H Hne k Hk.
  destruct (yield_general c key p ks H k Hk) as [[_ [H2 _]]|[Ha Hcand]]; [now apply H2|].
  apply mem_str_In. exact (candidate_passes c _ key p ks k H Hc Ha Hcand).
Qed.
Print Assumptions cc_partial.
Theorem C40_cc_refuted : ~ C40_cc_full.
Proof.
  intro H.
  assert (Hin : In (0%N, P 2 0 false [s_ta; s_tx], [s_x; s_a]) (fst (run wit_cc))) by (vm_compute; left; reflexivity).
  specialize (H _ _ Hin). cbn in H.
  assert (Hne : [s_x] <> []) by discriminate.
  destruct (H Hne s_a (or_intror (or_introl eq_refl))) as [E|[]]. discriminate.
Qed.
Print Assumptions C40_cc_refuted.

(* only_new ⇒ no arch already carried: outside {allarches active and some candidate is carried
   as stable by its own version} *)
Theorem new_partial : forall c y, new_class c = false -> In y (fst (run c)) -> cl_new c y.
Proof.
  intros c [[key p] ks] Hc H Hn k Hk.
  destruct (yield_general c key p ks H k Hk) as [[_ [_ [H3 _]]]|[Ha Hcand]]; [now apply H3|].
  pose proof (candidate_passes c _ key p ks k H Hc Ha Hcand) as X. cbn in X.
  apply negb_true_iff, mem_str_false in X.
  apply allarches_active_spec in Ha as [_ [-> _]]. intros [C|[C _]]; [exact (X C) | discriminate].
Qed.
Print Assumptions new_partial.
Theorem C40_new_refuted : ~ C40_new_full.
Proof.
  intro H.
  assert (Hin : In (0%N, P 1 0 false [s_a; s_ta; s_tx], [s_x; s_a]) (fst (run wit_new))) by (vm_compute; left; reflexivity).
  specialize (H _ _ Hin). cbn in H.
  apply (H eq_refl s_a (or_intror (or_introl eq_refl))). left. left. reflexivity.
Qed.
Print Assumptions C40_new_refuted.

(* the package acted on is in the repository and named by a request line's spec; when
   stabilizing that spec is exact (=) and without slot *)
Theorem acts_on_named : forall c y, In y (fst (run c)) -> cl_acts c y.
Proof.
  intros c [[key p] ks] H. apply run_yields in H as [r [Hr [<- [H1 [H2 [H3 _]]]]]].
  split; [exact H1|]. exists r. split; [exact Hr|]. split; [split; [reflexivity|exact H2]|].
  intro Hs. specialize (H3 Hs). unfold spec_bad in H3. apply orb_false_iff in H3 as [Ha Hb].
  apply negb_false_iff, N.eqb_eq in Ha. split; [exact Ha|]. now destruct (d_slot r).
Qed.
Print Assumptions acts_on_named.

(* a spec that cannot be acted on (stabilizing: not "=" or slotted; either mode: matches
   nothing) is rejected: the run ends in an exception, nothing is yielded for it or after it *)
Theorem unactionable_rejected : forall c l1 r l2,
  c_reqs c = l1 ++ r :: l2 -> unactionable (c_opts c) (c_repo c) r = true ->
  (exists e, fst (snd (run c)) = Some e) /\ (length (fst (run c)) <= length l1)%nat.
Proof.
  intros c l1 r l2 Hr Hu. unfold run. rewrite Hr, loop_app.
  destruct (loop (c_opts c) (c_known c) (c_repo c) st0 l1) as [[ys1 s1] e1] eqn:E1.
  pose proof (loop_length _ _ _ _ _ _ _ _ E1) as HL.
  destruct e1 as [e1|]; [cbn; eauto|].
  rewrite loop_cons. destruct (line_unactionable (c_opts c) (c_known c) (c_repo c) (s_prev s1) r Hu) as [e ->].
  cbn. rewrite app_nil_r. eauto.
Qed.
Print Assumptions unactionable_rejected.

(* no prefix keyword is ever suggested (stabilizing or keywording) *)
Theorem suggested_no_prefix : forall stable vs p k,
  In k (suggested stable vs p) -> ~ has_dash k.
Proof. intros stable vs p k H. now apply in_suggested in H. Qed.
Print Assumptions suggested_no_prefix.

(* stabilization suggestions are exactly: no prefix, testing on the package, stable on a version *)
Theorem suggested_stable_iff : forall vs p k,
  In k (suggested true vs p) <-> candidate vs p k.
Proof. exact suggested_stable_iff_proof. Qed.
Print Assumptions suggested_stable_iff.

(* ... stable on ANOTHER version, unless the version itself lists k as stable next to ~k;
   the unconditional statement is false *)
Theorem suggested_stable_elsewhere_partial : forall vs p k,
  In k (suggested true vs p) -> ~ In k (p_kws p) ->
  testing_on p k /\ exists other, In other vs /\ other <> p /\ stable_on other k.
Proof.
  intros vs p k H Hn. apply suggested_stable_iff in H as [_ [Ht [other [Ho Hs]]]].
  split; [exact Ht|]. exists other. split; [exact Ho|]. split; [|exact Hs].
  intros ->. destruct Hs as [_ Hs]. exact (Hn Hs).
Qed.
Print Assumptions suggested_stable_elsewhere_partial.
Theorem C40_sugg_elsewhere_refuted : ~ C40_sugg_elsewhere_full.
Proof.
  intro H.
  destruct (H [self_stable_pkg] self_stable_pkg [97;109;100]%N) as [_ [o [Ho [Hne _]]]].
  - left. reflexivity.
  - vm_compute. left. reflexivity.
  - destruct Ho as [Ho|[]]. congruence.
Qed.
Print Assumptions C40_sugg_elsewhere_refuted.

(* keywording suggestions: no prefix, not carried (k / ~k) here, keyworded on some version *)
Theorem suggested_keywording : forall vs p k,
  In k (suggested false vs p) ->
  ~ has_dash k /\ ~ carried false p k /\
  exists other x, In other vs /\ In x (p_kws other) /\ head_in [minus] x = false /\ lstrip [tilde] x = k.
Proof.
  intros vs p k H. apply in_suggested in H as (Hd & Hex & Hn). split; [exact Hd|]. split; [|exact Hex].
  destruct Hex as (other & x & _ & _ & _ & Hx).
  assert (Hh : head_in [tilde; minus] k = false).
  { destruct (lstrip_tilde_shape x) as [n [_ H2]]. rewrite Hx in H2.
    destruct k as [|c r]; [reflexivity|]. cbn in *.
    destruct (N.eqb_spec c minus) as [->|]; [elim Hd; now left|]. now destruct (N.eqb c tilde). }
  intros [Hc|[_ Hc]]; apply Hn, in_map_iff; [exists k | exists (tilde :: k)]; (split; [|exact Hc]).
  - apply lstrip_not_head, Hh.
  - change (lstrip [tilde; minus] (tilde :: k)) with (lstrip [tilde; minus] k). apply lstrip_not_head, Hh.
Qed.
Print Assumptions suggested_keywording.

(* filter_prefix_keywords keeps exactly the keywords without "-" *)
Theorem filter_prefix_exact : forall l k, In k (filter_prefix l) <-> In k l /\ ~ has_dash k.
Proof. intros l k. unfold filter_prefix. now rewrite filter_In, no_dash_spec. Qed.
Print Assumptions filter_prefix_exact.
