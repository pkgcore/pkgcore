From Coq Require Import List NArith Bool.
Import ListNotations.
From Verif Require Import gen.Tables_triggers_perms C23.Model_C23 C23.Spec_C23 C23.Proofs_C23.
Local Open Scope N_scope.

(* for EVERY mode value (all of N: permission, sticky and file-type bits, no bound) the mode
   fix_set_bits leaves is not both set-id (0o6000) and world-writable (0o002) *)
Theorem harden_mode_safe : forall m, ~ mode_unsafe (harden_mode m).
Proof.
  intro m. unfold harden_mode. destruct (unsafe m) eqn:U.
  - intros [A B]. destruct table_wipe as [S5 | S5].
    + apply B. apply land_ldiff_zero. exact S5.
    + apply A. apply land_ldiff_zero. exact S5.
  - intro H. apply unsafe_iff in H. congruence.
Qed.
Print Assumptions harden_mode_safe.

(* and it touches nothing but those bits, and nothing at all on a safe mode *)
Theorem harden_mode_minimal : forall m,
  mode_differs_only_in (N.lor S_ISUGID S_IWOTH) m (harden_mode m) /\
  (~ mode_unsafe m -> harden_mode m = m).
Proof.
  intro m. destruct table_masks as (_ & _ & _ & _ & S6).
  unfold mode_differs_only_in, harden_mode. destruct (unsafe m) eqn:U; split; try reflexivity.
  - symmetry. apply ldiff_ldiff_subset. exact S6.
  - intro H. apply unsafe_iff in U. contradiction.
Qed.
Print Assumptions harden_mode_minimal.

(* the composition in the order the engine runs the default triggers at pre_merge, computed from
   the regenerated table of default_plugins_triggers()/priorities/_hooks/_engine_types *)
Theorem pre_merge_order : forall emode cfg, installing emode ->
  filter touches_cset (pre_merge_trigs emode cfg) =
  [FixUid (fst cfg) root_uid; FixSetBits; FixGid (snd cfg) root_gid; DetectWW false].
Proof. exact pre_merge_order_proof. Qed.
Print Assumptions pre_merge_order.

(* after the pre-merge stage of an install/replace engine no non-symlink entry is both set-id and
   world-writable — for all content sets whose non-symlink entries have a mode *)
Theorem no_suid_world_writable : forall emode cfg cs, installing emode -> well_formed cs ->
  forall e' m, In e' (fst (engine_pre_merge emode cfg cs)) ->
    is_sym e' = false -> mode e' = Some m -> ~ mode_unsafe m.
Proof.
  intros emode cfg cs I W e' m Hin Hs Hm.
  rewrite (pre_merge_is_map emode cfg cs I), (proj2 (modes_ok_iff cs) W) in Hin.
  apply in_map_iff in Hin as [e [<- _]]. rewrite harden_entry_eq in Hs, Hm.
  change (is_sym e = false) in Hs. cbn [mode] in Hm. rewrite Hs in Hm.
  destruct (mode e) as [m0|]; [|discriminate]. injection Hm as <-. apply harden_mode_safe.
Qed.
Print Assumptions no_suid_world_writable.

(* ... and that premise is necessary (a mode-less entry makes the trigger raise; the engine
   suppresses the exception and nothing is hardened) *)
Theorem no_suid_world_writable_malformed_refuted : ~ no_suid_world_writable_unconditional.
Proof.
  intro H.
  refine (H INSTALL_MODE (250, 251)
            [mkE 1 0 None (Some 0) (Some 0) None None 0; mkE 0 1 (Some 2559) (Some 0) (Some 0) None (Some 0) 0]
            (or_introl eq_refl) (mkE 0 1 (Some 2559) (Some 0) (Some 0) None (Some 0) 0) 2559 _ eq_refl eq_refl
            unsafe_4777).
  vm_compute. right. left. reflexivity.
Qed.
Print Assumptions no_suid_world_writable_malformed_refuted.

(* exactly what happens to every mode *)
Theorem mode_hardened : forall emode cfg cs, installing emode -> well_formed cs ->
  let out := fst (engine_pre_merge emode cfg cs) in
  forall i e, nth_error cs i = Some e ->
    exists e', nth_error out i = Some e' /\
               mode e' = if is_sym e then mode e else option_map harden_mode (mode e).
Proof.
  intros emode cfg cs I W out i e H. eexists. split; [exact (pre_merge_nth emode cfg cs i e I H)|].
  rewrite harden_entry_eq, (proj2 (modes_ok_iff cs) W). cbn. destruct (is_sym e); reflexivity.
Qed.
Print Assumptions mode_hardened.

(* entries owned by the build user / group are re-owned to root; every other owner is kept
   (all content sets, well-formed or not) *)
Theorem reowned : forall emode cfg cs, installing emode ->
  let out := fst (engine_pre_merge emode cfg cs) in
  forall i e, nth_error cs i = Some e ->
    exists e', nth_error out i = Some e' /\
               uid e' = reown (fst cfg) (uid e) /\ gid e' = reown (snd cfg) (gid e).
Proof.
  intros emode cfg cs I out i e H. eexists. split; [exact (pre_merge_nth emode cfg cs i e I H)|].
  rewrite harden_entry_eq. split; reflexivity.
Qed.
Print Assumptions reowned.

Theorem no_build_owner_left : forall emode cfg cs e', installing emode ->
  In e' (fst (engine_pre_merge emode cfg cs)) ->
  (fst cfg <> ROOT -> uid e' <> Some (fst cfg)) /\ (snd cfg <> ROOT -> gid e' <> Some (snd cfg)).
Proof.
  intros emode cfg cs e' I Hin. rewrite (pre_merge_is_map emode cfg cs I) in Hin.
  apply in_map_iff in Hin as [e [<- _]]. rewrite harden_entry_eq. split; apply reown_not_build.
Qed.
Print Assumptions no_build_owner_left.

(* the fixes never add, drop or reorder entries and never change an entry's type, location,
   target, data (or any attribute other than mode/uid/gid); symlinks keep their mode *)
Theorem only_mode_owner_change : forall emode cfg cs, installing emode ->
  let out := fst (engine_pre_merge emode cfg cs) in
  length out = length cs /\
  forall i e, nth_error cs i = Some e ->
    exists e', nth_error out i = Some e' /\ same_identity e e' /\
               (is_sym e = true -> mode e' = mode e).
Proof.
  intros emode cfg cs I out. split.
  - unfold out. rewrite (pre_merge_is_map emode cfg cs I). apply map_length.
  - intros i e H. eexists. split; [exact (pre_merge_nth emode cfg cs i e I H)|].
    rewrite harden_entry_eq. split; [repeat split|]. cbn. intros ->. rewrite andb_false_r. reflexivity.
Qed.
Print Assumptions only_mode_owner_change.

(* detect_world_writable(fix_perms=True), when configured, leaves no world-writable non-symlink *)
Theorem detect_fix_perms_clears : forall cs, well_formed cs ->
  match run_trig true (DetectWW true) cs with
  | Done out _ => forall e' m, In e' out -> is_sym e' = false -> mode e' = Some m -> N.land m S_IWOTH = 0
  | Raised => False
  end.
Proof.
  intros cs W. cbn [run_trig negb andb]. rewrite (proj2 (modes_ok_iff cs) W).
  intros e' m Hin Hs Hm. apply in_map_iff in Hin as [e [<- _]].
  unfold sel_ww in Hs, Hm. rewrite upd_mode_sel in Hs, Hm.
  change (is_sym e = false) in Hs. cbn [set_mode mode] in Hm. rewrite Hs in Hm.
  destruct (mode e) as [m0|]; [|discriminate]. injection Hm as <-. apply unww_mode_clears.
Qed.
Print Assumptions detect_fix_perms_clears.
