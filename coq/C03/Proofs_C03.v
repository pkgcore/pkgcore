(* Proofs_C03.v — the gate table, what an accepted atom is made of, print . parse, the character
   classes, the characters of a version and the package-name boundary. *)
From Coq Require Import List NArith Bool Arith Lia.
Import ListNotations.
From Verif Require Import Base.Val gen.Tables_eapi gen.Tables_C03 C03.Model_C03 C03.Spec_C03.
From Verif Require Export Base.Lists C03.Strings_C03.
Local Open Scope N_scope.

(* the regenerated EAPI gate table realises the PMS feature matrix (re-checked on every build) *)
Definition gates_match (e : option N) : bool :=
  match gates_of e, features_of e with
  | Some g, Some f =>
      Bool.eqb (g_slot_deps g) (f_slot f) && Bool.eqb (g_use_deps g) (f_use f)
      && Bool.eqb (g_strong_blockers g) (f_strong f) && Bool.eqb (g_use_defaults g) (f_defaults f)
      && Bool.eqb (g_sub_slotting g) (f_subslot f)
  | None, None => true
  | _, _ => false
  end.

Lemma eapi_gate_table_is_pms_matrix_proof :
  forallb gates_match (None :: map Some (map fst eapi_options)) = true
  /\ map fst eapi_options = [0;1;2;3;4;5;6;7;8;9].
Proof. split; vm_compute; reflexivity. Qed.

(* [In] of the table is never opened with [left] / [right]: they would evaluate the whole table *)
Lemma gates_match_listed e :
  match e with Some k => In k (map fst eapi_options) | None => True end -> gates_match e = true.
Proof.
  intros He. pose proof (proj1 eapi_gate_table_is_pms_matrix_proof) as H. rewrite forallb_forall in H.
  apply H. destruct e; [apply in_cons, in_map, He | apply in_eq].
Qed.

Lemma lookup_eapi_in e l o : lookup_eapi e l = Some o -> In e (map fst l).
Proof.
  induction l as [|[k v] r IH]; cbn; [discriminate|].
  destruct (N.eqb_spec k e) as [->|]; [now left | intros H; right; now apply IH].
Qed.

Definition gates_feat (g : gates) (f : features) : Prop :=
  g_slot_deps g = f_slot f /\ g_use_deps g = f_use f /\ g_strong_blockers g = f_strong f
  /\ g_use_defaults g = f_defaults f /\ g_sub_slotting g = f_subslot f.

Lemma gates_features e g :
  gates_of e = Some g ->
  exists f, features_of e = Some f /\ gates_feat g f /\ f_repo f = negb (is_some e).
Proof.
  intros Hg. assert (Hm : gates_match e = true).
  { apply gates_match_listed. destruct e as [k|]; [|exact I].
    unfold gates_of, gates_of_num in Hg.
    destruct (lookup_eapi k eapi_options) eqn:E; [exact (lookup_eapi_in _ _ _ E) | discriminate]. }
  unfold gates_match in Hm. rewrite Hg in Hm. destruct (features_of e) as [f|] eqn:Hf; [|discriminate].
  exists f. split; [reflexivity|]. split.
  - repeat (apply andb_true_iff in Hm as [Hm ?]). repeat split; now apply eqb_prop.
  - destruct e as [k|]; cbn in Hf; [destruct (k <=? pms_newest_eapi); [|discriminate]|];
      now injection Hf as <-.
Qed.

Lemma features_gates e : features_of e <> None -> gates_of e <> None.
Proof.
  intros Hf Hg. assert (Hm : gates_match e = true).
  { apply gates_match_listed. destruct e as [k|]; [|exact I].
    rewrite (proj2 eapi_gate_table_is_pms_matrix_proof). cbn [features_of] in Hf.
    destruct (N.leb_spec k pms_newest_eapi); [|congruence]. unfold pms_newest_eapi in *. cbn. lia. }
  unfold gates_match in Hm. rewrite Hg in Hm. destruct (features_of e); [discriminate | congruence].
Qed.

Lemma features_gates_full e f :
  features_of e = Some f -> exists g, gates_of e = Some g /\ gates_feat g f /\ f_repo f = negb (is_some e).
Proof.
  intros Hf. destruct (gates_of e) as [g|] eqn:Eg.
  - destruct (gates_features _ _ Eg) as (f' & Hf' & G & Hr). rewrite Hf in Hf'. injection Hf' as <-. eauto.
  - exfalso. apply (features_gates e); [congruence | exact Eg].
Qed.

Definition atom_of (n : bool) (use : option (list str)) (p : slot_part) (b st : bool) (op cpv : str)
           (c : cpv_rec) : atom_rec :=
  {| a_cpvstr := cpv; a_cat := c_cat c; a_pkg := c_pkg c; a_ver := c_ver c; a_rev := c_rev c; a_op := op;
     a_blocks := b; a_strong := st; a_slot := sp_slot p; a_subslot := sp_sub p; a_slotop := sp_op p;
     a_use := use; a_repo := sp_repo p; a_negate := n;
     a_transitive := match use with Some u => existsb is_transitive_dep u | None => false end |}.

(* the stages an accepted text has passed: [lft] is the text left of the slot, [p] the slot part *)
Definition rest_parts (e : option N) (g : gates) (body : str) (use : option (list str))
           (colon : option (str * str)) (lft : str) (p : slot_part) (b st : bool) (op cpv : str)
           (c : cpv_rec) : Prop :=
  match colon with
  | Some (l, r) => lft = l /\ stage_slot g r = Some p
  | None => lft = body /\ p = no_slot
  end
  /\ stage_prefix g lft = R3 b st op cpv
  /\ is_some (sp_slot p) && negb (g_slot_deps g) = false
  /\ is_some use && negb (g_use_deps g) = false
  /\ is_some e && is_some (sp_repo p) = false
  /\ parse_cpv (negb (is_nil op)) cpv = Some c
  /\ str_eqb op [c_tilde] && nonempty_opt (c_rev c) = false.

Lemma parse_rest_inv e n g body use colon a :
  parse_rest e n g (body, use, colon) = Ok a ->
  exists lft p b st op cpv c,
    rest_parts e g body use colon lft p b st op cpv c /\ a = atom_of n use p b st op cpv c.
Proof.
  unfold parse_rest.
  set (sp := match colon with Some (lft, rgt) => _ | None => _ end).
  destruct sp as [[lft p]|] eqn:Esp; [|discriminate].
  destruct (stage_prefix g lft) as [b st op cpv|] eqn:Ep; [|discriminate].
  destruct (is_some (sp_slot p) && negb (g_slot_deps g)) eqn:E1; [discriminate|].
  destruct (is_some use && negb (g_use_deps g)) eqn:E2; [discriminate|].
  destruct (is_some e && is_some (sp_repo p)) eqn:E3; [discriminate|].
  destruct (parse_cpv (negb (is_nil op)) cpv) as [c|] eqn:Ec; [|discriminate].
  destruct (str_eqb op [c_tilde] && nonempty_opt (c_rev c)) eqn:Et; [discriminate|].
  intros H; injection H as <-.
  exists lft, p, b, st, op, cpv, c. split; [|reflexivity]. repeat split; try assumption.
  unfold sp in Esp. destruct colon as [[l r]|].
  - destruct (stage_slot g r) as [p'|]; [|discriminate]. injection Esp as <- <-. auto.
  - injection Esp as <- <-. auto.
Qed.

Lemma parse_rest_ok e n g body use colon lft p b st op cpv c :
  rest_parts e g body use colon lft p b st op cpv c ->
  parse_rest e n g (body, use, colon) = Ok (atom_of n use p b st op cpv c).
Proof.
  intros (Hc & Hp & E1 & E2 & E3 & Ec & Et). unfold parse_rest.
  destruct colon as [[l r]|]; destruct Hc as [<- Hs]; [rewrite Hs | rewrite <- Hs];
    rewrite Hp, E1, E2, E3, Ec, Et; reflexivity.
Qed.

Lemma parse_atom_inv e n s a :
  parse_atom e n s = Ok a ->
  s <> [] /\ exists g body use colon,
    gates_of e = Some g /\ stage_use g s = Some (body, use, colon)
    /\ parse_rest e n g (body, use, colon) = Ok a.
Proof.
  unfold parse_atom. destruct s as [|x t]; [discriminate|].
  destruct (gates_of e) as [g|]; [|discriminate].
  destruct (stage_use g (x :: t)) as [[[body use] colon]|] eqn:Eu; [|discriminate].
  intros H. split; [discriminate|]. now exists g, body, use, colon.
Qed.

Lemma parse_atom_unsupported e n s : parse_atom e n s = Unsupported -> gates_of e = None.
Proof.
  unfold parse_atom. destruct s as [|x t]; [discriminate|].
  destruct (gates_of e) as [g|]; [|reflexivity].
  destruct (stage_use g (x :: t)) as [[[body use] colon]|]; [|discriminate].
  intros H. exfalso. unfold parse_rest in H.
  destruct (match colon with Some (lft, rgt) => _ | None => _ end) as [[lft p]|]; [|discriminate].
  destruct (stage_prefix g lft); [|discriminate].
  destruct (_ && _); [discriminate|]. destruct (_ && _); [discriminate|]. destruct (_ && _); [discriminate|].
  destruct (parse_cpv _ _); [|discriminate]. destruct (_ && _); discriminate.
Qed.

Definition canon (s : str) : str :=
  match split_first c_lbr s with
  | Some (pre, post) =>
      pre ++ c_lbr :: join c_comma (sort_strs (split_on c_comma (removelast post))) ++ [c_rbr]
  | None => s
  end.

Definition op_chars : str := [c_lt; c_gt; c_eq; c_tilde; c_star].

Lemma stage_op_print b st a2 b' st' op cpv :
  stage_op b st a2 = R3 b' st' op cpv ->
  b' = b /\ st' = st /\
  a2 = (if str_eqb op [c_eq; c_star] then c_eq :: cpv ++ [c_star] else op ++ cpv)
  /\ forallb (fun x => existsb (N.eqb x) op_chars) op = true.
Proof.
  unfold stage_op. destruct a2 as [|d t2]; [discriminate|].
  destruct ((d =? c_lt) || (d =? c_gt)) eqn:Elg.
  { apply orb_true_iff in Elg as [E|E]; apply N.eqb_eq in E; subst d;
      (destruct t2 as [|e t3]; [|destruct (N.eqb_spec e c_eq) as [->|He]]);
      intros H; injection H as <- <- <- <-; repeat split. }
  destruct (N.eqb_spec d c_eq) as [->|Heq].
  { destruct (lastc (c_eq :: t2)) as [l|] eqn:El.
    - destruct (N.eqb_spec l c_star) as [->|Hs]; intros H; injection H as <- <- <- <-; repeat split.
      apply lastc_some in El. destruct t2 as [|y t']; [discriminate|]. exact El.
    - intros H; injection H as <- <- <- <-; repeat split. }
  destruct (N.eqb_spec d c_tilde) as [->|Ht]; intros H; injection H as <- <- <- <-; repeat split.
Qed.

Lemma stage_prefix_print g l b st op cpv :
  stage_prefix g l = R3 b st op cpv ->
  l = p_head b st op cpv /\ forallb (fun x => existsb (N.eqb x) op_chars) op = true.
Proof.
  unfold stage_prefix, p_head. destruct l as [|c t]; [discriminate|].
  destruct (N.eqb_spec c c_bang) as [->|Hb]; cbn [andb].
  - destruct t as [|d t']; [discriminate|].
    destruct (N.eqb_spec d c_bang) as [->|Hd].
    + destruct (g_strong_blockers g); cbn [negb tl]; [|discriminate].
      intros H. apply stage_op_print in H as (-> & -> & -> & Ho). now split.
    + intros H. apply stage_op_print in H as (-> & -> & -> & Ho). now split.
  - intros H. apply stage_op_print in H as (-> & -> & -> & Ho). now split.
Qed.

Lemma p_slot_some a sub op :
  slot_chunk_ok a = true ->
  p_slot (Some a) sub op =
  c_colon :: a ++ (if nonempty_opt sub then c_slash :: opt_str sub else [])
    ++ (match op with Some o => if str_eqb o [c_eq] then o else [] | None => [] end).
Proof. destruct a; [discriminate | reflexivity]. Qed.

Lemma slot_body_print g slot ro p :
  slot_body g slot ro = Some p ->
  p_slot (sp_slot p) (sp_sub p) (sp_op p) = c_colon :: slot /\ sp_repo p = ro.
Proof.
  unfold slot_body. destruct slot as [|c t]; [discriminate|].
  destruct (g_sub_slotting g).
  - destruct ((c =? c_star) || (c =? c_eq)) eqn:E.
    + destruct t; cbn [is_nil negb]; [|discriminate].
      intros H; injection H as <-. split; reflexivity.
    + (* [o] is the slot operator that was split off, [body] what is left *)
      assert (Hso : forall (o : option str) (body : str),
                 (match o with Some x => x = [c_eq] | None => True end) ->
                 c :: t = body ++ opt_str o ->
                 match split_first c_slash body with
                 | Some (a, b) =>
                     if slot_chunk_ok a && slot_chunk_ok b
                     then Some {| sp_slot := Some a; sp_sub := Some b; sp_op := o; sp_repo := ro |}
                     else None
                 | None =>
                     if slot_chunk_ok body
                     then Some {| sp_slot := Some body; sp_sub := None; sp_op := o; sp_repo := ro |}
                     else None
                 end = Some p ->
                 p_slot (sp_slot p) (sp_sub p) (sp_op p) = c_colon :: c :: t /\ sp_repo p = ro).
      { intros o body Ho Hb.
        destruct (split_first c_slash body) as [[a b]|] eqn:Es.
        - apply split_first_spec in Es as [-> _].
          destruct (slot_chunk_ok a) eqn:Ha; [|discriminate].
          destruct (slot_chunk_ok b) eqn:Hb'; [|discriminate].
          intros H; injection H as <-. split; [|reflexivity]. cbn [sp_slot sp_sub sp_op].
          rewrite (p_slot_some _ _ _ Ha), Hb, <- !app_assoc. destruct b; [discriminate|].
          destruct o as [x|]; [subst x|]; reflexivity.
        - destruct (slot_chunk_ok body) eqn:Ha; [|discriminate].
          intros H; injection H as <-. split; [|reflexivity]. cbn [sp_slot sp_sub sp_op].
          rewrite (p_slot_some _ _ _ Ha), Hb. destruct o as [x|]; [subst x|]; reflexivity. }
      unfold slot_op_split. destruct (lastc (c :: t)) as [l|] eqn:El.
      * destruct (N.eqb_spec l c_eq) as [->|Hl]; cbn [fst snd].
        -- apply Hso; [reflexivity|]. now apply lastc_some.
        -- apply Hso; [exact I|]. cbn [opt_str]. now rewrite app_nil_r.
      * cbn [fst snd]. apply Hso; [exact I|]. cbn [opt_str]. now rewrite app_nil_r.
  - destruct (g_slot_deps g); cbn [negb]; [|discriminate].
    destruct (slot_chunk_ok (c :: t)) eqn:Ha; [|discriminate].
    intros H; injection H as <-. split; [|reflexivity]. cbn [sp_slot sp_sub sp_op].
    rewrite (p_slot_some _ _ _ Ha). cbn. now rewrite app_nil_r.
Qed.

Lemma stage_slot_inv g rgt p :
  stage_slot g rgt = Some p ->
  (exists r, rgt = c_colon :: r /\ r <> [] /\ repo_ok (Some r) = true
             /\ p = {| sp_slot := None; sp_sub := None; sp_op := None; sp_repo := Some r |})
  \/ (exists slot ro, slot <> [] /\ repo_ok ro = true /\ slot_body g slot ro = Some p
                      /\ rgt = slot ++ p_repo ro).
Proof.
  unfold stage_slot.
  destruct (split_dcolon (c_colon :: rgt)) as [[a r]|] eqn:Ed; cbn [fst snd].
  - pose proof (split_dcolon_spec _ _ _ Ed) as Es.
    destruct (repo_ok (Some r)) eqn:Er; cbn [negb]; [|discriminate].
    destruct r as [|rc rt]; [discriminate|].
    destruct a as [|a0 [|c t]]; cbn [tl]; cbn in Es.
    + injection Es as ->. intros H; injection H as <-. left. now exists (rc :: rt).
    + (* ":::" : the first "::" is at the very beginning *)
      injection Es as _ ->. discriminate Ed.
    + injection Es as _ ->. intros H. right. exists (c :: t), (Some (rc :: rt)).
      repeat split; [discriminate | exact Er | exact H].
  - cbn [repo_ok negb tl]. destruct rgt as [|c t]; [discriminate|].
    intros H. right. exists (c :: t), None. repeat split; [discriminate | exact H |].
    cbn. now rewrite app_nil_r.
Qed.

Lemma stage_slot_print g rgt p :
  stage_slot g rgt = Some p ->
  p_slot (sp_slot p) (sp_sub p) (sp_op p) ++ p_repo (sp_repo p) = c_colon :: rgt.
Proof.
  intros H. apply stage_slot_inv in H as [(r & -> & Hr & _ & ->)|(slot & ro & _ & _ & H & ->)].
  - destruct r; [congruence | reflexivity].
  - apply slot_body_print in H as [-> ->]. reflexivity.
Qed.

Lemma stage_use_inv g s body use colon :
  stage_use g s = Some (body, use, colon) ->
  (exists u, s = body ++ c_lbr :: u ++ [c_rbr] /\ ~ In c_lbr body /\ ~ In c_rbr u
             /\ use = Some (sort_strs (split_on c_comma u))
             /\ forallb (valid_use_dep (g_use_defaults g)) (sort_strs (split_on c_comma u)) = true
             /\ colon = split_first c_colon body)
  \/ (~ In c_lbr s /\ body = s /\ use = None
      /\ colon = match split_first c_colon (removelast s) with
                 | Some (p, q) => Some (p, q ++ [last s 0])
                 | None => None
                 end).
Proof.
  unfold stage_use. destruct (split_first c_lbr s) as [[pre post]|] eqn:E1.
  - destruct (split_first c_rbr post) as [[u tail]|] eqn:E2; [|discriminate].
    destruct tail; cbn [is_nil negb]; [|discriminate].
    destruct (forallb _ _) eqn:Ev; [|discriminate]. intros H; injection H as <- <- <-.
    apply split_first_spec in E1 as [-> Hpre]. apply split_first_spec in E2 as [-> Hu].
    left. now exists u.
  - intros H; injection H as <- <- <-. right. now apply split_first_none in E1.
Qed.

Lemma stage_use_facts g s body use colon :
  s <> [] ->
  stage_use g s = Some (body, use, colon) ->
  canon s = body ++ p_use use
  /\ canon s <> []
  /\ match colon with Some (l, r) => body = l ++ c_colon :: r | None => True end
  /\ stage_use g (canon s) = Some (body, use, colon).
Proof.
  intros Hne H. unfold canon.
  apply stage_use_inv in H as [(u & -> & Hpre & Hu & -> & Ev & ->)|(Hn & -> & -> & ->)].
  - rewrite (split_first_app c_lbr body _ Hpre).
    rewrite removelast_last.
    set (us := sort_strs (split_on c_comma u)) in *.
    assert (Hus : us <> []) by (apply sort_nonnil, split_on_nonnil).
    assert (Hj : ~ In c_rbr (join c_comma us)).
    { intros Hin. apply in_join in Hin as [Hc|[x [Hx Hy]]]; [discriminate|].
      apply (proj1 (sort_in _ _)) in Hx. apply Hu. exact (split_on_chars _ _ _ _ Hx Hy). }
    assert (Hsj : sort_strs (split_on c_comma (join c_comma us)) = us).
    { rewrite split_on_join; [apply sort_of_sorted, sort_sorted | exact Hus |].
      intros x Hx. apply (proj1 (sort_in _ _)) in Hx. exact (split_on_no_sep _ _ _ Hx). }
    repeat split.
    + destruct us as [|u0 ur] eqn:Eus; [congruence|]. reflexivity.
    + destruct body; discriminate.
    + destruct (split_first c_colon body) as [[l r]|] eqn:E3; [|exact I].
      now apply split_first_spec in E3 as [-> _].
    + unfold stage_use. rewrite (split_first_app c_lbr body _ Hpre).
      rewrite (split_first_app c_rbr _ [] Hj). cbn [is_nil negb].
      rewrite Hsj, Ev. reflexivity.
  - rewrite (proj2 (split_first_none c_lbr s) Hn). cbn [p_use]. rewrite app_nil_r.
    repeat split; [exact Hne | | ].
    + destruct (split_first c_colon (removelast s)) as [[p q]|] eqn:E3; [|exact I].
      apply split_first_spec in E3 as [E3 _].
      rewrite (app_removelast_last 0 Hne) at 1. rewrite E3. now rewrite <- app_assoc.
    + unfold stage_use. now rewrite (proj2 (split_first_none c_lbr s) Hn).
Qed.

Lemma parse_rest_print e n g body use colon a :
  match colon with Some (l, r) => body = l ++ c_colon :: r | None => True end ->
  parse_rest e n g (body, use, colon) = Ok a ->
  print_atom a = body ++ p_use use.
Proof.
  intros Hcol H.
  apply parse_rest_inv in H as (lft & p & b & st & op & cpv & c & (Hsp & Ep & _) & ->).
  unfold print_atom. cbn [atom_of a_blocks a_strong a_op a_cpvstr a_slot a_subslot a_slotop a_repo a_use].
  rewrite <- (proj1 (stage_prefix_print _ _ _ _ _ _ Ep)).
  destruct colon as [[l r]|]; destruct Hsp as [-> Hp].
  - rewrite Hcol, (app_assoc (p_slot _ _ _)), (stage_slot_print _ _ _ Hp). now rewrite <- app_assoc.
  - subst p. reflexivity.
Qed.

Lemma parse_atom_canon e n s a :
  parse_atom e n s = Ok a -> print_atom a = canon s /\ parse_atom e n (canon s) = Ok a.
Proof.
  intros H. apply parse_atom_inv in H as (Hne & g & body & use & colon & Eg & Eu & Hr).
  destruct (stage_use_facts _ _ _ _ _ Hne Eu) as (Hc & Hcn & Hcol & Hu).
  split; [now rewrite (parse_rest_print _ _ _ _ _ _ _ Hcol Hr)|].
  unfold parse_atom. rewrite Eg, Hu. destruct (canon s); [congruence | exact Hr].
Qed.

(* non-vacuity: concrete atoms that are accepted, what they render to, and that the hypothesis of the
   round-trip theorem is met by atoms using every feature *)
Example ex_parse_full :   (* !!>=dev-libs/foo-bar-1.2b_rc3-r4:2/3=[-x,b(+)?,a] under EAPI 5 *)
  exists a, parse_atom (Some 5) false [33;33;62;61;100;101;118;45;108;105;98;115;47;102;111;111;45;98;97;114;45;49;46;50;98;95;114;99;51;45;114;52;58;50;47;51;61;91;45;120;44;98;40;43;41;63;44;97;93] = Ok a
            /\ print_atom a = [33;33;62;61;100;101;118;45;108;105;98;115;47;102;111;111;45;98;97;114;45;49;46;50;98;95;114;99;51;45;114;52;58;50;47;51;61;91;45;120;44;97;44;98;40;43;41;63;93]      (* USE deps come back sorted *)
            /\ a_pkg a = [102;111;111;45;98;97;114] /\ a_ver a = Some [49;46;50;98;95;114;99;51] /\ a_rev a = Some [52]
            /\ a_slot a = Some [50] /\ a_subslot a = Some [51] /\ a_slotop a = Some [61]
            /\ a_strong a = true /\ a_transitive a = true.
Proof. eexists. vm_compute. repeat split; reflexivity. Qed.

Example ex_parse_repo :   (* =a/b-1*::gentoo with no EAPI; rejected under every numbered EAPI *)
  is_ok (parse_atom None false [61;97;47;98;45;49;42;58;58;103;101;110;116;111;111]) = true
  /\ forallb (fun e => negb (is_ok (parse_atom (Some e) false [61;97;47;98;45;49;42;58;58;103;101;110;116;111;111]))) [0;1;2;3;4;5;6;7;8;9] = true.
Proof. split; vm_compute; reflexivity. Qed.

(* A generated class lists its ranges in code-point order; a PMS class is the alphanumerics plus a
   few single characters.  The two are compared range by range, whatever the order. *)
Definition ranges_incl (l1 l2 : list (N * N)) : bool :=
  forallb (fun r => existsb (fun r' => (fst r =? fst r') && (snd r =? snd r')) l2) l1.

Lemma in_ranges_incl l1 l2 c : ranges_incl l1 l2 = true -> in_ranges l1 c = true -> in_ranges l2 c = true.
Proof.
  unfold ranges_incl, in_ranges. rewrite forallb_forall, !existsb_exists. intros H (r & Hr & Hc).
  apply H, existsb_exists in Hr as (r' & Hr' & E). apply andb_true_iff in E as [E1 E2].
  apply N.eqb_eq in E1, E2. exists r'. split; [exact Hr'|]. now rewrite <- E1, <- E2.
Qed.

Definition point (k : N) : N * N := (k, k).

Lemma in_ranges_points rs ks c :
  in_ranges (rs ++ map point ks) c = in_ranges rs c || existsb (N.eqb c) ks.
Proof.
  unfold in_ranges. rewrite existsb_app. f_equal.
  induction ks as [|k ks IH]; [reflexivity|]. cbn [map existsb point fst snd]. rewrite IH. f_equal.
  apply eq_true_iff_eq. rewrite andb_true_iff, !N.leb_le, N.eqb_eq. lia.
Qed.

Lemma cls_use_first c : in_ranges use_first_class c = s_alnum c.
Proof.
  change (in_ranges use_first_class c) with (s_digit c || (s_upper c || (s_lower c || false))).
  unfold s_alnum. now destruct (s_digit c), (s_lower c), (s_upper c).
Qed.
Lemma cls_ver_letter c : in_ranges ver_letter_class c = s_lower c || s_upper c.
Proof.
  change (in_ranges ver_letter_class c) with (s_upper c || (s_lower c || false)).
  now destruct (s_lower c), (s_upper c).
Qed.

Lemma cls_alnum_and cls ks c :
  ranges_incl cls (use_first_class ++ map point ks) && ranges_incl (use_first_class ++ map point ks) cls
  = true ->
  in_ranges cls c = s_alnum c || existsb (N.eqb c) ks.
Proof.
  intros H. apply andb_true_iff in H as [H1 H2]. rewrite <- cls_use_first, <- in_ranges_points.
  apply eq_true_iff_eq. split; now apply in_ranges_incl.
Qed.

Lemma cls_cat_rest c : in_ranges cat_rest_class c = s_cat_char c.
Proof.
  rewrite (cls_alnum_and _ [43; 95; 46; 45]) by reflexivity.
  unfold s_cat_char. cbn [existsb]. now rewrite orb_false_r, !orb_assoc.
Qed.
Lemma cls_slot c : in_ranges slot_class c = s_slot_char c.
Proof.
  rewrite (cls_alnum_and _ [43; 95; 46; 45]) by reflexivity.
  unfold s_slot_char, s_cat_char. cbn [existsb]. now rewrite orb_false_r, !orb_assoc.
Qed.
Lemma cls_use_rest c : in_ranges use_rest_class c = s_use_char c.
Proof.
  rewrite (cls_alnum_and _ [43; 95; 64; 45]) by reflexivity.
  unfold s_use_char. cbn [existsb]. now rewrite orb_false_r, !orb_assoc.
Qed.
Lemma cls_repo c : in_ranges repo_class c = s_repo_char c.
Proof.
  rewrite (cls_alnum_and _ [95; 45]) by reflexivity.
  unfold s_repo_char. cbn [existsb]. now rewrite orb_false_r, !orb_assoc.
Qed.
(* the first character of a category, and a package chunk: the class minus a few characters, each
   of which is tried *)
Lemma cls_cat_first c :
  in_ranges cat_first_class c = s_cat_char c && negb ((c =? 45) || (c =? 46) || (c =? 43)).
Proof.
  rewrite (cls_alnum_and _ [95]) by reflexivity. unfold s_cat_char. cbn [existsb].
  destruct (N.eqb_spec c 45) as [->|]; [reflexivity|].
  destruct (N.eqb_spec c 46) as [->|]; [reflexivity|].
  destruct (N.eqb_spec c 43) as [->|]; [reflexivity|].
  now rewrite !orb_false_r, andb_true_r.
Qed.
Lemma cls_pkg c : in_ranges pkg_class c = s_pkg_char c && negb (c =? 45).
Proof.
  rewrite (cls_alnum_and _ [43; 95]) by reflexivity. unfold s_pkg_char. cbn [existsb].
  destruct (N.eqb_spec c 45) as [->|]; [reflexivity|].
  now rewrite !orb_false_r, andb_true_r, !orb_assoc.
Qed.
Lemma cls_digit c : is_digit c = s_digit c.
Proof. reflexivity. Qed.

Lemma m_category_pms s : ~ In c_nl s -> m_category s = pms_category s.
Proof.
  intros Hn. unfold m_category, re_first_rest, pms_category, first_not. rewrite (strip_nl_id _ Hn).
  destruct s as [|x t]; [reflexivity|]. cbn [forallb existsb].
  unfold all_in. rewrite cls_cat_first, (forallb_ext_in _ _ t (fun x _ => cls_cat_rest x)).
  destruct (s_cat_char x), (forallb s_cat_char t), (x =? 45), (x =? 46), (x =? 43); reflexivity.
Qed.

Lemma m_use_flag_pms s : ~ In c_nl s -> m_use_flag s = pms_use_flag s.
Proof.
  intros Hn. unfold m_use_flag, re_first_rest, pms_use_flag. rewrite (strip_nl_id _ Hn).
  destruct s as [|x t]; [reflexivity|]. cbn [forallb].
  unfold all_in. rewrite cls_use_first, (forallb_ext_in _ _ t (fun x _ => cls_use_rest x)).
  destruct (s_alnum x) eqn:E; [|now rewrite andb_false_r].
  replace (s_use_char x) with true by (unfold s_use_char; now rewrite E). now rewrite andb_true_r.
Qed.

Lemma repo_ok_pms s : repo_ok (Some s) = pms_repo_name s.
Proof.
  unfold repo_ok, pms_repo_name, first_not. destruct s as [|x t]; [reflexivity|].
  unfold all_in. rewrite (forallb_ext_in _ _ (x :: t) (fun y _ => cls_repo y)). cbn [existsb]. rewrite orb_false_r.
  apply andb_comm.
Qed.

Lemma slot_chunk_pms s :
  slot_chunk_ok s = (pms_slot_name s
                     || match s with c :: _ => (c =? c_plus) && forallb s_slot_char s | [] => false end).
Proof.
  unfold slot_chunk_ok, pms_slot_name, first_not. destruct s as [|x t]; [reflexivity|].
  unfold all_in. rewrite (forallb_ext_in _ _ (x :: t) (fun y _ => cls_slot y)). cbn [existsb]. rewrite orb_false_r.
  unfold c_dash, c_dot, c_plus.
  destruct (forallb s_slot_char (x :: t)); [|now rewrite !andb_false_r].
  rewrite !andb_true_r, !andb_true_l.
  destruct (N.eqb_spec x 45) as [->|H1]; [reflexivity|].
  destruct (N.eqb_spec x 46) as [->|H2]; [reflexivity|].
  destruct (N.eqb_spec x 43) as [->|H3]; reflexivity.
Qed.

Lemma m_use_flag_chars z x : m_use_flag z = true -> In x z -> s_use_char x = true \/ x = c_nl.
Proof.
  unfold m_use_flag, re_first_rest. intros H Hin.
  assert (Hs : In x (strip_nl z) \/ x = c_nl).
  { destruct (strip_nl_cases z) as [E|E]; rewrite E in Hin; [now left|].
    apply in_app_or in Hin as [Hin|[<-|[]]]; auto. }
  destruct Hs as [Hs|Hs]; [left | now right].
  destruct (strip_nl z) as [|y t]; [discriminate|]. apply andb_true_iff in H as [H1 H2].
  destruct Hs as [<-|Hs].
  - rewrite cls_use_first in H1. unfold s_use_char. now rewrite H1.
  - unfold all_in in H2. rewrite forallb_forall in H2. rewrite <- cls_use_rest. now apply H2.
Qed.

Definition ver_char (x : N) : bool :=
  is_digit x || existsb (N.eqb x) [c_dot; c_us] || in_ranges ver_letter_class x
  || existsb (existsb (N.eqb x)) suffix_names.

Lemma digits_ver_char s : forallb is_digit s = true -> forall x, In x s -> ver_char x = true.
Proof. intros H x Hin. rewrite forallb_forall in H. unfold ver_char. now rewrite (H _ Hin). Qed.

Lemma ver_nums_chars fuel s r :
  ver_nums fuel s = Some r -> exists p, s = p ++ r /\ forall x, In x p -> ver_char x = true.
Proof.
  revert s r; induction fuel as [|f IH]; intros s r; cbn [ver_nums]; [discriminate|].
  destruct s as [|x t]; [discriminate|].
  destruct (is_digit x) eqn:Ex; [|discriminate].
  pose proof (take_drop is_digit (x :: t)) as Htd.
  pose proof (digits_ver_char _ (take_while_all is_digit (x :: t))) as Hd.
  destruct (drop_while is_digit (x :: t)) as [|d r'] eqn:Ed.
  - intros H; injection H as <-. now exists (take_while is_digit (x :: t)).
  - destruct (N.eqb_spec d c_dot) as [->|].
    + intros H. destruct (IH _ _ H) as (p & -> & Hp).
      exists (take_while is_digit (x :: t) ++ c_dot :: p). split; [now rewrite <- app_assoc|].
      intros y Hin. apply in_app_or in Hin as [Hin|[<-|Hin]]; [now apply Hd | reflexivity | now apply Hp].
    + intros H; injection H as <-. now exists (take_while is_digit (x :: t)).
Qed.

Lemma ver_sufs_chars fuel s x : ver_sufs fuel s = true -> In x s -> ver_char x = true.
Proof.
  revert s; induction fuel as [|f IH]; intros s; destruct s as [|c t]; cbn [ver_sufs];
    [intros _ [] | discriminate | intros _ [] | ].
  destruct (N.eqb_spec c c_us) as [->|]; [|discriminate].
  destruct (strip_any suffix_names t) as [r|] eqn:E; [|discriminate].
  apply strip_any_spec in E as (n & Hn & ->). intros H [<-|Hin]; [reflexivity|].
  apply in_app_or in Hin as [Hin|Hin].
  - unfold ver_char. replace (existsb (existsb (N.eqb x)) suffix_names) with true; [apply orb_true_r|].
    symmetry. apply existsb_exists. exists n. split; [exact Hn|].
    apply existsb_exists. exists x. split; [exact Hin | apply N.eqb_refl].
  - rewrite (take_drop is_digit r) in Hin. apply in_app_or in Hin as [Hin|Hin].
    + exact (digits_ver_char _ (take_while_all is_digit r) _ Hin).
    + exact (IH _ H Hin).
Qed.

Lemma ver_full_chars v x : ver_full v = true -> In x v -> ver_char x = true.
Proof.
  unfold ver_full. destruct (ver_nums _ v) as [r|] eqn:En; [|discriminate].
  apply ver_nums_chars in En as (p & -> & Hp). intros H Hin.
  apply in_app_or in Hin as [Hin|Hin]; [now apply Hp|].
  assert (Hl : in_ranges ver_letter_class x = true \/ In x (ver_letter r)).
  { unfold ver_letter. destruct r as [|c t]; [now right|].
    destruct (in_ranges ver_letter_class c) eqn:Ec; [|now right].
    destruct Hin as [<-|Hin]; [now left | now right]. }
  destruct Hl as [Hl|Hl]; [|exact (ver_sufs_chars _ _ _ H Hl)].
  unfold ver_char. rewrite Hl. apply orb_true_iff. left. apply orb_true_r.
Qed.

(* the version regex tolerates a final newline *)
Definition ver_foreign (x : N) : bool := negb (ver_char x) && negb (x =? c_nl).

Lemma m_version_foreign x v : ver_foreign x = true -> m_version v = true -> ~ In x v.
Proof.
  unfold ver_foreign, m_version. intros Hx H Hin.
  apply andb_true_iff in Hx as [Hc Hn]. apply negb_true_iff in Hc. apply negb_true_iff, N.eqb_neq in Hn.
  destruct (strip_nl_cases v) as [E|E]; rewrite E in Hin.
  - rewrite (ver_full_chars _ _ H Hin) in Hc. discriminate.
  - apply in_app_or in Hin as [Hin|[Hin|[]]]; [|congruence].
    rewrite (ver_full_chars _ _ H Hin) in Hc. discriminate.
Qed.

Lemma m_version_no_dash v : m_version v = true -> ~ In c_dash v.
Proof. now apply m_version_foreign. Qed.

Lemma isvalid_rev_chars r x : isvalid_rev r = true -> In x r -> x = c_r \/ is_digit x = true.
Proof.
  unfold isvalid_rev. destruct r as [|c t]; [discriminate|]. intros H.
  apply andb_true_iff in H as [H Hd]. apply andb_true_iff in H as [Hc _]. apply N.eqb_eq in Hc. subst c.
  intros [<-|Hin]; [now left | right]. rewrite forallb_forall in Hd. now apply Hd.
Qed.

Lemma isvalid_rev_no_dash r : isvalid_rev r = true -> ~ In c_dash r.
Proof. intros H Hin. now destruct (isvalid_rev_chars _ _ H Hin). Qed.

Definition suffix_version_like (name : str) : Prop :=
  exists p v, name = p ++ c_dash :: v /\ m_version v = true.
Definition suffix_version_rev_like (name : str) : Prop :=
  exists p v r, name = p ++ c_dash :: v ++ c_dash :: r /\ m_version v = true /\ isvalid_rev r = true.

Lemma pkg_name_boundary_proof :
  forall name,
    valid_pkg_name (split_on c_dash name) = true
    <-> (exists x t, name = x :: t /\ x <> c_dash /\ x <> c_plus)
        /\ forallb pkg_chunk_ok (split_on c_dash name) = true
        /\ ~ suffix_version_like name
        /\ ~ suffix_version_rev_like name.
Proof.
  intros name.
  pose proof (join_split_on c_dash name) as Hjoin.
  pose proof (split_on_nonnil c_dash name) as Hnn.
  assert (Hlast : forall p v, ~ In c_dash v -> split_on c_dash (p ++ c_dash :: v) = split_on c_dash p ++ [v]).
  { intros p v Hv. now rewrite split_on_app, (split_on_nosep _ _ Hv). }
  split.
  - (* the code's rule implies the boundary statement *)
    unfold valid_pkg_name. destruct (split_on c_dash name) as [|c0 rest] eqn:Ech; [congruence|].
    destruct c0 as [|x c0']; [discriminate|].
    destruct (N.eqb_spec x c_plus) as [|Hplus]; [discriminate|].
    destruct (forallb pkg_chunk_ok _) eqn:Eall; cbn [negb]; [|discriminate].
    assert (Hx : x <> c_dash).
    { intros ->. apply (split_on_no_sep c_dash name (c_dash :: c0')); [rewrite Ech; now left | now left]. }
    assert (Hhead : exists x' t, name = x' :: t /\ x' <> c_dash /\ x' <> c_plus).
    { rewrite <- Hjoin. destruct rest as [|r0 rs]; cbn [join]; [exists x, c0'; auto|].
      exists x, (c0' ++ c_dash :: join c_dash (r0 :: rs)). auto. }
    destruct rest as [|r0 rs].
    + intros _. apply split_single in Ech as [_ Hnd].
      repeat split; [exact Hhead | | ].
      * intros (p & v & -> & _). apply Hnd, in_or_app. right. now left.
      * intros (p & v & r & -> & _). apply Hnd, in_or_app. right. now left.
    + match goal with |- context [m_version (last ?l [])] => set (chunks := l) in * end.
      destruct (m_version (last chunks [])) eqn:Ev; [discriminate|].
      intros Hrev. repeat split; [exact Hhead | | ].
      * intros (p & v & -> & Hv). rewrite (Hlast _ _ (m_version_no_dash _ Hv)) in Ech.
        rewrite <- Ech, last_last in Ev. congruence.
      * intros (p & v & r & -> & Hv & Hr).
        pose proof (m_version_no_dash _ Hv) as Hvd. pose proof (isvalid_rev_no_dash _ Hr) as Hrd.
        replace (p ++ c_dash :: v ++ c_dash :: r) with ((p ++ c_dash :: v) ++ c_dash :: r) in Ech
          by now rewrite <- app_assoc.
        rewrite (Hlast _ _ Hrd), (Hlast _ _ Hvd) in Ech.
        rewrite <- Ech in Hrev.
        rewrite last_last, Hr, removelast_last, last_last, Hv, andb_true_r in Hrev.
        rewrite !app_length in Hrev. cbn [length] in Hrev.
        pose proof (split_on_nonnil c_dash p) as Hp.
        destruct (Nat.leb_spec 3 (length (split_on c_dash p) + 1 + 1)) as [_|Hlt]; [cbn in Hrev; discriminate|].
        destruct (split_on c_dash p) as [|? ?]; [congruence|]. cbn [length] in Hlt. lia.
  - (* the boundary statement implies the code's rule *)
    intros ((x & t & Hname & Hxd & Hxp) & Hall & Hnv & Hnr).
    unfold valid_pkg_name. destruct (split_on c_dash name) as [|c0 rest] eqn:Ech; [congruence|].
    assert (Hc0 : exists c0', c0 = x :: c0').
    { rewrite Hname in Ech. cbn [split_on] in Ech. revert Ech. destruct (N.eqb_spec x c_dash) as [|_]; [congruence|].
      destruct (split_on c_dash t) as [|h r]; intros Ech; injection Ech as <- _; eauto. }
    destruct Hc0 as (c0' & ->).
    destruct (N.eqb_spec x c_plus) as [|_]; [congruence|].
    rewrite Hall. cbn [negb].
    destruct rest as [|r0 rs]; [reflexivity|].
    match goal with |- context [m_version (last ?l [])] => set (chunks := l) in * end.
    destruct (join_last c_dash chunks) as (Hrl & Hlen & Hj1); [unfold chunks; cbn; lia|].
    assert (Hn1 : name = join c_dash (removelast chunks) ++ c_dash :: last chunks [])
      by (rewrite <- Hjoin; exact Hj1).
    destruct (m_version (last chunks [])) eqn:Ev.
    { exfalso. apply Hnv. eexists _, _. split; [exact Hn1 | exact Ev]. }
    destruct ((3 <=? length chunks)%nat && isvalid_rev (last chunks [])) eqn:E3; [|reflexivity].
    apply andb_true_iff in E3 as [E3 Er]. apply Nat.leb_le in E3.
    destruct (m_version (last (removelast chunks) [])) eqn:Ev2; [|reflexivity].
    exfalso. apply Hnr.
    set (rc := removelast chunks) in *.
    destruct (join_last c_dash rc) as (_ & _ & Hj2); [lia|].
    eexists (join c_dash (removelast rc)), _, _. split; [|split; [exact Ev2 | exact Er]].
    rewrite Hn1, Hj2. now rewrite <- app_assoc.
Qed.

Example ex_names :   (* foo-r1, foo-1ab, 9base are names;  foo-1, foo-1-r1, foo-1a, foo-1_p are not *)
  map (fun s => valid_pkg_name (split_on c_dash s))
      [ [102;111;111;45;114;49]; [102;111;111;45;49;97;98]; [57;98;97;115;101];
        [102;111;111;45;49]; [102;111;111;45;49;45;114;49]; [102;111;111;45;49;97]; [102;111;111;45;49;95;112] ]
  = [true; true; true; false; false; false; false].
Proof. vm_compute. reflexivity. Qed.

(* The property's first sentence, at full strength, for the EAPIs the spec knows (0..9, none).
   It is FALSE of the faithful model (and of the code: the witnesses are replayed by the harness). *)
Definition accept_iff_grammar_statement : Prop :=
  forall e s, features_of e <> None -> is_ok (parse_atom e false s) = pms_atom_b e s.

(* one witness per known class of disagreement (harness classifiers of the same names) *)
Example ex_trailing_newline :      (* "a/b\n", "=a/b-1\n" accepted *)
  is_ok (parse_atom None false [97;47;98;10]) = true /\ pms_atom_b None [97;47;98;10] = false
  /\ is_ok (parse_atom (Some 7) false [61;97;47;98;45;49;10]) = true /\ pms_atom_b (Some 7) [61;97;47;98;45;49;10] = false.
Proof. vm_compute. repeat split; reflexivity. Qed.
Example ex_upper_version_letter :  (* "=a/b-1A" accepted; the PMS-valid name "a/b-1A" rejected *)
  is_ok (parse_atom (Some 5) false [61;97;47;98;45;49;65]) = true /\ pms_atom_b (Some 5) [61;97;47;98;45;49;65] = false
  /\ is_ok (parse_atom (Some 5) false [97;47;98;45;49;65]) = false /\ pms_atom_b (Some 5) [97;47;98;45;49;65] = true.
Proof. vm_compute. repeat split; reflexivity. Qed.
Example ex_slot_leading_plus :     (* "a/b:+0" accepted under EAPI 1 *)
  is_ok (parse_atom (Some 1) false [97;47;98;58;43;48]) = true /\ pms_atom_b (Some 1) [97;47;98;58;43;48] = false.
Proof. vm_compute. repeat split; reflexivity. Qed.
(* boundary cases: "!!" under EAPI 0/1 is refused with MalformedAtom, "=...*"
   with a revision is accepted and round-trips, a ":" in last position is simply not a slot separator *)
Example ex_design_spots :
  parse_atom (Some 1) false [33;33;97;47;98] = Malformed
  /\ is_ok (parse_atom (Some 2) false [33;33;97;47;98]) = true
  /\ is_ok (parse_atom (Some 0) false [61;97;47;98;45;49;45;114;49;42]) = true /\ pms_atom_b (Some 0) [61;97;47;98;45;49;45;114;49;42] = true
  /\ parse_atom None false [97;47;98;58] = Malformed /\ pms_atom_b None [97;47;98;58] = false
  /\ parse_atom None false [97;47;98;91;120;93;58;48] = Malformed /\ pms_atom_b None [97;47;98;91;120;93;58;48] = false.
Proof. vm_compute. repeat split; reflexivity. Qed.
