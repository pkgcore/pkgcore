From Coq Require Import List NArith.
Import ListNotations.
From Verif Require Import Base.Lists gen.Tables_xpak C26.Model_C26 C26.Spec_C26 C26.Proofs_C26.
Local Open Scope N_scope.

Theorem unbe32_be32 : forall n, n < 4294967296 -> unbe32 (be32 n) = n.
Proof. exact unbe32_be32_proof. Qed.
Print Assumptions unbe32_be32.

Theorem be32_unbe32 : forall a b c d,
  a < 256 -> b < 256 -> c < 256 -> d < 256 -> be32 (unbe32 [a; b; c; d]) = [a; b; c; d].
Proof. exact be32_unbe32_digits. Qed.
Print Assumptions be32_unbe32.

Theorem be32_shift : forall n,
  be32 n = [N.land (N.shiftr n 24) 255; N.land (N.shiftr n 16) 255; N.land (N.shiftr n 8) 255; N.land n 255]
  /\ length (be32 n) = 4%nat /\ Forall (fun b => b < 256) (be32 n).
Proof. intro n. split; [apply be32_shift_mask | split; [apply be32_length | apply be32_bytes]]. Qed.
Print Assumptions be32_shift.

Theorem unpack_pack : forall fmt args b,
  pack fmt args = Some b -> args_exact fmt args -> unpack fmt b = Some args.
Proof. exact unpack_pack_proof. Qed.
Print Assumptions unpack_pack.

(* the regenerated table is the documented format; the model's segment is that format and
        exists exactly when every stored length fits 32 bits *)
Theorem tables_are_documented :
  header_pre_magic = lit_XPAKPACK /\ trailer_pre_magic = lit_XPAKSTOP /\ trailer_post_magic = lit_STOP
  /\ header_fmt = [Some 8; None; None] /\ trailer_fmt = [Some 8; None; Some 4]
  /\ key_rewrites = [([114;101;112;111], [82;69;80;79])]
  /\ environment = lit_environment.
Proof. repeat split; reflexivity. Qed.
Print Assumptions tables_are_documented.

Theorem encode_is_format : forall kvs,
  (forall e, encode kvs = Some e -> e = xpak_format kvs /\ fits kvs)
  /\ (fits kvs -> encode kvs = Some (xpak_format kvs)).
Proof. intro kvs. exact (conj (encode_is_format_proof kvs) (fits_encode_proof kvs)). Qed.
Print Assumptions encode_is_format.

(* reading back a written segment, byte level, ANY prefix, ANY values *)
Theorem decode_encode_general : forall pre kvs e,
  encode kvs = Some e -> keys_ascii kvs -> NoDup (map rw (map fst kvs)) ->
  decode (pre ++ e)
  = match finish_all (expect_rw kvs) with Ok l => Ok (len pre, l) | Err x => Err x end.
Proof.
  intros pre kvs e He. apply encode_is_format_proof in He as [-> Hf]. apply decode_segment. exact Hf.
Qed.
Print Assumptions decode_encode_general.

(* "exactly the same keys": false for the read alias (key "repo") ... *)
Theorem C26_roundtrip_refuted : ~ C26_roundtrip_full_statement.
Proof.
  intro H. pose (kvs := [([114;101;112;111], [120])] : list kv).
  assert (Hf : fits kvs) by (vm_compute; reflexivity).
  assert (Ha : keys_ascii kvs) by repeat constructor.
  specialize (H [7;7] kvs _ (fits_encode_proof _ Hf) Ha ltac:(repeat constructor; intros [])).
  rewrite decode_segment in H by (assumption || (repeat constructor; intros [])).
  vm_compute in H. discriminate.
Qed.
Print Assumptions C26_roundtrip_refuted.

(* ... true everywhere outside that class *)
Theorem decode_encode : forall pre kvs e,
  encode kvs = Some e -> keys_ascii kvs -> NoDup (map fst kvs) -> known_class kvs = false ->
  decode (pre ++ e) = match finish_all (expect_b kvs) with Ok l => Ok (len pre, l) | Err x => Err x end.
Proof.
  intros pre kvs e He Ha Hn Hk. destruct (known_class_false kvs Hk) as [E1 E2].
  rewrite <- E2. apply decode_encode_general; [assumption | assumption | rewrite E1; assumption].
Qed.
Print Assumptions decode_encode.

Theorem known_class_is_repo : forall k, aliased k = true <-> k = [114;101;112;111].
Proof. exact aliased_is_repo. Qed.
Print Assumptions known_class_is_repo.

(* typed: str / bytes mapping in, items() out: same keys in order, text decoded, environment* bytes *)
Theorem roundtrip_typed : forall pre data kvs e items,
  typed_dom data -> to_bytes data = Some kvs -> encode kvs = Some e -> spec_items data = Some items ->
  decode (pre ++ e) = Ok (len pre, items).
Proof.
  intros pre data kvs e items Hd Ht He Hs.
  destruct (to_bytes_spec data kvs items Ht Hs (proj1 Hd)) as [E F].
  destruct (typed_dom_bytes data kvs Hd E) as (Ka & Kn & Kc).
  rewrite (decode_encode pre kvs e He Ka Kn Kc), F. reflexivity.
Qed.
Print Assumptions roundtrip_typed.

Theorem utf8_roundtrip : forall c b, utf8_encode c = Some b -> utf8_decode b = Some c.
Proof. exact Utf8_C26.utf8_roundtrip_proof. Qed.
Print Assumptions utf8_roundtrip.

(* rewriting an existing segment: the bytes before it are kept, the old segment is replaced
   entirely (nothing of it survives, also when the new one is shorter) *)
Theorem rewrite_on_segment : forall pre old eo new en,
  encode old = Some eo -> keys_ascii old -> encode new = Some en ->
  rewrite (Some (pre ++ eo)) new = Ok (pre ++ en).
Proof.
  intros pre old eo new en Ho Ha Hn. apply encode_is_format_proof in Ho as [-> Hf].
  unfold rewrite, probe_start. rewrite (parse_segment pre old Hf Ha), Hn.
  rewrite to_nat_len, firstn_app_exact. reflexivity.
Qed.
Print Assumptions rewrite_on_segment.

Theorem rewrite_replaces_segment : forall pre old eo new en,
  encode old = Some eo -> keys_ascii old ->
  encode new = Some en -> keys_ascii new -> NoDup (map rw (map fst new)) ->
  exists f, rewrite (Some (pre ++ eo)) new = Ok f
   /\ firstn (length pre) f = pre
   /\ decode f = match finish_all (expect_rw new) with Ok l => Ok (len pre, l) | Err x => Err x end.
Proof.
  intros pre old eo new en Ho Hao Hn Han Hd. exists (pre ++ en). split; [|split].
  - apply (rewrite_on_segment pre old eo new en); assumption.
  - apply firstn_app_exact.
  - apply decode_encode_general; assumption.
Qed.
Print Assumptions rewrite_replaces_segment.

(* any number of rewrites, growing or shrinking: every intermediate file is prefix ++ segment *)
Theorem rewrite_many : forall news pre old eo,
  encode old = Some eo -> keys_ascii old ->
  Forall (fun n => keys_ascii n /\ fits n) news ->
  rewrite_all (pre ++ eo) news = Ok (pre ++ xpak_format (last news old)).
Proof.
  induction news as [|n r IH]; intros pre old eo Ho Ha Hf.
  - apply encode_is_format_proof in Ho as [-> _]. reflexivity.
  - inversion Hf as [|x l [Hna Hnf] Hr]; subst. pose proof (fits_encode_proof n Hnf) as Hn.
    cbn [rewrite_all]. unfold bytes in *.
    rewrite (rewrite_on_segment pre old eo n _ Ho Ha Hn), (IH pre n _ Hn Hna Hr).
    destruct r as [|m r]; [reflexivity|].
    change (last (n :: m :: r) old) with (last (m :: r) old). rewrite (last_default r m n old). reflexivity.
Qed.
Print Assumptions rewrite_many.

(* for EVERY file: a successful rewrite keeps a prefix of the old file and appends exactly the
   new segment; the cut is the old segment's start when the file parses, its end otherwise *)
Theorem rewrite_preserves_prefix : forall file kvs out,
  rewrite (Some file) kvs = Ok out ->
  exists s seg, s <= len file /\ encode kvs = Some seg /\ seg = xpak_format kvs
    /\ out = firstn (N.to_nat s) file ++ seg
    /\ firstn (N.to_nat s) out = firstn (N.to_nat s) file
    /\ ((exists d, parse file = Ok (s, d)) \/
        ((parse file = Err EOS \/ parse file = Err EMalformed) /\ s = len file)).
Proof.
  intros file kvs out. unfold rewrite. pose proof (probe_start_cases file) as P.
  destruct (probe_start (Some file)) as [s|]; [|discriminate]. destruct P as [Hs Hp].
  destruct (encode kvs) as [seg|] eqn:Ee; [|discriminate]. intros [= <-]. exists s, seg.
  repeat split; try assumption; [apply encode_is_format_proof; exact Ee|].
  apply firstn_firstn_app. exact Hs.
Qed.
Print Assumptions rewrite_preserves_prefix.

(* a file that the reader rejects as "no segment" gets the segment appended *)
Theorem rewrite_appends : forall file kvs seg,
  (parse file = Err EOS \/ parse file = Err EMalformed) -> encode kvs = Some seg ->
  rewrite (Some file) kvs = Ok (file ++ seg).
Proof.
  intros file kvs seg Hp He. unfold rewrite, probe_start.
  destruct Hp as [-> | ->]; rewrite He, to_nat_len, firstn_all; reflexivity.
Qed.
Print Assumptions rewrite_appends.

(* the index walk's fuel always suffices *)
Theorem parse_never_out_of_fuel : forall file, parse file <> Err EFuel.
Proof.
  intros file H. pose proof (parse_cases file) as P. rewrite H in P. intuition discriminate.
Qed.
Print Assumptions parse_never_out_of_fuel.

(* "every existing file can be rewritten": false on tails that only mimic a segment ... *)
Theorem C26_rewrite_total_refuted : ~ C26_rewrite_total_full_statement.
Proof.
  intro H. destruct (H crafted_tail [] ltac:(vm_compute; reflexivity)) as [s [_ Hs]].
  assert (E : rewrite (Some crafted_tail) [] = Err EStruct) by (vm_compute; reflexivity).
  unfold bytes in *. rewrite E in Hs. discriminate.
Qed.
Print Assumptions C26_rewrite_total_refuted.

(* ... true outside that class *)
Theorem rewrite_total_partial : forall file kvs,
  fits kvs -> crash_class file = false ->
  exists s, s <= len file /\ rewrite (Some file) kvs = Ok (firstn (N.to_nat s) file ++ xpak_format kvs).
Proof.
  intros file kvs Hf Hc. unfold rewrite. rewrite (fits_encode_proof kvs Hf).
  pose proof (probe_start_cases file) as P. destruct (probe_start (Some file)) as [s|e].
  - exists s. split; [apply P | reflexivity].
  - exfalso. unfold crash_class in Hc. destruct P as [E [-> | ->]]; rewrite E in Hc; discriminate.
Qed.
Print Assumptions rewrite_total_partial.

(* file without a segment: the segment is appended and reads back as written *)
Theorem write_read_append : forall file data kvs items,
  (parse file = Err EOS \/ parse file = Err EMalformed) ->
  typed_dom data -> to_bytes data = Some kvs -> fits kvs -> spec_items data = Some items ->
  write_xpak (Some file) data = Ok (file ++ xpak_format kvs)
  /\ decode (file ++ xpak_format kvs) = Ok (len file, items).
Proof.
  intros file data kvs items Hp Hd Ht Hf Hs. pose proof (fits_encode_proof kvs Hf) as He. split.
  - apply (write_xpak_rewrite file data kvs _ Ht). apply rewrite_appends; assumption.
  - apply (roundtrip_typed file data kvs _ items); assumption.
Qed.
Print Assumptions write_read_append.

(* file with a segment: bytes before it unchanged, old segment gone, new one reads back *)
Theorem write_read_replace : forall pre old eo data kvs items,
  encode old = Some eo -> keys_ascii old ->
  typed_dom data -> to_bytes data = Some kvs -> fits kvs -> spec_items data = Some items ->
  write_xpak (Some (pre ++ eo)) data = Ok (pre ++ xpak_format kvs)
  /\ decode (pre ++ xpak_format kvs) = Ok (len pre, items).
Proof.
  intros pre old eo data kvs items Ho Ha Hd Ht Hf Hs. pose proof (fits_encode_proof kvs Hf) as He. split.
  - apply (write_xpak_rewrite (pre ++ eo) data kvs _ Ht). exact (rewrite_on_segment pre old eo kvs _ Ho Ha He).
  - apply (roundtrip_typed pre data kvs _ items); assumption.
Qed.
Print Assumptions write_read_replace.

(* a file that does not end with "STOP" has no segment *)
Theorem no_stop_no_segment : forall file,
  ends_with lit_STOP file = false -> parse file = Err EOS \/ parse file = Err EMalformed.
Proof.
  intros file He. unfold parse. destruct (check_magic_no_stop file He) as [-> | ->]; auto.
Qed.
Print Assumptions no_stop_no_segment.

(* ... so write_xpak appends to it, and the mapping reads back *)
Theorem write_read_no_stop : forall file data kvs items,
  ends_with lit_STOP file = false ->
  typed_dom data -> to_bytes data = Some kvs -> fits kvs -> spec_items data = Some items ->
  write_xpak (Some file) data = Ok (file ++ xpak_format kvs)
  /\ decode (file ++ xpak_format kvs) = Ok (len file, items).
Proof. intros file data kvs items H. apply write_read_append. apply no_stop_no_segment. exact H. Qed.
Print Assumptions write_read_no_stop.
