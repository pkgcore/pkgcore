(* C29/Aside_C29.v — ANALYSIS OF A POSSIBLE REPAIR, NOT OF THE CODE.

   The XXX comment in vdb/repo_ops.py proposes: rename the old package directory aside, rename
   the staged directory into place, then wipe the one moved aside.  This file models that
   variant (hidden name .tmp.remove-PF, which every listing skips) and proves which crash
   windows it leaves:
     * uninstall: none — every crash prefix is old-or-new (class vdb-rmtree-partial disappears);
     * replace:   rmtree is invisible (class vdb-rmtree-partial disappears), but exactly one
       crash point remains between the two renames; at that point the view is neither old nor
       new, whichever rename comes first (old aside first: the package is absent; new in first
       (possible for another version only): both versions are listed; for the same version
       "new in first" is not even executable: rename(2) onto a non-empty directory fails).
   Nothing here is checked against /repo: no such code exists. *)
From Coq Require Import List.
Import ListNotations.
From Verif Require Import Base.Val C18.Fs C29.Model_C29 C29.Spec_C29 C29.Proofs_C29.

Definition REMOVE : str := s2l "remove-"%bs.
Definition asidedir (loc : path) (cat old : str) : path := loc ++ [cat; TMP ++ REMOVE ++ old].

Definition aside_uninstall_ops (s : fs) (loc : path) (cat old : str) (tree : list rt) : list op :=
  let a := [Utime loc NOW; Rename (pkgdir loc cat old) (asidedir loc cat old)]
           ++ rmtree_ops (asidedir loc cat old) tree ++ [Utime loc NOW] in
  a ++ rmdir_if_empty (run a s) (loc ++ [cat]).
(* replace, rename-aside variant, old directory moved aside first *)
Definition aside_replace_ops (s : fs) (loc : path) (cat old pf : str) (tree : list rt) (items : list item) : list op :=
  (vdb_stage s loc cat pf items ++ [Utime loc NOW])
  ++ [Rename (pkgdir loc cat old) (asidedir loc cat old); Rename (tmpdir loc cat pf) (pkgdir loc cat pf)]
  ++ (rmtree_ops (asidedir loc cat old) tree ++ [Utime loc NOW]).
(* replace, new directory renamed in first (only meaningful when pf <> old) *)
Definition aside_replace_newfirst_ops (s : fs) (loc : path) (cat old pf : str) (tree : list rt) (items : list item) : list op :=
  (vdb_stage s loc cat pf items ++ [Utime loc NOW])
  ++ [Rename (tmpdir loc cat pf) (pkgdir loc cat pf); Rename (pkgdir loc cat old) (asidedir loc cat old)]
  ++ (rmtree_ops (asidedir loc cat old) tree ++ [Utime loc NOW]).
Definition aside_replace_point (s : fs) (loc : path) (cat pf : str) (items : list item) : nat :=
  length (vdb_stage s loc cat pf items) + 2.

Lemma rmtree_aside_out loc cat old tree :
  Forall (outside vdb_cat_ok vdb_skip loc) (rmtree_ops (asidedir loc cat old) tree).
Proof. apply (rmtree_avoids (visible vdb_cat_ok vdb_skip loc)), under_hidden_invisible. Qed.

Definition aside_replace_full : Prop :=
  forall loc s cat old pf tree items,
    nolinks s -> vdb_consistent loc (aside_replace_ops s loc cat old pf tree items) s.
Definition aside_replace_newfirst_full : Prop :=
  forall loc s cat old pf tree items,
    nolinks s -> vdb_consistent loc (aside_replace_newfirst_ops s loc cat old pf tree items) s.

Module AEx.
  Import Ex.
  Definition ops := aside_replace_ops s0 [v] c p1 p2 tree items.
  Definition ops_same := aside_replace_ops s0 [v] c p1 p1 tree items.
  Definition ops_newfirst := aside_replace_newfirst_ops s0 [v] c p1 p2 tree items.
  Definition ops_newfirst_same := aside_replace_newfirst_ops s0 [v] c p1 p1 tree items.
  Definition un_ops := aside_uninstall_ops s0 [v] c p1 tree.
End AEx.

Example aside_ops_succeed :
  (exists t, run_opt AEx.ops Ex.s0 = Some t) /\ (exists t, run_opt AEx.ops_same Ex.s0 = Some t)
  /\ (exists t, run_opt AEx.ops_newfirst Ex.s0 = Some t) /\ (exists t, run_opt AEx.un_ops Ex.s0 = Some t).
Proof. repeat split; apply some_ex; vm_compute; reflexivity. Qed.
Example aside_final_views :
  vdb_view (run AEx.ops Ex.s0) [Ex.v] = vdb_view (run Ex.replace_ops Ex.s0) [Ex.v]
  /\ vdb_view (run AEx.ops_newfirst Ex.s0) [Ex.v] = vdb_view (run Ex.replace_ops Ex.s0) [Ex.v]
  /\ vdb_view (run AEx.un_ops Ex.s0) [Ex.v] = vdb_view (run Ex.uninstall_ops Ex.s0) [Ex.v]
  /\ aside_replace_point Ex.s0 [Ex.v] Ex.c Ex.p2 Ex.items = 11.
Proof. rewrite ex_replace_final. vm_compute. repeat split; reflexivity. Qed.
(* same version, new first: rename onto the non-empty old directory fails *)
Example aside_newfirst_same_version_fails : run_opt AEx.ops_newfirst_same Ex.s0 = None.
Proof. vm_compute. reflexivity. Qed.

(* crash point 11, between the two renames.  Old aside first: neither version is listed *)
Lemma aside_k11_neither : ~ vdb_consistent [Ex.v] AEx.ops Ex.s0.
Proof.
  apply (not_consistent vdb_cat_ok vdb_skip true _ _ _ 11).
  - apply (listed_differs _ _ _ _ _ _ Ex.c Ex.p1). vm_compute. discriminate.
  - apply (listed_differs _ _ _ _ _ _ Ex.c Ex.p2). vm_compute. discriminate.
Qed.
(* new in first: both versions are listed *)
Lemma newfirst_k11_neither : ~ vdb_consistent [Ex.v] AEx.ops_newfirst Ex.s0.
Proof.
  apply (not_consistent vdb_cat_ok vdb_skip true _ _ _ 11).
  - apply (listed_differs _ _ _ _ _ _ Ex.c Ex.p2). vm_compute. discriminate.
  - apply (listed_differs _ _ _ _ _ _ Ex.c Ex.p1). vm_compute. discriminate.
Qed.
