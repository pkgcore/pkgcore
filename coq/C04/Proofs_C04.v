(* Proofs_C04.v — proofs about Model_C04 against Spec_C04. *)
From Coq Require Import List ZArith Bool Lia.
Import ListNotations.
From Verif Require Import Base.Val Base.Lists C01.Model_C01 C04.Model_C04 C04.Spec_C04.

Definition with_blocks (a : atom) (b s : bool) : atom :=
  {| a_cat := a_cat a; a_pkg := a_pkg a; a_op := a_op a; a_ver := a_ver a; a_rev := a_rev a;
     a_fullver := a_fullver a; a_slot := a_slot a; a_subslot := a_subslot a; a_slotop := a_slotop a;
     a_repo := a_repo a; a_use := a_use a; a_blocks := b; a_strong := s;
     a_negate_vers := a_negate_vers a |}.

Lemma startswith_app a r : startswith (a ++ r) a = true.
Proof. induction a as [|x a IH]; cbn; [reflexivity|]. rewrite N.eqb_refl. exact IH. Qed.

Lemma startswith_inv s g : startswith s g = true -> exists r, s = g ++ r.
Proof.
  revert s; induction g as [|x g IH]; intros s H; cbn in *.
  - exists s; reflexivity.
  - destruct s as [|y s]; [discriminate|]. apply andb_true_iff in H as [H1 H2].
    apply N.eqb_eq in H1; subst. destruct (IH _ H2) as [r ->]. exists r; reflexivity.
Qed.

Lemma concat_tokenize s : concat (tokenize s) = s.
Proof.
  induction s as [|c s IH]; cbn; [reflexivity|].
  destruct (tokenize s) as [|[|d t] rest] eqn:E; cbn in *.
  - subst; reflexivity.
  - rewrite IH; reflexivity.
  - destruct (joinable c d); cbn; rewrite IH; reflexivity.
Qed.

Lemma list_prefix_inv a b : list_prefix a b = true -> exists r, b = a ++ r.
Proof.
  revert b; induction a as [|x a IH]; intros b H; cbn in *.
  - exists b; reflexivity.
  - destruct b as [|y b]; [discriminate|]. apply andb_true_iff in H as [H1 H2].
    apply str_eqb_eq in H1; subst. destruct (IH _ H2) as [r ->]. exists r; reflexivity.
Qed.

Lemma comp_prefix_startswith g s : comp_prefix g s = true -> startswith s g = true.
Proof.
  unfold comp_prefix; intro H. apply list_prefix_inv in H as [r H].
  rewrite <- (concat_tokenize s), H, concat_app, concat_tokenize. apply startswith_app.
Qed.

(* a match on the literal 45 ("-") elaborates to a nest of matches on the binary digits of the
   constant; the six destructs walk them *)
Lemma dash_match {A} (t : str) (f : str -> A) (d : A) :
  match t with 45%N :: g => f g | _ => d end
  = match t with c :: g => if N.eqb c 45 then f g else d | [] => d end.
Proof.
  destruct t as [|[|q] g]; try reflexivity.
  do 6 (try (destruct q as [q|q|]; try reflexivity)).
Qed.

Definition sign_valued (vc : str -> option N -> str -> option N -> Z) : Prop :=
  forall v r w s, vc v r w s = (-1)%Z \/ vc v r w s = 0%Z \/ vc v r w s = 1%Z.

Lemma vmatch_xor vc op n v r pv pr : vmatch vc op n v r pv pr = xorb (vmatch vc op false v r pv pr) n.
Proof. unfold vmatch. destruct (op_droprev op); rewrite xorb_false_r; reflexivity. Qed.

Lemma vmatch_ver_ok vc a p : sign_valued vc -> (a_op a < 6)%N ->
  vmatch vc (a_op a) false (a_ver a) (a_rev a) (p_ver p) (p_rev p) = ver_ok vc a p.
Proof.
  intros Hs Hop. unfold vmatch, ver_ok.
  assert (Hc : (a_op a = 0 \/ a_op a = 1 \/ a_op a = 2 \/ a_op a = 3 \/ a_op a = 4 \/ a_op a = 5)%N) by lia.
  destruct Hc as [->|[->|[->|[->|[->| ->]]]]]; cbn;
    match goal with |- context [vc ?v ?r ?w ?s] => destruct (Hs v r w s) as [E|[E|E]]; rewrite E; reflexivity end.
Qed.

Lemma wf_atom_inv a : wf_atom a = true ->
  (a_op a <= 7)%N /\ (a_fullver a = None <-> a_op a = 7%N)
  /\ negb (is_some (a_subslot a)) || is_some (a_slot a) = true.
Proof.
  unfold wf_atom. intro H. apply andb_true_iff in H as [H Hs]. apply andb_true_iff in H as [Ho Hf].
  apply N.leb_le in Ho. repeat split; try assumption.
  - intro E. rewrite E in Hf. apply N.eqb_eq. destruct (N.eqb (a_op a) 7); [reflexivity|discriminate].
  - intro E. rewrite E in Hf. destruct (a_fullver a); [discriminate|reflexivity].
Qed.

Definition ver_clause vc (a : atom) (p : package) : bool :=
  match a_fullver a with
  | None => true
  | Some fv => if N.eqb (a_op a) 6 then startswith (p_fullver p) fv
               else vmatch vc (a_op a) (a_negate_vers a) (a_ver a) (a_rev a) (p_ver p) (p_rev p)
  end.
Definition use_clause vc (a : atom) (p : package) : bool :=
  forallb (eval_restr vc p) (match a_use a with Some toks => use_restrictions toks | None => [] end).

Lemma andb_parts r k c v sl ss u :
  r && (k && (c && true) && (v && (sl && ss && u))) = c && k && v && sl && ss && r && u.
Proof. destruct r, k, c, v, sl, ss, u; reflexivity. Qed.

Lemma atom_match_parts vc a p : wf_atom a = true ->
  atom_match vc a p
  = str_eqb (a_cat a) (p_cat p) && str_eqb (a_pkg a) (p_pkg p) && ver_clause vc a p
    && opt_eq (a_slot a) (p_slot p) && opt_eq (a_subslot a) (p_subslot p)
    && opt_eq (a_repo a) (p_repo p) && use_clause vc a p.
Proof.
  intro Hwf. apply wf_atom_inv in Hwf as [_ [_ Hsub]].
  rewrite <- andb_parts. unfold atom_match, atom_restrictions. rewrite !forallb_app.
  f_equal; [|f_equal; f_equal; [|f_equal]].
  - destruct (a_repo a); cbn; rewrite ?andb_true_r; reflexivity.
  - unfold ver_clause. destruct (a_fullver a); [|reflexivity].
    destruct (N.eqb (a_op a) 6); cbn; apply andb_true_r.
  - destruct (a_slot a), (a_subslot a); cbn in *; rewrite ?andb_true_r; try reflexivity; discriminate.
Qed.

Lemma forallb_andb {A} (f g : A -> bool) l :
  forallb (fun x => f x && g x) l = forallb f l && forallb g l.
Proof.
  induction l as [|x l IH]; cbn; [reflexivity|]. rewrite IH.
  destruct (f x), (g x), (forallb f l), (forallb g l); reflexivity.
Qed.

Lemma forallb_filter_guard {A} (c g : A -> bool) l :
  forallb (fun x => if c x then g x else true) l = forallb g (filter c l).
Proof.
  induction l as [|x l IH]; cbn; [reflexivity|]. destruct (c x); cbn; rewrite IH; reflexivity.
Qed.

Lemma existsb_false_forallb {A} (f : A -> bool) l :
  existsb f l = false -> forallb (fun x => negb (f x)) l = true.
Proof.
  induction l as [|x l IH]; cbn; [reflexivity|]. intro H. apply orb_false_iff in H as [H1 H2].
  rewrite H1, (IH H2); reflexivity.
Qed.

Lemma is_nil_false {A} (l : list A) : is_nil l = false -> l <> [].
Proof. destruct l; [discriminate|intros _ H; discriminate]. Qed.

Lemma subset_false_exists (V iuse : list str) :
  subset V iuse = false -> exists f, In f V /\ smem f iuse = false.
Proof.
  induction V as [|f V IH]; cbn; [discriminate|]. intro H.
  destruct (smem f iuse) eqn:E.
  - cbn in H. destruct (IH H) as [g [Hg1 Hg2]]. exists g; split; [right|]; assumption.
  - exists f; split; [left; reflexivity|assumption].
Qed.

(* a non-empty set whose members are not "some on and some off": NAND = NOR *)
Lemma nand_is_nor (V use : list str) :
  V <> [] -> mixed V use = false ->
  negb (forallb (fun f => smem f use) V) = forallb (fun f => negb (smem f use)) V.
Proof.
  intros Hne Hm. unfold mixed in Hm. apply andb_false_iff in Hm as [H|H].
  - rewrite (existsb_false_forallb _ _ H).
    destruct V as [|f V]; [contradiction|]. cbn in *. apply orb_false_iff in H as [H _]. rewrite H; reflexivity.
  - apply existsb_false_forallb in H.
    assert (E : forallb (fun f => smem f use) V = true).
    { rewrite <- H. apply forallb_ext_in. intros x _. destruct (smem x use); reflexivity. }
    rewrite E. destruct V as [|f V]; [contradiction|]. cbn in *.
    apply andb_true_iff in H as [H _]. apply negb_true_iff in H. apply negb_false_iff in H.
    rewrite H; reflexivity.
Qed.

(* ContainmentMatch(match_all=True) with [negate]: "all enabled" for the positive flags, "not all
   enabled" for the negative ones, which is "all disabled" unless they are mixed *)
Lemma cm_match_all (V use : list str) (neg : bool) :
  V <> [] -> (neg = true -> mixed V use = false) ->
  cm_match V true neg use = forallb (fun f => Bool.eqb (smem f use) (negb neg)) V.
Proof.
  intros Hne Hm. unfold cm_match, subset. destruct neg; cbn [negb].
  - rewrite xorb_true_r, (nand_is_nor V use Hne (Hm eq_refl)).
    apply forallb_ext_in. intros f _. destruct (smem f use); reflexivity.
  - rewrite xorb_false_r. apply forallb_ext_in. intros f _. destruct (smem f use); reflexivity.
Qed.

Section UseGroups.
Variables (iuse use : list str).

Lemma static_group (neg : bool) V :
  (neg = true -> mixed V use = false) ->
  (if is_nil V then true else cm_match V true neg use)
  = forallb (fun f => usedep_holds None (negb neg) f iuse use) V.
Proof.
  intro Hm. destruct (is_nil V) eqn:En; [destruct V; [reflexivity|discriminate]|].
  rewrite (cm_match_all V use neg (is_nil_false _ En) Hm).
  apply forallb_ext_in. intros f _. unfold usedep_holds, flag_state. destruct (smem f iuse); reflexivity.
Qed.

(* flags with the default [d]; the NAND of the negative ones is evaluated on all of them when all
   are in IUSE, and otherwise, for (-), on those in IUSE *)
Lemma default_group (d neg : bool) V :
  (neg = true -> (if d then subset V iuse && mixed V use
                  else mixed (filter (fun f => smem f iuse) V) use) = false) ->
  (if is_nil V then true else udc_match d neg V iuse use)
  = forallb (fun f => usedep_holds (Some d) (negb neg) f iuse use) V.
Proof.
  intro Hm. destruct (is_nil V) eqn:En; [destruct V; [reflexivity|discriminate]|].
  apply is_nil_false in En. unfold udc_match. destruct (subset V iuse) eqn:Es.
  - (* every flag is in IUSE: its real state decides *)
    rewrite (cm_match_all V use neg En).
    + apply forallb_ext_in. intros f Hf. unfold usedep_holds, flag_state.
      unfold subset in Es. rewrite forallb_forall in Es. rewrite (Es f Hf). reflexivity.
    + intro E. specialize (Hm E). destruct d; [exact Hm|]. rewrite filter_all_true in Hm by (apply forallb_forall, Es). exact Hm.
  - destruct (Bool.eqb d neg) eqn:Ed.
    + (* f(-) or -f(+) with f missing from IUSE: fails *)
      destruct (subset_false_exists _ _ Es) as [f [Hf1 Hf2]].
      symmetry. apply not_true_is_false. rewrite forallb_forall. intros H. specialize (H f Hf1).
      unfold usedep_holds, flag_state in H. rewrite Hf2 in H. destruct d, neg; discriminate.
    + (* f(+) or -f(-): only the flags present in IUSE are looked at *)
      assert (E : d = negb neg) by (destruct d, neg; try discriminate Ed; reflexivity).
      transitivity (forallb (fun f => Bool.eqb (smem f use) (negb neg)) (filter (fun f => smem f iuse) V)).
      * destruct (filter (fun f => smem f iuse) V) as [|f0 R] eqn:Ef; [reflexivity|]. cbn [is_nil].
        apply cm_match_all; [discriminate|]. intro En'. specialize (Hm En'). rewrite E, En' in Hm. exact Hm.
      * rewrite <- forallb_filter_guard. apply forallb_ext_in. intros f _.
        unfold usedep_holds, flag_state. destruct (smem f iuse); [reflexivity|]. rewrite E. destruct neg; reflexivity.
Qed.
End UseGroups.

Definition tok_guard (d : option bool) (s : bool) (Q : str -> bool) (t : str) : bool :=
  let '(d', s', f) := parse_use_token t in
  if dflt_eqb d' d && Bool.eqb s' s then Q f else true.

Lemma group_forallb d s Q toks :
  forallb Q (group d s toks) = forallb (tok_guard d s Q) toks.
Proof.
  unfold group. rewrite forallb_map.
  induction toks as [|t toks IH]; cbn; [reflexivity|].
  unfold tok_guard at 1. destruct (parse_use_token t) as [[d' s'] f] eqn:E.
  destruct (dflt_eqb d' d && Bool.eqb s' s); cbn; rewrite ?E; cbn; rewrite IH; reflexivity.
Qed.

Lemma token_partition (iuse use : list str) (t : str) :
  (let '(d, s, f) := parse_use_token t in usedep_holds d s f iuse use)
  = tok_guard None false (fun f => usedep_holds None false f iuse use) t
    && tok_guard None true (fun f => usedep_holds None true f iuse use) t
    && tok_guard (Some false) false (fun f => usedep_holds (Some false) false f iuse use) t
    && tok_guard (Some false) true (fun f => usedep_holds (Some false) true f iuse use) t
    && tok_guard (Some true) false (fun f => usedep_holds (Some true) false f iuse use) t
    && tok_guard (Some true) true (fun f => usedep_holds (Some true) true f iuse use) t.
Proof.
  unfold tok_guard. destruct (parse_use_token t) as [[d s] f].
  destruct d as [[|]|], s; cbn; rewrite ?andb_true_r; reflexivity.
Qed.

Lemma use_restrictions_eval vc p toks :
  forallb (eval_restr vc p) (use_restrictions toks)
  = static_use_eval (group None false toks) (group None true toks) (p_use p)
    && default_use_eval false (group (Some false) false toks) (group (Some false) true toks) (p_iuse p) (p_use p)
    && default_use_eval true (group (Some true) false toks) (group (Some true) true toks) (p_iuse p) (p_use p).
Proof.
  unfold use_restrictions. rewrite !forallb_app.
  assert (Hs : forall f t, forallb (eval_restr vc p) (if is_nil f && is_nil t then [] else [RStaticUse f t])
                           = static_use_eval f t (p_use p)).
  { intros f t. destruct f, t; cbn; unfold static_use_eval; cbn; rewrite ?andb_true_r; reflexivity. }
  assert (Hd : forall d f t, forallb (eval_restr vc p) (if is_nil f && is_nil t then [] else [RUseDefault d f t])
                             = default_use_eval d f t (p_iuse p) (p_use p)).
  { intros d f t. destruct f, t; cbn; unfold default_use_eval; cbn; rewrite ?andb_true_r; reflexivity. }
  rewrite Hs, !Hd. rewrite andb_assoc. reflexivity.
Qed.

Lemma use_tokens_part vc p toks :
  nand_toks toks (p_iuse p) (p_use p) = false ->
  forallb (eval_restr vc p) (use_restrictions toks)
  = forallb (fun t => let '(d, s, f) := parse_use_token t in usedep_holds d s f (p_iuse p) (p_use p)) toks.
Proof.
  unfold nand_toks.
  intro K. apply orb_false_iff in K as [K K3]. apply orb_false_iff in K as [K1 K2].
  rewrite use_restrictions_eval. unfold static_use_eval, default_use_eval.
  rewrite (static_group (p_iuse p) (p_use p) true _ (fun _ => K1)),
    (static_group (p_iuse p) (p_use p) false) by discriminate.
  rewrite (default_group (p_iuse p) (p_use p) false true _ (fun _ => K2)),
    (default_group (p_iuse p) (p_use p) true true _ (fun _ => K3)),
    !(default_group (p_iuse p) (p_use p) _ false) by discriminate.
  cbn [negb].
  rewrite !group_forallb.
  rewrite (forallb_ext_in _ _ toks (fun t _ => token_partition (p_iuse p) (p_use p) t)).
  rewrite !forallb_andb. rewrite !andb_assoc. reflexivity.
Qed.

Lemma use_part vc a p : known_use_nand a p = false -> use_clause vc a p = use_ok a p.
Proof.
  unfold known_use_nand, use_clause, use_ok. destruct (a_use a) as [toks|]; [|reflexivity].
  apply use_tokens_part.
Qed.

Lemma mixed_single f use : mixed [f] use = false.
Proof. unfold mixed; cbn. destruct (smem f use); reflexivity. Qed.

Lemma usedep_default_table_proof : forall vc p tok d s f,
  parse_use_token tok = (d, s, f) ->
  forallb (eval_restr vc p) (use_restrictions [tok])
  = use_table d s (smem f (p_iuse p)) (smem f (p_use p)).
Proof.
  intros vc p tok d s f E.
  rewrite use_tokens_part.
  - cbn. rewrite E, andb_true_r. unfold usedep_holds, flag_state, use_table.
    destruct (smem f (p_iuse p)), d as [[|]|], (smem f (p_use p)), s; reflexivity.
  - unfold nand_toks, group. cbn. rewrite E.
    destruct d as [[|]|], s; cbn; rewrite ?E; cbn; rewrite ?mixed_single; cbn;
      try (destruct (smem f (p_iuse p)); cbn; rewrite ?mixed_single); rewrite ?andb_false_r; reflexivity.
Qed.

Lemma strip_sign (d : option bool) (s : bool) c f :
  c <> 45%N ->
  match (if s then [] else [45%N]) ++ c :: f with
  | 45%N :: g => (d, false, g)
  | _ => (d, true, (if s then [] else [45%N]) ++ c :: f)
  end = (d, s, c :: f).
Proof.
  intro Hc. rewrite dash_match. destruct s; cbn [app]; [|reflexivity].
  rewrite (proj2 (N.eqb_neq c 45) Hc). reflexivity.
Qed.

Lemma parse_render_use_proof : forall d s c f,
  c <> 45%N -> last (c :: f) 0%N <> 41%N ->
  parse_use_token (render_use d s (c :: f)) = (d, s, c :: f).
Proof.
  intros d s c f Hc Hl. unfold parse_use_token, render_use.
  set (pre := if s then [] else [45%N]).
  destruct d as [b|].
  - (* the text ends in "(+)" or "(-)" *)
    rewrite !app_assoc, rev_app_distr.
    destruct b; cbn [List.rev app tl N.eqb Pos.eqb]; rewrite rev_involutive; apply strip_sign; exact Hc.
  - (* the text ends in the last character of the flag, which is not ")" *)
    rewrite app_nil_r.
    destruct (exists_last (l := c :: f)) as [l' [x Hx]]; [discriminate|].
    rewrite Hx, last_last in Hl.
    replace (List.rev (pre ++ c :: f)) with (x :: List.rev l' ++ List.rev pre)
      by (rewrite Hx, !rev_app_distr; reflexivity).
    pose proof (strip_sign None s c f Hc) as H. fold pre in H.
    destruct x as [|q]; [exact H|].
    do 6 (try (destruct q as [q|q|]; try exact H)).
    exfalso; apply Hl; reflexivity.
Qed.

Definition C04_full_statement : Prop :=
  forall a p, wf_atom a = true -> a_negate_vers a = false ->
              atom_match ver_cmp a p = pms_match ver_cmp a p.

Definition mk_atom (op : N) (v : str) (fv : option str) (use : option (list str)) : atom :=
  {| a_cat := [97]%N; a_pkg := [98]%N; a_op := op; a_ver := v; a_rev := None; a_fullver := fv;
     a_slot := None; a_subslot := None; a_slotop := None; a_repo := None; a_use := use;
     a_blocks := false; a_strong := false; a_negate_vers := false |}.
Definition mk_pkg (v : str) (use iuse : list str) : package :=
  {| p_cat := [97]%N; p_pkg := [98]%N; p_ver := v; p_rev := None; p_fullver := v;
     p_slot := [48]%N; p_subslot := [48]%N; p_repo := [103]%N; p_use := use; p_iuse := iuse |}.

(* =a/b-1*  against  a/b-10 *)
Definition glob_witness_atom := mk_atom 6 [49]%N (Some [49]%N) None.
Definition glob_witness_pkg := mk_pkg [49; 48]%N [] [].
(* a/b[-x,-y]  against  a/b-1 with IUSE="x y", USE="x" *)
Definition nand_witness_atom := mk_atom 7 [] None (Some [[45; 120]; [45; 121]]%N).
Definition nand_witness_pkg := mk_pkg [49]%N [[120]]%N [[120]; [121]]%N.

Lemma opv_is_source_table : forall op, (op < 6)%N ->
  Model_C01.op_vals op = Some (op_droprev op, opv op).
Proof.
  intros op H.
  assert (Hc : (op = 0 \/ op = 1 \/ op = 2 \/ op = 3 \/ op = 4 \/ op = 5)%N) by lia.
  destruct Hc as [->|[->|[->|[->|[->| ->]]]]]; vm_compute; reflexivity.
Qed.

Lemma vmatch_is_C01 : forall op negate v r pv pr, (op < 6)%N ->
  vmatch ver_cmp op negate v r pv pr = version_match op negate v r pv pr.
Proof.
  intros. unfold vmatch, version_match. rewrite (opv_is_source_table op H). reflexivity.
Qed.

(* the premise [sign_valued] is satisfiable by a non-constant comparison *)
Example sign_valued_example : sign_valued (fun v _ w _ => str_cmp v w).
Proof.
  intros v r w s. revert w; induction v as [|x v IH]; intros [|y w]; cbn; auto.
  destruct (N.compare x y); auto.
Qed.

(* atoms with every kind of constraint, inside the domain of the partial theorem, both answers *)
Definition rich_atom : atom :=
  {| a_cat := [97]%N; a_pkg := [98]%N; a_op := 3; a_ver := [49; 46; 48]%N; a_rev := Some 1%N;
     a_fullver := Some [49; 46; 48; 45; 114; 49]%N;
     a_slot := Some [48]%N; a_subslot := Some [50]%N; a_slotop := None; a_repo := Some [103]%N;
     a_use := Some [[45; 113; 40; 45; 41]; [120]; [121; 40; 43; 41]]%N;       (* -q(-), x, y(+) *)
     a_blocks := true; a_strong := false; a_negate_vers := false |}.
Definition rich_pkg (v : str) : package :=
  {| p_cat := [97]%N; p_pkg := [98]%N; p_ver := v; p_rev := Some 2%N; p_fullver := v ++ [45; 114; 50]%N;
     p_slot := [48]%N; p_subslot := [50]%N; p_repo := [103]%N; p_use := [[120]]%N; p_iuse := [[120]]%N |}.
Example rich_match :
  wf_atom rich_atom = true /\ known_glob rich_atom (rich_pkg [49; 46; 49]%N) = false
  /\ known_use_nand rich_atom (rich_pkg [49; 46; 49]%N) = false
  /\ atom_match ver_cmp rich_atom (rich_pkg [49; 46; 49]%N) = true        (* 1.1-r2 *)
  /\ atom_match ver_cmp rich_atom (rich_pkg [48; 46; 57]%N) = false.      (* 0.9-r2 *)
Proof. vm_compute. repeat split. Qed.

(* =a/b-1* on component boundaries: 1.0, 1a, 1_p1, 1-r1 yes; 10 no *)
Example comp_prefix_examples :
  comp_prefix [49]%N [49; 46; 48]%N = true /\ comp_prefix [49]%N [49; 97]%N = true
  /\ comp_prefix [49]%N [49; 95; 112; 49]%N = true /\ comp_prefix [49]%N [49; 45; 114; 49]%N = true
  /\ comp_prefix [49]%N [49; 48]%N = false
  /\ comp_prefix [49; 95; 112]%N [49; 95; 112; 114; 101]%N = false        (* 1_p vs 1_pre *)
  /\ comp_prefix [49; 95; 112]%N [49; 95; 112; 49]%N = true.              (* 1_p vs 1_p1 *)
Proof. vm_compute. repeat split. Qed.
