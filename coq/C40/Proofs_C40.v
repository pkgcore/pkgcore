(* Proofs_C40.v — suggestions; one request line (pick, expand, narrow); the request loop. *)
From Coq Require Import List ZArith Bool Lia.
Import ListNotations.
From Verif Require Import Base.Val Base.Lists C40.Model_C40 C40.Spec_C40.

Lemma mem_str_In x l : mem_str x l = true <-> In x l.
Proof. apply existsb_str_In. Qed.

Lemma mem_str_false x l : mem_str x l = false <-> ~ In x l.
Proof. rewrite <- mem_str_In. symmetry. apply not_true_iff_false. Qed.

Lemma memc_In c cs : memc c cs = true <-> In c cs.
Proof. apply existsb_N_In. Qed.

Lemma is_nil_true {A} (l : list A) : is_nil l = true <-> l = [].
Proof. now destruct l. Qed.
Lemma is_nil_false {A} (l : list A) : is_nil l = false <-> l <> [].
Proof. now destruct l. Qed.

Lemma insert_u_In x l y : In y (insert_u x l) <-> y = x \/ In y l.
Proof.
  induction l as [|z l IH]; cbn.
  - split; intros [->|[]]; now left.
  - destruct (str_eqb x z) eqn:E.
    + apply str_eqb_eq in E. subst. cbn. split; [auto | intros [->|H]; [now left | exact H]].
    + destruct (str_leb x z); cbn; [split; intros [->|H]; auto|].
      rewrite IH. split; intros [H|[H|H]]; auto.
Qed.

Lemma sort_set_In l y : In y (sort_set l) <-> In y l.
Proof.
  induction l as [|x l IH]; cbn; [reflexivity|].
  rewrite insert_u_In, IH. split; intros [->|H]; auto.
Qed.

Lemma lstrip_tilde_shape x :
  exists n, x = repeat tilde n ++ lstrip [tilde] x /\ head_in [tilde] (lstrip [tilde] x) = false.
Proof.
  induction x as [|c r IH]; cbn.
  - exists 0%nat. split; reflexivity.
  - destruct (N.eqb c tilde) eqn:E; cbn.
    + apply N.eqb_eq in E. subst c. destruct IH as [n [H1 H2]].
      exists (S n). split; [cbn; f_equal; exact H1 | exact H2].
    + exists 0%nat. cbn. rewrite E. split; reflexivity.
Qed.

Lemma head_tilde_lstrip x :
  head_in [tilde] x = true ->
  exists n, x = repeat tilde (S n) ++ lstrip [tilde] x.
Proof.
  destruct x as [|c r]; cbn; [discriminate|].
  destruct (N.eqb c tilde) eqn:E; cbn; [|discriminate]. intros _.
  apply N.eqb_eq in E. subst c.
  destruct (lstrip_tilde_shape r) as [n [H1 _]]. exists n. cbn. f_equal. exact H1.
Qed.

Lemma lstrip_not_head x cs : head_in cs x = false -> lstrip cs x = x.
Proof. destruct x as [|c r]; cbn; [reflexivity|]. intros ->. reflexivity. Qed.

Lemma head_in_sub x : head_in [minus; tilde] x = false -> head_in [tilde] x = false.
Proof.
  destruct x as [|c r]; cbn; [reflexivity|].
  destruct (N.eqb c minus), (N.eqb c tilde); cbn; congruence.
Qed.

Lemma lstrip_repeat n k :
  head_in [tilde] k = false -> lstrip [tilde] (repeat tilde n ++ k) = k.
Proof.
  intro H. induction n as [|n IH]; cbn [repeat app].
  - apply lstrip_not_head. exact H.
  - cbn [lstrip]. assert (E : memc tilde [tilde] = true) by reflexivity. rewrite E. exact IH.
Qed.

Lemma no_dash_spec k : no_dash k = true <-> ~ has_dash k.
Proof.
  unfold no_dash, has_dash. rewrite negb_true_iff, <- memc_In. symmetry. apply not_true_iff_false.
Qed.

(* suggestions in either mode: no prefix keyword; the keyword of some version, neither disabled nor
   (stabilizing) testing there, with its "~" removed; and the test against the package itself *)
Lemma in_suggested stable vs p k : In k (suggested stable vs p) <->
  ~ has_dash k /\
  (exists other x, In other vs /\ In x (p_kws other)
                   /\ head_in (if stable then [minus; tilde] else [minus]) x = false /\ lstrip [tilde] x = k) /\
  (if stable then In k (map (lstrip [tilde]) (filter (head_in [tilde]) (p_kws p)))
   else ~ In k (map (lstrip [tilde; minus]) (p_kws p))).
Proof.
  unfold suggested. rewrite sort_set_In. unfold filter_prefix. rewrite filter_In, no_dash_spec.
  assert (C : forall dis,
    In k (map (lstrip [tilde]) (filter (fun x => negb (head_in dis x)) (flat_map p_kws vs))) <->
    exists other x, In other vs /\ In x (p_kws other) /\ head_in dis x = false /\ lstrip [tilde] x = k).
  { intro dis. rewrite in_map_iff. split.
    - intros (x & Hx & Hin). apply filter_In in Hin as [Hin Hh]. apply negb_true_iff in Hh.
      apply in_flat_map in Hin as (other & Ho & Hxo). eauto 8.
    - intros (other & x & Ho & Hx & Hh & E). exists x. split; [exact E|].
      apply filter_In. split; [apply in_flat_map; eauto | now rewrite Hh]. }
  destruct stable; rewrite filter_In, C; [rewrite mem_str_In | rewrite negb_true_iff, mem_str_false];
    (split; [intros [[? ?] ?] | intros (? & ? & ?)]; auto).
Qed.

Lemma suggested_stable_iff_proof vs p k :
  In k (suggested true vs p) <-> candidate vs p k.
Proof.
  rewrite in_suggested. unfold candidate, testing_on, stable_on, plain. split.
  - intros (Hd & (other & x & Ho & Hx & Hh & E) & Ht).
    assert (x = k) by (rewrite <- E; symmetry; apply lstrip_not_head, head_in_sub, Hh). subst x.
    split; [exact Hd|]. split; [|eauto].
    apply in_map_iff in Ht as (z & Hz & Hzin). apply filter_In in Hzin as [Hzin Hzh].
    destruct (head_tilde_lstrip z Hzh) as [n Hn]. rewrite Hz in Hn.
    split; [apply head_in_sub, Hh|]. exists n. now rewrite <- Hn.
  - intros (Hd & (Hk & n & Hn) & other & Ho & Hp & Hin). split; [exact Hd|]. split.
    + exists other, k. repeat split; auto. apply lstrip_not_head, head_in_sub, Hp.
    + apply in_map_iff. exists (repeat tilde (S n) ++ k). split; [apply lstrip_repeat, Hk|].
      apply filter_In. split; [exact Hn | reflexivity].
Qed.

(* the full statement is false when KEYWORDS carries both k and ~k on the only stable version *)
Definition C40_sugg_elsewhere_full : Prop :=
  forall vs p k, In p vs -> In k (suggested true vs p) ->
    testing_on p k /\ exists other, In other vs /\ other <> p /\ stable_on other k.

Definition self_stable_pkg : pkg := P 1 0 false [[97;109;100]%N; [126;97;109;100]%N].

Lemma best_In suit l p : best suit l = Some p -> In p l.
Proof.
  revert p. induction l as [|a l IH]; cbn; intros p H; [discriminate|].
  destruct (best suit l) as [q|].
  - destruct (suit a && N.leb (p_ver q) (p_ver a)); injection H as <-; [left; reflexivity|].
    right. apply IH. reflexivity.
  - destruct (suit a); [|discriminate]. injection H as <-. left. reflexivity.
Qed.

Lemma select_best_In l p : select_best l = Some p -> In p l.
Proof.
  unfold select_best. intro H.
  destruct (best (fun p0 => negb (is_nil (p_kws p0))) l) eqn:E1.
  - injection H as <-. eapply best_In; eassumption.
  - destruct (best (fun p0 => negb (p_live p0)) l) eqn:E2.
    + injection H as <-. eapply best_In; eassumption.
    + eapply best_In; eassumption.
Qed.

Lemma best_true_nonempty l : l <> [] -> best (fun _ => true) l <> None.
Proof.
  destruct l as [|a l]; [congruence|]. intros _. cbn.
  destruct (best (fun _ => true) l); [destruct (N.leb _ _)|]; cbn; congruence.
Qed.

Lemma pick_inr o R r p :
  pick o R r = inr p ->
  In p (versions R (d_key r)) /\ dep_match r p = true /\ (o_stable o = true -> spec_bad r = false).
Proof.
  unfold pick. destruct (o_stable o && spec_bad r) eqn:Eb; [discriminate|].
  set (m := filter (dep_match r) (versions R (d_key r))).
  intro H.
  assert (Hin : In p m).
  { destruct (o_stable o).
    - destruct m as [|q m'] eqn:Em.
      + cbn in H. discriminate.
      + injection H as <-. left. reflexivity.
    - destruct (select_best m) eqn:Es; [|discriminate]. injection H as <-.
      apply select_best_In. exact Es. }
  unfold m in Hin. apply filter_In in Hin as [H1 H2].
  split; [exact H1|]. split; [exact H2|].
  intro Hs. rewrite Hs in Eb. exact Eb.
Qed.

(* a spec that cannot be acted on: not exact / slotted when stabilizing, or matching nothing *)
Definition unactionable (o : opts) (R : repo) (r : req) : bool :=
  (o_stable o && spec_bad r) || is_nil (filter (dep_match r) (versions R (d_key r))).

Lemma pick_unactionable o R r :
  unactionable o R r = true -> exists e, pick o R r = inl e.
Proof.
  unfold unactionable, pick. intro H.
  destruct (o_stable o && spec_bad r); [eexists; reflexivity|].
  cbn in H. apply is_nil_true in H. rewrite H. cbn.
  destruct (o_stable o); eexists; reflexivity.
Qed.

Lemma expand_known o known vs p prev written kws :
  expand o known vs p prev written = Some (inr kws) -> forall k, In k kws -> In k known.
Proof.
  unfold expand.
  destruct (mem_str s_minus _); [discriminate|].
  match goal with |- context [if mem_str s_caret ?K then _ else _] => set (K1 := K) end.
  destruct (if mem_str s_caret K1
            then match prev with
                 | Some pv => Some (pv ++ filter (fun x => negb (str_eqb x s_caret)) K1)
                 | None => None end
            else Some K1) as [K2|]; [|discriminate].
  destruct (existsb (fun k => negb (mem_str k known)) K2) eqn:E; [discriminate|].
  intro H. injection H as <-. intros k Hk.
  apply (proj1 (existsb_false _ _) E), negb_false_iff in Hk. now apply mem_str_In.
Qed.

Lemma is_new_spec o p k : is_new o p k = true <-> ~ carried (o_stable o) p k.
Proof.
  unfold is_new, carried. rewrite andb_true_iff, negb_true_iff, mem_str_false.
  rewrite orb_true_iff, negb_true_iff, mem_str_false.
  destruct (o_stable o); split.
  - intros [H _] [C|[C _]]; [exact (H C)|discriminate].
  - intro H. split; [intro C; apply H; left; exact C | left; reflexivity].
  - intros [H [X|H2]] [C|[_ C]]; try discriminate; [exact (H C)|exact (H2 C)].
  - intro H. split; [intro C; apply H; left; exact C|].
    right. intro C. apply H. right. split; [reflexivity|exact C].
Qed.

Lemma cc_narrow_In cc kws k :
  In k (cc_narrow cc kws) ->
  (In k kws \/ (kws = [] /\ In k cc)) /\ (cc <> [] -> In k cc).
Proof.
  unfold cc_narrow. destruct kws as [|a kws'].
  - intro H. split; [right; split; [reflexivity|exact H] | intros _; exact H].
  - destruct cc as [|c cc'].
    + intro H. split; [left; exact H | congruence].
    + intro H. apply filter_In in H as [H1 H2]. apply mem_str_In in H2.
      split; [left; exact H1 | intros _; exact H2].
Qed.

Lemma new_narrow_In o p k2 k :
  In k (new_narrow o p k2) -> In k k2 /\ (o_only_new o = true -> ~ carried (o_stable o) p k).
Proof.
  unfold new_narrow. destruct (o_only_new o).
  - intro H. apply filter_In in H as [H1 H2]. split; [exact H1|]. intros _. apply is_new_spec. exact H2.
  - intro H. split; [exact H | discriminate].
Qed.

Lemma filt_narrow_In o vs p k3 k :
  In k (filt_narrow o vs p k3) ->
  (In k k3 /\ In k (o_filt o)) \/ In k (allarches_kw o vs p).
Proof.
  unfold filt_narrow. rewrite in_app_iff. intros [H|H].
  - apply filter_In in H as [H1 H2]. apply mem_str_In in H2. left. split; assumption.
  - apply filter_In in H as [H1 _]. right. exact H1.
Qed.

Lemma allarches_kw_In o vs p k :
  In k (allarches_kw o vs p) ->
  allarches_active o = true /\ candidate vs p k.
Proof.
  unfold allarches_kw. destruct (allarches_active o); [|intros []].
  intro H. split; [reflexivity|]. apply suggested_stable_iff_proof. exact H.
Qed.

Lemma allarches_active_spec o :
  allarches_active o = true <-> o_allarches o = true /\ o_stable o = true /\ o_filt o <> [].
Proof.
  unfold allarches_active. rewrite !andb_true_iff, negb_true_iff, is_nil_false. tauto.
Qed.

Definition yield_ok (o : opts) (vs : list pkg) (p : pkg) (kws ks : list str) : Prop :=
  forall k, In k ks ->
    ( (In k kws \/ (kws = [] /\ In k (o_cc o)))
      /\ (o_cc o <> [] -> In k (o_cc o))
      /\ (o_only_new o = true -> ~ carried (o_stable o) p k)
      /\ (o_filt o <> [] -> In k (o_filt o)) )
    \/ (allarches_active o = true /\ candidate vs p k).

Definition line_yields (r : req) (lr : line_res) : list yield :=
  match lr with LEmpty p _ => [(d_key r, p, [])] | LReq p _ ks => [(d_key r, p, ks)] | _ => [] end.
Definition next (s : st) (lr : line_res) : st :=
  match lr with
  | LEmpty _ true => St (s_prev s) (s_done s) (s_filt s) (s_yielded s) (S (s_nokw s)) (s_nopot s)
  | LEmpty _ false => St (s_prev s) (s_done s) (s_filt s) (s_yielded s) (s_nokw s) (S (s_nopot s))
  | LDone pv => St (Some pv) true (s_filt s) (s_yielded s) (s_nokw s) (s_nopot s)
  | LFilt pv => St (Some pv) (s_done s) true (s_yielded s) (s_nokw s) (s_nopot s)
  | LReq _ pv _ => St (Some pv) (s_done s) (s_filt s) true (s_nokw s) (s_nopot s)
  | _ => s
  end.
Definition line_err (lr : line_res) : option err := match lr with LErr e => Some e | _ => None end.

Lemma narrow_yields o vs p kws r y : In y (line_yields r (narrow o vs p kws)) ->
  exists ks, y = (d_key r, p, ks) /\ yield_ok o vs p kws ks.
Proof.
  unfold narrow. destruct (is_nil (cc_narrow (o_cc o) kws)).
  { destruct (is_nil kws); [|intros []]. intros [<-|[]]. exists []. split; [reflexivity | intros k []]. }
  destruct (o_only_new o && _); [intros []|].
  destruct (is_nil (o_filt o)) eqn:Ef; [|destruct (is_nil (filt_narrow _ _ _ _)); [intros []|]];
    intros [<-|[]]; eexists; (split; [reflexivity|]); intros k Hk.
  - left. apply new_narrow_In in Hk as [Hk Hn]. apply cc_narrow_In in Hk as [H1 H2].
    repeat split; try assumption. apply is_nil_true in Ef. congruence.
  - apply filt_narrow_In in Hk as [[Hk Hf]|Ha]; [left | right; apply allarches_kw_In, Ha].
    apply new_narrow_In in Hk as [Hk Hn]. apply cc_narrow_In in Hk as [H1 H2]. repeat split; auto.
Qed.

Definition yielded_from (o : opts) (known : list str) (R : repo) (r : req) (p : pkg) (ks : list str) : Prop :=
  In p (versions R (d_key r)) /\ dep_match r p = true /\ (o_stable o = true -> spec_bad r = false) /\
  exists kws, (forall k, In k kws -> In k known) /\ yield_ok o (versions R (d_key r)) p kws ks.

Lemma line_yields_from o known R prev r y : In y (line_yields r (line o known R prev r)) ->
  exists p ks, y = (d_key r, p, ks) /\ yielded_from o known R r p ks.
Proof.
  unfold line. destruct (pick o R r) as [e|q] eqn:Ep; [intros []|].
  destruct (expand o known (versions R (d_key r)) q prev (r_written r)) as [[e|kws]|] eqn:Ee; try (intros []).
  intro H. apply narrow_yields in H as (ks & -> & Hy). apply pick_inr in Ep as [H1 [H2 H3]].
  exists q, ks. split; [reflexivity|]. repeat split; try assumption.
  exists kws. split; [eapply expand_known, Ee | exact Hy].
Qed.

Lemma line_unactionable o known R prev r :
  unactionable o R r = true -> exists e, line o known R prev r = LErr e.
Proof.
  intro H. apply pick_unactionable in H as [e He]. unfold line. rewrite He. exists e. reflexivity.
Qed.

Lemma loop_cons o known R s r rs :
  loop o known R s (r :: rs) =
  let lr := line o known R (s_prev s) r in
  match line_err lr with
  | Some e => ([], s, Some e)
  | None => let '(ys, s', e) := loop o known R (next s lr) rs in (line_yields r lr ++ ys, s', e)
  end.
Proof.
  cbn [loop]. destruct (line o known R (s_prev s) r) as [| |p []| | |]; cbn; try reflexivity;
    now destruct (loop o known R _ rs) as [[ys s'] e].
Qed.

Lemma loop_yields o known R rs : forall s ys s' e,
  loop o known R s rs = (ys, s', e) ->
  forall key p ks, In (key, p, ks) ys ->
    exists r, In r rs /\ d_key r = key /\ yielded_from o known R r p ks.
Proof.
  induction rs as [|r rs IH]; intros s ys s' e H key p ks Hin.
  - injection H as <- _ _. destruct Hin.
  - rewrite loop_cons in H. cbv zeta in H.
    destruct (line_err _); [injection H as <- _ _; destruct Hin|].
    destruct (loop o known R _ rs) as [[ys1 s1] e1] eqn:EL. injection H as <- _ _.
    apply in_app_or in Hin as [Hin|Hin].
    + apply line_yields_from in Hin as (p' & ks' & [= -> -> ->] & Hy). exists r. split; [now left | auto].
    + destruct (IH _ _ _ _ EL key p ks Hin) as (r' & Hr & Hy). exists r'. split; [now right | exact Hy].
Qed.

Lemma loop_app o known R l1 : forall s l2,
  loop o known R s (l1 ++ l2) =
  match loop o known R s l1 with
  | (ys1, s1, Some e) => (ys1, s1, Some e)
  | (ys1, s1, None) => let '(ys2, s2, e2) := loop o known R s1 l2 in (ys1 ++ ys2, s2, e2)
  end.
Proof.
  induction l1 as [|r l1 IH]; intros s l2.
  - cbn. now destruct (loop o known R s l2) as [[ys2 s2] e2].
  - rewrite <- app_comm_cons, !loop_cons. cbv zeta. destruct (line_err _); [reflexivity|].
    rewrite IH. destruct (loop o known R _ l1) as [[ys1 s1] [e1|]]; [reflexivity|].
    destruct (loop o known R s1 l2) as [[ys2 s2] e2]. now rewrite app_assoc.
Qed.

Lemma loop_length o known R rs : forall s ys s' e,
  loop o known R s rs = (ys, s', e) -> (length ys <= length rs)%nat.
Proof.
  induction rs as [|r rs IH]; intros s ys s' e H.
  - injection H as <- _ _. apply le_n.
  - rewrite loop_cons in H. cbv zeta in H. destruct (line_err _); [injection H as <- _ _; cbn; lia|].
    destruct (loop o known R _ rs) as [[ys1 s1] e1] eqn:EL. injection H as <- _ _.
    apply IH in EL. rewrite app_length.
    assert (length (line_yields r (line o known R (s_prev s) r)) <= 1)%nat by (destruct (line _ _ _ _ _); cbn; lia).
    cbn [length]. lia.
Qed.

Lemma run_yields c key p ks :
  In (key, p, ks) (fst (run c)) ->
  exists r, In r (c_reqs c) /\ d_key r = key /\ yielded_from (c_opts c) (c_known c) (c_repo c) r p ks.
Proof.
  unfold run.
  destruct (loop (c_opts c) (c_known c) (c_repo c) st0 (c_reqs c)) as [[ys s] e] eqn:EL.
  cbn. intro H. eapply loop_yields; eassumption.
Qed.

(* every stabilization candidate of every version of the repository passes test [f] *)
Definition all_cands (R : repo) (f : pkg -> str -> bool) : bool :=
  forallb (fun kv => forallb (fun p => forallb (f p) (suggested true (snd kv) p)) (snd kv)) R.

Lemma versions_In R key p : In p (versions R key) -> In (key, versions R key) R.
Proof.
  induction R as [|[k vs] R IH]; cbn; [intros []|].
  destruct (N.eqb k key) eqn:E.
  - apply N.eqb_eq in E. subst k. intros _. left. reflexivity.
  - intro H. right. apply IH. exact H.
Qed.

Lemma all_cands_spec R f key p k :
  all_cands R f = true -> In p (versions R key) -> candidate (versions R key) p k -> f p k = true.
Proof.
  unfold all_cands. intros H Hp Hc.
  rewrite forallb_forall in H. specialize (H _ (versions_In R key p Hp)). cbn in H.
  rewrite forallb_forall in H. specialize (H p Hp).
  rewrite forallb_forall in H. apply H. apply suggested_stable_iff_proof. exact Hc.
Qed.

Lemma candidate_passes c f key p ks k :
  In (key, p, ks) (fst (run c)) ->
  allarches_active (c_opts c) && negb (all_cands (c_repo c) f) = false ->
  allarches_active (c_opts c) = true -> candidate (versions (c_repo c) key) p k -> f p k = true.
Proof.
  intros H Hc Ha Hcand. rewrite Ha in Hc. apply negb_false_iff in Hc.
  apply run_yields in H as [r [_ [<- [Hp _]]]]. exact (all_cands_spec _ _ _ p k Hc Hp Hcand).
Qed.

(* the cases in which allarches can add an arch that the narrowing had removed: some candidate of
   the repository fails the test of that narrowing (for [known_class] also: cc names an unknown arch) *)
Definition known_class (c : case) : bool :=
  negb (forallb (fun k => mem_str k (c_known c)) (o_cc (c_opts c)))
  || (allarches_active (c_opts c)
      && negb (all_cands (c_repo c) (fun _ k => mem_str k (c_known c)))).
Definition cc_class (c : case) : bool :=
  allarches_active (c_opts c)
  && negb (all_cands (c_repo c) (fun _ k => mem_str k (o_cc (c_opts c)))).
Definition new_class (c : case) : bool :=
  allarches_active (c_opts c)
  && negb (all_cands (c_repo c) (fun p k => negb (mem_str k (p_kws p)))).

Definition C40_known_full : Prop := forall c y, In y (fst (run c)) -> cl_known c y.
Definition C40_cc_full : Prop := forall c y, In y (fst (run c)) -> cl_cc c y.
Definition C40_new_full : Prop := forall c y, In y (fst (run c)) -> cl_new c y.

Definition s_a : str := [97]%N.    (* "a" *)
Definition s_x : str := [120]%N.   (* "x" *)
Definition s_ta : str := [126;97]%N.
Definition s_tx : str := [126;120]%N.

(* cc arch "a" is not a known arch; a line without keywords inherits it *)
Definition wit_known : case :=
  C [s_x] [(0%N, [P 1 0 false [s_tx]])] (Op true [s_a] false [] false) [Rq 0 1 1 None []].
(* allarches re-adds candidate "a" although the request is addressed to cc = [x] *)
Definition wit_cc : case :=
  C [s_a; s_x] [(0%N, [P 1 0 false [s_a; s_x]; P 2 0 false [s_ta; s_tx]])]
    (Op true [s_x] false [s_x] true) [Rq 0 1 2 None [s_x]].
(* only_new, yet allarches re-adds "a", which the version carries both as a and ~a *)
Definition wit_new : case :=
  C [s_a; s_x] [(0%N, [P 1 0 false [s_a; s_ta; s_tx]])]
    (Op true [] true [s_x] true) [Rq 0 1 1 None [s_x]].

(* the witnesses lie in the classes (the classes are not empty, the partial theorems not vacuous) *)
Example wit_classes : known_class wit_known = true /\ cc_class wit_cc = true /\ new_class wit_new = true.
Proof. vm_compute. repeat split. Qed.

(* stabilizing, cc + filter + only_new, sentinels "*" and "^": requests come out *)
Definition ex_case : case :=
  C [s_a; s_x] [(0%N, [P 1 0 false [s_a; s_x]; P 2 0 false [s_ta; s_tx]])]
    (Op true [s_a; s_x] true [s_a] false) [Rq 0 1 2 None [s_star]; Rq 0 1 2 None [s_caret]].
Example ex_case_runs :
  run ex_case = ([(0%N, P 2 0 false [s_ta; s_tx], [s_a]); (0%N, P 2 0 false [s_ta; s_tx], [s_a])], (None, O))
  /\ known_class ex_case = false /\ cc_class ex_case = false /\ new_class ex_case = false.
Proof. vm_compute. repeat split. Qed.
Example ex_unactionable :
  unactionable (Op true [] false [] false) [(0%N, [P 1 0 false [s_x]])] (Rq 0 2 1 None [s_x]) = true
  /\ unactionable (Op false [] false [] false) [(0%N, [P 1 0 false [s_x]])] (Rq 0 1 7 None [s_x]) = true
  /\ unactionable (Op true [] false [] false) [(0%N, [P 1 0 false [s_x]])] (Rq 0 1 1 None [s_x]) = false.
Proof. vm_compute. repeat split. Qed.
