(* Cells_C05.v — completeness of intersects for the cells with `~` and `=*`, USE deps on both atoms. *)
From Coq Require Import List ZArith Bool Lia.
Import ListNotations.
From Verif Require Import Base.Val Base.Lists C01.Model_C01 C01.Spec_C01 C04.Model_C04 C04.Spec_C04 C04.Proofs_C04
  C05.Model_C05 C05.Spec_C05 C05.Proofs_C05.

Lemma startswith_two s g1 g2 :
  startswith s g1 = true -> startswith s g2 = true -> startswith g1 g2 = true \/ startswith g2 g1 = true.
Proof.
  revert g1 g2; induction s as [|x s IH]; intros [|y g1] [|z g2]; cbn; intros H1 H2; auto; try discriminate.
  apply andb_true_iff in H1 as [E1 H1]. apply andb_true_iff in H2 as [E2 H2].
  apply N.eqb_eq in E1, E2. subst. rewrite N.eqb_refl. cbn. apply IH; assumption.
Qed.

Lemma startswith_app_pre s g r : startswith s (g ++ r) = true -> startswith s g = true.
Proof.
  revert s; induction g as [|x g IH]; intros s H; cbn in *; [reflexivity|].
  destruct s as [|y s]; [discriminate|]. apply andb_true_iff in H as [E H]. rewrite E. cbn. apply IH; exact H.
Qed.

Definition nodash (s : str) : bool := forallb (fun c => negb (N.eqb c 45)) s.
(* a text without "-" that is a prefix of  x ++ suffix  (suffix empty or starting with "-")
   is a prefix of x *)
Lemma startswith_nodash x suf g :
  (suf = [] \/ exists t, suf = 45%N :: t) -> nodash g = true ->
  startswith (x ++ suf) g = true -> startswith x g = true.
Proof.
  intros Hs. revert x; induction g as [|c g IH]; intros x Hd H; cbn in *; [reflexivity|].
  apply andb_true_iff in Hd as [Hc Hd].
  destruct x as [|y x]; cbn in *.
  - destruct Hs as [->|[t ->]]; cbn in H; [discriminate|].
    apply andb_true_iff in H as [E _]. apply N.eqb_eq in E. subst c. cbn in Hc. discriminate.
  - apply andb_true_iff in H as [E H]. rewrite E. cbn. apply IH; assumption.
Qed.

(* a token as the atom parser accepts it: [-]flag[(+)|(-)], flag not starting with "-" nor ending with ")" *)
Definition valid_tok (t : str) : Prop :=
  exists d s c f, t = render_use d s (c :: f) /\ c <> 45%N /\ last (c :: f) 0%N <> 41%N.

Lemma use_flags_In t ua ub : In t (use_flags ua ub) -> In t ua \/ In t ub.
Proof.
  unfold use_flags. intro H. apply in_app_or in H as [H|H]; apply filter_In in H as [H _]; auto.
Qed.

(* "-f" and "f" both valid: they are the negative and the positive dep on one flag, same default *)
Lemma conflict_tokens f :
  valid_tok (45%N :: f) -> valid_tok f ->
  exists d g, parse_use_token (45%N :: f) = (d, false, g) /\ parse_use_token f = (d, true, g).
Proof.
  intros [d1 [s1 [c1 [f1 [E1 [Hc1 Hl1]]]]]] [d2 [s2 [c2 [f2 [E2 [Hc2 Hl2]]]]]].
  destruct s1; unfold render_use in E1; cbn [app] in E1.
  - injection E1 as Ec _. congruence.
  - injection E1 as E1. destruct s2; unfold render_use in E2; cbn [app] in E2.
    + exists d2, (c2 :: f2).
      assert (R1 : 45%N :: f = render_use d2 false (c2 :: f2)) by (rewrite E2; reflexivity).
      assert (R2 : f = render_use d2 true (c2 :: f2)) by (rewrite E2; reflexivity).
      split; [rewrite R1|rewrite R2]; apply parse_render_use_proof; assumption.
    + (* f itself starts with "-": then "-f" = "--..." is not valid *)
      rewrite E2 in E1. cbn in E1. injection E1 as Ec _. congruence.
Qed.

Lemma match_use_tokens vc a p toks :
  a_use a = Some toks -> use_clause vc a p = true -> known_use_nand a p = false ->
  forall t, In t toks ->
    (let '(d, s, f) := parse_use_token t in usedep_holds d s f (p_iuse p) (p_use p)) = true.
Proof.
  intros Eu H K. rewrite (use_part vc a p K) in H. unfold use_ok in H. rewrite Eu in H.
  apply forallb_forall. exact H.
Qed.

Lemma use_complete vc a b p :
  (forall t toks, a_use a = Some toks -> In t toks -> valid_tok t) ->
  (forall t toks, a_use b = Some toks -> In t toks -> valid_tok t) ->
  use_clause vc a p = true -> use_clause vc b p = true ->
  known_use_nand a p = false -> known_use_nand b p = false ->
  use_conflict a b = false.
Proof.
  intros Va Vb Ma Mb Ka Kb. unfold use_conflict.
  destruct (a_use a) as [[|ta ua]|] eqn:Ea; try reflexivity.
  destruct (a_use b) as [[|tb ub]|] eqn:Eb; try reflexivity.
  destruct (existsb _ _) eqn:E; [|reflexivity]. exfalso.
  apply existsb_exists in E as [t [Ht Hf]]. rewrite dash_match in Hf.
  destruct t as [|c f]; [discriminate|]. destruct (N.eqb_spec c 45) as [->|]; [|discriminate].
  apply existsb_str_In in Hf.
  (* every token only one of the atoms has is valid and holds of the package *)
  assert (Hall : forall t, In t (use_flags (ta :: ua) (tb :: ub)) ->
            valid_tok t /\ (let '(d, s, g) := parse_use_token t in usedep_holds d s g (p_iuse p) (p_use p)) = true).
  { intros t Hin. apply use_flags_In in Hin as [Hin|Hin].
    - split; [exact (Va t _ eq_refl Hin)|exact (match_use_tokens vc a p _ Ea Ma Ka t Hin)].
    - split; [exact (Vb t _ eq_refl Hin)|exact (match_use_tokens vc b p _ Eb Mb Kb t Hin)]. }
  destruct (Hall _ Ht) as [V1 H1]. destruct (Hall _ Hf) as [V2 H2].
  destruct (conflict_tokens f V1 V2) as [d [g [P1 P2]]].
  rewrite P1 in H1. rewrite P2 in H2. unfold usedep_holds in *.
  destruct (flag_state d g (p_iuse p) (p_use p)); discriminate.
Qed.

Lemma wf5_inv a : wf5 a = true -> wf_atom a = true /\ (a_op a = 5%N -> a_rev a = None).
Proof.
  unfold wf5. intro H. apply andb_true_iff in H as [W T]. split; [exact W|].
  intro E. rewrite E in T. destruct (a_rev a); [discriminate|reflexivity].
Qed.


Section Complete.
Variable vc : str -> option N -> str -> option N -> Z.
Variable okv : str -> Prop.
Hypothesis Hord : order_laws vc okv.
Hypothesis Hshape : revision_last vc.

Lemma drop_zero v r w s : vc v r w s = 0%Z -> vc v None w None = 0%Z.
Proof. destruct (Hshape v w) as [[c|] H]; rewrite !H; [auto|intros _; reflexivity]. Qed.

Lemma lex_decided v r w s : vc v None w None <> 0%Z -> vc v r w s = vc v None w None.
Proof. destruct (Hshape v w) as [[c|] H]; rewrite !H; [reflexivity|]. intro N0. exfalso. apply N0. reflexivity. Qed.

Lemma norev_le v w s : vc v None w None = 0%Z -> (vc v None w s <= 0)%Z.
Proof.
  destruct (Hshape v w) as [[c|] H]; rewrite !H; [lia|]. intros _.
  unfold rev_cmp, cmpN. cbn. destruct (rev_val s); cbn; lia.
Qed.

Lemma complete_cell_tilde : forall a b pv pr,
  (a_op a <= 4)%N -> a_op b = 5%N -> a_rev b = None ->
  okv (a_ver a) -> okv (a_ver b) -> okv pv ->
  vmatch vc (a_op a) false (a_ver a) (a_rev a) pv pr = true ->
  vmatch vc 5 false (a_ver b) (a_rev b) pv pr = true ->
  version_part vc a b = true.
Proof.
  intros a b pv pr Ha Eb Rb Oa Ob Op Ma Mb.
  rewrite vmatch_op in Ma by lia. apply memZ_In in Ma.
  rewrite vmatch_tilde in Mb. apply Z.eqb_eq in Mb.      (* the package's text equals the `~` atom's *)
  assert (Ca : ((a_op a = 0 \/ a_op a = 1) \/ a_op a = 2 \/ (a_op a = 3 \/ a_op a = 4))%N) by lia.
  destruct Ca as [Ca|[Ca|Ca]].
  - (* < <= : the `~` atom's text without revision is not above the package, so it is accepted too *)
    rewrite (vp_lower_tilde vc a b Ca Eb). unfold vm. rewrite vmatch_op, Rb by lia. apply memZ_In.
    apply (sat_lower vc okv Hord _ _ _ pv pr); try assumption.
    apply norev_le. rewrite (ord_anti vc okv Hord pv None _ None Op Ob), Mb. reflexivity.
  - (* = : the package equals the `=` atom, also without the revisions *)
    rewrite (vp_eq vc a b Ca) by lia. unfold vm. rewrite Eb, vmatch_tilde. apply Z.eqb_eq.
    rewrite Ca in Ma. destruct Ma as [Ma|[]]. symmetry in Ma. apply drop_zero in Ma.
    rewrite <- (ord_eq vc okv Hord pv None _ None _ None Op Oa Ob Ma). exact Mb.
  - (* >= > : either the two texts compare equal, or everything is decided by the texts and the
       `~` atom's text stands where the package stands *)
    rewrite (vp_upper_tilde vc a b Ca Eb). unfold vm. rewrite Eb, vmatch_tilde.
    destruct (Z.eqb_spec (vc (a_ver a) None (a_ver b) None) 0) as [E0|N0]; [apply orb_true_r|].
    rewrite orb_false_r, vmatch_op, Rb by lia. apply memZ_In.
    pose proof (ord_eq vc okv Hord pv None _ None (a_ver a) None Op Ob Oa Mb) as E.
    pose proof (ord_anti vc okv Hord (a_ver a) None (a_ver b) None Oa Ob) as A.
    rewrite (lex_decided _ None _ (a_rev a)) by lia.
    rewrite (lex_decided _ pr _ (a_rev a)) in Ma by lia.
    rewrite <- E. exact Ma.
Qed.

(* `~t` against `=g*`, the package spelt like the `~` atom, texts of the usual shape *)
Definition tilde_glob_premise (t g : atom) (p : package) : Prop :=
  a_op t = 5%N /\ a_op g = 6%N /\ p_ver p = a_ver t /\ a_fullver t = Some (a_ver t)
  /\ (exists suf, p_fullver p = p_ver p ++ suf /\ (suf = [] \/ exists t', suf = 45%N :: t'))
  /\ (exists gs, fullver_of g = a_ver g ++ gs) /\ nodash (a_ver g) = true.

(* the operator cells covered, with the premises that exclude the recorded class
   incomplete-respelt-version (the package / the other atom is spelt like the atom whose text is
   compared as a string) *)
Definition cell_premise (a b : atom) (p : package) : Prop :=
  (a_op a = 7%N \/ a_op b = 7%N)
  \/ ((a_op a <= 5)%N /\ (a_op b <= 5)%N /\ (a_op a = 5%N -> a_op b = 5%N -> a_ver a = a_ver b)
      /\ okv (a_ver a) /\ okv (a_ver b) /\ okv (p_ver p))
  \/ (a_op a = 6%N /\ a_op b = 6%N)
  \/ (a_op a = 2%N /\ a_op b = 6%N /\ p_fullver p = fullver_of a)
  \/ (a_op b = 2%N /\ a_op a = 6%N /\ p_fullver p = fullver_of b)
  \/ tilde_glob_premise a b p \/ tilde_glob_premise b a p.

Lemma tilde_glob_cell t g p :
  wf_atom g = true -> Mv vc g (p_ver p) (p_rev p) (p_fullver p) = true -> tilde_glob_premise t g p ->
  version_part vc g t = true.
Proof.
  intros Wg Mg [Et [Eg [Ev [Ef [[suf [Es Hs]] [[gs Egs] Hd]]]]]].
  rewrite (Mv_glob vc g _ _ _ Wg Eg), Egs, Es in Mg. apply startswith_app_pre in Mg.
  rewrite (vp_glob_tilde vc g t Eg Et). unfold fullver_of. rewrite Ef, <- Ev.
  exact (startswith_nodash _ _ _ Hs Hd Mg).
Qed.

Lemma version_complete : forall a b p,
  wf5 a = true -> wf5 b = true ->
  cell_premise a b p ->
  Mv vc a (p_ver p) (p_rev p) (p_fullver p) = true -> Mv vc b (p_ver p) (p_rev p) (p_fullver p) = true ->
  version_part vc a b = true.
Proof.
  intros a b p Wa Wb Hc Ma Mb.
  apply wf5_inv in Wa as [Wa Ra]. apply wf5_inv in Wb as [Wb Rb].
  pose proof (proj1 (wf_atom_inv a Wa)) as La7. pose proof (proj1 (wf_atom_inv b Wb)) as Lb7.
  destruct Hc as [E|[[La [Lb [Hsp [Oa [Ob Op]]]]]|[[Ea Eb]|[[Ea [Eb Hp]]|[[Eb [Ea Hp]]|[Htg|Htg]]]]]].
  - apply vp_unversioned. exact E.
  - rewrite Mv_nonglob in Ma, Mb by assumption.
    destruct (N.eq_dec (a_op a) 5) as [Ea|Na5]; destruct (N.eq_dec (a_op b) 5) as [Eb|Nb5].
    + rewrite (vp_tilde_tilde vc a b Ea Eb), (Hsp Ea Eb), str_eqb_refl, (Ra Ea), (Rb Eb). reflexivity.
    + rewrite version_part_sym by (lia || intros; lia). rewrite Ea in Ma.
      apply (complete_cell_tilde b a (p_ver p) (p_rev p)); auto. lia.
    + rewrite Eb in Mb. apply (complete_cell_tilde a b (p_ver p) (p_rev p)); auto. lia.
    + apply (complete_cells_ordered vc okv Hord a b (p_ver p) (p_rev p)); assumption || lia.
  - rewrite Mv_glob in Ma, Mb by assumption. rewrite (vp_glob_glob vc a b Ea Eb).
    destruct (startswith_two _ _ _ Ma Mb) as [H|H]; rewrite H; [reflexivity|apply orb_true_r].
  - (* = , =* : the package is spelt like the `=` atom *)
    rewrite Mv_glob in Mb by assumption. rewrite (vp_eq_glob vc a b Ea Eb), <- Hp. exact Mb.
  - rewrite Mv_glob in Ma by assumption.
    rewrite version_part_sym, (vp_eq_glob vc b a Eb Ea), <- Hp by (lia || intros; lia). exact Ma.
  - rewrite version_part_sym by (lia || intros; destruct Htg as [E _]; lia).
    exact (tilde_glob_cell a b p Wb Mb Htg).
  - exact (tilde_glob_cell b a p Wa Ma Htg).
Qed.

Lemma intersects_complete_cells_ord : forall a b p,
  wf5 a = true -> wf5 b = true -> a_negate_vers a = false -> a_negate_vers b = false ->
  (forall t toks, a_use a = Some toks -> In t toks -> valid_tok t) ->
  (forall t toks, a_use b = Some toks -> In t toks -> valid_tok t) ->
  known_use_nand a p = false -> known_use_nand b p = false ->
  cell_premise a b p ->
  atom_match vc a p = true -> atom_match vc b p = true ->
  intersects vc a b = true.
Proof.
  intros a b p Wa Wb Na Nb Va Vb Ka Kb Hc Ma Mb.
  destruct (wf5_inv a Wa) as [Wa' _]. destruct (wf5_inv b Wb) as [Wb' _].
  apply (intersects_of_parts vc a b p); try assumption;
    apply (atom_match_iff vc a p Wa' Na) in Ma as (_ & _ & Av & _ & _ & _ & Au);
    apply (atom_match_iff vc b p Wb' Nb) in Mb as (_ & _ & Bv & _ & _ & _ & Bu).
  - exact (use_complete vc a b p Va Vb Au Bu Ka Kb).
  - exact (version_complete a b p Wa Wb Hc Av Bv).
Qed.
End Complete.

Definition cell_premise_ver_cmp := cell_premise is_version.

(* ~a/b-1.0 against =a/b-1*, package a/b-1.0-r1 *)
Example tilde_glob_example :
  let t := vatom 5 [49; 46; 48]%N None [49; 46; 48]%N in
  let g := vatom 6 [49]%N None [49]%N in
  let p := vpkg [49; 46; 48]%N (Some 1%N) [49; 46; 48; 45; 114; 49]%N in
  tilde_glob_premise t g p /\ wf5 t = true /\ wf5 g = true
  /\ atom_match ver_cmp t p = true /\ atom_match ver_cmp g p = true /\ intersects ver_cmp t g = true.
Proof.
  cbv zeta. split.
  - unfold tilde_glob_premise. cbn. repeat split; try reflexivity.
    + exists [45; 114; 49]%N. split; [reflexivity|right; eexists; reflexivity].
    + exists []. reflexivity.
  - vm_compute. repeat split.
Qed.

Example valid_tok_examples :
  valid_tok [120]%N /\ valid_tok [45; 121]%N /\ valid_tok [120; 40; 43; 41]%N /\ valid_tok [45; 122; 40; 45; 41]%N.
Proof.
  repeat split.
  - exists None, true, 120%N, []. repeat split; cbn; discriminate.
  - exists None, false, 121%N, []. repeat split; cbn; discriminate.
  - exists (Some true), true, 120%N, []. repeat split; cbn; discriminate.
  - exists (Some false), false, 122%N, []. repeat split; cbn; discriminate.
Qed.
(* a/b[x,-y] against a/b[x(+),-z(-)] : both with USE deps, tokens valid, package USE="x" IUSE="x y" *)
Example use_both_example :
  let a := use_atom [[45; 121]; [120]]%N in
  let b := use_atom [[45; 122; 40; 45; 41]; [120; 40; 43; 41]]%N in
  let p := {| p_cat := [97]%N; p_pkg := [98]%N; p_ver := [49]%N; p_rev := None; p_fullver := [49]%N;
              p_slot := [48]%N; p_subslot := [48]%N; p_repo := [103]%N; p_use := [[120]]%N;
              p_iuse := [[120]; [121]]%N |} in
  atom_match ver_cmp a p = true /\ atom_match ver_cmp b p = true
  /\ known_use_nand a p = false /\ known_use_nand b p = false /\ intersects ver_cmp a b = true.
Proof. vm_compute. repeat split. Qed.
