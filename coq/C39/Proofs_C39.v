(* Proofs_C39.v — membership lemmas for the list-change model; the property theorems are in
   Prop_C39.v. *)
From Coq Require Import List NArith Bool Lia.
Import ListNotations.
From Verif Require Import Base.Lists C39.Model_C39 C39.Spec_C39.

Lemma mem_In x l : mem x l = true <-> In x l.
Proof. apply existsb_N_In. Qed.

Lemma mem_false x l : mem x l = false <-> ~ In x l.
Proof. rewrite <- mem_In. symmetry. apply not_true_iff_false. Qed.

Lemma In_dec_N (x : N) l : In x l \/ ~ In x l.
Proof. destruct (in_dec N.eq_dec x l); [left|right]; assumption. Qed.

Lemma keep_In ex l x : In x (keep_not_in ex l) <-> In x l /\ ~ In x ex.
Proof.
  unfold keep_not_in. rewrite filter_In. rewrite negb_true_iff, mem_false. reflexivity.
Qed.

(* a ++ (b without a) has the elements of a and b; the one place where membership is decided *)
Lemma In_app_keep a b x : In x (a ++ keep_not_in a b) <-> In x a \/ In x b.
Proof. rewrite in_app_iff, keep_In. destruct (In_dec_N x a); tauto. Qed.

Lemma overlap_true a r : overlap a r = true <-> exists x, In x a /\ In x r.
Proof.
  unfold overlap. rewrite existsb_exists. split; intros [x [Hx Hr]]; exists x; apply mem_In in Hr; auto.
Qed.

Lemma overlap_false a r : overlap a r = false <-> forall x, In x a -> ~ In x r.
Proof.
  rewrite <- not_true_iff_false, overlap_true. split.
  - intros H x Ha Hr. apply H. eauto.
  - intros H [x [Ha Hr]]. exact (H x Ha Hr).
Qed.

Lemma is_nil_true l : is_nil l = true <-> l = [].
Proof. destruct l; cbn; split; intro H; congruence. Qed.

Lemma apply_In c l x :
  In x (apply c l) <->
  match replace c with
  | Some s => In x s
  | None => (In x l /\ ~ In x (remove c)) \/ In x (add c)
  end.
Proof.
  unfold apply. destruct (replace c) as [s|]; [reflexivity|].
  rewrite In_app_keep, keep_In. reflexivity.
Qed.

Lemma valid_None c : valid c = true -> replace c = None ->
  forall x, In x (add c) -> ~ In x (remove c).
Proof.
  unfold valid. intros Hv Hr. rewrite Hr in Hv. apply negb_true_iff in Hv.
  apply overlap_false. exact Hv.
Qed.

Lemma mk_Some a r s c : mk a r s = Some c ->
  c = {| add := a; remove := r; replace := s |} /\ valid c = true.
Proof.
  unfold mk. destruct (valid _) eqn:E; intro H; [|discriminate].
  injection H as <-. split; [reflexivity | exact E].
Qed.

Lemma mk_None a r : mk a r None = None <-> exists x, In x a /\ In x r.
Proof.
  rewrite <- overlap_true. unfold mk, valid. cbn [replace add remove].
  destruct (overlap a r); cbn [negb]; split; congruence.
Qed.

Lemma apply_set c s l : replace c = Some s -> apply c l = s.
Proof. unfold apply. intros ->. reflexivity. Qed.

(* the two combinations __or__ builds itself, against applying b after a *)
Lemma set_then_change_In b s x :
  valid b = true -> replace b = None ->
  (In x (keep_not_in (remove b) s ++ keep_not_in s (add b)) <-> In x (apply b s)).
Proof.
  intros Vb Rb. pose proof (valid_None b Vb Rb x) as Db.
  rewrite apply_In, Rb, in_app_iff, !keep_In. destruct (In_dec_N x s); tauto.
Qed.

Lemma change_then_change_In a b c l x :
  valid a = true -> valid b = true -> replace a = None -> replace b = None ->
  mk (add a ++ keep_not_in (add a) (add b)) (remove a ++ keep_not_in (remove a) (remove b)) None = Some c ->
  (In x (apply c l) <-> In x (apply b (apply a l))).
Proof.
  intros Va Vb Ra Rb Hc. apply mk_Some in Hc as [-> Vc].
  pose proof (valid_None b Vb Rb x) as Db. pose proof (valid_None _ Vc eq_refl x) as Dc.
  rewrite (apply_In b), Rb, (apply_In a), Ra, apply_In. cbn [replace add remove] in *.
  rewrite !In_app_keep in *. tauto.
Qed.

Lemma apply_change_wire c l : apply_wire (change_wire c) l = apply c l.
Proof.
  unfold change_wire, apply. destruct (replace c); [reflexivity|].
  destruct (add c), (remove c); cbn; rewrite ?app_nil_r; reflexivity.
Qed.

(* a wire object never carries "set" together with "add"/"remove", and no empty key *)
Theorem change_wire_keys_proof c :
  map fst (change_wire c) =
  match replace c with
  | Some _ => [0%N]
  | None => (if is_nil (add c) then [] else [1%N]) ++ (if is_nil (remove c) then [] else [2%N])
  end.
Proof.
  unfold change_wire. destruct (replace c); [reflexivity|].
  destruct (is_nil (add c)), (is_nil (remove c)); reflexivity.
Qed.

Lemma keys_from_In k base bs :
  In k (keys_from base bs) <-> exists i, nth_error bs i = Some true /\ k = (base + N.of_nat i)%N.
Proof.
  revert base. induction bs as [|b bs IH]; intro base; cbn [keys_from].
  - split; [intros [] | intros [i [H _]]; destruct i; discriminate].
  - rewrite in_app_iff, IH. split.
    + intros [H | [i [Hn Hk]]].
      * destruct b; [|destruct H]. destruct H as [<-|[]]. exists 0%nat. split; [reflexivity|lia].
      * exists (S i). split; [exact Hn | lia].
    + intros [[|i] [Hn Hk]].
      * cbn in Hn. injection Hn as ->. left. left. lia.
      * right. exists i. split; [exact Hn | lia].
Qed.

Lemma keys_from_map_In {A} (f : A -> bool) k base l :
  In k (keys_from base (map f l))
  <-> exists i c, nth_error l i = Some c /\ f c = true /\ k = (base + N.of_nat i)%N.
Proof.
  rewrite keys_from_In. split.
  - intros [i [Hn Hk]]. rewrite nth_error_map in Hn.
    destruct (nth_error l i) as [c|] eqn:E; [|discriminate]. injection Hn as Hc. eauto.
  - intros (i & c & Hn & Hc & Hk). exists i. rewrite nth_error_map, Hn. cbn. rewrite Hc. auto.
Qed.

Lemma In_single (n k : N) : In k [n] <-> k = n.
Proof. cbn. intuition congruence. Qed.
Lemma In_if_single (b : bool) (n k : N) : In k (if b then [n] else []) <-> k = n /\ b = true.
Proof. destruct b; cbn; intuition congruence. Qed.

Lemma update_wire_keys_In u k :
  In k (update_wire_keys u) <->
  k = 0%N
  \/ (exists i, nth_error (scalars u) i = Some true /\ k = (1 + N.of_nat i)%N)
  \/ (exists i c, nth_error (changes u) i = Some c /\ change_bool c = true /\ k = (8 + N.of_nat i)%N)
  \/ (k = 14%N /\ nflags u <> O) \/ (k = 15%N /\ has_comment u = true)
  \/ (k = 16%N /\ has_pkglist u = true) \/ (k = 17%N /\ has_rtr u = true).
Proof.
  unfold update_wire_keys. cbn [keys_from N.succ Pos.succ]. rewrite app_nil_r.
  rewrite !in_app_iff, keys_from_In, keys_from_map_In, In_single, !In_if_single.
  assert (F : match nflags u with O => false | S _ => true end = true <-> nflags u <> O)
    by (destruct (nflags u); split; congruence).
  rewrite F. reflexivity.
Qed.

(* non-vacuity: the hypotheses are met by concrete non-trivial values, and both outcomes occur *)
Example ex_set_then_add :
  let a := {| add := []; remove := []; replace := Some [1;2]%N |} in
  let b := {| add := [3]%N; remove := [1]%N; replace := None |} in
  valid a = true /\ valid b = true /\
  or_ a b = Some {| add := []; remove := []; replace := Some [2;3]%N |}.
Proof. vm_compute. repeat split. Qed.

Example ex_refused :
  let a := {| add := [1]%N; remove := []; replace := None |} in
  let b := {| add := []; remove := [1]%N; replace := None |} in
  valid a = true /\ valid b = true /\ or_ a b = None.
Proof. vm_compute. repeat split. Qed.
