(* Grammar_C03.v — what the model of atom.__init__ accepts: only the features of the EAPI, and
   (soundness, outside the recorded classes) only what the PMS grammar recogniser accepts, stage by
   stage: USE block, repo, slot, blocker, operator, cpv. *)
From Coq Require Import List ZArith Bool Lia.
Import ListNotations.
From Verif Require Import Base.Val gen.Tables_C03 C03.Model_C03 C03.Spec_C03
  C03.Proofs_C03 C03.Version_C03 C03.UseDep_C03.
Local Open Scope N_scope.

Definition no_upper (v : str) : bool := forallb (fun c => negb (s_upper c)) v.

Lemma hyphen_cuts_in p q : In (p, q) (hyphen_cuts (p ++ 45 :: q)).
Proof.
  induction p as [|x p IH]; cbn [app hyphen_cuts].
  - rewrite N.eqb_refl. now left.
  - apply in_or_app. right. apply in_map_iff. exists (p, q). split; [reflexivity | exact IH].
Qed.

Lemma hyphen_cuts_spec s p q : In (p, q) (hyphen_cuts s) -> s = p ++ 45 :: q.
Proof.
  revert p; induction s as [|x t IH]; intros p; cbn [hyphen_cuts]; [intros []|].
  intros H. apply in_app_or in H as [H|H].
  - destruct (N.eqb_spec x 45) as [->|]; [|destruct H]. destruct H as [H|[]]. now injection H as <- <-.
  - apply in_map_iff in H as ([p' q'] & E & Hin). cbn [fst snd] in E. injection E as <- <-.
    now rewrite (IH _ Hin).
Qed.

Lemma pkg_chunk_chars ch : ~ In c_nl ch -> pkg_chunk_ok ch = true -> forallb s_pkg_char ch = true.
Proof.
  intros Hn. unfold pkg_chunk_ok, m_pkg_chunk_re, re_plus. rewrite (strip_nl_id _ Hn).
  destruct ch as [|x t]; [reflexivity|]. cbn [is_nil orb]. unfold all_in. intros H.
  apply forallb_forall. intros y Hy. rewrite forallb_forall in H. specialize (H _ Hy).
  rewrite cls_pkg in H. now apply andb_true_iff in H as [H _].
Qed.

Lemma rev_is_pms r : isvalid_rev r = pms_revision r.
Proof.
  unfold isvalid_rev, pms_revision, digits1, nonempty. destruct r as [|c t]; [reflexivity|].
  change c_r with 114. destruct (c =? 114); [|reflexivity]. cbn [andb]. destruct t; reflexivity.
Qed.

Lemma pkg_name_sound name :
  ~ In c_nl name -> valid_pkg_name (split_on c_dash name) = true -> pms_pkg_name name = true.
Proof.
  intros Hn H. apply pkg_name_boundary_proof in H as ((x & t & Hname & Hxd & Hxp) & Hall & Hnv & Hnr).
  unfold pms_pkg_name. apply andb_true_iff. split; [apply andb_true_iff; split|].
  - apply forallb_forall. intros y Hy. rewrite <- (join_split_on c_dash name) in Hy.
    apply in_join in Hy as [->|(ch & Hch & Hy)]; [reflexivity|].
    rewrite forallb_forall in Hall. specialize (Hall _ Hch).
    assert (Hnc : ~ In c_nl ch) by (intros Hin; apply Hn; exact (split_on_chars _ _ _ _ Hch Hin)).
    pose proof (pkg_chunk_chars _ Hnc Hall) as Hc. rewrite forallb_forall in Hc. now apply Hc.
  - rewrite Hname. unfold first_not. cbn [existsb]. rewrite orb_false_r.
    apply negb_true_iff, orb_false_iff. split; apply N.eqb_neq; assumption.
  - apply negb_true_iff. destruct (existsb _ _) eqn:E; [|reflexivity]. exfalso.
    apply existsb_exists in E as ([p suf] & Hin & Hv). cbn [snd] in Hv.
    apply hyphen_cuts_spec in Hin. unfold pms_version_rev in Hv.
    change 45 with c_dash in *.
    destruct (split_first c_dash suf) as [[v r]|] eqn:Es.
    + apply split_first_spec in Es as [-> _]. apply andb_true_iff in Hv as [Hv Hr].
      apply Hnr. exists p, v, r. split; [exact Hin|]. split; [now apply pms_version_m | now rewrite rev_is_pms].
    + apply Hnv. exists p, suf. split; [exact Hin | now apply pms_version_m].
Qed.

Definition cpv_shape (vd : bool) (s : str) (c : cpv_rec) : Prop :=
  exists cat pkgver,
    s = cat ++ c_slash :: pkgver /\ ~ In c_slash pkgver /\ m_category cat = true /\
    if vd then
      exists name v, valid_pkg_name (split_on c_dash name) = true /\ m_version v = true /\ c_ver c = Some v
                     /\ ((pkgver = name ++ c_dash :: v /\ c_rev c = Some [])
                         \/ (exists r, pkgver = name ++ c_dash :: v ++ c_dash :: r /\ isvalid_rev r = true
                                       /\ nonempty_opt (c_rev c) = true))
    else valid_pkg_name (split_on c_dash pkgver) = true.

Lemma cpv_structure vd s c : parse_cpv vd s = Some c -> cpv_shape vd s c.
Proof.
  unfold parse_cpv. destruct (split_last c_slash s) as [[cat pkgver]|] eqn:Esl; [|discriminate].
  apply split_last_spec in Esl as [-> Hsl].
  destruct (m_category cat) eqn:Ec; cbn [negb]; [|discriminate].
  pose proof (join_split_on c_dash pkgver) as Hj.
  assert (Hnosep : forall x, In x (split_on c_dash pkgver) -> ~ In c_dash x) by (intros x; apply split_on_no_sep).
  destruct vd.
  - destruct (split_on c_dash pkgver) as [|c0 [|c1 rest]] eqn:Ech; [discriminate | discriminate|].
    set (chunks := c0 :: c1 :: rest) in *.
    destruct (join_last c_dash chunks) as (Hrl & Hlen & Hj1); [unfold chunks; cbn; lia|].
    assert (Hpv : pkgver = join c_dash (removelast chunks) ++ c_dash :: last chunks [])
      by (rewrite <- Hj; exact Hj1).
    assert (Hpk : forall pk, pk <> [] -> (forall x, In x pk -> In x chunks) ->
                             valid_pkg_name pk = true -> valid_pkg_name (split_on c_dash (join c_dash pk)) = true).
    { intros pk Hne Hsub Hv. rewrite split_on_join; [exact Hv | exact Hne|].
      intros x Hx. apply Hnosep, Hsub, Hx. }
    destruct (isvalid_rev (last chunks [])) eqn:Er.
    + destruct (length chunks <? 3)%nat eqn:El; [discriminate|]. apply Nat.ltb_ge in El.
      set (rc := removelast chunks) in *.
      destruct (m_version (last rc [])) eqn:Ev; cbn [negb]; [|discriminate].
      destruct (valid_pkg_name (removelast rc)) eqn:Ep; [|discriminate].
      intros H; injection H as <-.
      destruct (join_last c_dash rc) as (Hrl2 & _ & Hj2); [lia|].
      exists cat, pkgver. split; [reflexivity|]. split; [exact Hsl|]. split; [exact Ec|].
      exists (join c_dash (removelast rc)), (last rc []). split; [|split; [exact Ev | split; [reflexivity|]]].
      * apply Hpk; [exact Hrl2 | | exact Ep].
        intros x Hx. apply in_removelast. fold rc. now apply in_removelast.
      * right. exists (last chunks []). split; [|split; [exact Er|]].
        -- rewrite Hpv, Hj2. now rewrite <- app_assoc.
        -- change (nonempty_opt (Some (tl (last chunks []))) = true).
           unfold isvalid_rev in Er. destruct (last chunks []) as [|x t]; [discriminate|].
           cbn [tl]. destruct t; [|reflexivity]. cbn in Er. now rewrite andb_false_r in Er.
    + destruct (m_version (last chunks [])) eqn:Ev; cbn [negb]; [|discriminate].
      destruct (valid_pkg_name (removelast chunks)) eqn:Ep; [|discriminate].
      intros H; injection H as <-.
      exists cat, pkgver. split; [reflexivity|]. split; [exact Hsl|]. split; [exact Ec|].
      exists (join c_dash (removelast chunks)), (last chunks []).
      split; [|split; [exact Ev | split; [reflexivity|]]].
      * apply Hpk; [exact Hrl | | exact Ep]. intros x Hx. now apply in_removelast.
      * left. split; [exact Hpv | reflexivity].
  - destruct (valid_pkg_name (split_on c_dash pkgver)) eqn:Ep; [|discriminate].
    intros _. exists cat, pkgver. split; [reflexivity|]. split; [exact Hsl|]. split; [exact Ec | exact Ep].
Qed.

Lemma cat_sound cat : ~ In c_nl cat -> m_category cat = true -> pms_category cat = true /\ ~ In c_slash cat.
Proof.
  intros Hn H. rewrite (m_category_pms _ Hn) in H. split; [exact H|].
  unfold pms_category in H. apply andb_true_iff in H as [H _]. intros Hin.
  rewrite forallb_forall in H. now apply H in Hin.
Qed.

Lemma ver_char_cat x : ver_char x = true -> s_cat_char x = true.
Proof.
  unfold ver_char, s_cat_char, s_alnum. intros H.
  apply orb_true_iff in H as [H|H]; [apply orb_true_iff in H as [H|H]; [apply orb_true_iff in H as [H|H]|]|].
  - change (is_digit x) with (s_digit x) in H. now rewrite H.
  - apply existsb_exists in H as (y & [<-|[<-|[]]] & E); apply N.eqb_eq in E; now subst.
  - rewrite cls_ver_letter in H. apply orb_true_iff in H as [-> | ->]; now rewrite ?orb_true_r.
  - apply existsb_exists in H as (n & Hn & H). apply existsb_exists in H as (y & Hy & E).
    apply N.eqb_eq in E. subst y.
    assert (A : forallb (forallb s_cat_char) suffix_names = true) by reflexivity.
    rewrite forallb_forall in A. specialize (A _ Hn). rewrite forallb_forall in A. exact (A _ Hy).
Qed.

Lemma cpv_chars vd s c x :
  ~ In c_nl s -> parse_cpv vd s = Some c -> In x s -> s_cat_char x = true \/ x = c_slash.
Proof.
  intros Hn H Hin. apply cpv_structure in H as (cat & pkgver & -> & Hsl & Hc & Hshape).
  destruct (cat_sound cat (not_in_app_l _ _ _ Hn) Hc) as [Hcat _].
  assert (Hname : forall name, (forall y, In y name -> In y pkgver) ->
                    valid_pkg_name (split_on c_dash name) = true -> In x name -> s_cat_char x = true).
  { intros name Hsub Hv Hx. apply pkg_name_sound in Hv.
    - unfold pms_pkg_name in Hv. apply andb_true_iff in Hv as [Hv _]. apply andb_true_iff in Hv as [Hv _].
      rewrite forallb_forall in Hv. specialize (Hv _ Hx). unfold s_cat_char. unfold s_pkg_char in Hv.
      destruct (s_alnum x), (x =? 43), (x =? 95), (x =? 45); (discriminate || now rewrite ?orb_true_r).
    - intros Hi. apply Hn, in_or_app. right. right. now apply Hsub. }
  apply in_app_or in Hin as [Hin|[<-|Hin]]; [left | now right | left].
  - unfold pms_category in Hcat. apply andb_true_iff in Hcat as [Hcat _].
    rewrite forallb_forall in Hcat. now apply Hcat.
  - destruct vd; [|now apply (Hname pkgver)].
    destruct Hshape as (name & v & Hp & Hv & _ & Hs).
    assert (Hver : In x v -> s_cat_char x = true).
    { intros Hx. apply ver_char_cat. destruct (ver_char x) eqn:E; [reflexivity|]. exfalso.
      destruct (N.eqb_spec x c_nl) as [->|Hnl].
      - apply Hn, in_or_app. right. now right.
      - apply (m_version_foreign x v); [|exact Hv | exact Hx].
        unfold ver_foreign. rewrite E. now apply N.eqb_neq in Hnl as ->. }
    destruct Hs as [[-> _] | (r & -> & Hr & _)].
    + apply in_app_or in Hin as [Hin|[<-|Hin]]; [|reflexivity | now apply Hver].
      apply (Hname name); [intros y Hy; apply in_or_app; now left | exact Hp | exact Hin].
    + apply in_app_or in Hin as [Hin|[<-|Hin]]; [|reflexivity|].
      * apply (Hname name); [intros y Hy; apply in_or_app; now left | exact Hp | exact Hin].
      * apply in_app_or in Hin as [Hin|[<-|Hin]]; [now apply Hver | reflexivity|].
        destruct (isvalid_rev_chars _ _ Hr Hin) as [->|Hd]; [reflexivity|].
        unfold s_cat_char, s_alnum. change (is_digit x) with (s_digit x) in Hd. now rewrite Hd.
Qed.

Lemma parse_cpv_nonempty vd s c : parse_cpv vd s = Some c -> s <> [].
Proof. intros H ->. destruct vd; discriminate. Qed.

Lemma cpv_unversioned_sound s c :
  ~ In c_nl s -> parse_cpv false s = Some c -> pms_unversioned s = true.
Proof.
  intros Hn H. apply cpv_structure in H as (cat & pkgver & -> & Hsl & Hc & Hp).
  destruct (cat_sound cat (not_in_app_l _ _ _ Hn) Hc) as [Hcat Hcs].
  unfold pms_unversioned. change 47 with c_slash. rewrite (split_first_app _ _ _ Hcs), Hcat. cbn [andb].
  apply pkg_name_sound; [|exact Hp]. intros Hin. apply Hn, in_or_app. right. now right.
Qed.

Lemma cpv_versioned_sound s c :
  ~ In c_nl s -> parse_cpv true s = Some c ->
  (forall v, c_ver c = Some v -> no_upper v = true) ->
  pms_versioned true s = true /\ (nonempty_opt (c_rev c) = false -> pms_versioned false s = true).
Proof.
  intros Hn H Hup. apply cpv_structure in H as (cat & pkgver & -> & Hsl & Hc & name & v & Hp & Hv & Ever & Hshape).
  destruct (cat_sound cat (not_in_app_l _ _ _ Hn) Hc) as [Hcat Hcs].
  assert (Hnp : ~ In c_nl pkgver) by (intros Hin; apply Hn, in_or_app; right; now right).
  unfold pms_versioned. change 47 with c_slash. rewrite (split_first_app _ _ _ Hcs), Hcat. cbn [andb].
  specialize (Hup _ Ever).
  assert (Hvd : ~ In c_dash v) by now apply m_version_no_dash.
  destruct Hshape as [[-> Erev] | (r & -> & Hr & Erev)].
  - assert (Hnn : ~ In c_nl name) by exact (not_in_app_l _ _ _ Hnp).
    assert (Hnv : ~ In c_nl v) by (intros Hin; apply Hnp, in_or_app; right; now right).
    assert (Hpv : pms_version_rev v = true).
    { unfold pms_version_rev. change 45 with c_dash.
      rewrite (proj2 (split_first_none c_dash v) Hvd).
      now rewrite <- (m_version_pms v Hnv Hup). }
    assert (Hhr : has_revision v = false).
    { unfold has_revision. change 45 with c_dash. now rewrite (proj2 (split_first_none c_dash v) Hvd). }
    assert (Hw : forall b, existsb (fun pq => pms_pkg_name (fst pq) && pms_version_rev (snd pq)
                                             && (b || negb (has_revision (snd pq))))
                                  (hyphen_cuts (name ++ c_dash :: v)) = true).
    { intros b. apply existsb_exists. exists (name, v). split; [apply hyphen_cuts_in|].
      cbn [fst snd]. rewrite (pkg_name_sound _ Hnn Hp), Hpv, Hhr. cbn. now rewrite orb_true_r. }
    split; [apply Hw | intros _; apply Hw].
  - assert (Hnn : ~ In c_nl name) by exact (not_in_app_l _ _ _ Hnp).
    assert (Hnv : ~ In c_nl v).
    { intros Hin. apply Hnp, in_or_app. right. right. apply in_or_app. now left. }
    split; [|rewrite Erev; discriminate].
    apply existsb_exists. exists (name, v ++ c_dash :: r). split; [apply hyphen_cuts_in|].
    cbn [fst snd]. rewrite (pkg_name_sound _ Hnn Hp). cbn [andb orb]. rewrite andb_true_r.
    unfold pms_version_rev. change 45 with c_dash. rewrite (split_first_app _ _ _ Hvd).
    rewrite <- (m_version_pms v Hnv Hup), Hv. cbn [andb]. now rewrite <- rev_is_pms.
Qed.

Lemma features_sub_slot e f : features_of e = Some f -> f_subslot f = true -> f_slot f = true.
Proof.
  destruct e as [n|]; cbn [features_of].
  - destruct (n <=? pms_newest_eapi); [|discriminate]. intros H; injection H as <-. cbn.
    intros H. apply N.leb_le in H. apply N.leb_le. lia.
  - intros H; injection H as <-. reflexivity.
Qed.

Lemma chunk_sound c : slot_chunk_ok c = true -> hd 0 c <> c_plus -> pms_slot_name c = true.
Proof.
  intros H Hp. rewrite slot_chunk_pms in H.
  apply orb_true_iff in H as [H|H]; [exact H|]. destruct c as [|x t]; [discriminate|].
  apply andb_true_iff in H as [H _]. apply N.eqb_eq in H. cbn in Hp. congruence.
Qed.

Lemma slot_strip_eq_split s : s <> [] -> slot_strip_eq s = snd (slot_op_split s).
Proof.
  intros Hne. unfold slot_strip_eq, slot_op_split.
  destruct (lastc s) as [l|] eqn:El; [|destruct s; [congruence | discriminate]].
  apply lastc_some in El. rewrite El at 1. rewrite rev_app_distr. cbn [rev app].
  change 61 with c_eq. destruct (l =? c_eq); [cbn [snd]; now rewrite rev_involutive | reflexivity].
Qed.

(* a slot / sub-slot name outside the class in which the code is laxer than PMS 3.1.3: no leading "+" *)
Definition clean_slot (o : option str) : Prop := forall x, o = Some x -> hd 0 x <> c_plus.

Lemma slot_body_sound g f slot ro p :
  slot_body g slot ro = Some p ->
  g_sub_slotting g = f_subslot f -> g_slot_deps g = f_slot f -> (f_subslot f = true -> f_slot f = true) ->
  clean_slot (sp_slot p) -> clean_slot (sp_sub p) ->
  pms_slot_spec f slot = true.
Proof.
  unfold slot_body. destruct slot as [|c t]; [discriminate|]. intros H G5 G1 Hss.
  unfold pms_slot_spec. rewrite <- G5, <- G1. rewrite <- G5, <- G1 in Hss.
  destruct (g_sub_slotting g).
  - rewrite (Hss eq_refl). cbn [andb].
    destruct ((c =? c_star) || (c =? c_eq)) eqn:E.
    + destruct t; cbn [is_nil negb] in H; [|discriminate]. intros _ _.
      apply orb_true_iff. right. apply orb_true_iff. left.
      apply orb_true_iff in E as [E|E]; apply N.eqb_eq in E; subst c; reflexivity.
    + rewrite (slot_strip_eq_split (c :: t)) by discriminate.
      revert H. set (so := slot_op_split (c :: t)). change 47 with c_slash.
      destruct (split_first c_slash (snd so)) as [[a b]|] eqn:Es.
      * destruct (slot_chunk_ok a) eqn:Ha; [|discriminate]. destruct (slot_chunk_ok b) eqn:Hb; [|discriminate].
        cbn [andb]. intros H; injection H as <-. cbn [sp_slot sp_sub]. intros C1 C2.
        rewrite (chunk_sound _ Ha (C1 _ eq_refl)), (chunk_sound _ Hb (C2 _ eq_refl)).
        cbn [andb]. now rewrite !orb_true_r.
      * destruct (slot_chunk_ok (snd so)) eqn:Ha; [|discriminate].
        intros H; injection H as <-. cbn [sp_slot sp_sub]. intros C1 _.
        rewrite (chunk_sound _ Ha (C1 _ eq_refl)). now rewrite !orb_true_r.
  - destruct (g_slot_deps g); cbn [negb] in H; [|discriminate].
    destruct (slot_chunk_ok (c :: t)) eqn:Ha; [|discriminate].
    injection H as <-. cbn [sp_slot sp_sub]. intros C1 _.
    now rewrite (chunk_sound _ Ha (C1 _ eq_refl)).
Qed.

(* what the grammar asks of the text behind the operator [op]: no operator, no version; "~", no revision *)
Definition pms_cpv (op cpv : str) : bool :=
  if is_nil op then pms_unversioned cpv else pms_versioned (negb (str_eqb op [c_tilde])) cpv.

(* the grammar and the code cut the operator off at the same place, whatever follows it *)
Lemma op_cut_eq b st a2 :
  pms_op_cpv a2
  = match stage_op b st a2 with R3 _ _ op cpv => pms_cpv op cpv | R3Malformed => false end.
Proof.
  unfold stage_op, pms_op_cpv. destruct a2 as [|d t2]; [reflexivity|].
  change 60 with c_lt. change 62 with c_gt. change 126 with c_tilde. change 61 with c_eq. change 42 with c_star.
  destruct ((d =? c_lt) || (d =? c_gt)) eqn:Elg.
  { apply orb_true_iff in Elg as [E|E]; apply N.eqb_eq in E; subst d;
      (destruct t2 as [|e t3]; [reflexivity|]); destruct (e =? c_eq); reflexivity. }
  destruct (N.eqb_spec d c_tilde) as [->|Htl]; [reflexivity|].
  destruct (N.eqb_spec d c_eq) as [->|Heq]; [|reflexivity].
  destruct t2 as [|y t']; [reflexivity|]. set (r := y :: t').
  assert (Erev : rev r = last r 0 :: rev (removelast r)).
  { rewrite (app_removelast_last 0 (l := r)) at 1 by discriminate. apply rev_unit. }
  change (lastc (c_eq :: r)) with (Some (last r 0)). rewrite Erev.
  destruct (last r 0 =? c_star); [now rewrite rev_involutive | reflexivity].
Qed.

Lemma prefix_cut_eq g f l :
  g_strong_blockers g = f_strong f ->
  pms_blocker_rest f l
  = match stage_prefix g l with R3 _ _ op cpv => pms_cpv op cpv | R3Malformed => false end.
Proof.
  intros G3. unfold stage_prefix, pms_blocker_rest. destruct l as [|c t]; [reflexivity|].
  change 33 with c_bang.
  destruct (N.eqb_spec c c_bang) as [->|Hb]; cbn [andb]; [|apply op_cut_eq].
  destruct t as [|d t']; [reflexivity|].
  destruct (N.eqb_spec d c_bang) as [->|Hd]; cbn [andb tl]; [|apply op_cut_eq].
  rewrite <- G3. destruct (g_strong_blockers g); cbn [negb andb]; [apply op_cut_eq | reflexivity].
Qed.

Lemma cpv_sound op cpv c :
  parse_cpv (negb (is_nil op)) cpv = Some c ->
  str_eqb op [c_tilde] && nonempty_opt (c_rev c) = false ->
  ~ In c_nl cpv -> (forall v, c_ver c = Some v -> no_upper v = true) ->
  pms_cpv op cpv = true.
Proof.
  unfold pms_cpv. destruct (is_nil op); cbn [negb]; intros Hp Ht Hn Hup.
  - exact (cpv_unversioned_sound _ _ Hn Hp).
  - destruct (cpv_versioned_sound _ _ Hn Hp Hup) as [H1 H2].
    destruct (str_eqb op [c_tilde]); [exact (H2 Ht) | exact H1].
Qed.

Lemma in_p_head b st op cpv x : In x cpv -> In x (p_head b st op cpv).
Proof.
  intros H. unfold p_head. apply in_or_app. right.
  destruct (str_eqb op [c_eq; c_star]); [right; apply in_or_app; now left | apply in_or_app; now right].
Qed.

Lemma p_head_last b st op cpv : cpv <> [] ->
  exists z w, p_head b st op cpv = z ++ [w] /\ (In w cpv \/ w = c_star).
Proof.
  intros Hne. unfold p_head. rewrite (app_removelast_last 0 Hne).
  destruct (str_eqb op [c_eq; c_star]).
  - eexists _, c_star. split; [|now right].
    rewrite app_comm_cons, app_assoc. reflexivity.
  - eexists _, (last cpv 0). split.
    + rewrite !app_assoc. reflexivity.
    + left. rewrite <- (app_removelast_last 0 Hne). apply last_in. exact Hne.
Qed.

(* the accepted record is outside the recorded classes: no upper-case letter in the version, no slot or
   sub-slot name beginning with "+" *)
Record clean_atom (a : atom_rec) : Prop := {
  cl_ver : forall v, a_ver a = Some v -> no_upper v = true;
  cl_slot : clean_slot (a_slot a);
  cl_sub : clean_slot (a_subslot a) }.

(* the grammar's cuts, seen from the first ":" — where the code cuts *)
Lemma spec_tail_nocolon f s : ~ In c_colon s -> spec_tail f s = pms_blocker_rest f s.
Proof.
  intros Hn. unfold spec_tail. change 58 with c_colon. rewrite (split_dcolon_none _ Hn).
  now destruct (f_repo f); cbn [fst snd]; rewrite (proj2 (split_first_none c_colon s) Hn).
Qed.

Lemma spec_tail_colon f l r :
  ~ In c_colon l ->
  spec_tail f (l ++ c_colon :: r)
  = (match split_dcolon (c_colon :: r) with
     | Some (a0, rep) =>
         if f_repo f then pms_repo_name rep && match a0 with [] => true | _ :: sl => pms_slot_spec f sl end
         else pms_slot_spec f r
     | None => pms_slot_spec f r
     end) && pms_blocker_rest f l.
Proof.
  intros Hl. unfold spec_tail. change 58 with c_colon. rewrite (split_dcolon_app l (c_colon :: r) Hl).
  destruct (split_dcolon (c_colon :: r)) as [[a0 rep]|] eqn:Ed; destruct (f_repo f); cbn [fst snd];
    try (now rewrite (split_first_app _ _ _ Hl)).
  destruct a0 as [|x sl].
  - rewrite app_nil_r, (proj2 (split_first_none c_colon l) Hl). reflexivity.
  - apply split_dcolon_spec in Ed. injection Ed as <- _. now rewrite (split_first_app _ _ _ Hl).
Qed.

Lemma tail_sound e n g f body use colon a :
  features_of e = Some f -> gates_feat g f -> f_repo f = negb (is_some e) ->
  parse_rest e n g (body, use, colon) = Ok a ->
  ~ In c_nl body ->
  match colon with
  | Some (l, r) => body = l ++ c_colon :: r /\ ~ In c_colon l
  | None => ~ In c_colon (removelast body)
  end ->
  clean_atom a ->
  spec_tail f body = true.
Proof.
  intros Hf (G1 & G2 & G3 & G4 & G5) Hrepo Hr Hnl Hcol [Cv Cs Cb].
  apply parse_rest_inv in Hr as (lft & p & b & st & op & cpv & c & (Hsp & Ep & E1 & E2 & E3 & Ec & Et) & ->).
  cbn [atom_of a_ver a_slot a_subslot] in Cv, Cs, Cb.
  pose proof (proj1 (stage_prefix_print _ _ _ _ _ _ Ep)) as Hleft.
  assert (Hsub : forall x, In x lft -> In x body).
  { destruct colon as [[l r]|]; destruct Hsp as [-> _]; [|auto].
    destruct Hcol as [-> _]. intros x Hx. apply in_or_app. now left. }
  assert (Hncpv : ~ In c_nl cpv).
  { intros Hin. apply Hnl, Hsub. rewrite Hleft. now apply in_p_head. }
  assert (Hbl : pms_blocker_rest f lft = true).
  { rewrite (prefix_cut_eq g f lft G3), Ep. exact (cpv_sound _ _ _ Ec Et Hncpv Cv). }
  destruct colon as [[l r]|]; destruct Hsp as [-> Hp].
  - destruct Hcol as [-> Hl]. rewrite (spec_tail_colon f l r Hl), Hbl, andb_true_r.
    assert (Hsl : forall slot ro, slot_body g slot ro = Some p -> pms_slot_spec f slot = true).
    { intros slot ro Hb. apply (slot_body_sound g f slot ro p Hb G5 G1 (features_sub_slot _ _ Hf) Cs Cb). }
    (* the spec looks for "::" where the code did *)
    unfold stage_slot in Hp.
    destruct (split_dcolon (c_colon :: r)) as [[a0 rep]|] eqn:Ed; cbn [fst snd] in Hp.
    + destruct (repo_ok (Some rep)) eqn:Er; cbn [negb] in Hp; [|discriminate].
      assert (Hrp : sp_repo p = Some rep).
      { destruct (tl a0) as [|x0 t0]; [injection Hp as <-; reflexivity|].
        exact (proj2 (slot_body_print _ _ _ _ Hp)). }
      rewrite Hrp in E3. cbn [is_some] in E3. rewrite andb_true_r in E3.
      rewrite Hrepo, E3, <- (repo_ok_pms rep), Er. cbn [negb andb].
      destruct a0 as [|x0 [|c0 t0]]; [reflexivity | | exact (Hsl _ _ Hp)].
      (* ":::" : the first "::" is at the very beginning *)
      apply split_dcolon_spec in Ed as Es. injection Es as _ ->. discriminate Ed.
    + cbn [repo_ok negb tl] in Hp. destruct r as [|c0 t0]; [discriminate | exact (Hsl _ _ Hp)].
  - (* no ":" at all *)
    rewrite spec_tail_nocolon; [exact Hbl|].
    destruct (p_head_last b st op cpv (parse_cpv_nonempty _ _ _ Ec)) as (z & w & Hz & Hw).
    rewrite <- Hleft in Hz. rewrite Hz in Hcol |- *. rewrite removelast_last in Hcol.
    intros Hin. apply in_app_or in Hin as [Hin|[Hin|[]]]; [exact (Hcol Hin)|].
    subst w. destruct Hw as [Hw|Hw]; [|discriminate].
    now destruct (cpv_chars _ _ _ _ Hncpv Ec Hw).
Qed.

Lemma stage_prefix_strong g l b op cpv :
  stage_prefix g l = R3 b true op cpv -> g_strong_blockers g = true.
Proof.
  unfold stage_prefix. destruct l as [|c t]; [discriminate|].
  set (strong := (c =? c_bang) && _).
  destruct strong eqn:Es.
  - destruct (g_strong_blockers g); [reflexivity | discriminate].
  - cbn [andb]. intros H. apply stage_op_print in H as (_ & H & _). discriminate.
Qed.

Lemma slot_body_sub g slot ro p :
  slot_body g slot ro = Some p ->
  is_some (sp_sub p) || is_some (sp_op p) = true -> g_sub_slotting g = true.
Proof.
  unfold slot_body. destruct slot as [|c t]; [discriminate|].
  destruct (g_sub_slotting g); [reflexivity|].
  destruct (g_slot_deps g); cbn [negb]; [|discriminate].
  destruct (slot_chunk_ok (c :: t)); [|discriminate].
  intros H; injection H as <-. cbn. discriminate.
Qed.

Lemma valid_use_dep_no_default x : valid_use_dep false x = true -> ~ In c_rpar x.
Proof.
  intros H Hin. destruct (shape_chars _ _ _ _ (model_shape _ _ H) Hin) as [(name & Hf & Hn)|[Hc|[Hd _]]].
  - now destruct (m_use_flag_chars _ _ Hf Hn).
  - cbn in Hc. intuition discriminate.
  - discriminate.
Qed.

Lemma accepted_gated e n s a :
  parse_atom e n s = Ok a ->
  exists g, gates_of e = Some g
    /\ (a_strong a = true -> g_strong_blockers g = true)
    /\ (is_some (a_slot a) = true -> g_slot_deps g = true)
    /\ (is_some (a_subslot a) || is_some (a_slotop a) = true -> g_sub_slotting g = true)
    /\ (is_some (a_use a) = true -> g_use_deps g = true)
    /\ (forall u x, a_use a = Some u -> In x u -> In c_rpar x -> g_use_defaults g = true)
    /\ (is_some (a_repo a) = true -> e = None).
Proof.
  intros H. apply parse_atom_inv in H as (_ & g & body & use & colon & Eg & Eu & Hr).
  apply parse_rest_inv in Hr as (lft & p & b & st & op & cpv & c & (Hsp & Ep & E1 & E2 & E3 & _) & ->).
  exists g. split; [exact Eg|]. cbn [atom_of a_strong a_slot a_subslot a_slotop a_use a_repo]. repeat split.
  - intros ->. exact (stage_prefix_strong _ _ _ _ _ Ep).
  - intros Hs. rewrite Hs in E1. now destruct (g_slot_deps g).
  - intros Hs. destruct colon as [[l r]|]; destruct Hsp as [_ Hp]; [|subst p; discriminate].
    apply stage_slot_inv in Hp as [(r' & _ & _ & _ & ->)|(slot & ro & _ & _ & Hp & _)]; [discriminate|].
    exact (slot_body_sub _ _ _ _ Hp Hs).
  - intros Hs. rewrite Hs in E2. now destruct (g_use_deps g).
  - intros u x -> Hx Hr. destruct (g_use_defaults g) eqn:Ed; [reflexivity|]. exfalso.
    apply stage_use_inv in Eu as [(u' & _ & _ & _ & Eu & Ev & _)|(_ & _ & Eu & _)]; [|discriminate].
    injection Eu as ->. rewrite forallb_forall in Ev. specialize (Ev _ Hx). rewrite Ed in Ev.
    exact (valid_use_dep_no_default _ Ev Hr).
  - intros Hs. rewrite Hs, andb_true_r in E3. now destruct e.
Qed.

(* SOUNDNESS, for gates and features that agree: whatever passes the stages of atom.__init__ is a PMS
   atom — provided the text has no newline, the version carries no upper-case letter and no slot /
   sub-slot name begins with "+" (the three recorded classes; non-ASCII digits are outside the model). *)
Lemma stages_sound e n g f s body use colon a :
  features_of e = Some f -> gates_feat g f -> f_repo f = negb (is_some e) ->
  s <> [] -> stage_use g s = Some (body, use, colon) -> parse_rest e n g (body, use, colon) = Ok a ->
  ~ In c_nl s -> clean_atom a -> pms_atom_feat f s = true.
Proof.
  intros Hf G Hrepo Hne Eu Hr Hnl Hcl. unfold pms_atom_feat.
  apply stage_use_inv in Eu as [(u & -> & Hpre & Hu & -> & Ev & ->)|(E1 & -> & -> & ->)].
  - rename body into pre.
    assert (Hnpre : ~ In c_nl pre) by exact (not_in_app_l _ _ _ Hnl).
    assert (Hnu : ~ In c_nl u).
    { intros Hin. apply Hnl, in_or_app. right. right. apply in_or_app. now left. }
    destruct G as (G1 & G2 & G3 & G4 & G5).
    assert (Hall : forallb (pms_use_dep (f_defaults f)) (split_on c_comma u) = true)
      by (rewrite <- (use_block_agree _ _ Hnu), <- G4; exact Ev).
    assert (Hulbr : ~ In c_lbr (u ++ [c_rbr])).
    { intros Hin. apply in_app_or in Hin as [Hin|[Hin|[]]]; [|discriminate].
      exact (use_block_chars _ _ _ (or_introl eq_refl) Hall Hin). }
    unfold use_split. change 91 with c_lbr. change 93 with c_rbr. change 44 with c_comma.
    rewrite (split_last_app _ _ _ Hulbr). rewrite rev_app_distr. cbn [rev app]. rewrite N.eqb_refl.
    cbn [fst snd]. rewrite rev_involutive.
    pose proof Hr as Hr'.
    apply parse_rest_inv in Hr' as (_ & _ & _ & _ & _ & _ & _ & (_ & _ & _ & EU & _) & _).
    cbn [is_some andb] in EU. apply negb_false_iff in EU. rewrite <- G2, EU. cbn [andb].
    rewrite Hall. cbn [andb].
    apply (tail_sound e n g f pre _ _ a Hf (conj G1 (conj G2 (conj G3 (conj G4 G5)))) Hrepo Hr Hnpre); [|exact Hcl].
    destruct (split_first c_colon pre) as [[l r]|] eqn:E3.
    + apply split_first_spec in E3 as [-> Hl]. auto.
    + intros Hin. apply (proj1 (split_first_none c_colon pre) E3). now apply in_removelast.
  - unfold use_split. change 91 with c_lbr.
    rewrite (proj2 (split_last_none _ _) E1). cbn [fst snd andb].
    apply (tail_sound e n g f s _ _ a Hf G Hrepo Hr Hnl); [|exact Hcl].
    destruct (split_first c_colon (removelast s)) as [[p q]|] eqn:E3.
    + apply split_first_spec in E3 as [E3 Hp]. split; [|exact Hp].
      rewrite (app_removelast_last 0 Hne) at 1. rewrite E3. now rewrite <- app_assoc.
    + exact (proj1 (split_first_none c_colon (removelast s)) E3).
Qed.

Lemma no_upper_sub (a b : str) : (forall x, In x a -> In x b) -> no_upper b = true -> no_upper a = true.
Proof.
  intros Hs Hb. unfold no_upper in *. apply forallb_forall. intros x Hx.
  rewrite forallb_forall in Hb. now apply Hb, Hs.
Qed.

(* the recorded class, on names: some "-"-chunk is a version for the code's regex but carries an
   upper-case letter *)
Definition upper_version_chunk (name : str) : bool :=
  existsb (fun ch => m_version ch && negb (no_upper ch)) (split_on c_dash name).

Lemma pkg_name_complete name :
  ~ In c_nl name -> upper_version_chunk name = false ->
  pms_pkg_name name = true -> valid_pkg_name (split_on c_dash name) = true.
Proof.
  intros Hn Hup H. unfold pms_pkg_name in H.
  apply andb_true_iff in H as [H Hcut]. apply andb_true_iff in H as [Hchars Hfirst].
  apply negb_true_iff in Hcut.
  assert (Hnocut : forall p suf, name = p ++ c_dash :: suf -> pms_version_rev suf = true -> False).
  { intros p suf E Hv. assert (Hex : existsb (fun pq => pms_version_rev (snd pq)) (hyphen_cuts name) = true).
    { apply existsb_exists. exists (p, suf). split; [rewrite E; apply hyphen_cuts_in | exact Hv]. }
    congruence. }
  assert (Hm2p : forall v, In v (split_on c_dash name) -> m_version v = true -> pms_version v = true).
  { intros v Hin Hv. rewrite <- (m_version_pms v); [exact Hv | |].
    - intros Hx. apply Hn. exact (split_on_chars _ _ _ _ Hin Hx).
    - unfold upper_version_chunk in Hup. destruct (no_upper v) eqn:Eu; [exact Eu|]. exfalso.
      assert (Hex : existsb (fun ch => m_version ch && negb (no_upper ch)) (split_on c_dash name) = true).
      { apply existsb_exists. exists v. split; [exact Hin | now rewrite Hv, Eu]. }
      congruence. }
  apply pkg_name_boundary_proof. repeat split.
  - unfold first_not in Hfirst. destruct name as [|x t]; [discriminate|]. exists x, t. split; [reflexivity|].
    cbn [existsb] in Hfirst. rewrite orb_false_r in Hfirst. apply negb_true_iff, orb_false_iff in Hfirst as [H1 H2].
    split; apply N.eqb_neq; assumption.
  - apply forallb_forall. intros ch Hch. unfold pkg_chunk_ok. destruct ch as [|x t] eqn:Ech; [reflexivity|].
    rewrite <- Ech in *. cbn [is_nil orb].
    assert (Hnc : ~ In c_nl ch) by (intros Hin; apply Hn; exact (split_on_chars _ _ _ _ Hch Hin)).
    unfold m_pkg_chunk_re, re_plus. rewrite (strip_nl_id _ Hnc).
    assert (Hall : all_in pkg_class ch = true).
    { apply forallb_forall. intros y Hy. rewrite cls_pkg. apply andb_true_iff. split.
      - rewrite forallb_forall in Hchars. apply Hchars. exact (split_on_chars _ _ _ _ Hch Hy).
      - apply negb_true_iff, N.eqb_neq. intros ->. exact (split_on_no_sep _ _ _ Hch Hy). }
    rewrite Ech in *. exact Hall.
  - intros (p & v & E & Hv). apply (Hnocut p v E).
    pose proof (m_version_no_dash _ Hv) as Hvd.
    assert (Hin : In v (split_on c_dash name)).
    { rewrite E, split_on_app, (split_on_nosep _ _ Hvd). apply in_or_app. right. now left. }
    unfold pms_version_rev. change 45 with c_dash.
    rewrite (proj2 (split_first_none c_dash v) Hvd). exact (Hm2p _ Hin Hv).
  - intros (p & v & r & E & Hv & Hr). apply (Hnocut p (v ++ c_dash :: r) E).
    pose proof (m_version_no_dash _ Hv) as Hvd. pose proof (isvalid_rev_no_dash _ Hr) as Hrd.
    assert (Hin : In v (split_on c_dash name)).
    { rewrite E, split_on_app. apply in_or_app. right.
      rewrite split_on_app, (split_on_nosep _ _ Hvd). now left. }
    unfold pms_version_rev. change 45 with c_dash.
    rewrite (split_first_app _ _ _ Hvd). rewrite (Hm2p _ Hin Hv). cbn [andb].
    now rewrite <- rev_is_pms.
Qed.
