(* Proofs_C24.v — what ContentsFile.flush writes, examples, and the witness of the recorded defect. *)
From Coq Require Import List ZArith.
Import ListNotations.
From Verif Require Import C18.Fs.
From Verif Require Import C24.Model_C24 C24.Spec_C24 C24.Atomic C24.Roundtrip.

Lemma utf8_app a b : utf8 (a ++ b) = utf8 a ++ utf8 b.
Proof. unfold utf8. now rewrite map_app, concat_app. Qed.
Lemma utf8_concat ls : utf8 (concat ls) = concat (map utf8 ls).
Proof. induction ls as [|l ls IH]; cbn [concat map]; [reflexivity|]. now rewrite utf8_app, IH. Qed.

Lemma contents_chunks_concat c d : concat (contents_chunks c d) = utf8 (write_contents d).
Proof.
  unfold contents_chunks, write_contents. rewrite utf8_concat, map_map.
  induction (sort_entries d) as [|e l IH]; cbn [map concat]; [reflexivity|].
  rewrite concat_app, chunked_concat. now rewrite IH.
Qed.

Lemma tmp_ne_contents : P_TMP <> P_CONTENTS.
Proof. discriminate. Qed.

(* non-vacuity: a directory with an old CONTENTS and a stale temporary satisfies the premise, and
   the flush of a two-entry set really runs to completion there *)
Example flush_example :
  let s := [(P_CONTENTS, File [1%N] 420%N 0%N 0%N 0%Z 1%N); (P_TMP, File [2%N] 384%N 0%N 0%N 0%Z 2%N)] in
  tmp_ok s P_TMP /\
  exists s', run_opt (flush_ops s 3 [EDir [47;97]%N; EFif [47;98]%N]) s = Some s' /\
             lookup s' P_TMP = None.
Proof.
  cbn zeta. split.
  - right. exists [2%N], 384%N, 0%N, 0%N, 0%Z, 2%N. split; [reflexivity|].
    intros q n Hq Hl. cbn in Hl. destruct (path_eq_dec q P_CONTENTS).
    + injection Hl as <-. cbn. discriminate.
    + destruct (path_eq_dec q P_TMP); [contradiction|discriminate].
  - eexists. split; [vm_compute; reflexivity|reflexivity].
Qed.

Theorem contents_roundtrip_exact_proof : forall d, uniq_locs d -> Forall WFpath d ->
  read_contents (write_contents d) = Ok (sort_entries d).
Proof. exact contents_roundtrip_exact. Qed.

Theorem contents_roundtrip_proof : contents_roundtrip_stmt.
Proof.
  intros d Hu Hw. exists (sort_entries d). split; [now apply contents_roundtrip_exact|apply sort_perm].
Qed.

Definition sym_witness : entry := ESym [47;97;32;45;62;32;98]%N [99]%N 7.       (* /a -> b  ->  c *)
Lemma sym_witness_read :
  parse_line (strip (write_line sym_witness)) = Ok (ESym [47;97]%N [98;32;45;62;32;99]%N 7).
Proof. vm_compute. reflexivity. Qed.

(* non-vacuity: the domain holds paths with embedded and doubled spaces, "->" fragments glued to
   other characters in the location and free-standing in the target, non-ASCII characters, an md5
   with leading zeros and a negative mtime; and the set really round-trips by computation *)
Example wf_examples :
  let d := [ EObj [47;97;32;98;47;99;32;32;100]%N 171 5;                  (* /a b/c  d *)
             ESym [47;120;45;62;121]%N [116;32;45;62;32;117]%N (-3);       (* /x->y -> "t -> u" *)
             EDir [47;233;47;26085]%N; EDev [47;100;32;101]%N; EFif [32;102]%N ] in
  Forall WFpath d /\ uniq_locs d /\ read_contents (write_contents d) = Ok (sort_entries d).
Proof.
  cbn zeta. split; [|split].
  - repeat constructor.
  - repeat constructor; cbn; intuition discriminate.
  - vm_compute. reflexivity.
Qed.
