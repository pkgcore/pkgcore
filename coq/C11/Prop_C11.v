From Coq Require Import List NArith Bool.
Import ListNotations.
From Verif Require Import C11.Model_C11 C11.Spec_C11 C11.Sem_C11 C11.Class_C11 C11.Proofs_C11.

(* rendering a chunk list (incremental_chunked) is the left fold of the statement's four rules *)
Theorem chunked_is_fold : forall items p pre,
  same_set (render_list items p pre) (apply_history items p pre).
Proof. intros items p pre f. rewrite render_effl, history_effl. reflexivity. Qed.
Print Assumptions chunked_is_fold.

(* PARTIAL (full statement: render_is_fold_full, refuted below): for EVERY tree of operations
   (add / merge / freeze / clone / optimize) that the implementation does not refuse, and every
   package outside the three finding classes, the rendered set is the left fold of the entries *)
Theorem render_is_fold_partial : forall pr d p pre,
  run pr = Some d -> wf_prog pr = true -> known_class pr p = false ->
  same_set (render d p pre) (apply_history (entries_of pr) p pre).
Proof.
  intros pr d p pre Hr Hwf Hk. destruct (outside_classes pr p Hwf Hk) as [A1 [A2 Hz]].
  apply (render_is_fold_when (entries_of pr)); auto using incl_refl.
Qed.
Print Assumptions render_is_fold_partial.

(* the full statement fails inside each finding class: one witness per class, each outside the two
   other classes, so that no class is redundant *)
Theorem render_is_fold_refuted_a :
  ~ render_is_fold_full /\ class_a pr_a (0, 1)%N = true /\ class_b pr_a (0, 1)%N = false /\ class_c pr_a (0, 1)%N = false.
Proof. split; [apply (witness_refutes pr_a 10); vm_compute; auto | vm_compute; auto]. Qed.
Print Assumptions render_is_fold_refuted_a.
Theorem render_is_fold_refuted_b :
  ~ render_is_fold_full /\ class_a pr_b (0, 1)%N = false /\ class_b pr_b (0, 1)%N = true /\ class_c pr_b (0, 1)%N = false.
Proof. split; [apply (witness_refutes pr_b 10); vm_compute; auto | vm_compute; auto]. Qed.
Print Assumptions render_is_fold_refuted_b.
Theorem render_is_fold_refuted_c :
  ~ render_is_fold_full /\ class_a pr_c (0, 1)%N = false /\ class_b pr_c (0, 1)%N = false /\ class_c pr_c (0, 1)%N = true.
Proof. split; [apply (witness_refutes pr_c 10); vm_compute; auto | vm_compute; auto]. Qed.
Print Assumptions render_is_fold_refuted_c.

(* PARTIAL: _build_cp_atom_payload keeps the fold for a package when the lockable chunks (global,
   simple atom) apply to it, the applicable chunks carry no wildcard negation and no flag both
   negated and added, and the applicable specific chunks never give one flag opposite signs *)
Theorem collapse_is_fold_partial : forall seq restrict p pre,
  (forall c, In c seq -> lockable c = true -> applies (sc c) p = true) ->
  (forall c, In c seq -> applies (sc c) p = true -> good c = true) ->
  (forall c1 c2 x, In c1 seq -> In c2 seq -> lockable c1 = false -> lockable c2 = false ->
     applies (sc c1) p = true -> applies (sc c2) p = true -> In x (neg c1) -> In x (pos c2) -> False) ->
  applies restrict p = true ->
  same_set (render_list (build seq restrict) p pre) (apply_history seq p pre).
Proof.
  intros seq r p pre H1 H2 H3 Hr f.
  rewrite render_effl, history_effl, build_effl; [tauto | split; assumption | exact H3 | exact Hr].
Qed.
Print Assumptions collapse_is_fold_partial.

(* the package.use line splitter: its output tokens, applied one by one, mean what the input
   line means token by token (with -* inside a USE_EXPAND section clearing that prefix) *)
Theorem splitter_is_fold : forall ts o s,
  forallb wf_tok ts = true -> split_line ts = Some o ->
  same_set (out_fold o s) (line_fold None ts s).
Proof. intros ts o s Hwf Hs. exact (plain_is_fold ts [] o s Hwf Hs). Qed.
Print Assumptions splitter_is_fold.

(* the splitter refuses a line exactly when it holds an invalid token *)
Theorem splitter_rejects : forall ts, split_line ts = None <-> In TBad ts.
Proof. intro ts. apply plain_rejects. Qed.
Print Assumptions splitter_rejects.

(* the narrower class (a) by which the harness classifies failing runs lies inside the excluded one *)
Theorem class_a_tight_sub : forall pr p, class_a_tight pr p = true -> class_a pr p = true.
Proof. intros pr p. apply class_a_tight_l_sub. Qed.
Print Assumptions class_a_tight_sub.

(* PARTIAL (full statement line_is_fold_full, refuted by `a -a`): outside class (e) the ONE chunk that
   domain.pkg_use makes of a package.use line means what the line says token by token *)
Theorem line_is_fold_partial : forall ts o s,
  forallb wf_tok ts = true -> split_line ts = Some o -> class_e ts = false ->
  same_set (apply_chunk (to_chunk o) s) (line_fold None ts s).
Proof.
  intros ts o s Hwf Hs He f. unfold class_e in He. rewrite Hs in He. apply negb_false_iff in He.
  rewrite (line_chunk_is_fold o s He f). apply splitter_is_fold; assumption.
Qed.
Print Assumptions line_is_fold_partial.
Theorem line_is_fold_refuted : ~ line_is_fold_full /\ class_e [TPos 10%N; TNeg 10%N] = true.
Proof.
  split; [|reflexivity]. intro H.
  specialize (H [TPos 10; TNeg 10] [OPos 10; ONeg 10] [] eq_refl eq_refl 10)%N.
  vm_compute in H. destruct H as [H _]. apply H. left. reflexivity.
Qed.
Print Assumptions line_is_fold_refuted.
