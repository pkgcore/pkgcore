From Coq Require Import List Lia Permutation.
Import ListNotations.
From Verif Require Import C41.Lts C41.Model_C41 C41.Spec_C41 C41.Proofs_C41.

(* invariant, every interleaving: processed ⊎ in-flight ⊎ queued ⊎ not-yet-put = items *)
Theorem conservation : forall c s, reachable c s ->
  Permutation (processed s ++ inflight (ws s) ++ qitems (q s) ++ unput c (pc s)) (items c).
Proof.
  intros c s R. apply Inv_reachable in R. apply sumf_perm. intro g.
  rewrite !sumf_app, sumf_inflight, sumf_qitems. pose proof (i_cons _ _ R g). lia.
Qed.
Print Assumptions conservation.

(* every item is handed to the functor exactly once, whenever map_async returns — provided fewer
   items make the functor raise than there are workers, or there are no items *)
Theorem exactly_once : forall c s, reachable c s -> returned c s ->
  (ndie c (items c) < parallelism c \/ items c = []) ->
  Permutation (processed s) (items c).
Proof. intros c s R T PA. apply sumf_perm. apply (returned_facts c s R T PA). Qed.
Print Assumptions exactly_once.

Theorem results_complete : forall c s, reachable c s -> returned c s ->
  (ndie c (items c) < parallelism c \/ items c = []) ->
  match mode c with
  | Gen => Permutation (results s) (map RY (flat_map (ys_of c) (items c)))
  | RetList =>
      ndie c (items c) = 0 ->
      exists accs, Permutation (results s) (map RL accs) /\ length accs = parallelism c /\
                   Permutation (concat accs) (flat_map (ys_of c) (items c))
  | RetNone => results s = []
  end.
Proof.
  intros c s R T PA. destruct (mode c) eqn:M.
  - apply results_gen; assumption.
  - apply results_retlist; assumption.
  - exact (i_none _ _ (Inv_reachable c s R) M).
Qed.
Print Assumptions results_complete.

(* a strictly decreasing measure: no infinite run, runs are bounded, no reachable non-terminal
   state is stuck, and a terminal state is reached from every reachable state *)
Theorem always_terminates :
  (forall c s l s', step c s l s' -> measure c s' < measure c s) /\
  (forall c (f : nat -> state), ~ (forall n, exists l, step c (f n) l (f (S n)))) /\
  (forall c tr s, star state label (step c) (init c) tr s -> length tr <= measure c (init c)) /\
  (forall c s, reachable c s -> terminal s = false -> exists l s', step c s l s') /\
  (forall c s, reachable c s -> exists tr s', star state label (step c) s tr s' /\ terminal s' = true).
Proof.
  split; [exact step_decreases|]. split; [|split; [|split; [exact no_deadlock | exact terminal_reachable]]].
  - intros c f. apply (no_infinite_run state label (step c) (measure c) (step_decreases c)).
  - intros c tr s H.
    pose proof (star_length_measure state label (step c) (measure c) (step_decreases c) _ _ _ H). lia.
Qed.
Print Assumptions always_terminates.

(* an event trace accepted by the executable [run] is a run of the LTS *)
Theorem trace_sound : forall c tr s,
  run state label (stepf c) (init c) tr = Some s -> reachable c s.
Proof. intros c tr s H. exists (init c), tr. split; [reflexivity|]. apply run_star. exact H. Qed.
Print Assumptions trace_sound.

(* the precondition in source terms: at least one worker is created unless a sized iterable
   reports length 0 (threads <= 0 is raised to 1) *)
Theorem parallelism_pos_iff : forall c,
  1 <= parallelism c <-> match len_hint c with Some n => 1 <= n | None => True end.
Proof.
  intro c. unfold parallelism, parallelism_z.
  destruct (len_hint c) as [n|]; destruct (threads c) as [t|]; split; intros; try split; try lia.
Qed.
Print Assumptions parallelism_pos_iff.

(* a functor that never raises needs no more than one worker *)
Theorem pool_adequate_simple : forall c,
  (forall x, fout c x <> Die) -> 1 <= parallelism c \/ items c = [] ->
  ndie c (items c) < parallelism c \/ items c = [].
Proof.
  intros c ND [P|E]; [left | right; exact E].
  rewrite ndie_sumf, sumf_zero; [exact P|].
  intro x. unfold die1, dies. destruct (fout c x) eqn:F; [reflexivity | destruct (ND x F)].
Qed.
Print Assumptions pool_adequate_simple.

(* never-raising functor, truthful len(): the statement holds for every thread count *)
Theorem exactly_once_never_raising : forall c s, reachable c s -> returned c s ->
  (forall x, fout c x <> Die) ->
  match len_hint c with Some n => n = length (items c) | None => True end ->
  Permutation (processed s) (items c).
Proof.
  intros c s R T ND L. apply (exactly_once c s R T), pool_adequate_simple; [exact ND|].
  destruct (items c) as [|x l] eqn:E; [right; reflexivity | left].
  apply parallelism_pos_iff. destruct (len_hint c); [subst; cbn; lia | exact I].
Qed.
Print Assumptions exactly_once_never_raising.

(* without a worker nothing is processed (only a sized iterable reporting length 0 gets none) *)
Theorem no_workers_nothing_processed : forall c s,
  parallelism c = 0 -> reachable c s -> processed s = [].
Proof. intros c s W R. apply (no_workers_inv c W s R). Qed.
Print Assumptions no_workers_nothing_processed.

(* the statement without the precondition is false of the code when every worker dies *)
Theorem exactly_once_full_refuted :
  ~ (forall c s, reachable c s -> returned c s -> Permutation (processed s) (items c)).
Proof.
  intro H. destruct exactly_once_worker_death_refuted_proof as (c & s & _ & R & T & NP).
  exact (NP (H c s R T)).
Qed.
Print Assumptions exactly_once_full_refuted.

Theorem exactly_once_worker_death_refuted :
  exists c s, 1 <= parallelism c /\ reachable c s /\ returned c s /\ ~ Permutation (processed s) (items c).
Proof. exact exactly_once_worker_death_refuted_proof. Qed.
Print Assumptions exactly_once_worker_death_refuted.
