(* C29/Complete_C29.v — "the new state is complete", for all inputs: after the WHOLE op list of an
   install has run without a failing call, the package is listed and every staged file reads back
   in full. *)
From Coq Require Import List NArith Bool Lia.
Import ListNotations.
From Verif Require Import Base.Val Base.Lists C18.Fs C18.FsLemmas C29.Model_C29 C29.Spec_C29 C29.Proofs_C29.

Ltac step H t E :=
  match type of H with
  | match ?x with Some _ => _ | None => None end = Some _ => destruct x as [t|] eqn:E; [|discriminate]
  end.

Lemma app_cons_neq {A} (l : list A) x r : l <> l ++ x :: r.
Proof. intro E. apply (f_equal (@length _)) in E. rewrite app_length in E. cbn in E. lia. Qed.

Lemma read_file_node s p d :
  read_file s p = Some d -> exists m u g t i, lookup s p = Some (File d m u g t i).
Proof.
  unfold read_file. destruct (lookup s p) as [[]|]; try discriminate.
  intro H. injection H as ->. eauto 10.
Qed.
Lemma read_file_of s p d m u g t i : lookup s p = Some (File d m u g t i) -> read_file s p = Some d.
Proof. unfold read_file. now intros ->. Qed.

Lemma open_w_empty s0 s p m s' : apply_op s (open_w s0 p m) = Some s' -> read_file s' p = Some [].
Proof.
  unfold open_w. destruct (bound s0 p); cbn [apply_op]; intro H.
  - destruct (lookup s p) as [n|] eqn:E; [|discriminate]. destruct n; try discriminate.
    eapply update_self in H; [|exact E]. cbn in H. eapply read_file_of; eauto.
  - destruct (can_create s p); [|discriminate]. injection H as <-.
    eapply read_file_of. apply lookup_set_same.
Qed.

Lemma concat_nonempty (chunks : list (list N)) :
  concat (filter (fun c => match c with [] => false | _ => true end) chunks) = concat chunks.
Proof. induction chunks as [|[|x c] chunks IH]; cbn; congruence. Qed.

Lemma put_data p chunks s s' d :
  read_file s p = Some d -> run_opt (put p chunks) s = Some s' -> read_file s' p = Some (d ++ concat chunks).
Proof.
  intros Hd H. apply read_file_node in Hd as (m & u & g & t & i & Hl).
  unfold put in H. fold (appends p (filter (fun c => match c with [] => false | _ => true end) chunks)) in H.
  destruct (run_opt_appends_tmp _ _ _ _ _ _ _ _ _ _ Hl H) as [[E ->]|H2].
  - rewrite <- concat_nonempty, E. cbn. rewrite app_nil_r. eapply read_file_of; eauto.
  - rewrite concat_nonempty in H2. eapply read_file_of; eauto.
Qed.

Lemma perm_keeps s p o s' d :
  apply_op s o = Some s' -> perm_on p o -> read_file s p = Some d -> read_file s' p = Some d.
Proof.
  intros H Ho Hd. apply read_file_node in Hd as (mo & u & g & t & i & Hl).
  destruct o; try contradiction; cbn in Ho, H; subst p0; try rewrite Hl in H; cbn in H;
    (eapply update_self in H; [|exact Hl]); eapply read_file_of; exact H.
Qed.

(* rename of a regular file to another name; [nolinks] of the result excludes that the two names
   were one inode (then rename(2) does nothing) *)
Lemma rename_file s a b s' d :
  nolinks s' -> read_file s a = Some d -> a <> b -> apply_op s (Rename a b) = Some s' ->
  read_file s' b = Some d.
Proof.
  intros Hn Hd Hab H. apply read_file_node in Hd as (mo & u & g & t & i & Hl).
  destruct (rename_nondir_cases _ _ _ _ _ H Hl eq_refl Hab) as [(-> & m & j & Hm & Hi & Hj)|(Hb & _)].
  - destruct Hab. apply lookup_In in Hl, Hm. exact (Hn _ _ _ _ _ Hl Hm Hi Hj).
  - eapply read_file_of, Hb.
Qed.

Definition UPD : str := UPDATE ++ CONTENTS.

Lemma item_done s0 d it t t' :
  nolinks t' -> run_opt (item_ops s0 d it) t = Some t' -> item_name it <> UPD ->
  read_file t' (d ++ [item_name it]) = Some (item_data it).
Proof.
  intros Hn H Hne. destruct it as [n ch|ch]; cbn [item_ops item_name item_data run_opt app] in *.
  - step H t1 E1. exact (put_data _ _ _ _ _ (open_w_empty _ _ _ _ _ E1) H).
  - step H t1 E1. step H t2 E2. step H t3 E3.
    rewrite run_opt_app in H. step H t4 E4. cbn [run_opt] in H. step H t5 E5.
    injection H as <-. fold UPD in *.
    apply (rename_file t4 (d ++ [UPD])); auto.
    + apply (put_data _ _ t3 _ []); [|exact E4].
      apply (perm_keeps _ _ _ _ _ E3 eq_refl), (perm_keeps _ _ _ _ _ E2 eq_refl).
      exact (open_w_empty _ _ _ _ _ E1).
    + intro E. apply app_inv_head in E. injection E as E. now apply Hne.
Qed.

Lemma items_done s0 d : forall items t t',
  nolinks t -> NoDup (map item_name items) -> ~ In UPD (map item_name items) ->
  run_opt (flat_map (item_ops s0 d) items) t = Some t' ->
  forall it, In it items -> read_file t' (d ++ [item_name it]) = Some (item_data it).
Proof.
  induction items as [|it items IH]; cbn [flat_map map]; intros t t' Hn Hnd Hu H it' Hin; [destruct Hin|].
  rewrite run_opt_app in H. step H t1 E1. inversion Hnd as [|? ? Hnotin Hnd']; subst.
  assert (N1 : nolinks t1).
  { eapply (avoids_run_opt (fun _ => False)); [|exact Hn|exact E1]. apply item_avoids. auto. }
  destruct Hin as [<-|Hin]; [|apply (IH t1 t' N1 Hnd'); auto; intro; apply Hu; now right].
  (* the later items write other files *)
  assert (Fr : Forall (avoids (eq (d ++ [item_name it]))) (flat_map (item_ops s0 d) items)).
  { apply items_avoid. intros it2 n r Hin2 Hn2 E. apply app_inv_head in E. injection E as <- _.
    destruct Hn2 as [E|E]; [apply Hnotin; rewrite E; now apply in_map|apply Hu; now left]. }
  unfold read_file. rewrite (proj2 (avoids_run_opt _ _ _ _ Fr N1 H)) by reflexivity.
  apply item_done with (s0 := s0) (t := t); auto. intro E. apply Hu. now left.
Qed.

Lemma In_bound (s : fs) q m : In (q, m) s -> lookup s q <> None.
Proof.
  induction s as [|[r x] s IH]; cbn; [tauto|]. intros [H|H].
  - injection H as -> ->. destruct (path_eq_dec q q); congruence.
  - destruct (path_eq_dec q r); [discriminate|auto].
Qed.
Lemma is_prefix_app_false a q : is_prefix a q = false -> forall r, q <> a ++ r.
Proof. intros H r ->. now rewrite is_prefix_app in H. Qed.

Lemma lookup_rebased a b l r :
  (forall q m, In (q, m) l -> is_prefix b q = false) ->
  lookup (map (fun e => (rebase a b (fst e), snd e)) l) (b ++ r) = lookup l (a ++ r).
Proof.
  intro Hb. induction l as [|[q m] l IH]; [reflexivity|].
  assert (IH' := IH (fun q' m' H => Hb q' m' (or_intror H))). clear IH.
  cbn [map lookup fst snd]. unfold rebase. destruct (is_prefix a q) eqn:Ea.
  - apply is_prefix_inv in Ea as [r' ->]. rewrite skipn_app_exact.
    destruct (path_eq_dec (b ++ r) (b ++ r')) as [E|E]; destruct (path_eq_dec (a ++ r) (a ++ r')) as [E'|E'];
      auto; exfalso.
    + apply app_inv_head in E. subst. auto.
    + apply app_inv_head in E'. subst. auto.
  - pose proof (is_prefix_app_false _ _ (Hb q m (or_introl eq_refl)) r) as Eb.
    pose proof (is_prefix_app_false _ _ Ea r) as Ea'.
    destruct (path_eq_dec (b ++ r) q); [congruence|]. destruct (path_eq_dec (a ++ r) q); [congruence|]. exact IH'.
Qed.

Lemma rename_dir_moves t a b t2 :
  (exists n, lookup t a = Some n /\ is_dir_node n = true) ->
  (forall r, lookup t (b ++ r) = None) ->
  a <> b -> apply_op t (Rename a b) = Some t2 ->
  forall r, lookup t2 (b ++ r) = lookup t (a ++ r).
Proof.
  intros (n & Ha & Hd) Hclear Hab H r. cbn [apply_op] in H. rewrite Ha, Hd in H.
  destruct b as [|b0 b]; [discriminate|]. destruct (path_eq_dec a (b0 :: b)); [contradiction|].
  destruct (negb (isdir t (parent (b0 :: b)))); [discriminate|].
  destruct (is_prefix a (b0 :: b)) eqn:Epre; [discriminate|].
  pose proof (Hclear []) as Hb. rewrite app_nil_r in Hb. rewrite Hb in H. injection H as <-.
  unfold rename_dir. rewrite lookup_rebased.
  - apply lookup_remove_other. intro E. rewrite <- E, is_prefix_app in Epre. discriminate.
  - intros q x Hq. apply In_remove in Hq as [Hq Hne].
    destruct (is_prefix (b0 :: b) q) eqn:E; [|reflexivity]. exfalso.
    apply is_prefix_inv in E as [r' ->]. apply In_bound in Hq. apply Hq. apply Hclear.
Qed.

Section VdbComplete.
  Variable loc : path.

  Lemma pkg_path_visible cat pf r :
    vdb_cat_ok cat = true -> vdb_skip pf = false -> visible vdb_cat_ok vdb_skip loc (pkgdir loc cat pf ++ r).
  Proof. intros Hc Hs. exists cat, pf, r. unfold pkgdir. rewrite <- app_assoc. auto. Qed.

  Lemma stage_done s cat pf items t1 :
    nolinks s -> NoDup (map item_name items) -> ~ In UPD (map item_name items) ->
    match lookup s (tmpdir loc cat pf) with Some n => is_dir_node n = true | None => True end ->
    run_opt (vdb_stage s loc cat pf items) s = Some t1 ->
    (exists n, lookup t1 (tmpdir loc cat pf) = Some n /\ is_dir_node n = true)
    /\ forall it, In it items -> read_file t1 (tmpdir loc cat pf ++ [item_name it]) = Some (item_data it).
  Proof.
    intros Hn Hnd Hu Hstale H. unfold vdb_stage in H. set (tmp := tmpdir loc cat pf) in *.
    rewrite run_opt_app in H. step H ta Ea. rewrite run_opt_app in H. step H tb Eb.
    rewrite run_opt_app in H. step H tc Ec.
    (* none of these ops but the mkdir of tmp names tmp itself *)
    destruct (avoids_run_opt (eq tmp) (ensure_dir s (loc ++ [cat])) s ta) as [Na Fa]; auto.
    { apply ensure_avoids. intro E. apply app_inv_head in E. discriminate. }
    assert (Db : nolinks tb /\ exists n, lookup tb tmp = Some n /\ is_dir_node n = true).
    { unfold ensure_dir, bound in Eb. destruct (lookup s tmp) as [n|] eqn:El; cbn in Eb.
      - injection Eb as <-. rewrite Fa by reflexivity. eauto.
      - destruct (can_create ta tmp); [|discriminate]. injection Eb as <-.
        split; [now apply nolinks_new|]. rewrite lookup_set_same. eauto. }
    destruct Db as [Nb Db].
    destruct (avoids_run_opt (eq tmp) [Utime loc NOW] tb tc) as [Nc Fc]; auto.
    { repeat constructor. intro E. exact (app_cons_neq _ _ _ (eq_sym E)). }
    destruct (avoids_run_opt (eq tmp) (flat_map (item_ops s tmp) items) tc t1) as [_ F1]; auto.
    { apply items_avoid. intros it n r _ _. apply app_cons_neq. }
    split; [rewrite F1, Fc by reflexivity; exact Db|]. now apply (items_done s tmp items tc).
  Qed.

  Theorem vdb_install_complete_proof s cat pf items s' :
    nolinks s ->
    vdb_cat_ok cat = true -> vdb_skip pf = false ->
    NoDup (map item_name items) -> ~ In UPD (map item_name items) ->
    (forall r, lookup s (pkgdir loc cat pf ++ r) = None) ->
    match lookup s (tmpdir loc cat pf) with Some n => is_dir_node n = true | None => True end ->
    run_opt (vdb_install_ops s loc cat pf items) s = Some s' ->
    vdb_complete s' loc cat pf items.
  Proof.
    intros Hn Hc Hs Hnd Hu Habs Hstale H.
    unfold vdb_install_ops, vdb_commit in H. rewrite run_opt_app in H. step H t1 ES.
    cbn [run_opt] in H. step H t2 ER. step H t3 EU. injection H as <-.
    destruct (stage_done s cat pf items t1 Hn Hnd Hu Hstale ES) as [(n & Dt & Dd) D1].
    destruct (avoids_run_opt _ _ _ _ (stage_out loc s cat pf items) Hn ES) as [N1 A1].
    set (tmp := tmpdir loc cat pf) in *. set (dst := pkgdir loc cat pf) in *.
    (* the commit moves the staged tree to the package directory, below which nothing was bound *)
    assert (M : forall r, lookup t3 (dst ++ r) = lookup t1 (tmp ++ r)).
    { intro r. transitivity (lookup t2 (dst ++ r)).
      - apply (avoids_frame (eq (dst ++ r)) t2 (Utime loc NOW)); auto.
        + exact (nolinks_step t1 (Rename tmp dst) t2 I N1 ER).
        + unfold dst, pkgdir. rewrite <- app_assoc. intro E. exact (app_cons_neq _ _ _ (eq_sym E)).
      - apply (rename_dir_moves t1 tmp dst t2); eauto.
        + intro r'. rewrite A1; [apply Habs|now apply pkg_path_visible].
        + intro E. apply app_inv_head in E. injection E as E.
          pose proof (vdb_skip_tmp pf) as T. change (TMP ++ pf = pf) in E. congruence. }
    split.
    - unfold listed. rewrite Hc, Hs. fold (pkgdir loc cat pf) dst.
      rewrite <- (app_nil_r dst), M, app_nil_r, Dt. exact Dd.
    - intros it Hin. unfold content, read_file.
      replace (loc ++ cat :: pf :: [item_name it]) with (dst ++ [item_name it])
        by (unfold dst, pkgdir; now rewrite <- app_assoc).
      rewrite M. exact (D1 it Hin).
  Qed.
End VdbComplete.

Lemma complete_key s' loc cat pf items k it :
  vdb_complete s' loc cat pf items -> In it items -> item_name it = fst k ->
  read_key s' (pkgdir loc cat pf) k = VS (if snd k then rstrip_nl (item_data it) else item_data it).
Proof.
  intros [_ C] Hin E. specialize (C it Hin). unfold content in C.
  unfold read_key, pkgdir. rewrite <- E, <- app_assoc. cbn [app]. now rewrite C.
Qed.

(* once the staged tarball is renamed in, ops that keep away from it leave every byte written *)
Lemma bin_committed base s cat pid pf chunks rest s' :
  nolinks s -> Forall (avoids (eq (bin_final base cat pf))) rest ->
  run_opt (bin_stage s base cat pid pf chunks ++ Rename (bin_tmp base cat pid pf) (bin_final base cat pf) :: rest) s
  = Some s' ->
  read_file s' (bin_final base cat pf) = Some (concat chunks).
Proof.
  intros Hn Hrest H.
  set (tmp := bin_tmp base cat pid pf) in *. set (fin := bin_final base cat pf) in *.
  rewrite run_opt_app in H. step H t1 ES. cbn [run_opt] in H. step H t2 ER.
  destruct (avoids_run_opt _ _ _ _ (bin_stage_out base s cat pid pf chunks) Hn ES) as [N1 _].
  assert (N2 : nolinks t2) by exact (nolinks_step t1 (Rename tmp fin) t2 I N1 ER).
  unfold read_file. rewrite (proj2 (avoids_run_opt _ _ _ _ Hrest N2 H)) by reflexivity.
  apply (rename_file t1 tmp); auto.
  - unfold bin_stage in ES. fold tmp in ES. rewrite run_opt_app in ES. step ES ta Ea.
    cbn [run_opt] in ES. step ES tb Eo. rewrite run_opt_app in ES. step ES tc Ep. cbn [run_opt] in ES. step ES td Em.
    injection ES as <-. apply (perm_keeps _ _ _ _ _ Em eq_refl).
    exact (put_data _ _ _ _ _ (open_w_empty _ _ _ _ _ Eo) Ep).
  - intro E. apply app_inv_head in E. injection E as E.
    change (TMP ++ (pid ++ DOT ++ pf ++ TBZ2) = pf ++ TBZ2) in E.
    apply (f_equal (@length _)) in E. rewrite !app_length in E. change (length TMP) with 5 in E. lia.
Qed.

Lemma bin_read_listed base s cat x d :
  bin_cat_ok cat = true -> bin_skip x = false -> read_file s (base ++ [cat; x]) = Some d ->
  listed bin_cat_ok bin_skip false base s cat x = true /\ content base s cat x [] = Some d.
Proof.
  intros Hc Hs H. split; [|exact H]. unfold listed. rewrite Hc, Hs.
  apply read_file_node in H as (m & u & g & t & i & ->). reflexivity.
Qed.

Lemma unbound_below s p :
  forallb (fun e => negb (is_prefix p (fst e))) s = true -> forall r, lookup s (p ++ r) = None.
Proof.
  intros H r. destruct (lookup s (p ++ r)) as [n|] eqn:E; [|reflexivity]. apply lookup_In in E.
  rewrite forallb_forall in H. specialize (H _ E). cbn in H. rewrite is_prefix_app in H. discriminate.
Qed.

(* non-vacuity: the hypotheses hold of the example install of Proofs_C29 *)
Example ex_install_complete_general :
  vdb_complete (run Ex.install_ops Ex.s0) [Ex.v] Ex.c Ex.p2 Ex.items.
Proof.
  apply vdb_install_complete_proof with (s := Ex.s0).
  - exact Ex.s0_nolinks.
  - reflexivity.
  - reflexivity.
  - now apply (nodupb_NoDup str_eqb _ str_eqb_refl).
  - vm_compute. intuition discriminate.
  - now apply unbound_below.
  - vm_compute. exact I.
  - destruct ex_ops_succeed as [[t E] _]. now rewrite <- (run_opt_run _ _ _ E) in E.
Qed.

Lemma install_hyps_ok_spec c :
  install_hyps_ok c = true ->
  vdb_cat_ok (sc_cat c) = true /\ vdb_skip (sc_pf c) = false
  /\ NoDup (map item_name (sc_items c)) /\ ~ In UPD (map item_name (sc_items c))
  /\ (forall r, lookup (sc_fs c) (pkgdir (sc_loc c) (sc_cat c) (sc_pf c) ++ r) = None)
  /\ match lookup (sc_fs c) (tmpdir (sc_loc c) (sc_cat c) (sc_pf c)) with
     | Some n => is_dir_node n = true | None => True end
  /\ forall k, In k (vdb_keys (sc_pf c)) -> exists it, In it (sc_items c) /\ item_name it = fst k.
Proof.
  unfold install_hyps_ok. set (dst := pkgdir _ _ _). intro H.
  apply andb_prop in H as [H G7]. apply andb_prop in H as [H G6]. apply andb_prop in H as [H G5].
  apply andb_prop in H as [H G4]. apply andb_prop in H as [H G3]. apply andb_prop in H as [G1 G2].
  apply negb_true_iff in G2, G4. repeat split; auto.
  - now apply (nodupb_NoDup str_eqb _ str_eqb_refl).
  - intro Hin. apply existsb_str_In in Hin. unfold UPD in Hin. congruence.
  - now apply unbound_below.
  - destruct (lookup (sc_fs c) (tmpdir _ _ _)); auto.
  - intros k Hin. rewrite forallb_forall in G7. specialize (G7 _ Hin).
    apply existsb_str_In in G7. apply in_map_iff in G7 as [it [E Hi]]. eauto.
Qed.
