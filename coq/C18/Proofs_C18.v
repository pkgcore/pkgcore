(* Proofs_C18.v — lemmas for C18 that hold in every state (see Prop_C18.v for the closed
   statements; the whole-merge induction is in Exact_C18.v). *)
From Coq Require Import List ZArith Bool Lia.
Import ListNotations.
From Verif Require Import C18.Fs C18.FsLemmas C18.Model_C18 C18.Spec_C18.

Lemma run_frame ops : forall s q, untouched ops s q -> lookup (run ops s) q = lookup s q.
Proof.
  induction ops as [|o r IH]; cbn; intros s q H; [reflexivity|].
  destruct H as [Hq Hr]. destruct (apply_op s o) as [s'|] eqn:E; [|reflexivity].
  rewrite (IH _ _ Hr). eapply apply_op_frame; eauto.
Qed.

Lemma untouched_firstn ops : forall s q k, untouched ops s q -> untouched (firstn k ops) s q.
Proof.
  induction ops as [|o r IH]; intros s q [|k] H; cbn; auto.
  destruct H as [Hq Hr]. split; [exact Hq|]. destruct (apply_op s o); auto.
Qed.

Lemma perms_new_on x tmp : Forall (perm_on tmp) (perms_new x tmp).
Proof.
  unfold perms_new. apply Forall_app. split.
  - destruct (is_some (e_uid x) || is_some (e_gid x)); repeat constructor.
  - destruct (is_ksym x); [constructor|]. apply Forall_app. split.
    + destruct (e_mode x); repeat constructor.
    + destruct (eff_mtime x); repeat constructor.
Qed.

(* n has the type and the payload (data, target, device number) of entry x, whatever its
   mode, owner and mtime *)
Definition made_for (x : entry) (n : node) : Prop :=
  match e_kind x, n with
  | KDir, Dir _ _ _ _ | KFifo, Fifo _ _ _ _ => True
  | KFile d _, File d' _ _ _ _ _ => d' = d
  | KSym tg, Sym tg' _ _ _ => tg' = tg
  | KDev r, Dev _ _ _ _ r' => r' = r
  | _, _ => False
  end.

Lemma realises_perms x n fp : made_for x n -> realises x (apply_perms (perms_new x fp) n).
Proof.
  destruct x as [loc kind mode uid gid mtime]. unfold made_for; cbn [e_kind].
  destruct kind, n; try contradiction; intros E; try subst;
    unfold apply_perms, perms_new, realises, mode_ok, owner_ok, mtime_ok, eff_mtime, is_ksym; cbn;
    destruct mode, uid, gid, mtime; cbn; repeat split; reflexivity.
Qed.

Lemma staged_node_realises x d hl m0 chunks tmp i :
  e_kind x = KFile d hl -> concat chunks = d ->
  realises x (staged_node m0 chunks (perms_new x tmp) i).
Proof. intros Hk Hc. apply realises_perms. unfold made_for. now rewrite Hk. Qed.

Lemma staged_node_realises_nomode x d hl um chunks tmp i :
  e_kind x = KFile d hl -> concat chunks = d ->
  realises x (staged_node (file_create_mode um) chunks (perms_new x tmp) i)
  \/ e_mode x = None.
Proof. intros Hk Hc. left. eapply staged_node_realises; eauto. Qed.

Lemma run_opt_removelast ops s s' :
  run_opt ops s = Some s' -> ops <> [] -> exists s2, run_opt (removelast ops) s = Some s2.
Proof.
  intros H Hne. destruct (@exists_last _ ops Hne) as (l & a & ->).
  rewrite removelast_last. rewrite run_opt_app in H. destruct (run_opt l s); [eauto|discriminate].
Qed.

Definition chunks1 (d : list N) : list (list N) := if is_nil d then [] else [d].
Lemma concat_chunks1 d : concat (chunks1 d) = d.
Proof. destruct d; cbn; [reflexivity|now rewrite app_nil_r]. Qed.

Lemma create_ops_file um s x d hl fp :
  e_kind x = KFile d hl -> lookup s fp = None ->
  create_ops um s x fp = (Create fp (file_create_mode um) :: appends fp (chunks1 d), None).
Proof.
  intros Hk Hl. unfold create_ops. rewrite Hk, Hl. unfold chunks1, appends. now destruct (is_nil d).
Qed.

(* ensure_perms over an existing directory: at most an lchown, then at most a utime to the
   recorded mtime *)
Lemma perms_existing_shape x cp r n2 :
  exists (chown : bool) (ot : option Z),
    perms_existing x cp r n2 = (if chown then [Chown cp (e_uid x) (e_gid x)] else [])
                               ++ match ot with Some t => [Utime r t] | None => [] end /\
    (forall t, Some t = ot -> Some t = e_mtime x).
Proof.
  unfold perms_existing. destruct (node_owner n2) as [u2 g2].
  eexists _, (match e_mtime x with Some t0 => if Z.eqb t0 (node_mtime n2) then None else Some t0 | None => None end).
  split.
  - f_equal. destruct (e_mtime x) as [t0|]; [destruct (Z.eqb t0 _)|]; reflexivity.
  - intro t. destruct (e_mtime x) as [t0|]; [destruct (Z.eqb t0 _)|]; congruence.
Qed.

(* the closures of copyfile, nondir_step and dir_step under names, and the planner's functions
   in terms of them *)
(* [walk] stays opaque below: unfolded by [cbn] it makes these proofs run for tens of minutes *)
Local Opaque walk.

Definition direct_copy (um : N) (x : entry) (pre : list op) (s1 : fs) : list op * option N :=
  match canon s1 (e_loc x) with
  | WOk cp =>
      let '(c, err) := create_ops um s1 x cp in
      match err with
      | Some e => (pre ++ c, Some e)
      | None => (pre ++ c ++ perms_new x cp, None)
      end
  | _ => (pre, Some E_OS)
  end.

Lemma copyfile_unfold um s x :
  copyfile um s x =
  match wpath (canon s (e_loc x)) with
  | Some cp =>
      match node_at s cp with
      | Some n =>
          if is_dir_node n then ([], Some E_CANNOT)
          else if name_too_long (sibling_new cp) then ([], Some E_OS)
          else let '(c, err) := create_ops um s x (sibling_new cp) in
               match err with
               | Some e => (c, Some e)
               | None => (c ++ perms_new x (sibling_new cp) ++ [Rename (sibling_new cp) cp], None)
               end
      | None => direct_copy um x [] s
      end
  | None =>
      if match rcanon s (removelast (e_loc x)) with WOk r => is_some (node_at s r) | _ => false end
      then direct_copy um x [] s
      else let '(mk, s1, ok) := ensure_dirs s [] (removelast (e_loc x)) in
           if ok then direct_copy um x mk s1 else (mk, Some E_FAILED)
  end.
Proof. unfold copyfile, direct_copy. cbv zeta. now destruct (canon s (e_loc x)). Qed.

Lemma wpath_some w p : wpath w = Some p -> w = WOk p.
Proof. destruct w; cbn; congruence. Qed.

Lemma direct_copy_ok um x pre s1 ops :
  direct_copy um x pre s1 = (ops, None) ->
  exists cp c, canon s1 (e_loc x) = WOk cp /\ create_ops um s1 x cp = (c, None) /\
               ops = pre ++ c ++ perms_new x cp.
Proof.
  unfold direct_copy. destruct (canon s1 (e_loc x)) as [cp| |]; try discriminate.
  destruct (create_ops um s1 x cp) as [c [e|]] eqn:Hco; [discriminate|]. intro H. injection H as <-. now exists cp, c.
Qed.

Lemma create_ops_err um s x fp c e : create_ops um s x fp = (c, Some e) -> e <> E_CANNOT.
Proof.
  unfold create_ops. intros H E. subst e.
  destruct (e_kind x); destruct (lookup s fp) as [[]|]; try discriminate.
Qed.

Lemma direct_copy_cannot um x pre s1 ops : direct_copy um x pre s1 <> (ops, Some E_CANNOT).
Proof.
  unfold direct_copy. destruct (canon s1 (e_loc x)) as [cp| |]; try discriminate.
  destruct (create_ops um s1 x cp) as [c [e|]] eqn:Hco; [|discriminate].
  intro H. injection H as _ ->. now apply create_ops_err in Hco.
Qed.

(* copyfile raises CannotOverwrite only for a directory at the location (converse of
   copyfile_refuses_dir) *)
Lemma copyfile_cannot_dir um s x ops :
  copyfile um s x = (ops, Some E_CANNOT) ->
  exists cp n, canon s (e_loc x) = WOk cp /\ node_at s cp = Some n /\ is_dir_node n = true.
Proof.
  rewrite copyfile_unfold. destruct (wpath (canon s (e_loc x))) as [cp|] eqn:Hw.
  - apply wpath_some in Hw. destruct (node_at s cp) as [n|] eqn:Hn; [|intro H; now apply direct_copy_cannot in H].
    destruct (is_dir_node n) eqn:Hd; [now exists cp, n|].
    destruct (name_too_long (sibling_new cp)); [discriminate|].
    destruct (create_ops um s x (sibling_new cp)) as [c [e|]] eqn:Hco; [|discriminate].
    intro H. injection H as _ ->. now apply create_ops_err in Hco.
  - destruct (match rcanon s _ with WOk r => is_some (node_at s r) | _ => false end);
      [intro H; now apply direct_copy_cannot in H|].
    destruct (ensure_dirs s [] _) as [[mk s1] ok]. destruct ok; [|discriminate].
    intro H. now apply direct_copy_cannot in H.
Qed.

Definition copy_step (um : N) (s : fs) (x : entry) (merged' : list entry)
  : list op * option N * list entry :=
  let '(ops, err) := copyfile um s x in
  match err with
  | Some e => if N.eqb e E_CANNOT && is_ksym x && tolerated s x
              then (ops, None, merged') else (ops, Some e, merged')
  | None => (ops, None, merged')
  end.

Lemma nondir_step_unfold um s merged x :
  nondir_step um s merged x =
  match e_kind x with
  | KFile _ _ =>
      match find (fun c => can_hl c x) merged with
      | Some c => let '(ops, err) := do_link s c x in (ops, err, merged)
      | None => copy_step um s x (merged ++ [x])
      end
  | _ => copy_step um s x merged
  end.
Proof. unfold nondir_step, copy_step. cbv zeta. now destruct (e_kind x). Qed.

Definition new_dir (um : N) (s : fs) (x : entry) : list op * option N :=
  match canon s (e_loc x) with
  | WOk cp =>
      let m := dir_create_mode um x in
      match cp, lookup s cp with
      | [], _ => ([], Some E_OS)
      | _, None => (Mkdir cp m :: perms_new x cp ++ perms_new x cp, None)
      | _, Some (Sym _ _ _ _) => (Unlink cp :: Mkdir cp m :: perms_new x cp ++ perms_new x cp, None)
      | _, Some _ => ([], Some E_OS)
      end
  | _ => ([], Some E_OS)
  end.

Lemma dir_step_unfold um s x :
  dir_step um s x =
  match rcanon s (e_loc x) with
  | WOk r =>
      match node_at s r with
      | Some n2 =>
          if is_dir_node n2 then
            match canon s (e_loc x) with
            | WOk cp => (perms_existing x cp r n2, None)
            | _ => ([], Some E_OS)
            end
          else ([], Some E_CANNOT)
      | None => new_dir um s x
      end
  | WNoEnt => new_dir um s x
  | WOther => ([], Some E_OS)
  end.
Proof. unfold dir_step, new_dir. cbv zeta. reflexivity. Qed.

Lemma sibling_new_neq p : sibling_new p <> p.
Proof.
  unfold sibling_new. intro H. destruct p as [|c p]; [discriminate|].
  destruct (@exists_last _ (c :: p)) as (l & a & E); [discriminate|].
  rewrite E in H. rewrite removelast_last, last_last in H. apply app_inv_head in H.
  injection H as H. assert (L : length (a ++ NEW) = length a) by now rewrite H.
  rewrite app_length in L. cbn in L. lia.
Qed.

(* mkdirs of free names only turn unbound paths into directories, at every crash prefix *)
Definition mkdirs_free (s : fs) (mk : list op) : Prop :=
  Forall (fun o => exists q' m, o = Mkdir q' m /\ lookup s q' = None) mk.

Lemma mkdirs_free_prefix s mk : mkdirs_free s mk -> forall k q,
  lookup (run (firstn k mk) s) q = lookup s q \/
  (lookup s q = None /\ is_diro (lookup (run (firstn k mk) s) q) = true /\ exists m, In (Mkdir q m) mk).
Proof.
  intros Hmk k q.
  assert (H : Forall (fun o => exists p m, o = Mkdir p m /\ exists m', In (Mkdir p m') mk) mk).
  { apply Forall_forall. intros o Hin. destruct (proj1 (Forall_forall _ _) Hmk o Hin) as (p & m & -> & _). eauto. }
  destruct (run_mkdirs _ _ (Forall_firstn _ k _ H) s q) as [E|(E & Hin & m & u & g & t & Ed)]; [now left|right].
  rewrite Ed. auto.
Qed.

Lemma dirs_phase_cons um s x r :
  dirs_phase um s (x :: r) =
  (let '(ops, err) := dir_step um s x in
   let s1 := run ops s in
   match err with
   | Some e => (ops, s1, Some e)
   | None => let '(ops2, s2, err2) := dirs_phase um s1 r in (ops ++ ops2, s2, err2)
   end).
Proof. reflexivity. Qed.

Lemma dirs_phase_state um : forall ds s ops1 s2,
  dirs_phase um s ds = (ops1, s2, None) -> forall s', run_opt ops1 s = Some s' -> s2 = s'.
Proof.
  induction ds as [|x r IH]; intros s ops1 s2 E s' Hr.
  - change (dirs_phase um s []) with (@nil op, s, @None N) in E.
    injection E as <- <-. change (Some s = Some s') in Hr. congruence.
  - rewrite dirs_phase_cons in E.
    destruct (dir_step um s x) as [ops err]. destruct err; [discriminate|].
    cbv zeta in E.
    destruct (dirs_phase um (run ops s) r) as [[opsr sr] errr] eqn:Er.
    injection E as <- <- ->. rewrite run_opt_app in Hr.
    destruct (run_opt ops s) as [s1|] eqn:Eo; [|discriminate].
    rewrite (run_opt_run _ _ _ Eo) in Er. eapply IH; eauto.
Qed.

Lemma In_insert_sorted_iff x y l : In x (insert_sorted y l) <-> x = y \/ In x l.
Proof.
  induction l as [|z l IH]; cbn; [intuition|].
  destruct (str_ltb (path_str (e_loc y)) (path_str (e_loc z))); cbn; [|rewrite IH]; intuition.
Qed.
Lemma In_sort_entries_iff x l : In x (sort_entries l) <-> In x l.
Proof.
  induction l as [|y l IH]; cbn; [tauto|]. rewrite In_insert_sorted_iff, IH. intuition.
Qed.
Lemma NoDup_insert_sorted y l :
  NoDup (map e_loc l) -> ~ In (e_loc y) (map e_loc l) -> NoDup (map e_loc (insert_sorted y l)).
Proof.
  induction l as [|z l IH]; cbn; intros Hnd Hn.
  - constructor; [intros []|constructor].
  - destruct (str_ltb (path_str (e_loc y)) (path_str (e_loc z))); cbn.
    + constructor; [exact Hn|exact Hnd].
    + inversion Hnd as [|? ? Hz Hl]; subst. constructor.
      * intro H. apply in_map_iff in H as (w & Ew & Hw). apply (proj1 (In_insert_sorted_iff _ _ _)) in Hw as [->|Hw].
        -- apply Hn. left. congruence.
        -- apply Hz. rewrite <- Ew. now apply in_map.
      * apply IH; [exact Hl|]. intro H. apply Hn. now right.
Qed.
Lemma NoDup_sort_entries l : NoDup (map e_loc l) -> NoDup (map e_loc (sort_entries l)).
Proof.
  induction l as [|y l IH]; cbn; intro H; [constructor|]. inversion H as [|? ? Hy Hl]; subst.
  apply NoDup_insert_sorted; [now apply IH|]. intro Hi. apply Hy.
  apply in_map_iff in Hi as (w & Ew & Hw). apply (proj1 (In_sort_entries_iff _ _)) in Hw. rewrite <- Ew. now apply in_map.
Qed.

(* copyfile over an existing file, evaluated: stage at '#new', rename, sibling gone *)
Definition ex_entry : entry :=
  {| e_loc := [[111]; [102]]%N; e_kind := KFile [1; 2; 3]%N None; e_mode := Some 420%N;
     e_uid := Some 7%N; e_gid := None; e_mtime := Some 1100000000%Z |}.
Definition ex_fs : fs := [([[111]]%N, Dir 493 0 0 5); ([[111]; [102]]%N, File [9; 9; 9; 9; 9]%N 384 0 0 6 1)].
Example ex_staged :
  let '(ops, err) := copyfile 18 ex_fs ex_entry in
  err = None /\
  lookup (run ops ex_fs) [[111]; [102]]%N = Some (File [1; 2; 3]%N 420 7 0 1100000000 2) /\
  lookup (run ops ex_fs) (sibling_new [[111]; [102]]%N) = None /\
  length ops = 6%nat.
Proof. vm_compute. repeat split; reflexivity. Qed.
