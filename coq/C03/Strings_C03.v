(* Strings_C03.v — what the string primitives of Model_C03 compute (find, split, join, strip, the
   insertion sort), as lemmas; used by the proofs of C03 and C44. *)
From Coq Require Import List NArith Bool Lia.
Import ListNotations.
From Verif Require Import Base.Val C03.Model_C03 C03.Spec_C03.
Local Open Scope N_scope.

Lemma in_removelast {A} (x : A) l : In x (removelast l) -> In x l.
Proof.
  induction l as [|a l IH]; [intros []|]. cbn [removelast]. destruct l as [|b l']; [intros []|].
  intros [->|H]; [now left | right; now apply IH].
Qed.

Lemma lastc_some s l : lastc s = Some l -> s = removelast s ++ [l].
Proof.
  destruct s as [|x t]; [discriminate|]. unfold lastc. intros H.
  replace l with (last (x :: t) 0) by congruence. now apply app_removelast_last.
Qed.

Lemma lastc_snoc a c : lastc (a ++ [c]) = Some c.
Proof. unfold lastc. rewrite last_last. now destruct a. Qed.

Lemma split_first_spec c s p q :
  split_first c s = Some (p, q) -> s = p ++ c :: q /\ ~ In c p.
Proof.
  revert p q; induction s as [|x t IH]; intros p q H; cbn in H; [discriminate|].
  destruct (N.eqb_spec x c) as [->|Hne].
  - injection H as <- <-. split; [reflexivity | intros []].
  - destruct (split_first c t) as [[p' q']|] eqn:E; [|discriminate].
    injection H as <- <-. destruct (IH _ _ eq_refl) as [-> Hn].
    split; [reflexivity|]. intros [Hx|Hx]; [congruence | exact (Hn Hx)].
Qed.

Lemma split_first_app c p q :
  ~ In c p -> split_first c (p ++ c :: q) = Some (p, q).
Proof.
  induction p as [|x p IH]; intros Hn; cbn.
  - now rewrite N.eqb_refl.
  - destruct (N.eqb_spec x c) as [->|Hne]; [exfalso; apply Hn; now left|].
    rewrite IH; [reflexivity | intros Hx; apply Hn; now right].
Qed.

Lemma split_first_none c s : split_first c s = None <-> ~ In c s.
Proof.
  induction s as [|x t IH]; cbn; [tauto|].
  destruct (N.eqb_spec x c) as [->|Hne]; [split; [discriminate | tauto]|].
  destruct (split_first c t) as [[p q]|]; [split; [discriminate | intuition discriminate]|].
  intuition congruence.
Qed.

Lemma split_last_none c s : split_last c s = None <-> ~ In c s.
Proof.
  induction s as [|x t IH]; cbn; [tauto|].
  destruct (split_last c t) as [[p q]|]; [split; [discriminate | intuition discriminate]|].
  destruct (N.eqb_spec x c) as [->|Hne]; [split; [discriminate | tauto] | intuition congruence].
Qed.

Lemma split_last_spec c s p q :
  split_last c s = Some (p, q) -> s = p ++ c :: q /\ ~ In c q.
Proof.
  revert p q; induction s as [|x t IH]; intros p q; cbn; [discriminate|].
  destruct (split_last c t) as [[p' q']|] eqn:E.
  - intros H; injection H as <- <-. destruct (IH _ _ eq_refl) as [-> Hq]. now split.
  - destruct (N.eqb_spec x c) as [->|]; [|discriminate]. intros H; injection H as <- <-.
    split; [reflexivity | now apply split_last_none].
Qed.

Lemma split_last_app c p q : ~ In c q -> split_last c (p ++ c :: q) = Some (p, q).
Proof.
  intros Hq. induction p as [|x p IH]; cbn.
  - rewrite (proj2 (split_last_none _ _) Hq). now rewrite N.eqb_refl.
  - now rewrite IH.
Qed.

Lemma split_on_nonnil c s : split_on c s <> [].
Proof.
  destruct s as [|x t]; cbn; [discriminate|].
  destruct (x =? c); [discriminate|]. destruct (split_on c t); discriminate.
Qed.

Lemma join_cons c a l : l <> [] -> join c (a :: l) = a ++ c :: join c l.
Proof. destruct l; [congruence | reflexivity]. Qed.

Lemma join_split_on c s : join c (split_on c s) = s.
Proof.
  induction s as [|y t IH]; cbn; [reflexivity|].
  pose proof (split_on_nonnil c t) as Hn.
  destruct (N.eqb_spec y c) as [->|Hne].
  - now rewrite (join_cons _ _ _ Hn), IH.
  - destruct (split_on c t) as [|h r]; [congruence|].
    destruct r; cbn [join] in *; cbn; now rewrite <- IH.
Qed.

Lemma split_on_app c p q : split_on c (p ++ c :: q) = split_on c p ++ split_on c q.
Proof.
  induction p as [|x p IH]; cbn [app split_on].
  - now rewrite N.eqb_refl.
  - rewrite IH. destruct (x =? c); [reflexivity|].
    pose proof (split_on_nonnil c p) as Hn. now destruct (split_on c p).
Qed.

Lemma split_on_nosep c a : ~ In c a -> split_on c a = [a].
Proof.
  induction a as [|x a IH]; intros Hn; cbn; [reflexivity|].
  destruct (N.eqb_spec x c) as [->|Hne]; [exfalso; apply Hn; now left|].
  rewrite IH; [reflexivity | intros Hx; apply Hn; now right].
Qed.

Lemma split_on_app_sep c a t :
  ~ In c a -> split_on c (a ++ c :: t) = a :: split_on c t.
Proof. intros Hn. now rewrite split_on_app, (split_on_nosep _ _ Hn). Qed.

Lemma split_on_no_sep c s x : In x (split_on c s) -> ~ In c x.
Proof.
  revert x; induction s as [|y t IH]; intros x; cbn.
  - intros [<-|[]] [].
  - destruct (N.eqb_spec y c) as [->|Hne].
    + intros [<-|Hx]; [intros [] | now apply IH].
    + pose proof (split_on_nonnil c t) as Hn. destruct (split_on c t) as [|h r]; [congruence|].
      intros [<-|Hx]; [|apply IH; now right].
      intros [Hc|Hc]; [congruence | apply (IH h); [now left | exact Hc]].
Qed.

Lemma split_on_join c l :
  l <> [] -> (forall x, In x l -> ~ In c x) -> split_on c (join c l) = l.
Proof.
  induction l as [|a r IH]; intros Hne Hall; [congruence|].
  destruct r as [|b r'].
  - apply split_on_nosep, Hall. now left.
  - rewrite join_cons, split_on_app_sep by (discriminate || (apply Hall; now left)).
    f_equal. apply IH; [discriminate|]. intros x Hx. apply Hall. now right.
Qed.

Lemma in_join c l y : In y (join c l) -> y = c \/ exists x, In x l /\ In y x.
Proof.
  induction l as [|a r IH]; cbn [join]; [intros []|].
  destruct r as [|b r'].
  - intros H. right. exists a. split; [now left | exact H].
  - intros H. apply in_app_or in H as [H|[H|H]].
    + right. exists a. split; [now left | exact H].
    + now left.
    + destruct (IH H) as [->|[x [Hx Hy]]]; [now left|].
      right. exists x. split; [now right | exact Hy].
Qed.

Lemma in_join_intro c l x y : In x l -> In y x -> In y (join c l).
Proof.
  induction l as [|a r IH]; [intros []|]. intros Hx Hy.
  destruct r as [|b r']; [destruct Hx as [<-|[]]; exact Hy|].
  rewrite join_cons by discriminate. apply in_or_app.
  destruct Hx as [<-|Hx]; [now left | right; right; now apply IH].
Qed.

Lemma split_on_chars c s x y : In x (split_on c s) -> In y x -> In y s.
Proof. intros Hx Hy. rewrite <- (join_split_on c s). exact (in_join_intro _ _ _ _ Hx Hy). Qed.

Lemma join_snoc c a l : a <> [] -> join c (a ++ [l]) = join c a ++ c :: l.
Proof.
  induction a as [|x r IH]; intros Hne; [congruence|].
  destruct r as [|y r']; [reflexivity|].
  change (join c ((x :: y :: r') ++ [l])) with (x ++ c :: join c ((y :: r') ++ [l])).
  rewrite IH, (join_cons c x (y :: r')) by discriminate. now rewrite <- app_assoc.
Qed.

(* the last chunk split off a list of at least two *)
Lemma join_last c (l : list str) :
  (2 <= length l)%nat ->
  removelast l <> [] /\ S (length (removelast l)) = length l
  /\ join c l = join c (removelast l) ++ c :: last l [].
Proof.
  intros H. assert (Hne : l <> []) by (intros ->; cbn in H; lia).
  pose proof (app_removelast_last [] Hne) as E.
  assert (Hlen : S (length (removelast l)) = length l).
  { pose proof (f_equal (@length str) E) as EL. rewrite app_length in EL. cbn [length] in EL. unfold str in *. lia. }
  assert (Hrl : removelast l <> []) by (intros E0; rewrite E0 in Hlen; cbn in Hlen; lia).
  split; [exact Hrl|]. split; [exact Hlen|]. rewrite E at 1. now apply join_snoc.
Qed.

Lemma split_on_cons_inv c s h r :
  split_on c s = h :: r ->
  ~ In c h /\ ((r = [] /\ s = h) \/ (exists s', s = h ++ c :: s' /\ r = split_on c s')).
Proof.
  intros H. pose proof (join_split_on c s) as Hj. rewrite H in Hj.
  assert (Hh : ~ In c h) by (apply (split_on_no_sep c s); rewrite H; now left).
  split; [exact Hh|].
  destruct r as [|r0 rs]; [left; now split|].
  right. exists (join c (r0 :: rs)). split; [now rewrite <- Hj|].
  rewrite <- Hj, join_cons, split_on_app_sep in H by (discriminate || exact Hh). now injection H.
Qed.

Lemma split_single c s x : split_on c s = [x] -> s = x /\ ~ In c s.
Proof.
  intros H. apply split_on_cons_inv in H as [Hx [[_ ->]|(s' & _ & H)]]; [now split|].
  symmetry in H. now apply split_on_nonnil in H.
Qed.

Lemma split_dcolon_cons x y t :
  split_dcolon (x :: y :: t)
  = if (x =? c_colon) && (y =? c_colon) then Some ([], t)
    else match split_dcolon (y :: t) with Some (p, q) => Some (x :: p, q) | None => None end.
Proof. reflexivity. Qed.

Lemma split_dcolon_spec s a r :
  split_dcolon s = Some (a, r) -> s = a ++ c_colon :: c_colon :: r.
Proof.
  revert a r; induction s as [|x t IH]; intros a r H; [discriminate|].
  destruct t as [|y t']; [discriminate|]. rewrite split_dcolon_cons in H.
  destruct ((x =? c_colon) && (y =? c_colon)) eqn:E.
  - injection H as <- <-. apply andb_true_iff in E as [E1 E2].
    apply N.eqb_eq in E1, E2. now subst.
  - destruct (split_dcolon (y :: t')) as [[p q]|] eqn:E2; [|discriminate].
    injection H as <- <-. now rewrite (IH _ _ eq_refl).
Qed.

Lemma split_dcolon_none s : ~ In c_colon s -> split_dcolon s = None.
Proof.
  induction s as [|x t IH]; intros Hn; [reflexivity|].
  destruct t as [|y t']; [reflexivity|]. rewrite split_dcolon_cons, IH by (intros H; apply Hn; now right).
  destruct (N.eqb_spec x c_colon) as [->|]; [exfalso; apply Hn; now left | reflexivity].
Qed.

Lemma split_dcolon_app l x :
  ~ In c_colon l ->
  split_dcolon (l ++ x) = match split_dcolon x with Some (a, b) => Some (l ++ a, b) | None => None end.
Proof.
  induction l as [|y l IH]; intros Hn; cbn [app].
  - destruct (split_dcolon x) as [[a b]|]; reflexivity.
  - assert (Hy : (y =? c_colon) = false) by (apply N.eqb_neq; intros ->; apply Hn; now left).
    assert (Hl : ~ In c_colon l) by (intros H; apply Hn; now right).
    destruct (l ++ x) as [|z t'] eqn:E.
    + destruct l; [|discriminate]. cbn in E. subst x. reflexivity.
    + rewrite split_dcolon_cons, Hy. cbn [andb]. rewrite (IH Hl).
      destruct (split_dcolon x) as [[a b]|]; reflexivity.
Qed.

Lemma strip_prefix_spec p s r : strip_prefix p s = Some r -> s = p ++ r.
Proof.
  revert s; induction p as [|a p IH]; intros s; cbn.
  - intros H; now injection H as <-.
  - destruct s as [|b s']; [discriminate|]. destruct (N.eqb_spec a b) as [->|]; [|discriminate].
    intros H. now rewrite (IH _ H).
Qed.

Lemma strip_prefix_app p r : strip_prefix p (p ++ r) = Some r.
Proof. induction p as [|a p IH]; cbn; [reflexivity|]. now rewrite N.eqb_refl. Qed.

Lemma strip_any_spec names s r : strip_any names s = Some r -> exists n, In n names /\ s = n ++ r.
Proof.
  induction names as [|n rest IH]; cbn; [discriminate|].
  destruct (strip_prefix n s) as [t|] eqn:E.
  - intros H; injection H as <-. exists n. split; [now left | now apply strip_prefix_spec].
  - intros H. destruct (IH H) as (m & Hm & Hs). exists m. split; [now right | exact Hs].
Qed.

Lemma take_drop p s : s = take_while p s ++ drop_while p s.
Proof. induction s as [|x t IH]; cbn; [reflexivity|]. destruct (p x); cbn; [now rewrite <- IH | reflexivity]. Qed.

Lemma take_while_all p s : forallb p (take_while p s) = true.
Proof. induction s as [|x t IH]; cbn; [reflexivity|]. destruct (p x) eqn:E; cbn; [now rewrite E, IH | reflexivity]. Qed.

Lemma drop_while_head p s c t : drop_while p s = c :: t -> p c = false.
Proof.
  induction s as [|x s IH]; cbn; [discriminate|].
  destruct (p x) eqn:E; [exact IH|]. intros H; injection H as <- _. exact E.
Qed.

Lemma take_drop_app (p : N -> bool) a b :
  forallb p a = true -> match b with [] => True | c :: _ => p c = false end ->
  take_while p (a ++ b) = a /\ drop_while p (a ++ b) = b.
Proof.
  intros Ha Hb. induction a as [|x a IH]; cbn [app].
  - destruct b as [|c t]; [split; reflexivity|]. cbn. rewrite Hb. split; reflexivity.
  - cbn in Ha. apply andb_true_iff in Ha as [Hx Ha]. cbn. rewrite Hx.
    destruct (IH Ha) as [-> ->]. split; reflexivity.
Qed.

Lemma drop_while_all p a : forallb p a = true -> drop_while p a = [].
Proof. intros H. rewrite <- (app_nil_r a). now apply take_drop_app. Qed.

Lemma drop_while_stop p a c t : forallb p a = true -> p c = false -> drop_while p (a ++ c :: t) = c :: t.
Proof. intros Ha Hc. now apply take_drop_app. Qed.

Lemma strip_nl_cases s : s = strip_nl s \/ s = strip_nl s ++ [c_nl].
Proof.
  induction s as [|x t IH]; [now left|]. cbn [strip_nl]. destruct t as [|y t'].
  - destruct (N.eqb_spec x c_nl) as [->|]; [right; reflexivity | now left].
  - destruct IH as [IH|IH]; [left | right]; cbn [app]; now rewrite <- IH.
Qed.

Lemma strip_nl_id s : ~ In c_nl s -> strip_nl s = s.
Proof.
  intros Hn. destruct (strip_nl_cases s) as [E|E]; [now symmetry|].
  exfalso. apply Hn. rewrite E. apply in_or_app. right. now left.
Qed.

Lemma str_leb_total a b : str_leb a b = false -> str_leb b a = true.
Proof.
  revert b; induction a as [|x a IH]; intros [|y b]; cbn; try discriminate; try reflexivity.
  destruct (N.ltb_spec x y) as [H1|H1]; [discriminate|].
  destruct (N.ltb_spec y x) as [H2|H2]; [reflexivity|].
  intros H. destruct (N.ltb_spec y x); [lia|]. destruct (N.ltb_spec x y); [lia|]. now apply IH.
Qed.

Fixpoint sorted (l : list str) : Prop :=
  match l with
  | [] => True
  | x :: r => match r with [] => True | y :: _ => str_leb x y = true end /\ sorted r
  end.

Lemma insert_sorted_in x l y : In y (insert_sorted x l) <-> In y (x :: l).
Proof.
  induction l as [|z r IH]; cbn; [tauto|].
  destruct (str_leb x z); cbn; [|rewrite IH; cbn]; tauto.
Qed.

Lemma sort_in l y : In y (sort_strs l) <-> In y l.
Proof.
  induction l as [|x r IH]; cbn; [tauto|]. rewrite insert_sorted_in. cbn. now rewrite IH.
Qed.

Lemma insert_sorted_sorted x l : sorted l -> sorted (insert_sorted x l).
Proof.
  induction l as [|z r IH]; intros Hs; cbn; [auto|].
  destruct (str_leb x z) eqn:E.
  - cbn. split; [exact E | exact Hs].
  - destruct Hs as [Hz Hr]. specialize (IH Hr).
    cbn. split; [|exact IH].
    destruct r as [|w r']; cbn.
    + now apply str_leb_total.
    + destruct (str_leb x w); [now apply str_leb_total | exact Hz].
Qed.

Lemma sort_sorted l : sorted (sort_strs l).
Proof. induction l as [|x r IH]; cbn; [exact I | now apply insert_sorted_sorted]. Qed.

Lemma sort_of_sorted l : sorted l -> sort_strs l = l.
Proof.
  induction l as [|x r IH]; intros Hs; [reflexivity|].
  change (sort_strs (x :: r)) with (insert_sorted x (sort_strs r)).
  destruct Hs as [Hx Hr]. rewrite (IH Hr).
  destruct r as [|y r']; cbn; [reflexivity|]. now rewrite Hx.
Qed.

Lemma sort_nonnil l : l <> [] -> sort_strs l <> [].
Proof.
  destruct l as [|x r]; [congruence|]. intros _ H.
  assert (Hin : In x (sort_strs (x :: r))) by (apply sort_in; now left). now rewrite H in Hin.
Qed.

Lemma forallb_sort f l : forallb f (sort_strs l) = forallb f l.
Proof.
  apply eq_true_iff_eq. rewrite !forallb_forall.
  split; intros H x Hx; apply H; now apply sort_in.
Qed.
