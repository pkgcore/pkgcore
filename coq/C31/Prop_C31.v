From Coq Require Import List NArith.
Import ListNotations.
From Verif Require Import C31.Model_C31 C31.Spec_C31 C31.Proofs_C31 C31.Roundtrip_C31.

(* For ANY environment mapping (distinct keys that are shell names; values text without NUL or
   lists of such text; the non-exported marker a string), any Unicode classification of the
   non-ASCII code points and any set of readonly names: generation succeeds, the generated text
   is inside the modelled bash fragment, and after evaluating it every shell variable is exactly
   what the statement demands (value, array-ness, exported unless marked; readonly names and the
   marker itself are not transferred). *)
Theorem env_roundtrip : forall U ro e,
  env_ok e ->
  exists text log,
    generate_env_str U ro e = inr text /\ bash_eval text = Some log /\
    forall k, final_lookup k log = expected_lookup ro e k.
Proof.
  intros U ro e Hok. destruct (generate_ok U ro e Hok) as (text & G & B).
  exists text, (the_log ro e). repeat split; [exact G | exact B |].
  intro k. apply option_ext. intros [bv ex].
  rewrite (final_lookup_In k _ bv ex (the_log_nodup ro e Hok)). apply the_log_expected. exact Hok.
Qed.
Print Assumptions env_roundtrip.

(* inline transfer: the reader consumes exactly the bytes written for the payload; what the
   Python side writes next (rest) is what the daemon reads next *)
Theorem framing_in_sync : forall data rest,
  reader (frame data ++ rest) = Some (encode data, rest).
Proof.
  intros data rest. unfold frame.
  rewrite encode_line by (exact hdr_bytes_line || apply digits_ascii_line, dec_digits).
  rewrite <- app_assoc. apply reader_counted.
Qed.
Print Assumptions framing_in_sync.

(* transfer through a file: the command line is consumed exactly (the path has no newline and
   is ASCII here; the data does not travel on the channel at all) *)
Theorem framing_file_in_sync : forall path rest,
  ascii_line path -> reader_file (frame_file path ++ rest) = Some (path, rest).
Proof.
  intros path rest P. unfold frame_file.
  rewrite (encode_line HDR_FILE path [] hdr_file_line P : encode (HDR_FILE ++ path ++ [c_nl]) = _).
  rewrite <- app_assoc. apply reader_file_line. exact P.
Qed.
Print Assumptions framing_file_in_sync.

(* env_roundtrip and the framing statement side by side, for each way of sending *)
Theorem send_env_inline_exact : forall U ro e rest,
  env_ok e ->
  exists text log,
    generate_env_str U ro e = inr text /\
    reader (frame text ++ rest) = Some (encode text, rest) /\
    bash_eval text = Some log /\
    forall k, final_lookup k log = expected_lookup ro e k.
Proof.
  intros U ro e rest Hok. destruct (env_roundtrip U ro e Hok) as (text & log & G & B & H).
  exists text, log. repeat split; try assumption. apply framing_in_sync.
Qed.
Print Assumptions send_env_inline_exact.

Theorem send_env_file_exact : forall U ro e path rest,
  env_ok e -> ascii_line path ->
  exists text log,
    generate_env_str U ro e = inr text /\
    reader_file (frame_file path ++ rest) = Some (path, rest) /\
    bash_eval text = Some log /\
    forall k, final_lookup k log = expected_lookup ro e k.
Proof.
  intros U ro e path rest Hok Hp. destruct (env_roundtrip U ro e Hok) as (text & log & G & B & H).
  exists text, log. repeat split; try assumption. apply framing_file_in_sync. exact Hp.
Qed.
Print Assumptions send_env_file_exact.

(* what was wrong before the repair (fixes/C31-env-quoting.patch) *)
(* (i) a scalar with a quote and a backslash-n arrives with a real newline *)
Theorem old_scalar_refuted : ~ roundtrip_statement generate_env_str_old.
Proof.
  intro H.
  assert (Hok : env_ok [([65], PStr [105; 116; 39; 115; 32; 92; 110])]%N)
    by (apply env_okb_sound; reflexivity).
  destruct (H U0 [] _ Hok) as (text & log & G & B & L).
  vm_compute in G. injection G as <-. vm_compute in B. injection B as <-.
  specialize (L [65]%N). vm_compute in L. discriminate L.
Qed.
Print Assumptions old_scalar_refuted.

(* (ii) a list element containing a double quote: the text is not even a complete word *)
Theorem old_list_refuted :
  exists U ro e, env_ok e /\
    exists text, generate_env_str_old U ro e = inr text /\ bash_eval text = None.
Proof.
  exists U0, [], [([76], PList [[113; 34; 120]])]%N. split; [apply env_okb_sound; reflexivity|].
  exists [101;120;112;111;114;116;32; 76;61;40; 91;48;93;61;34; 113;34;120; 34; 41]%N.
  split; vm_compute; reflexivity.
Qed.
Print Assumptions old_list_refuted.

(* (iii) the count sent before the repair (characters) loses synchronisation on non-ASCII data *)
Theorem framing_charcount_refuted :
  exists data rest, reader (frame_old data ++ rest) <> Some (encode data, rest).
Proof. exists [65; 61; 233]%N, [97; 10]%N. vm_compute. discriminate. Qed.
Print Assumptions framing_charcount_refuted.
