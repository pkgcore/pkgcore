(* Prop_C22.v — the property theorems of C22; the lemmas they rest on are in Proofs_C22.v. *)
From Coq Require Import List ZArith Bool.
Import ListNotations.
From Verif Require Import C22.Model_C22 C22.Spec_C22 C22.Proofs_C22.

(* POSIX normalisation (incl. the two-leading-slashes rule) is idempotent: stored keys are stable *)
Theorem normpath_idempotent : forall p, normpath (normpath p) = normpath p.
Proof. exact normpath_idempotent_proof. Qed.
Print Assumptions normpath_idempotent.

(* every constructor and every operation (also one that raises half-way through an in-place bulk
   update) keeps the keys unique and normalised *)
Theorem ops_preserve_wf :
  (forall m l, wf (mk_cset m l)) /\ forall s o, wf s -> wf (snd (step s o)).
Proof. split; [exact wf_mk_cset|exact step_wf]. Qed.
Print Assumptions ops_preserve_wf.

(* lookup: by fs object or by path string in ANY spelling = map lookup at the normalised path *)
Theorem lookup_refines : forall s it,
  contains s it = (match abs s (norm_key it) with Some _ => true | None => false end)
  /\ getitem s it = (match abs s (norm_key it) with Some e => Ok e | None => Er KeyError end).
Proof. intros s it. unfold contains, getitem, abs. rewrite dhas_dget. split; reflexivity. Qed.
Print Assumptions lookup_refines.

Theorem lookup_spelling : forall s p q e, wf_entry e ->
  (normpath p = normpath q -> getitem s (IS p) = getitem s (IS q) /\ contains s (IS p) = contains s (IS q))
  /\ (normpath p = eloc e -> getitem s (IS p) = getitem s (IE e) /\ contains s (IS p) = contains s (IE e))
  /\ getitem s (IS (eloc e)) = getitem s (IE e).
Proof.
  intros s p q e He. unfold getitem, contains; cbn. split; [|split]; [intros -> ..|rewrite He]; auto.
Qed.
Print Assumptions lookup_spelling.

Theorem add_refines : forall s e,
  (mut s = false -> add s e = Er AttributeError)
  /\ (mut s = true -> exists s', add s e = Ok s' /\ mut s' = true /\ same_map (abs s') (M_set e (abs s))).
Proof.
  intros s e. unfold add. split; intros Hm; rewrite Hm; [reflexivity|].
  eexists; split; [reflexivity|]. split; [exact Hm|]. intros p. apply dget_dset.
Qed.
Print Assumptions add_refines.

Theorem remove_refines : forall s it,
  (mut s = false -> remove s it = Er AttributeError)
  /\ (mut s = true ->
      match remove s it with
      | Ok s' => dom (abs s) (norm_key it) /\ mut s' = true /\ same_map (abs s') (M_remove (norm_key it) (abs s))
      | Er k => k = KeyError /\ abs s (norm_key it) = None
      end).
Proof.
  intros s it. unfold remove. split; intros Hm; rewrite Hm; [reflexivity|]. cbn [negb].
  rewrite dhas_dget. unfold dom. change (key_of it) with (norm_key it). fold (abs s (norm_key it)).
  destruct (abs s (norm_key it)); [|auto].
  split; [discriminate|]. split; [exact Hm|]. intros p. apply dget_ddel.
Qed.
Print Assumptions remove_refines.

(* discard, as repaired by fixes/C22-discard-normpath.patch *)
Theorem discard_refines : forall s it,
  same_map (abs (discard s it)) (M_remove (norm_key it) (abs s)) /\ mut (discard s it) = mut s.
Proof. intros s it. split; [|reflexivity]. intros p. apply dget_ddel. Qed.
Print Assumptions discard_refines.
(* ... and as it was on the pinned tree *)
Theorem discard_pinned_refuted : ~ discard_pinned_full_statement.
Proof.
  intros H. specialize (H w_set (IS [47;97;47;47;98]%N) w_set_wf [47;97;47;98]%N).
  vm_compute in H. discriminate.
Qed.
Print Assumptions discard_pinned_refuted.
Theorem discard_pinned_partial : forall s it,
  (match it with IS p => normpath p = p | IE _ => True end) ->
  same_map (abs (discard_pinned s it)) (M_remove (norm_key it) (abs s)).
Proof.
  intros s it Hn p. unfold abs, M_remove, discard_pinned; cbn. rewrite dget_ddel.
  destruct it; cbn; [reflexivity|]. rewrite Hn. reflexivity.
Qed.
Print Assumptions discard_pinned_partial.

(* difference / intersection_update / issubset / isdisjoint: full statements refuted (known class
   raw-in-container), proved for every argument outside the class *)
Theorem difference_refuted : ~ difference_full_statement.
Proof.
  intros H. destruct (H w_set (AList [IE w_ab]) w_set_wf w_list_wf [47;97;47;98]%N) as [H1 _].
  specialize (H1 w_list_key). vm_compute in H1. discriminate.
Qed.
Print Assumptions difference_refuted.
Theorem difference_partial : forall s a, wf s -> raw_in_class a = false ->
  is_restrict false (arg_keys a) (abs s) (abs (difference s a)) /\ mut (difference s a) = mut s.
Proof. intros s a W Hc. split; [|reflexivity]. exact (restrict_by_loc_in_arg false s a W Hc). Qed.
Print Assumptions difference_partial.

Theorem intersection_update_refuted : ~ intersection_update_full_statement.
Proof.
  intros H. destruct (H w_set (AList [IE w_ab]) w_set_wf w_list_wf eq_refl) as (s' & E & R).
  vm_compute in E. injection E as <-. destruct (R [47;97;47;98]%N) as [H1 _].
  specialize (H1 w_list_key). vm_compute in H1. discriminate.
Qed.
Print Assumptions intersection_update_refuted.
Theorem intersection_update_partial : forall s a, wf s -> raw_in_class a = false ->
  (mut s = false -> intersection_update s a = Er TypeError)
  /\ (mut s = true -> exists s', intersection_update s a = Ok s' /\ is_restrict true (arg_keys a) (abs s) (abs s')).
Proof.
  intros s a W Hc. unfold intersection_update. split; intros ->; [reflexivity|].
  eexists; split; [reflexivity|]. exact (restrict_by_loc_in_arg true s a W Hc).
Qed.
Print Assumptions intersection_update_partial.

Theorem issubset_refuted : ~ issubset_full_statement.
Proof.
  intros H. destruct (H w_set (AList [IE w_ab]) w_set_wf w_list_wf) as [_ H2].
  assert (X : issubset w_set (AList [IE w_ab]) = true).
  { apply H2. intros p Hp. apply dom_iff in Hp as (e & [<-|[]] & <-). exact w_list_key. }
  vm_compute in X. discriminate.
Qed.
Print Assumptions issubset_refuted.
Theorem issubset_partial : forall s a, wf s -> raw_in_class a = false ->
  (issubset s a = true <-> forall p, dom (abs s) p -> arg_keys a p).
Proof.
  intros s a W Hc. unfold issubset. rewrite forallb_forall. split.
  - intros H p Hp. apply dom_iff in Hp as (e & Hin & <-). apply (loc_in_arg_ents s a e W Hc Hin), H, Hin.
  - intros H e Hin. apply (loc_in_arg_ents s a e W Hc Hin), H, dom_iff. eauto.
Qed.
Print Assumptions issubset_partial.

Theorem isdisjoint_refuted : ~ isdisjoint_full_statement.
Proof.
  intros H. destruct (H w_set (AList [IE w_ab]) w_set_wf w_list_wf) as [H1 _].
  apply (H1 eq_refl [47;97;47;98]%N w_dom w_list_key).
Qed.
Print Assumptions isdisjoint_refuted.
Theorem isdisjoint_partial : forall s a, wf s -> raw_in_class a = false ->
  (isdisjoint s a = true <-> forall p, dom (abs s) p -> ~ arg_keys a p).
Proof.
  intros s a W Hc. unfold isdisjoint. rewrite negb_true_iff, <- not_true_iff_false, existsb_exists. split.
  - intros H p Hp HK. apply dom_iff in Hp as (e & Hin & <-). apply H. exists e. split; [exact Hin|].
    apply (loc_in_arg_ents s a e W Hc Hin), HK.
  - intros H (e & Hin & L). apply (H (eloc e)); [apply dom_iff; eauto|]. apply (loc_in_arg_ents s a e W Hc Hin), L.
Qed.
Print Assumptions isdisjoint_partial.

(* difference_update and issuperset normalise: full, for every kind of argument *)
Theorem difference_update_refines : forall s a,
  (mut s = false -> difference_update s a = Er TypeError)
  /\ (mut s = true -> exists s', difference_update s a = Ok s' /\ mut s' = true
                      /\ is_restrict false (arg_keys a) (abs s) (abs s')).
Proof.
  intros s a. unfold difference_update. split; intros Hm; rewrite Hm; [reflexivity|].
  eexists; split; [reflexivity|]. split; [exact Hm|]. intros p. unfold abs; cbn.
  rewrite dget_fold_ddel. pose proof (arg_keys_existsb a p) as K.
  destruct (existsb _ (arg_items a)); split; intros HK; try reflexivity.
  - exfalso. apply HK. apply K. reflexivity.
  - apply K in HK. discriminate.
Qed.
Print Assumptions difference_update_refines.

Theorem issuperset_refines : forall s a,
  issuperset s a = true <-> forall p, arg_keys a p -> dom (abs s) p.
Proof.
  intros s a. unfold issuperset. rewrite forallb_forall. split.
  - intros H p (it & Hin & <-). apply dom_iff, dhas_iff, (H _ Hin).
  - intros H it Hin. apply dhas_iff, dom_iff, H. exists it. auto.
Qed.
Print Assumptions issuperset_refines.

(* union: self wins on common paths; a path string among the argument raises TypeError *)
Theorem union_refines : forall s a,
  match all_entries (arg_items a) with
  | Some es => exists r, union s a = Ok r /\ mut r = true
                         /\ (wf s -> same_map (abs r) (M_union (abs s) (ents_map es)))
  | None => union s a = Er TypeError
  end.
Proof.
  intros s a. unfold union. destruct (all_entries (arg_items a)) as [es|]; [|reflexivity].
  eexists; split; [reflexivity|]. split; [reflexivity|]. intros [ND _] p. unfold abs, M_union; cbn.
  rewrite dget_dupdate, dget_dupdate_nil, (ents_map_nodup _ _ ND). destruct (dget p (ents s)); [reflexivity|].
  destruct (ents_map es p); reflexivity.
Qed.
Print Assumptions union_refines.

(* intersection: right key set, but the ARGUMENT's objects (known class intersection-arg-objects) *)
Theorem intersection_refines : forall s es,
  exists r, intersection s (AIter (map IE es)) = Ok r /\ intersection s (AList (map IE es)) = Ok r
            /\ mut r = mut s
            /\ same_map (abs r) (M_inter (ents_map es) (abs s))
            /\ (forall p, dom (abs r) p <-> dom (abs s) p /\ arg_keys (AIter (map IE es)) p).
Proof.
  intros s es. eexists. split; [apply intersection_ents|]. split; [apply (intersection_ents s es)|].
  split; [reflexivity|]. split; [apply intersection_map|].
  intros p. unfold dom. rewrite (intersection_map s es p), <- ents_map_dom. apply dom_M_inter.
Qed.
Print Assumptions intersection_refines.
Theorem intersection_refuted : ~ intersection_full_statement.
Proof.
  intros H. specialize (H w_set _ _ w_set_wf w_dir_wf eq_refl [47;97;47;98]%N).
  vm_compute in H. discriminate.
Qed.
Print Assumptions intersection_refuted.
Theorem intersection_partial : forall s es r,
  (forall p e e', abs s p = Some e -> ents_map es p = Some e' -> e = e') ->
  intersection s (AIter (map IE es)) = Ok r -> same_map (abs r) (M_inter (abs s) (ents_map es)).
Proof.
  intros s es r Hag E. destruct (intersection_refines s es) as (r' & E' & _ & _ & M & _).
  rewrite E in E'. injection E' as <-. intros p. rewrite (M p). unfold M_inter.
  destruct (abs s p) eqn:A, (ents_map es p) eqn:B; try reflexivity. f_equal. symmetry. eapply Hag; eauto.
Qed.
Print Assumptions intersection_partial.

(* symmetric difference (and its in-place variant) with another set or an iterator of fs objects;
   given a LIST it is refuted (known class symdiff-list-class-equality) *)
Theorem symdiff_refines : forall s,
  (forall o, exists r, symmetric_difference s (ACs o) = Ok r /\ mut r = mut s
                       /\ same_map (abs r) (M_symdiff (abs s) (abs o))
                       /\ symmetric_difference_update s (ACs o) = (if mut s then Ok r else Er TypeError))
  /\ (forall es, exists r, symmetric_difference s (AIter (map IE es)) = Ok r /\ mut r = mut s
                       /\ same_map (abs r) (M_symdiff (abs s) (ents_map es))
                       /\ symmetric_difference_update s (AIter (map IE es)) = (if mut s then Ok r else Er TypeError))
  /\ (forall l, all_entries l = None -> symmetric_difference s (AIter l) = Er ValueError).
Proof.
  intros s. split; [|split].
  - intros o. destruct (symdiff_with_spec (ents s) (ACs o) (ents o)) as (d' & E & M); [reflexivity|reflexivity|].
    destruct (symdiff_lift s (ACs o) d' E). exists (with_ents s d'). auto.
  - intros es. destruct (symdiff_with_spec (ents s) (ACs {| mut := true; ents := dupdate [] es |}) (dupdate [] es))
      as (d' & E & M); [reflexivity|reflexivity|].
    rewrite <- symdiff_core_iter in E. destruct (symdiff_lift s _ d' E). exists (with_ents s d').
    repeat split; try assumption. intros p. unfold abs at 1; cbn. rewrite (M p). unfold M_symdiff; cbn.
    rewrite dget_dupdate_nil. reflexivity.
  - intros l H. unfold symmetric_difference, symdiff_core. rewrite H. reflexivity.
Qed.
Print Assumptions symdiff_refines.
Theorem symdiff_list_refuted : ~ symdiff_full_statement.
Proof.
  intros H. specialize (H w_set _ w_set w_set_wf w_dir_wf eq_refl [47;97;47;98]%N).
  vm_compute in H. discriminate.
Qed.
Print Assumptions symdiff_list_refuted.
(* ... and proved for every list outside the class (no path of self held with another class) *)
Theorem symdiff_list_partial : forall s es,
  wf s -> NoDup (map eloc es) -> symdiff_list_class s es = false ->
  exists r, symmetric_difference s (AList (map IE es)) = Ok r /\ mut r = mut s
            /\ same_map (abs r) (M_symdiff (abs s) (ents_map es))
            /\ symmetric_difference_update s (AList (map IE es)) = (if mut s then Ok r else Er TypeError).
Proof.
  intros s es [ND _] NDe Hc.
  destruct (symdiff_with_spec (ents s) (AList (map IE es)) es) as (d' & E & M); [reflexivity| |].
  { intros x Hx. apply (entry_in_list_spec (ents s)); assumption. }
  destruct (symdiff_lift s (AList (map IE es)) d' E). exists (with_ents s d').
  repeat split; try assumption. intros p. unfold abs at 1; cbn. rewrite (M p). unfold M_symdiff.
  rewrite (ents_map_nodup es p NDe). reflexivity.
Qed.
Print Assumptions symdiff_list_partial.

(* relocation replaces the old prefix with the new one *)
Theorem relocate_prefix : forall co cn cr n,
  Forall plainc co -> Forall plainc cn -> Forall plainc cr ->
  reloc ((SL :: join_sl co) ++ repeat SL n) (SL :: join_sl cn) (SL :: join_sl (co ++ cr))
  = SL :: join_sl (cn ++ cr).
Proof. intros co cn cr n Hco Hcn Hcr. unfold reloc. rewrite reloc_rest by assumption. apply normpath_pjoin_root; assumption. Qed.
Print Assumptions relocate_prefix.
Theorem change_offset_image : forall s old new,
  (forall q e', abs (change_offset s old new) q = Some e' ->
     exists e, In e (ents s) /\ e' = with_loc e (reloc old new (eloc e)) /\ q = eloc e')
  /\ (forall e, In e (ents s) -> dom (abs (change_offset s old new)) (normpath (reloc old new (eloc e))))
  /\ mut (change_offset s old new) = true.
Proof.
  intros s old new. repeat split.
  - intros q e' H. rewrite abs_change_offset in H. apply ents_map_some in H as [Hin Hq].
    apply in_map_iff in Hin as (e & <- & Hin). exists e. auto.
  - intros e Hin G. rewrite abs_change_offset in G. apply ents_map_none in G. apply G.
    rewrite map_map. apply in_map_iff. exists e. auto.
Qed.
Print Assumptions change_offset_image.

Theorem child_nodes_exact : forall s start p e,
  abs (child_nodes s start) p = Some e
  <-> abs s p = Some e /\ exists rest, p = rstrip_sl (normpath start) ++ SL :: rest.
Proof.
  intros s start p e. unfold abs, child_nodes; cbn.
  rewrite (dget_filter_key (starts_with (child_prefix start))), <- child_prefix_iff.
  destruct (starts_with _ p); intuition discriminate.
Qed.
Print Assumptions child_nodes_exact.

(* completing missing directories adds exactly the absent proper ancestors other than "/":
   soundness (old entries kept; every new entry is a directory at such an ancestor) ... *)
Theorem missing_dirs_sound_partial : forall s tag, missing_sound s (add_missing_directories s tag) tag.
Proof.
  intros s tag. destruct (missing_dirs_inv (ents s)) as [Hinv Hroot]. unfold minv in Hinv. rewrite Forall_forall in Hinv.
  repeat split.
  - intros p e G. rewrite abs_add_missing. destruct (ents_map _ p) as [e'|] eqn:G'; [|exact G].
    apply new_dir_some in G' as (x & Hx & _ & ->). destruct (Hinv _ Hx) as [Hd _].
    unfold abs in G. rewrite dhas_dget, G in Hd. discriminate.
  - intros q e' Gn G. rewrite abs_add_missing, Gn in G. destruct (ents_map _ q) as [e''|] eqn:G'; [|discriminate].
    injection G as ->. apply new_dir_some in G' as (x & Hx & -> & ->). exists x. repeat split.
    + intros ->. contradiction.
    + apply (Hinv _ Hx).
Qed.
Print Assumptions missing_dirs_sound_partial.
(* ... completeness (every such ancestor is present afterwards) ... *)
Theorem missing_dirs_complete : forall s tag, wf s -> missing_complete s (add_missing_directories s tag).
Proof.
  intros s tag W e a Hin Ha Hroot G. rewrite abs_add_missing in G.
  destruct (ents_map _ (normpath a)) eqn:G'; [discriminate|].
  destruct (missing_core (ents s) W e a Hin Ha) as [HM|Hd].
  - apply ents_map_none in G'. apply G'. rewrite map_map. apply in_map_iff. exists a. split; [reflexivity|].
    apply filter_In. split; [exact HM|]. apply negb_true_iff, str_eqb_false, Hroot.
  - rewrite dhas_dget in Hd. unfold abs in G. rewrite G in Hd. discriminate.
Qed.
Print Assumptions missing_dirs_complete.
(* ... and the exact statement *)
Theorem missing_dirs_exact : forall s tag, wf s ->
  missing_sound s (add_missing_directories s tag) tag /\ missing_complete s (add_missing_directories s tag).
Proof. intros s tag W. split; [apply missing_dirs_sound_partial|apply missing_dirs_complete, W]. Qed.
Print Assumptions missing_dirs_exact.
(* an iterated dirname of a normalised path is normalised (or empty, for relative paths) *)
Theorem ancestor_normal_form : forall p a, normpath p = p -> ancestor p a -> normpath a = a \/ a = [].
Proof. exact ancestor_normal. Qed.
Print Assumptions ancestor_normal_form.
