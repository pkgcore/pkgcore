From Coq Require Import List.
Import ListNotations.
From Verif Require Import C48.Model_C48 C48.Spec_C48 C48.Proofs_C48.

(* validate_entry decides exactly the validity of the statement: the recorded validation value
   of the ebuild is the current one, and (no eclasses recorded, or INHERIT is present and every
   recorded eclass is still visible with every recorded value equal) *)
Theorem validate_iff_valid : forall lay w e, validate lay w e = true <-> spec_valid lay w e.
Proof. exact validate_spec. Qed.
Print Assumptions validate_iff_valid.

Theorem stacked_lookup_first : forall st n f, ec_lookup st n = Some f <-> visible st n f.
Proof. exact ec_lookup_visible. Qed.
Print Assumptions stacked_lookup_first.

(* for ALL repositories and cache tuples: the read is served from cache i with payload p
   exactly when cache i is the first cache holding a valid entry (and p is its payload) *)
Theorem used_iff_valid : forall w cs i p,
  fst (get_metadata w cs) = Used i p <->
  exists pre c post e,
    cs = pre ++ c :: post /\ length pre = i /\ c_slot c = Entry e /\
    spec_valid (c_lay c) w e /\ c_payload e = p /\ Forall (fun c' => ~ cache_valid w c') pre.
Proof.
  intros w cs i p. split.
  - intro H. destruct (get_metadata_cases w cs) as [[_ E]|(pre & c & e & post & -> & Hp & Es & Hv & E)];
      rewrite E in H; [discriminate|]. injection H as <- <-. exists pre, c, post, e. auto 7.
  - intros (pre & c & post & e & -> & <- & Es & Hv & <- & Hp).
    rewrite (get_metadata_used w pre c e post); auto. now apply validate_iff_valid.
Qed.
Print Assumptions used_iff_valid.

Theorem regen_iff_none_valid : forall w cs p,
  fst (get_metadata w cs) = Regen p <-> p = w_payload w /\ Forall (fun c => ~ cache_valid w c) cs.
Proof.
  intros w cs p. destruct (get_metadata_cases w cs) as [[Ha E]|(pre & c & e & post & -> & Hp & Es & Hv & E)];
    rewrite E; cbn [fst]; split.
  - intro H. injection H as <-. auto.
  - now intros [-> _].
  - discriminate.
  - intros [_ H]. apply Forall_app in H as [_ H]. inversion H as [|? ? Hc _]. destruct Hc. now exists e.
Qed.
Print Assumptions regen_iff_none_valid.

(* the statement for a single cache, as in the property text *)
Theorem single_cache_used_iff_valid : forall w c,
  (exists p, fst (get_metadata w [c]) = Used 0 p) <-> cache_valid w c.
Proof.
  intros w c. split.
  - intros [p H]. apply used_iff_valid in H as (pre & c' & post & e & E & L & Es & Hv & _).
    destruct pre; [|discriminate]. injection E as <- _. now exists e.
  - intros [e [Es Hv]]. exists (c_payload e). apply used_iff_valid. exists [], c, [], e. auto 7.
Qed.
Print Assumptions single_cache_used_iff_valid.

(* after a regeneration no cache that is not read-only keeps a stale entry (each holds the fresh entry,
   nothing, or the unreadable file it had), read-only caches are untouched, and the first
   writable cache holds the regenerated entry *)
Theorem stale_replaced : forall w cs p cs',
  get_metadata w cs = (Regen p, cs') ->
  Forall2 (regen_rel w) cs cs' /\
  forall pre c post, cs = pre ++ c :: post ->
    Forall (fun x => writable x = false) pre -> writable c = true ->
    exists c', nth_error cs' (length pre) = Some c' /\ c_slot c' = Entry (fresh (c_lay c) w).
Proof.
  intros w cs p cs' H.
  destruct (get_metadata_cases w cs) as [[_ E]|(pre & c & e & post & _ & _ & _ & _ & E)];
    rewrite E in H; [|discriminate]. injection H as _ <-. split; [apply store_first_regen|].
  intros pre c post ->. apply store_first_nth.
Qed.
Print Assumptions stale_replaced.

(* when cache i is used: the caches before it lost their stale entries if writable, the used
   cache and everything after it are untouched *)
Theorem used_keeps : forall w cs i p cs',
  get_metadata w cs = (Used i p, cs') ->
  exists pre c post pre',
    cs = pre ++ c :: post /\ cs' = pre' ++ c :: post /\ length pre = i /\ Forall2 passed_rel pre pre'.
Proof.
  intros w cs i p cs' H.
  destruct (get_metadata_cases w cs) as [[_ E]|(pre & c & e & post & -> & _ & _ & _ & E)];
    rewrite E in H; [discriminate|]. injection H as <- _ <-.
  exists pre, c, post, (map purge pre). auto using purge_passed_all.
Qed.
Print Assumptions used_keeps.

(* when the regenerated entry is valid ([fresh_ok]: it has INHERIT if it lists eclasses) and some
   cache is writable, the next read is served from the cache with the regenerated metadata *)
Theorem reread_uses_cache : forall w cs p cs',
  get_metadata w cs = (Regen p, cs') -> existsb writable cs = true -> fresh_ok w ->
  exists i, fst (get_metadata w cs') = Used i (w_payload w).
Proof.
  intros w cs p cs' H.
  destruct (get_metadata_cases w cs) as [[Ha E]|(pre & c & e & post & _ & _ & _ & _ & E)];
    rewrite E in H; [|discriminate]. injection H as _ <-. now apply regen_then_used.
Qed.
Print Assumptions reread_uses_cache.
