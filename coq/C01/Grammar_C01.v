(* Grammar_C01.v — the valid versions of the theorems ([is_version]: printed well-formed ASTs) are
   exactly the strings the model of isvalid_version_re accepts ([valid_version_core]; the regex
   additionally tolerates one trailing newline, [valid_version]). *)
From Coq Require Import List NArith Bool.
Import ListNotations.
From Verif Require Import Base.Val gen.Tables_C01 C01.Model_C01 C01.Spec_C01 C01.Proofs_C01.

Fixpoint join_sep (c : N) (l : list str) : str :=
  match l with
  | [] => []
  | [x] => x
  | x :: l' => x ++ c :: join_sep c l'
  end.

Lemma split_join c s : join_sep c (split_on c s) = s.
Proof.
  induction s as [|x s IH]; [reflexivity|]. cbn [split_on].
  destruct (N.eqb_spec x c) as [->|Hx].
  - destruct (split_on c s) as [|h t] eqn:E; [exfalso; exact (split_nonempty c s E)|].
    change (join_sep c ([] :: h :: t)) with ([] ++ c :: join_sep c (h :: t)). rewrite IH. reflexivity.
  - destruct (split_on c s) as [|h t] eqn:E; [exfalso; exact (split_nonempty c s E)|].
    destruct t as [|h2 t2].
    + cbn in IH |- *. rewrite IH. reflexivity.
    + change (join_sep c ((x :: h) :: h2 :: t2)) with (x :: (h ++ c :: join_sep c (h2 :: t2))).
      change (join_sep c (h :: h2 :: t2)) with (h ++ c :: join_sep c (h2 :: t2)) in IH.
      rewrite IH. reflexivity.
Qed.

Lemma join_sep_cons c h l : join_sep c (h :: l) = h ++ concat (map (cons c) l).
Proof.
  revert h; induction l as [|x l IH]; intros h; [cbn; rewrite app_nil_r; reflexivity|].
  change (join_sep c (h :: x :: l)) with (h ++ c :: join_sep c (x :: l)). rewrite IH. reflexivity.
Qed.

Lemma join_dot_sep l : join_dot l = join_sep 46 l.
Proof. induction l as [|x [|y t] IH]; try reflexivity. cbn [join_dot join_sep] in *. rewrite IH. reflexivity. Qed.

Lemma valid_comps_ast l : valid_comps l = true ->
  exists ns lt, ns <> [] /\ forallb wf_digits ns = true
                /\ match lt with Some c => is_alpha c | None => true end = true
                /\ join_sep 46 l = join_dot ns ++ letter_str lt.
Proof.
  induction l as [|c l IH]; [discriminate|]. destruct l as [|c2 l2].
  - cbn [valid_comps]. intros H. apply andb_true_iff in H as [Hn H].
    destruct (all_digits c) eqn:D.
    + exists [c], None. repeat split; try discriminate.
      * cbn. unfold wf_digits. rewrite Hn, D. reflexivity.
      * cbn. rewrite app_nil_r. reflexivity.
    + cbn [orb] in H. apply andb_true_iff in H as [H H3]. apply andb_true_iff in H as [H1 H2].
      exists [removelast c], (Some (last c 0%N)). repeat split; try discriminate.
      * cbn. unfold wf_digits. rewrite H2, H3. reflexivity.
      * exact H1.
      * cbn. apply app_removelast_last. destruct c; discriminate.
  - intros H. change (valid_comps (c :: c2 :: l2)) with (negb (is_nil c) && all_digits c && valid_comps (c2 :: l2)) in H.
    apply andb_true_iff in H as [H H3]. apply andb_true_iff in H as [H1 H2].
    destruct (IH H3) as (ns & lt & Hne & Hd & Hl & Hj).
    exists (c :: ns), lt. repeat split; try discriminate; try assumption.
    + cbn. unfold wf_digits at 1. rewrite H1, H2, Hd. reflexivity.
    + change (join_sep 46 (c :: c2 :: l2)) with (c ++ 46%N :: join_sep 46 (c2 :: l2)). rewrite Hj.
      destruct ns as [|n1 ns']; [contradiction|].
      change (join_dot (c :: n1 :: ns')) with (c ++ 46%N :: join_dot (n1 :: ns')).
      rewrite <- app_assoc. reflexivity.
Qed.

Lemma strip_prefix_some p s d : strip_prefix p s = Some d -> s = p ++ d.
Proof.
  revert s; induction p as [|x p IH]; intros s H; cbn in H; [injection H as ->; reflexivity|].
  destruct s as [|y s]; [discriminate|]. destruct (N.eqb_spec x y) as [->|_]; [|discriminate].
  cbn. f_equal. apply IH; exact H.
Qed.

Lemma parse_suffix_in_some names s n d : parse_suffix_in names s = Some (n, d) ->
  In n names /\ s = n ++ d /\ all_digits d = true.
Proof.
  induction names as [|m names IH]; [discriminate|]. cbn [parse_suffix_in].
  destruct (strip_prefix m s) as [d'|] eqn:E.
  - destruct (all_digits d') eqn:D.
    + intros H; injection H as <- <-. repeat split; [left; reflexivity|apply strip_prefix_some; exact E|exact D].
    + intros H. destruct (IH H) as (H1 & H2 & H3). repeat split; [right|..]; assumption.
  - intros H. destruct (IH H) as (H1 & H2 & H3). repeat split; [right|..]; assumption.
Qed.

Lemma valid_suffix_ast s : valid_suffix s = true -> exists k d, all_digits d = true /\ s = kind_name k ++ d.
Proof.
  unfold valid_suffix. destruct (parse_suffix_in valid_suffix_names s) as [[n d]|] eqn:E; [|discriminate].
  intros _. apply parse_suffix_in_some in E as (Hin & Hs & Hd).
  (* depends on the regenerated list *)
  change valid_suffix_names with [kind_name Pre; kind_name P; kind_name Beta; kind_name Alpha; kind_name Rc] in Hin.
  cbn [In] in Hin.
  destruct Hin as [<-|[<-|[<-|[<-|[<-|[]]]]]]; eexists _, d; split; try exact Hd; exact Hs.
Qed.

Lemma valid_suffixes_ast l : forallb valid_suffix l = true ->
  exists sl, forallb (fun s : skind * str => all_digits (snd s)) sl = true /\ map print_suffix sl = l.
Proof.
  induction l as [|s l IH]; intros H; [exists []; split; reflexivity|].
  cbn in H. apply andb_true_iff in H as [H1 H2].
  destruct (valid_suffix_ast s H1) as (k & d & Hd & ->). destruct (IH H2) as (sl & Hs & <-).
  exists ((k, d) :: sl). split; [cbn [forallb snd]; rewrite Hd, Hs; reflexivity|reflexivity].
Qed.

Lemma valid_core_is_version v : valid_version_core v = true -> is_version v.
Proof.
  unfold valid_version_core. destruct (split_on 95 v) as [|h sf] eqn:E; [discriminate|].
  intros H. apply andb_true_iff in H as [H1 H2].
  destruct (valid_comps_ast _ H1) as (ns & lt & Hne & Hd & Hl & Hj).
  destruct (valid_suffixes_ast _ H2) as (sl & Hs & Hm).
  exists {| nums := ns; letter := lt; sufs := sl |}. split.
  - unfold wf_vast. cbn [nums letter sufs]. rewrite Hd, Hl, Hs.
    destruct ns; [contradiction|reflexivity].
  - unfold print_vast. cbn [nums letter sufs].
    rewrite <- (split_join 95 v), E, join_sep_cons.
    rewrite <- (split_join 46 h), Hj, <- Hm, map_map. unfold letter_str. rewrite app_assoc. reflexivity.
Qed.

Lemma valid_suffix_print k d : all_digits d = true -> valid_suffix (kind_name k ++ d) = true.
Proof. intros H. unfold valid_suffix. rewrite (parse_suffix_in_kind _ k d (or_intror eq_refl) H). reflexivity. Qed.

Lemma valid_comps_print ns lt :
  ns <> [] -> Forall (fun s => s <> [] /\ all_digits s = true) ns ->
  (forall c, lt = Some c -> is_alpha c = true) ->
  valid_comps (removelast ns ++ [last ns [] ++ letter_str lt]) = true.
Proof.
  induction ns as [|x t IH]; intros Hne F Hl; [contradiction|].
  inversion F as [|? ? [Hx1 Hx2] Ft]; subst.
  destruct t as [|y t'].
  - cbn [removelast last app valid_comps].
    assert (N1 : is_nil (x ++ letter_str lt) = false) by (destruct x; [contradiction|reflexivity]).
    rewrite N1. cbn [negb andb].
    destruct lt as [c|]; cbn [letter_str].
    + rewrite last_last, removelast_last, (Hl c eq_refl), Hx2.
      destruct x; [contradiction|]. cbn [is_nil negb andb]. apply orb_true_r.
    + rewrite app_nil_r, Hx2. reflexivity.
  - change (removelast (x :: y :: t')) with (x :: removelast (y :: t')).
    change (last (x :: y :: t') []) with (last (y :: t') []).
    cbn [app].
    assert (IH' := IH ltac:(discriminate) Ft Hl).
    destruct (removelast (y :: t') ++ [last (y :: t') [] ++ letter_str lt]) as [|z zs] eqn:E.
    + destruct (removelast (y :: t')); discriminate.
    + cbn [valid_comps]. rewrite Hx2. destruct x; [contradiction|]. cbn [is_nil negb andb]. exact IH'.
Qed.

Lemma is_version_valid_core v : is_version v -> valid_version_core v = true.
Proof.
  intros [a [W <-]]. apply wf_vast_wf in W. unfold valid_version_core.
  rewrite (print_vast_split a W). apply andb_true_iff. split.
  - rewrite (split_numpart a W).
    apply valid_comps_print; [exact (wf_ne a W)|exact (wf_nums a W)|exact (wf_letter a W)].
  - apply forallb_forall. intros s Hs. apply in_map_iff in Hs as [[k d] [<- Hin]].
    pose proof (wf_sufs a W) as F. rewrite Forall_forall in F. apply (valid_suffix_print k d (F _ Hin)).
Qed.

Definition valid_version_iff_stmt : Prop :=
  forall v, valid_version_core v = true <-> is_version v.
Lemma valid_version_iff_proof : valid_version_iff_stmt.
Proof. intros v; split; [apply valid_core_is_version|apply is_version_valid_core]. Qed.
