(* Prop_C24.v — the property theorems of C24, each followed by the audit of its assumptions. *)
From Coq Require Import List ZArith Permutation.
Import ListNotations.
From Verif Require Import C22.Model_C22 C18.Fs C24.Model_C24 C24.Spec_C24 C24.Atomic C24.Roundtrip
                          C24.Proofs_C24.

(* one entry: what _write prints, stripped and parsed by _iter_contents, is the entry — for EVERY
   entry of the domain: any path / target text (embedded spaces, "->" fragments, unicode), any md5,
   any integral mtime *)
Theorem roundtrip : forall e, WFpath e -> parse_line (strip (write_line e)) = Ok e.
Proof. exact line_roundtrip_lemma. Qed.
Print Assumptions roundtrip.

(* a whole set: the file written for it reads back as exactly its entries (in location order) *)
Theorem contents_roundtrip : forall d, uniq_locs d -> Forall WFpath d ->
  read_contents (write_contents d) = Ok (sort_entries d) /\ Permutation (sort_entries d) d.
Proof. intros d Hu Hw. split; [apply contents_roundtrip_exact; assumption|apply sort_perm]. Qed.
Print Assumptions contents_roundtrip.

(* the premises of contents_roundtrip that do not depend on the text of the paths hold for every
   set built by add(): unique locations, normalised locations *)
Theorem set_invariant : forall raw,
  uniq_locs (the_set raw) /\ Forall (fun e => normpath (eloc e) = eloc e) (the_set raw).
Proof. exact the_set_invariant. Qed.
Print Assumptions set_invariant.

(* the recorded defect: without the exclusion of symlink LOCATIONS holding a stand-alone "->" the
   statement is false of the code *)
Theorem roundtrip_refuted_sym :
  wf_base sym_witness = true /\ known_class sym_witness = true /\
  parse_line (strip (write_line sym_witness)) = Ok (ESym [47;97]%N [98;32;45;62;32;99]%N 7) /\
  ~ line_roundtrip_full.
Proof.
  split; [reflexivity|]. split; [reflexivity|]. split; [exact sym_witness_read|].
  intro H. specialize (H sym_witness eq_refl). rewrite sym_witness_read in H. discriminate.
Qed.
Print Assumptions roundtrip_refuted_sym.

(* every crash prefix of ContentsFile.flush(): CONTENTS is the old file or the complete new one,
   nothing else but the temporary changes *)
Theorem flush_atomic : flush_atomic_stmt.
Proof.
  intros s c d k Hok sk. subst sk. rewrite <- (contents_chunks_concat c).
  destruct (atomic_ops_crash s P_TMP P_CONTENTS 420%N (Some 0%N) (Some 0%N) (contents_chunks c d) k
              tmp_ne_contents Hok) as [Hfr Hp].
  split; [exact Hfr|]. destruct Hp as [Hp|[Hp _]]; [left|right]; exact Hp.
Qed.
Print Assumptions flush_atomic.

(* a flush() whose every call succeeded has installed the complete new CONTENTS (mode 0644) and
   left no temporary *)
Theorem flush_complete : forall s c d s',
  tmp_ok s P_TMP -> run_opt (flush_ops s c d) s = Some s' ->
  is_file_with (utf8 (write_contents d)) 420 (lookup s' P_CONTENTS) /\ lookup s' P_TMP = None.
Proof.
  intros s c d s' Hok H. rewrite <- (contents_chunks_concat c).
  destruct (atomic_ops_complete _ _ _ _ _ _ _ _ tmp_ne_contents Hok H) as (H1 & H2 & _). split; assumption.
Qed.
Print Assumptions flush_complete.

(* an OSError at call k >= 1 of flush(), followed by AtomicWriteFile.discard() (unlink of the
   temporary; [fault_state .. k true]): CONTENTS old or complete, nothing else touched, no temporary
   left.  At k = 0 the object was never initialised and discard() does not run: a stale temporary
   stays, hence the premise. *)
Theorem flush_eio : forall s c d k,
  tmp_ok s P_TMP -> 1 <= k ->
  let sk := fault_state s P_TMP (flush_ops s c d) k true in
  (forall q, q <> P_CONTENTS -> q <> P_TMP -> lookup sk q = lookup s q) /\
  (lookup sk P_CONTENTS = lookup s P_CONTENTS \/
   is_file_with (utf8 (write_contents d)) 420 (lookup sk P_CONTENTS)) /\
  lookup sk P_TMP = None.
Proof.
  intros s c d k Hok Hk. rewrite <- (contents_chunks_concat c).
  exact (atomic_ops_eio s P_TMP P_CONTENTS 420%N (Some 0%N) (Some 0%N) (contents_chunks c d) k
           tmp_ne_contents Hok Hk).
Qed.
Print Assumptions flush_eio.
