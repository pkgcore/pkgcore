From Coq Require Import List ZArith.
Import ListNotations.
From Verif Require Import C37.Model_C37 C37.Spec_C37 C37.Proofs_C37.

(* every chart tree, rendered from any slot s: the f parameters occupy exactly the slots
   s, s+1, ..., s'-1 once each and in order, no chart parameter lies outside [s, s'),
   and OP / CP are well nested *)
Theorem slots_unique_balanced : forall c s,
  let ps := fst (render_k c s) in
  let s' := snd (render_k c s) in
  (s < s')%N /\ slots_exact ps s s' /\ (wf_chart c = true -> balanced ps = true).
Proof.
  intros c s ps s'. destruct (render_k_slots c s) as [L X].
  split; [exact L | split; [exact X | apply render_balanced]].
Qed.
Print Assumptions slots_unique_balanced.

(* the parameters of a whole query number their chart slots 1..n, each once, with OP / CP well nested *)
Theorem query_slots : forall q, forallb wf_chart (charts q) = true ->
  f_slots (params_k q) = Nseq 1 (N.to_nat (snd (render_list (charts q) 1) - 1)) /\
  NoDup (f_slots (params_k q)) /\ balanced (params_k q) = true.
Proof.
  intros q W. pose proof (render_list_slots (charts q) 1) as S. destruct (params_f q) as [F M].
  rewrite F. unfold balanced. rewrite M. split; [apply (slot_facts_exact _ _ _ _ S) | split].
  - destruct S as (_ & -> & _). apply Nseq_NoDup.
  - now apply render_list_balanced.
Qed.
Print Assumptions query_slots.

(* the reference Bugzilla chart reader recovers the chart trees from the printed parameters *)
Theorem parse_render : forall q, wf_query q = true ->
  read_charts (params q) = Some (map erase (charts q)).
Proof.
  intros q W. unfold read_charts. rewrite (read_keys_params q W).
  apply read_charts_k_params, wf_query_charts, W.
Qed.
Print Assumptions parse_render.

(* & is conjunction under the reference evaluator, for every meaning of single conditions and
   every bug — outside the known class [conflict] (same plain key, different non-empty value sets) *)
Theorem and_is_conjunction_partial : forall (bug : Type) has cond a b (x : bug),
  wf_query a = true -> wf_query b = true ->
  NoDup (map fst (simple a)) -> NoDup (map fst (simple b)) ->
  conflict a b = false ->
  sem bug has cond (and_q a b) x = opt_and (sem bug has cond a x) (sem bug has cond b x).
Proof.
  intros bug has cond a b x Wa Wb NDa NDb NC.
  rewrite !sem_charac by auto using wf_and, and_keys_nodup.
  cbn [opt_and and_q simple charts]. f_equal.
  rewrite map_app, charts_ok_app, (simple_sem_merge bug has _ _ x NDa NDb (no_conflict_spec a b NC)).
  destruct (simple_sem bug has (simple a) x), (simple_sem bug has (simple b) x),
    (charts_ok bug cond x (map erase (charts a))); reflexivity.
Qed.
Print Assumptions and_is_conjunction_partial.

(* ... and the full statement is false of the code as it is *)
Theorem and_is_conjunction_refuted : ~ and_is_conjunction_stmt.
Proof.
  (* ids[1,2] & ids[2,3] on bug 1: the combined search selects it, the conjunction does not *)
  intro H.
  specialize (H cbug c_has c_cond (ctor 0 [s1; s2]) (ctor 0 [s2; s3]) [(s_id, [s1])] eq_refl eq_refl).
  assert (ND : forall l, NoDup (map fst (simple (ctor 0 l)))) by (intro l; cbn; repeat constructor; intros []).
  specialize (H (ND _) (ND _)). vm_compute in H. discriminate H.
Qed.
Print Assumptions and_is_conjunction_refuted.

(* a & b never carries a plain key twice (the premise above is re-established by &) *)
Theorem and_keys_unique : forall a b, NoDup (map fst (simple (and_q a b))).
Proof. exact and_keys_nodup. Qed.
Print Assumptions and_keys_unique.

(* batches: the values of the split parameter, batch after batch, are the original values in
   order; every other parameter is unchanged in every batch *)
Theorem batches_partition : forall enc q base max,
  NoDup (map fst (simple q)) ->
  match split_axis q with
  | None => batches enc q base max = [q]
  | Some a =>
      let k := ax_key q a in
      vals_of (params_k q) k = ax_vals a /\
      concat (map (fun b => vals_of (params_k b) k) (batches enc q base max)) = ax_vals a /\
      (forall b, In b (batches enc q base max) -> drop_key (params_k b) k = drop_key (params_k q) k)
  end.
Proof.
  intros enc q base max ND. unfold batches. destruct (split_axis q) as [a|] eqn:E; [|reflexivity].
  destruct (axis_params q a ND (split_axis_ok _ _ E)) as [V0 R]. cbn zeta.
  split; [exact V0|]. split.
  - rewrite map_map. erewrite map_ext; [|intro vs; apply (proj1 (R vs))]. rewrite map_id.
    apply (chunks_concat _ _ _ [] 0%Z).
  - intros b Hb. apply in_map_iff in Hb as (vs & <- & _). apply (R vs).
Qed.
Print Assumptions batches_partition.

(* whenever every single value fits, every batch fits — for every encoded-length function,
   outside the known class [short_field_axis] *)
Theorem batch_within_budget_partial : forall enc q base max a,
  split_axis q = Some a -> short_field_axis enc q a = false -> ax_vals a <> [] ->
  (forall v, In v (ax_vals a) -> fits enc base max (rebuild q a [v])) ->
  forall b, In b (batches enc q base max) -> fits enc base max b.
Proof. intros enc q base max a E K. apply batches_fit; [exact E | apply N.ltb_ge, K]. Qed.
Print Assumptions batch_within_budget_partial.

Theorem batch_within_budget_refuted : ~ batch_within_budget_stmt.
Proof.
  intro H. specialize (H qlen wq 0%Z wmax wax eq_refl ltac:(discriminate)).
  assert (S1 : forall v, In v (ax_vals wax) -> fits qlen 0 wmax (rebuild wq wax [v])).
  { intros v [<-|[<-|[<-|[]]]]; vm_compute; discriminate. }
  specialize (H S1 (rebuild wq wax [[120%N]; [121%N]])).
  assert (I : In (rebuild wq wax [[120%N]; [121%N]]) (batches qlen wq 0 wmax)) by (vm_compute; now left).
  specialize (H I). vm_compute in H. apply H. reflexivity.
Qed.
Print Assumptions batch_within_budget_refuted.

(* any_of is not the disjunction of its operands (finding outside the statement's clauses) *)
Theorem any_of_is_disjunction_refuted : ~ any_of_is_disjunction_stmt.
Proof.
  (* any_of(keywords(x) & keywords(y), keywords(z)) on a bug with keyword x only *)
  intro H.
  pose (kx := ctor 8 [[120%N]]). pose (ky := ctor 8 [[121%N]]). pose (kz := ctor 8 [[122%N]]).
  specialize (H cbug c_has c_cond [and_q kx ky; kz]
                {| simple := []; charts := [Group JOr (charts (and_q kx ky) ++ charts kz)];
                   limit := None; offset := None; order := None |}
                [(s_keywords, [[120%N]])]).
  assert (W : forall o, In o [and_q kx ky; kz] -> wf_query o = true)
    by (intros o [<-|[<-|[]]]; reflexivity).
  specialize (H W eq_refl). vm_compute in H. discriminate H.
Qed.
Print Assumptions any_of_is_disjunction_refuted.

(* ... but it is, for operands that are each exactly one chart that contributes something *)
Theorem any_of_is_disjunction_partial : forall (bug : Type) has cond qs cs q (x : bug),
  qs <> [] -> Forall2 unit_operand qs cs -> any_of qs = Some q ->
  sem bug has cond q x = opt_or_list (map (fun o => sem bug has cond o x) qs).
Proof.
  intros bug has cond qs cs q x NE F A.
  destruct (operands_values bug has cond x qs cs F) as (vs & E1 & E2 & E3 & E4).
  unfold any_of in A. destruct (forallb _ qs); [|discriminate]. injection A as <-.
  rewrite E2, E3, opt_or_list_values. apply or_group_sem; try assumption.
  intros ->. destruct qs; [congruence | discriminate E2].
Qed.
Print Assumptions any_of_is_disjunction_partial.
