(* Prop_C18.v — the property theorems of C18. *)
From Coq Require Import List.
Import ListNotations.
From Verif Require Import C18.Fs C18.FsLemmas C18.Model_C18 C18.Spec_C18 C18.Proofs_C18 C18.Exact_C18 C18.Hardlinks_C18.

(* frame: a path that no op of the merge names and whose inode no op writes is unchanged
   (for every contents set, offset and pre-existing filesystem) *)
Theorem frame : forall i q,
  untouched (merge_ops i) (i_fs i) q ->
  lookup (run (merge_ops i) (i_fs i)) q = lookup (i_fs i) q.
Proof. intros i q. apply run_frame. Qed.
Print Assumptions frame.

(* merged_exact, one file entry over an existing non-directory (copyfile's '#new' + rename,
   any chunking of the write): afterwards the location holds a node realising the entry (data,
   mode, owner, mtime), the '#new' sibling is gone, every other path is unchanged *)
Theorem staged_copy_exact : forall um x d hl chunks cp s s',
  e_kind x = KFile d hl -> concat chunks = d -> e_mode x <> None ->
  let tmp := sibling_new cp in
  tmp <> cp ->
  run_opt (replace_ops tmp cp (file_create_mode um) chunks (perms_new x tmp)) s = Some s' ->
  (exists n, lookup s' cp = Some n /\ realises x n) /\
  lookup s' tmp = None /\
  (forall q, q <> cp -> q <> tmp -> lookup s' q = lookup s q).
Proof.
  intros um x d hl chunks cp s s' Hk Hc _ tmp Hne Hrun.
  destruct (replace_complete _ _ _ _ _ _ _ Hne (perms_new_on x tmp) Hrun) as (L & Hgone & F).
  split; [|now split]. eexists. split; [exact L|]. eapply staged_node_realises; eauto.
Qed.
Print Assumptions staged_copy_exact.

(* merged_exact, one file entry into a free name *)
Theorem direct_copy_exact : forall um x d hl chunks cp s s',
  e_kind x = KFile d hl -> concat chunks = d -> e_mode x <> None ->
  run_opt (Create cp (file_create_mode um) :: appends cp chunks ++ perms_new x cp) s = Some s' ->
  lookup s cp = None /\
  (exists n, lookup s' cp = Some n /\ realises x n) /\
  (forall q, q <> cp -> lookup s' q = lookup s q).
Proof.
  intros um x d hl chunks cp s s' Hk Hc _ Hrun. pose proof (perms_new_on x cp) as Hp.
  split; [|split; [|apply (staged_staging _ _ _ _ _ _ Hp Hrun)]].
  - cbn [run_opt apply_op] in Hrun. destruct (can_create s cp) eqn:E; [now apply can_create_free|discriminate].
  - rewrite (staged_complete _ _ _ _ _ _ Hp Hrun). eexists. split; [reflexivity|].
    eapply staged_node_realises; eauto.
Qed.
Print Assumptions direct_copy_exact.

(* the planner emits exactly these blocks *)
Theorem copyfile_staged_shape : forall um s x d hl cp n,
  e_kind x = KFile d hl -> canon s (e_loc x) = WOk cp -> node_at s cp = Some n ->
  is_dir_node n = false -> lookup s (sibling_new cp) = None -> name_too_long (sibling_new cp) = false ->
  copyfile um s x =
    (replace_ops (sibling_new cp) cp (file_create_mode um) (chunks1 d) (perms_new x (sibling_new cp)), None).
Proof.
  intros um s x d hl cp n Hk Hc Hn Hd Hst Hnl. unfold copyfile. rewrite Hc, Hn, Hd. cbv zeta. rewrite Hnl.
  now rewrite (create_ops_file um s x d hl _ Hk Hst).
Qed.
Print Assumptions copyfile_staged_shape.

Theorem copyfile_direct_shape : forall um s x d hl cp,
  e_kind x = KFile d hl -> canon s (e_loc x) = WOk cp -> node_at s cp = None ->
  copyfile um s x =
    (Create cp (file_create_mode um) :: appends cp (chunks1 d) ++ perms_new x cp, None).
Proof.
  intros um s x d hl cp Hk Hc Hn. unfold copyfile. cbv zeta. rewrite Hc, Hn. cbv beta.
  assert (Hl : lookup s cp = None) by (destruct cp; [discriminate|exact Hn]).
  now rewrite (create_ops_file um s x d hl _ Hk Hl).
Qed.
Print Assumptions copyfile_direct_shape.

(* a directory on the live filesystem is never overwritten by a non-directory entry *)
Theorem copyfile_refuses_dir : forall um s x cp n,
  canon s (e_loc x) = WOk cp -> node_at s cp = Some n -> is_dir_node n = true ->
  copyfile um s x = ([], Some E_CANNOT).
Proof. intros um s x cp n Hc Hn Hd. unfold copyfile. now rewrite Hc, Hn, Hd. Qed.
Print Assumptions copyfile_refuses_dir.

(* merged_exact, the WHOLE merge, by induction over both passes of merge_contents, on the
   decidable NoAlias domain (Spec_C18.noalias: the offset exists; distinct locations without
   "." / ".."; no symlink on the way to any location in the pre-existing tree and no symlink or
   other non-directory entry of the set above another entry; no '#new' name is, or is above, a
   location and none exists beforehand; no symlink entry over a live directory; members of a
   hard-link group go to free names and carry the same data; a bound location has its parents):
   if the merge returns normally and its ops all succeed then
   - every entry is installed: its location holds a node that realises it (type, data / target /
     device, mode, owner, mtime of files, fifos, devices), or, for a directory that existed,
     the old directory with its mode kept and the recorded owner;
   - every other path is unchanged, except that missing parent directories of entries may have
     been created (as directories). *)
Theorem merged_exact : forall i sf,
  noalias i = true -> merge_err i = None -> run_opt (merge_ops i) (i_fs i) = Some sf ->
  (forall x, In x (cset_of i) -> exists n, lookup sf (e_loc x) = Some n /\ installed (i_fs i) x n) /\
  (forall q, (forall x, In x (cset_of i) -> e_loc x <> q) ->
     ~ (lookup (i_fs i) q = None /\ exists x, In x (cset_of i) /\ pprefix q (e_loc x)) ->
     lookup sf q = lookup (i_fs i) q) /\
  (forall q, (forall x, In x (cset_of i) -> e_loc x <> q) -> lookup (i_fs i) q = None ->
     (exists x, In x (cset_of i) /\ pprefix q (e_loc x)) ->
     lookup sf q = None \/ is_diro (lookup sf q) = true).
Proof.
  intros i sf Hna Herr Hrun. destruct (merge_inv i sf Hna Herr Hrun) as (P & HI & Hall).
  split; [|split].
  - intros x Hx. exact (inv_good _ _ _ _ HI x (Hall x Hx)).
  - intros q Hq Hn. apply (inv_frame _ _ _ _ HI).
    + intros y Hy. apply Hq. now apply (inv_incl _ _ _ _ HI).
    + intros (A & B & _). now apply Hn.
  - intros q Hq H0 Hp. now apply (inv_anc _ _ _ _ HI).
Qed.
Print Assumptions merged_exact.

(* exactness of one entry of ANY non-directory kind (file, symlink, fifo, device) created at a
   free name, resp. staged at '<cp>#new' and renamed over cp *)
Theorem entry_direct_exact : forall um s x fp c s',
  is_kdir x = false -> lookup s fp = None -> create_ops um s x fp = (c, None) ->
  run_opt (c ++ perms_new x fp) s = Some s' ->
  (exists n, lookup s' fp = Some n /\ realises x n) /\ (forall q, q <> fp -> lookup s' q = lookup s q).
Proof.
  intros um s x fp c s' Hk Hl Hc Hr. destruct (direct_block _ _ _ _ _ _ Hk Hl Hc Hr) as [(n & L & R & _) F]. eauto.
Qed.
Print Assumptions entry_direct_exact.

Theorem entry_staged_exact : forall um s x cp c s',
  is_kdir x = false -> lookup s (sibling_new cp) = None ->
  create_ops um s x (sibling_new cp) = (c, None) ->
  run_opt (c ++ perms_new x (sibling_new cp) ++ [Rename (sibling_new cp) cp]) s = Some s' ->
  (exists n, lookup s' cp = Some n /\ realises x n) /\ lookup s' (sibling_new cp) = None /\
  (forall q, q <> cp -> q <> sibling_new cp -> lookup s' q = lookup s q).
Proof.
  intros um s x cp c s' Hk Hl Hc Hr.
  destruct (staged_block _ _ _ _ _ _ _ Hk Hl (sibling_new_neq cp) Hc Hr) as [(n & L & R & _) GF]. eauto.
Qed.
Print Assumptions entry_staged_exact.

(* a new directory (mkdir + ensure_perms twice) and an existing one (owner, mtime; mode kept) *)
Theorem newdir_exact : forall um s x cp s',
  e_kind x = KDir ->
  run_opt (Mkdir cp (dir_create_mode um x) :: perms_new x cp ++ perms_new x cp) s = Some s' ->
  lookup s cp = None /\ (exists n, lookup s' cp = Some n /\ realises x n) /\
  (forall q, q <> cp -> lookup s' q = lookup s q).
Proof.
  intros um s x cp s' Hk Hr. destruct (newdir_block _ _ _ _ _ Hk Hr) as (A & (n & L & R & _) & F). eauto.
Qed.
Print Assumptions newdir_exact.

Theorem existingdir_exact : forall s x cp m u g t s',
  lookup s cp = Some (Dir m u g t) ->
  run_opt (perms_existing x cp cp (Dir m u g t)) s = Some s' ->
  (exists n, lookup s' cp = Some n /\ keeps_dir x (Dir m u g t) n) /\
  (forall q, q <> cp -> lookup s' q = lookup s q).
Proof.
  intros s x cp m u g t s' Hl Hr. destruct (existingdir_block _ _ _ _ _ _ _ _ Hl Hr) as [(n & L & K & _) F]. eauto.
Qed.
Print Assumptions existingdir_exact.

(* "files that shared an inode in the source are hardlinked": on the NoAlias domain two linkable
   entries (same source inode key, owner, mode, mtime) name one inode after the merge *)
Theorem merged_hardlinks_share_inode : forall i sf c x,
  noalias i = true -> merge_err i = None -> run_opt (merge_ops i) (i_fs i) = Some sf ->
  In c (cset_of i) -> In x (cset_of i) -> can_hl c x = true ->
  exists j, ino_at sf (e_loc c) = Some j /\ ino_at sf (e_loc x) = Some j.
Proof.
  intros i sf c x Hna Herr Hrun Hc Hx Hhl. destruct (merge_hl i sf Hna Herr Hrun) as (mf & P & HH & Hall).
  apply (HL_share mf P sf c x HH); eauto using can_hl_refl_l, can_hl_refl_r.
Qed.
Print Assumptions merged_hardlinks_share_inode.
