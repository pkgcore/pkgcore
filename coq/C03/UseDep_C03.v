(* UseDep_C03.v — the USE-dependency token check of atom.__init__ ([valid_use_dep], which peels the
   token from both ends) accepts exactly the PMS 8.3.4 forms as the spec scans them left to right
   ([pms_use_dep]), for tokens without a newline.  Both are related through the declarative shape
   [decl]:  [!|-] flag [(+)|(-)] [=|?]. *)
From Coq Require Import List NArith Bool.
Import ListNotations.
From Verif Require Import Base.Val C03.Model_C03 C03.Spec_C03 C03.Proofs_C03.
Local Open Scope N_scope.

Definition is_default (d : bool) (D : str) : Prop :=
  D = [] \/ (d = true /\ exists b, (b = c_plus \/ b = c_dash) /\ D = [c_lpar; b; c_rpar]).
Definition is_tail (S : str) : Prop := S = [] \/ S = [c_eq] \/ S = [c_qm].

(* [flag] says what a flag name is: the code's regex (which tolerates a final newline) or the PMS class *)
Definition shape (flag : str -> bool) (d : bool) (x : str) : Prop :=
  exists P name D S,
    x = P ++ name ++ D ++ S
    /\ flag name = true
    /\ (P = [] \/ (P = [c_bang] /\ S <> []) \/ (P = [c_dash] /\ S = []))
    /\ is_default d D /\ is_tail S.

Definition decl : bool -> str -> Prop := shape pms_use_flag.

Lemma not_in_app_l {A} (x : A) a b : ~ In x (a ++ b) -> ~ In x a.
Proof. intros H Hin. apply H, in_or_app. now left. Qed.
Lemma not_in_app_r {A} (x : A) a b : ~ In x (a ++ b) -> ~ In x b.
Proof. intros H Hin. apply H, in_or_app. now right. Qed.

Lemma ends_default_spec y :
  ends_default y = true ->
  exists b, (b = c_plus \/ b = c_dash) /\ y = drop_last3 y ++ [c_lpar; b; c_rpar].
Proof.
  unfold ends_default, drop_last3. intros H.
  destruct (rev y) as [|a [|b [|c r]]] eqn:Er; try discriminate.
  apply andb_true_iff in H as [H Hc]. apply andb_true_iff in H as [Ha Hb].
  apply N.eqb_eq in Ha, Hc. subst a c.
  assert (Ey : y = rev r ++ [c_lpar; b; c_rpar]).
  { rewrite <- (rev_involutive y), Er. cbn [rev]. now rewrite <- !app_assoc. }
  exists b. split.
  - apply orb_true_iff in Hb as [Hb|Hb]; apply N.eqb_eq in Hb; auto.
  - rewrite Ey at 1 2.
    change (rev r ++ [c_lpar; b; c_rpar]) with (rev r ++ [c_lpar] ++ [b] ++ [c_rpar]).
    rewrite !app_assoc, removelast_last, removelast_last, removelast_last.
    now rewrite <- !app_assoc.
Qed.

Lemma drop_last3_app z a b c : drop_last3 (z ++ [a; b; c]) = z.
Proof.
  unfold drop_last3. change (z ++ [a; b; c]) with (z ++ [a] ++ [b] ++ [c]).
  now rewrite !app_assoc, !removelast_last.
Qed.

Lemma ends_default_app z b : (b = c_plus \/ b = c_dash) -> ends_default (z ++ [c_lpar; b; c_rpar]) = true.
Proof.
  intros Hb. unfold ends_default. rewrite rev_app_distr. cbn [rev app].
  destruct Hb as [-> | ->]; reflexivity.
Qed.

Lemma flag_default_shape d y :
  match lastc y with
  | None => false
  | Some l2 =>
      if (l2 =? c_rpar) && negb d then false
      else negb (is_nil (if (l2 =? c_rpar) && ends_default y then drop_last3 y else y))
           && m_use_flag (if (l2 =? c_rpar) && ends_default y then drop_last3 y else y)
  end = true ->
  exists name D, y = name ++ D /\ m_use_flag name = true /\ is_default d D.
Proof.
  destruct (lastc y) as [l2|] eqn:El; [|discriminate].
  apply lastc_some in El.
  destruct (N.eqb_spec l2 c_rpar) as [-> |Hl]; cbn [andb].
  - destruct d; cbn [negb]; [|discriminate].
    destruct (ends_default y) eqn:Ee.
    + destruct (ends_default_spec _ Ee) as (b & Hb & Ey).
      intros H. apply andb_true_iff in H as [_ H].
      exists (drop_last3 y), [c_lpar; b; c_rpar]. split; [exact Ey|]. split; [exact H|].
      right. split; [reflexivity|]. eauto.
    + intros H. apply andb_true_iff in H as [_ H]. exfalso.
      assert (Hin : In c_rpar y) by (rewrite El; apply in_or_app; right; now left).
      now destruct (m_use_flag_chars _ _ H Hin).
  - intros H. apply andb_true_iff in H as [_ H].
    exists y, []. split; [now rewrite app_nil_r|]. split; [exact H | now left].
Qed.

Lemma mk_shape flag d x P name D S :
  x = P ++ name ++ D ++ S -> flag name = true ->
  (P = [] \/ (P = [c_bang] /\ S <> []) \/ (P = [c_dash] /\ S = [])) ->
  is_default d D -> is_tail S -> shape flag d x.
Proof.
  intros H1 H2 H3 H4 H5. exists P, name, D, S.
  split; [exact H1|]. split; [exact H2|]. split; [exact H3|]. split; [exact H4 | exact H5].
Qed.

Lemma model_shape d x : valid_use_dep d x = true -> shape m_use_flag d x.
Proof.
  unfold valid_use_dep. destruct (lastc x) as [l|] eqn:El; [|discriminate].
  apply lastc_some in El.
  destruct ((l =? c_eq) || (l =? c_qm)) eqn:Ek.
  - assert (HS : is_tail [l]).
    { apply orb_true_iff in Ek as [E|E]; apply N.eqb_eq in E; subst; [right; now left | right; now right]. }
    destruct (removelast x) as [|c t] eqn:Er; [discriminate|].
    destruct (N.eqb_spec c c_bang) as [->|Hc].
    + destruct t as [|d0 t']; [discriminate|]. destruct (d0 =? c_dash); [discriminate|].
      intros H. apply flag_default_shape in H as (name & D & Ey & Hf & HD).
      apply (mk_shape _ d x [c_bang] name D [l]); [ | exact Hf | | exact HD | exact HS].
      * rewrite El, Ey. cbn [app]. now rewrite <- app_assoc.
      * right. left. split; [reflexivity | discriminate].
    + destruct (c =? c_dash); [discriminate|].
      intros H. apply flag_default_shape in H as (name & D & Ey & Hf & HD).
      apply (mk_shape _ d x [] name D [l]); [ | exact Hf | now left | exact HD | exact HS].
      rewrite El, Ey. cbn [app]. now rewrite <- app_assoc.
  - destruct x as [|c t]; [discriminate|].
    destruct (N.eqb_spec c c_dash) as [->|Hc].
    + intros H. apply flag_default_shape in H as (name & D & Ey & Hf & HD).
      apply (mk_shape _ d _ [c_dash] name D []); [ | exact Hf | | exact HD | now left].
      * rewrite Ey. cbn [app]. now rewrite !app_nil_r.
      * right. right. auto.
    + intros H. apply flag_default_shape in H as (name & D & Ey & Hf & HD).
      apply (mk_shape _ d _ [] name D []); [ | exact Hf | now left | exact HD | now left].
      rewrite Ey. cbn [app]. now rewrite !app_nil_r.
Qed.

Lemma model_decl d x : ~ In c_nl x -> valid_use_dep d x = true -> decl d x.
Proof.
  intros Hnl H. apply model_shape in H as (P & name & D & S & -> & Hf & H').
  exists P, name, D, S. split; [reflexivity|]. split; [|exact H'].
  rewrite <- m_use_flag_pms; [exact Hf|]. exact (not_in_app_l _ _ _ (not_in_app_r _ _ _ Hnl)).
Qed.

Lemma shape_chars flag d x c :
  shape flag d x -> In c x ->
  (exists name, flag name = true /\ In c name)
  \/ In c [c_bang; c_dash; c_eq; c_qm] \/ (d = true /\ In c [c_lpar; c_plus; c_dash; c_rpar]).
Proof.
  intros (P & name & D & S & -> & Hf & HP & HD & HS) Hin.
  apply in_app_or in Hin as [Hin|Hin].
  { right. left. destruct HP as [-> | [[-> _] | [-> _]]]; [destruct Hin | |];
      destruct Hin as [<-|[]]; cbn; auto. }
  apply in_app_or in Hin as [Hin|Hin]; [left; eauto|].
  apply in_app_or in Hin as [Hin|Hin].
  - right. right. destruct HD as [-> | (-> & b & Hb & ->)]; [destruct Hin|]. split; [reflexivity|].
    destruct Hin as [<-|[<-|[<-|[]]]]; cbn; destruct Hb as [-> | ->]; auto.
  - right. left. destruct HS as [-> | [-> | ->]]; [destruct Hin | |]; destruct Hin as [<-|[]]; cbn; auto.
Qed.

Lemma use_flag_facts name :
  pms_use_flag name = true ->
  forallb s_use_char name = true /\ exists c t, name = c :: t /\ c <> 33 /\ c <> 45.
Proof.
  unfold pms_use_flag. intros H. apply andb_true_iff in H as [Ha Hc]. split; [exact Ha|].
  destruct name as [|c t]; [discriminate|]. exists c, t. split; [reflexivity|].
  split; intros ->; discriminate.
Qed.

Lemma decl_chars d x c :
  decl d x -> In c x -> s_use_char c = true \/ In c [c_bang; c_dash; c_eq; c_qm; c_lpar; c_plus; c_rpar].
Proof.
  intros H Hin. destruct (shape_chars _ _ _ _ H Hin) as [(name & Hf & Hn)|[Hc|[_ Hc]]].
  - left. destruct (use_flag_facts _ Hf) as [Hall _]. rewrite forallb_forall in Hall. now apply Hall.
  - right. cbn in *. tauto.
  - right. cbn in *. tauto.
Qed.

Lemma body_pms d pfx name D S :
  pms_use_flag name = true -> is_default d D -> is_tail S ->
  (pfx = 1 -> S <> []) -> (pfx = 2 -> S = []) -> (pfx = 0 \/ pfx = 1 \/ pfx = 2) ->
  use_dep_body d pfx (name ++ D ++ S) = true.
Proof.
  intros Hf HD HS H1 H2 Hp. unfold use_dep_body.
  destruct (use_flag_facts _ Hf) as [Hall _].
  assert (Hb : match D ++ S with [] => True | c :: _ => s_use_char c = false end).
  { destruct HD as [-> |(_ & b & _ & ->)]; [|reflexivity].
    destruct HS as [-> |[-> | ->]]; cbn; auto. }
  destruct (take_drop_app s_use_char name (D ++ S) Hall Hb) as [-> ->]. rewrite Hf. cbn [andb].
  destruct HS as [-> | [-> | ->]]; destruct Hp as [-> | [-> | ->]];
    try (exfalso; now apply H1); try (specialize (H2 eq_refl); discriminate);
    destruct HD as [-> | (-> & b & [-> | ->] & ->)]; reflexivity.
Qed.

Lemma decl_pms d x : decl d x -> pms_use_dep d x = true.
Proof.
  intros (P & name & D & S & -> & Hf & HP & HD & HS).
  destruct (use_flag_facts _ Hf) as [_ (c & t & Hn & Hc1 & Hc2)].
  unfold pms_use_dep, use_dep_split.
  destruct HP as [-> |[[-> HSn]|[-> HSe]]]; cbn [app].
  - rewrite Hn. cbn [app].
    destruct (N.eqb_spec c 33); [congruence|]. destruct (N.eqb_spec c 45); [congruence|]. cbn [fst snd].
    change (c :: t ++ D ++ S) with ((c :: t) ++ D ++ S). rewrite <- Hn.
    apply body_pms; auto; discriminate.
  - change (c_bang =? 33) with true. cbn [fst snd]. apply body_pms; auto; discriminate.
  - change (c_dash =? 33) with false. change (c_dash =? 45) with true. cbn [fst snd].
    apply body_pms; auto; discriminate.
Qed.

Lemma body_decl d pfx body :
  use_dep_body d pfx body = true ->
  exists name D S, body = name ++ D ++ S /\ pms_use_flag name = true /\ is_default d D /\ is_tail S
                   /\ (pfx = 1 -> S <> []) /\ (pfx = 2 -> S = []).
Proof.
  unfold use_dep_body. intros H. apply andb_true_iff in H as [Hf H].
  pose proof (take_drop s_use_char body) as Hb.
  set (name := take_while s_use_char body) in *. set (rest := drop_while s_use_char body) in *.
  assert (Htail : forall S,
            match S with
            | [] => negb (pfx =? 1)
            | [c] => ((c =? 61) || (c =? 63)) && negb (pfx =? 2)
            | _ :: _ :: _ => false
            end = true ->
            is_tail S /\ (pfx = 1 -> S <> []) /\ (pfx = 2 -> S = [])).
  { intros S HS. destruct S as [|c [|c2 S']]; [| |discriminate].
    - apply negb_true_iff, N.eqb_neq in HS. repeat split; [now left | congruence].
    - apply andb_true_iff in HS as [Hc Hp]. apply negb_true_iff, N.eqb_neq in Hp.
      repeat split; [|discriminate | congruence].
      apply orb_true_iff in Hc as [Hc|Hc]; apply N.eqb_eq in Hc; subst c; [right; now left | right; now right]. }
  destruct rest as [|c r] eqn:Er.
  - apply (Htail []) in H. rewrite app_nil_r in Hb. exists name, [], [].
    split; [now rewrite !app_nil_r|]. split; [exact Hf|]. split; [now left | exact H].
  - destruct (N.eqb_spec c 40) as [->|Hc].
    + destruct d; [|discriminate]. unfold strip_default in H.
      destruct r as [|b [|c3 S]]; try discriminate.
      destruct ((40 =? 40) && (c3 =? 41) && ((b =? 43) || (b =? 45))) eqn:E; [|discriminate].
      apply andb_true_iff in E as [E Eb]. apply andb_true_iff in E as [_ E3]. apply N.eqb_eq in E3. subst c3.
      apply (Htail S) in H. exists name, [c_lpar; b; c_rpar], S.
      split; [exact Hb|]. split; [exact Hf|]. split; [|exact H].
      right. split; [reflexivity|]. exists b. split; [|reflexivity].
      apply orb_true_iff in Eb as [Eb|Eb]; apply N.eqb_eq in Eb; auto.
    + apply (Htail (c :: r)) in H. exists name, [], (c :: r).
      split; [exact Hb|]. split; [exact Hf|]. split; [now left | exact H].
Qed.

Lemma pms_decl d x : pms_use_dep d x = true -> decl d x.
Proof.
  unfold pms_use_dep, use_dep_split. destruct x as [|c t].
  - cbn [fst snd]. intros H. apply body_decl in H as (name & D & S & Hb & Hf & _).
    destruct (use_flag_facts _ Hf) as [_ (c & t & -> & _)]. discriminate.
  - destruct (N.eqb_spec c 33) as [->|H33]; cbn [fst snd].
    + intros H. apply body_decl in H as (name & D & S & -> & Hf & HD & HS & H1 & _).
      apply (mk_shape _ d _ [c_bang] name D S);
        [reflexivity | exact Hf | right; left; split; [reflexivity | now apply H1] | exact HD | exact HS].
    + destruct (N.eqb_spec c 45) as [->|H45]; cbn [fst snd].
      * intros H. apply body_decl in H as (name & D & S & -> & Hf & HD & HS & _ & H2).
        apply (mk_shape _ d _ [c_dash] name D S);
          [reflexivity | exact Hf | right; right; split; [reflexivity | now apply H2] | exact HD | exact HS].
      * intros H. apply body_decl in H as (name & D & S & Hb & Hf & HD & HS & _).
        apply (mk_shape _ d _ [] name D S); [exact Hb | exact Hf | now left | exact HD | exact HS].
Qed.

Lemma use_char_facts l : s_use_char l = true -> (l =? c_eq) || (l =? c_qm) = false /\ (l =? c_rpar) = false /\ l <> c_nl.
Proof.
  intros H.
  assert (Hn : forall c, s_use_char c = false -> (l =? c) = false)
    by (intros c Hc; apply N.eqb_neq; intros ->; congruence).
  rewrite !Hn by reflexivity. repeat split. intros ->. discriminate.
Qed.

Lemma flag_last name :
  pms_use_flag name = true -> exists l, lastc name = Some l /\ s_use_char l = true.
Proof.
  intros Hf. destruct (use_flag_facts _ Hf) as [Hall (c & t & -> & _)].
  exists (last (c :: t) 0). split; [reflexivity|]. rewrite forallb_forall in Hall. apply Hall.
  apply last_in. discriminate.
Qed.

Lemma flag_no_nl name : pms_use_flag name = true -> ~ In c_nl name.
Proof.
  intros Hf Hin. destruct (use_flag_facts _ Hf) as [Hall _]. rewrite forallb_forall in Hall.
  specialize (Hall _ Hin). apply use_char_facts in Hall as (_ & _ & H). congruence.
Qed.

Lemma lastc_app3 z a b c : lastc (z ++ [a; b; c]) = Some c.
Proof. change (z ++ [a; b; c]) with (z ++ [a; b] ++ [c]). rewrite app_assoc. apply lastc_snoc. Qed.

Lemma flag_default_model d name D :
  pms_use_flag name = true -> is_default d D ->
  match lastc (name ++ D) with
  | None => false
  | Some l2 =>
      if (l2 =? c_rpar) && negb d then false
      else negb (is_nil (if (l2 =? c_rpar) && ends_default (name ++ D) then drop_last3 (name ++ D) else name ++ D))
           && m_use_flag (if (l2 =? c_rpar) && ends_default (name ++ D) then drop_last3 (name ++ D) else name ++ D)
  end = true.
Proof.
  intros Hf HD.
  assert (Hm : m_use_flag name = true) by (rewrite m_use_flag_pms; [exact Hf | now apply flag_no_nl]).
  assert (Hne : is_nil name = false) by (destruct (use_flag_facts _ Hf) as [_ (c & t & -> & _)]; reflexivity).
  destruct HD as [-> | (-> & b & Hb & ->)].
  - rewrite app_nil_r. destruct (flag_last _ Hf) as (l & -> & Hl).
    apply use_char_facts in Hl as (_ & -> & _). cbn [andb]. now rewrite Hne, Hm.
  - rewrite lastc_app3. rewrite N.eqb_refl. cbn [negb andb].
    rewrite (ends_default_app _ _ Hb), drop_last3_app. now rewrite Hne, Hm.
Qed.

Lemma decl_model d x : decl d x -> valid_use_dep d x = true.
Proof.
  intros (P & name & D & S & -> & Hf & HP & HD & HS).
  pose proof (flag_default_model d name D Hf HD) as Ht.
  destruct (use_flag_facts _ Hf) as [_ (c & t & Hn & Hc1 & Hc2)].
  assert (Hy : name ++ D = c :: (t ++ D)) by now rewrite Hn.
  unfold valid_use_dep.
  destruct HS as [-> | HS].
  - (* no "=" / "?" *)
    rewrite app_nil_r.
    assert (Hl : exists l, lastc (P ++ name ++ D) = Some l /\ (l =? c_eq) || (l =? c_qm) = false).
    { destruct HD as [-> | (_ & b & _ & ->)].
      - rewrite app_nil_r. destruct (flag_last _ Hf) as (l & El & Hl). exists l. split.
        + apply lastc_some in El. rewrite El, app_assoc. apply lastc_snoc.
        + now apply use_char_facts in Hl as (-> & _).
      - exists c_rpar. split; [rewrite app_assoc; apply lastc_app3 | reflexivity]. }
    destruct Hl as (l & -> & ->).
    destruct HP as [-> | [[_ Hbad] | [-> _]]]; [ | exfalso; now apply Hbad | ].
    + cbn [app]. rewrite Hy. destruct (N.eqb_spec c c_dash) as [e|_]; [exact (False_ind _ (Hc2 e))|]. rewrite <- Hy. exact Ht.
    + cbn [app]. rewrite N.eqb_refl. exact Ht.
  - assert (El : exists l, S = [l] /\ (l =? c_eq) || (l =? c_qm) = true)
      by (destruct HS as [-> | ->]; eexists; split; reflexivity).
    destruct El as (l & -> & Hl).
    replace (P ++ name ++ D ++ [l]) with ((P ++ name ++ D) ++ [l]) by now rewrite <- !app_assoc.
    rewrite lastc_snoc, Hl, removelast_last.
    destruct HP as [-> | [[-> _] | [_ Hbad]]]; [ | | discriminate].
    + cbn [app]. rewrite Hy. destruct (N.eqb_spec c c_bang) as [e|_]; [exact (False_ind _ (Hc1 e))|].
      destruct (N.eqb_spec c c_dash) as [e|_]; [exact (False_ind _ (Hc2 e))|]. rewrite <- Hy. exact Ht.
    + cbn [app]. rewrite N.eqb_refl. rewrite Hy. destruct (N.eqb_spec c c_dash) as [e|_]; [exact (False_ind _ (Hc2 e))|].
      rewrite <- Hy. exact Ht.
Qed.

Lemma use_dep_agree_proof :
  forall d x, ~ In c_nl x -> valid_use_dep d x = pms_use_dep d x.
Proof.
  intros d x Hn. apply eq_true_iff_eq. split; intros H.
  - now apply decl_pms, model_decl.
  - now apply decl_model, pms_decl.
Qed.

Lemma decl_no_bracket d x c : c = c_lbr \/ c = c_rbr -> decl d x -> ~ In c x.
Proof.
  intros Hc H Hin. destruct (decl_chars _ _ _ H Hin) as [E|E]; destruct Hc as [-> | ->];
    [discriminate | discriminate | |]; cbn in E; intuition discriminate.
Qed.

(* the USE block: the tokens between the brackets, sorted by the code *)
Lemma use_block_agree d u :
  ~ In c_nl u ->
  forallb (valid_use_dep d) (sort_strs (split_on c_comma u)) = forallb (pms_use_dep d) (split_on c_comma u).
Proof.
  intros Hn. rewrite forallb_sort. apply forallb_ext_in. intros x Hx. apply use_dep_agree_proof.
  intros Hin. exact (Hn (split_on_chars _ _ _ _ Hx Hin)).
Qed.

Lemma use_block_chars d u c :
  c = c_lbr \/ c = c_rbr -> forallb (pms_use_dep d) (split_on c_comma u) = true -> ~ In c u.
Proof.
  intros Hc H Hin. rewrite <- (join_split_on c_comma u) in Hin.
  apply in_join in Hin as [->|(x & Hx & Hin)]; [destruct Hc; discriminate|].
  rewrite forallb_forall in H. exact (decl_no_bracket _ _ _ Hc (pms_decl _ _ (H _ Hx)) Hin).
Qed.
