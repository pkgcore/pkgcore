(* RoundtripExt_C25.v — the read side of C25: convert_archive on a flat set adds exactly the missing
   ancestor directories, and what that makes of the round trip.  The facts about the ascending loop
   of add_missing_directories are C22's (missing_dirs_inv, missing_core), transported to the C25 entry
   type through the structure-forgetting map [conv]. *)
From Coq Require Import List NArith Bool Permutation.
Import ListNotations.
From Verif Require Import Base.Val Base.Lists C25.Path_C25 C25.Model_C25 C25.Spec_C25 C25.SpecExt_C25 C25.Proofs_C25.
From Verif Require C22.Model_C22 C22.Spec_C22 C22.Proofs_C22.
Module M22 := Verif.C22.Model_C22.
Module S22 := Verif.C22.Spec_C22.
Module P22 := Verif.C22.Proofs_C22.

Lemma dhas_in k d : dhas k d = true <-> In k (map loc d).
Proof.
  unfold dhas. rewrite existsb_exists. split.
  - intros (e & He & E). apply str_eqb_eq in E. subst. apply in_map. exact He.
  - intros H. apply in_map_iff in H as (e & E & He). exists e. split; [exact He|]. subst. apply str_eqb_refl.
Qed.

Lemma keys_dset e d k : In k (map loc (dset e d)) <-> k = loc e \/ In k (map loc d).
Proof.
  induction d as [|y r IH]; cbn; [intuition|].
  destruct (str_eqb (loc y) (loc e)) eqn:E; cbn.
  - apply str_eqb_eq in E. rewrite E. intuition.
  - rewrite IH. intuition.
Qed.
Lemma keys_dupdate l : forall d k, In k (map loc (dupdate d l)) <-> In k (map loc d) \/ In k (map loc l).
Proof.
  induction l as [|e r IH]; intros d k; cbn; [intuition|].
  change (fold_left (fun acc e0 => dset e0 acc) r (dset e d)) with (dupdate (dset e d) r).
  rewrite IH, keys_dset. intuition.
Qed.

Lemma in_dset x e d : In x (dset e d) -> x = e \/ In x d.
Proof.
  induction d as [|y r IH]; cbn; [intros [<-|[]]; auto|].
  destruct (str_eqb (loc y) (loc e)); cbn; intros [<-|H]; auto. destruct (IH H); auto.
Qed.
Lemma in_dupdate l : forall d x, In x (dupdate d l) -> In x d \/ In x l.
Proof.
  induction l as [|e r IH]; intros d x H; cbn in *; [auto|].
  destruct (IH _ _ H) as [H1|H1]; [|auto]. destruct (in_dset _ _ _ H1); subst; auto.
Qed.

Lemma nodup_dset e d : NoDup (map loc d) -> NoDup (map loc (dset e d)).
Proof.
  induction d as [|y r IH]; cbn; intros H; [repeat constructor; auto|].
  inversion H as [|? ? Hy Hr]; subst. destruct (str_eqb (loc y) (loc e)) eqn:E; cbn.
  - apply str_eqb_eq in E. rewrite <- E. constructor; assumption.
  - constructor; [|auto]. rewrite keys_dset. intros [K|K]; [|auto].
    apply str_eqb_neq in E. congruence.
Qed.
Lemma nodup_dupdate l : forall d, NoDup (map loc d) -> NoDup (map loc (dupdate d l)).
Proof. induction l as [|e r IH]; intros d H; cbn; [exact H|]. apply IH. apply nodup_dset. exact H. Qed.

Lemma stay_dset x e d : In x d -> loc e <> loc x -> In x (dset e d).
Proof.
  induction d as [|y r IH]; cbn; [tauto|]. intros [->|H] N.
  - rewrite (proj2 (str_eqb_neq _ _)) by congruence. left. reflexivity.
  - destruct (str_eqb (loc y) (loc e)); [right; exact H|right; auto].
Qed.
Lemma stay_dupdate l : forall d x, In x d -> (forall y, In y l -> loc y <> loc x) -> In x (dupdate d l).
Proof.
  induction l as [|e r IH]; intros d x H N; cbn; [exact H|]. apply IH.
  - apply stay_dset; [exact H|apply N; left; reflexivity].
  - intros y Hy. apply N. right. exact Hy.
Qed.

Lemma dset_fresh e d : ~ In (loc e) (map loc d) -> dset e d = d ++ [e].
Proof.
  induction d as [|x r IH]; intros H; cbn; [reflexivity|].
  rewrite (proj2 (str_eqb_neq _ _)) by (intro E; apply H; left; exact E).
  rewrite IH; [reflexivity|]. intro E. apply H. right. exact E.
Qed.

Lemma dupdate_fresh l : forall d, NoDup (map loc (d ++ l)) -> dupdate d l = d ++ l.
Proof.
  induction l as [|e r IH]; intros d H; cbn; [rewrite app_nil_r; reflexivity|].
  rewrite dset_fresh.
  - change (fold_left (fun acc e0 => dset e0 acc) r (d ++ [e])) with (dupdate (d ++ [e]) r).
    rewrite IH; rewrite <- app_assoc; [reflexivity|exact H].
  - rewrite map_app in H. cbn in H. apply NoDup_remove_2 in H. intro E. apply H. apply in_or_app. left. exact E.
Qed.

Lemma ddiff_filter l : forall t, ddiff t l = filter (fun e => negb (smem (loc e) (map loc l))) t.
Proof.
  induction l as [|a r IH]; intros t; cbn.
  - symmetry. clear. induction t; cbn; congruence.
  - change (fold_left (fun acc e => ddel (loc e) acc) r (ddel (loc a) t)) with (ddiff (ddel (loc a) t) r).
    rewrite IH. unfold ddel. rewrite filter_filter. apply filter_ext. intros e.
    rewrite negb_orb. reflexivity.
Qed.

Lemma ddiff_pred (p : entry -> bool) t : NoDup (map loc t) ->
  ddiff t (filter p t) = filter (fun e => negb (p e)) t.
Proof.
  intros H. rewrite ddiff_filter. apply filter_ext_in. intros e He. f_equal.
  destruct (p e) eqn:S.
  - apply existsb_str_In. apply in_map. apply filter_In. split; assumption.
  - destruct (smem (loc e) (map loc (filter p t))) eqn:M; [|reflexivity].
    apply existsb_str_In in M. apply in_map_iff in M as (s & E & Hs). apply filter_In in Hs as [Hs1 Hs2].
    assert (s = e) by (eapply (NoDup_map_inj loc); eauto). subst. congruence.
Qed.

Definition conv (e : entry) : M22.entry :=
  {| M22.eloc := loc e; M22.ekind := kind_id (knd e); M22.etag := 0%N |}.

Lemma dhas_conv k d : M22.dhas k (map conv d) = dhas k d.
Proof. unfold M22.dhas, dhas. induction d as [|e r IH]; cbn; [reflexivity|]. rewrite IH. reflexivity. Qed.

Lemma ascend_conv fuel : forall d t m, M22.ascend fuel (map conv d) t m = ascend fuel d t m.
Proof.
  induction fuel as [|f IH]; intros d t m; cbn [M22.ascend ascend]; [reflexivity|].
  rewrite dhas_conv. change (M22.smem t m || dhas (M22.normpath t) d) with (smem t m || dhas (normpath t) d).
  destruct (smem t m || dhas (normpath t) d); [reflexivity|apply IH].
Qed.

Lemma walk_conv d l : forall m,
  P22.walk (map conv d) l m = fold_left (fun m x => ascend (S (S (length x))) d (dirname x) m) l m.
Proof.
  unfold P22.walk. induction l as [|x r IH]; intros m; cbn [fold_left]; [reflexivity|].
  rewrite ascend_conv. apply IH.
Qed.

Lemma m0_conv d :
  M22.sdedupe (filter (fun x => negb (M22.dhas (M22.normpath x) (map conv d)))
                      (map (fun e => M22.dirname (M22.eloc e)) (map conv d)))
  = sdedupe (filter (fun x => negb (dhas (normpath x) d)) (map (fun e => dirname (loc e)) d)).
Proof.
  change M22.sdedupe with sdedupe. rewrite map_map. f_equal. apply filter_ext. intros x. rewrite dhas_conv. reflexivity.
Qed.

Lemma missing_dirs_conv d : M22.missing_dirs (map conv d) = missing_dirs d.
Proof.
  unfold M22.missing_dirs, missing_dirs. rewrite m0_conv.
  change (fold_left (fun m x => M22.ascend (S (S (length x))) (map conv d) (M22.dirname x) m))
    with (P22.walk (map conv d)).
  rewrite walk_conv. reflexivity.
Qed.

Lemma anc_from22 p a : S22.ancestor p a -> ancestor p a.
Proof. induction 1; [apply anc_parent|apply anc_up; assumption]. Qed.
Lemma anc_to22 p a : ancestor p a -> S22.ancestor p a.
Proof. induction 1; [apply S22.anc_parent|apply S22.anc_up; assumption]. Qed.

Definition normal_locs (d : dict) : Prop := forall e, In e d -> normpath (loc e) = loc e.

Lemma plain_normal d : plain_locs d -> normal_locs d.
Proof. intros Hp e He. destruct (Hp e He) as (cs & Hne & HF & ->). apply normpath_abs; assumption. Qed.

Lemma wf_conv d : NoDup (map loc d) -> normal_locs d -> S22.wf_dict (map conv d).
Proof.
  intros ND HN. split.
  - rewrite map_map. exact ND.
  - apply Forall_forall. intros e' He'. apply in_map_iff in He' as (e & <- & He).
    unfold S22.wf_entry. cbn. apply HN. exact He.
Qed.

Lemma missing_sound_list d x : In x (missing_dirs d) ->
  x <> [SL] /\ dhas (normpath x) d = false /\ exists e, In e d /\ ancestor (loc e) x.
Proof.
  intros Hx. destruct (P22.missing_dirs_inv (map conv d)) as [Hinv Hroot].
  rewrite missing_dirs_conv in Hinv, Hroot. unfold P22.minv in Hinv. rewrite Forall_forall in Hinv.
  destruct (Hinv x Hx) as (H1 & e' & He' & Ha). rewrite dhas_conv in H1.
  apply in_map_iff in He' as (e & <- & He). split; [|split].
  - intros ->. apply Hroot. exact Hx.
  - exact H1.
  - exists e. split; [exact He|]. apply anc_from22. exact Ha.
Qed.

Lemma missing_complete_list d : NoDup (map loc d) -> normal_locs d ->
  forall e a, In e d -> ancestor (loc e) a -> a <> [SL] ->
  In a (missing_dirs d) \/ dhas (normpath a) d = true.
Proof.
  intros ND HN e a He Ha Hroot.
  pose proof (P22.missing_core (map conv d) (wf_conv d ND HN) (conv e) a (in_map conv d e He)
                (anc_to22 _ _ Ha)) as C.
  rewrite m0_conv, walk_conv in C. destruct C as [C|C].
  - left. unfold missing_dirs. apply filter_In. split; [exact C|].
    apply negb_true_iff, str_eqb_neq, Hroot.
  - right. rewrite dhas_conv in C. exact C.
Qed.

(* [r] is [X] plus exactly the missing ancestor directories: no path twice, all of X, nothing else
   but fresh directories at absent proper ancestors (other than "/") of entries of X, all of these *)
Definition plus_missing (X r : list entry) : Prop :=
  NoDup (map loc r)
  /\ (forall e, In e X -> In e r)
  /\ (forall e', In e' r ->
        In e' X \/ exists x, e' = new_dir x /\ x <> [SL] /\ ~ In (normpath x) (map loc X)
                             /\ exists e, In e X /\ ancestor (loc e) x)
  /\ (forall e a, In e X -> ancestor (loc e) a -> a <> [SL] -> In (normpath a) (map loc r)).

Lemma add_missing_exact d : NoDup (map loc d) -> normal_locs d -> plus_missing d (add_missing d).
Proof.
  intros ND HN. unfold add_missing. split; [|split; [|split]].
  - apply nodup_dupdate. exact ND.
  - intros e He. apply stay_dupdate; [exact He|]. intros y Hy E.
    apply in_map_iff in Hy as (x & <- & Hx). destruct (missing_sound_list d x Hx) as (_ & H & _).
    cbn in E. assert (dhas (normpath x) d = true) by (apply dhas_in; rewrite E; apply in_map; exact He).
    congruence.
  - intros e' H. destruct (in_dupdate _ _ _ H) as [H1|H1]; [left; exact H1|right].
    apply in_map_iff in H1 as (x & <- & Hx). destruct (missing_sound_list d x Hx) as (R & A & B).
    exists x. repeat split; auto. intro K. apply dhas_in in K. congruence.
  - intros e a He Ha Hr. apply keys_dupdate.
    destruct (missing_complete_list d ND HN e a He Ha Hr) as [M|M].
    + right. rewrite map_map. cbn. apply in_map_iff. exists a. split; [reflexivity|exact M].
    + left. apply dhas_in. exact M.
Qed.

Lemma plus_missing_perm X X' r r' :
  Permutation X X' -> Permutation r r' -> plus_missing X r -> plus_missing X' r'.
Proof.
  intros PX Pr (M1 & M2 & M3 & M4).
  assert (PX' := Permutation_sym PX). assert (Pr' := Permutation_sym Pr).
  assert (Lr := Permutation_map loc Pr). assert (LX := Permutation_map loc PX').
  split; [|split; [|split]].
  - apply (Permutation_NoDup Lr). exact M1.
  - intros e He. apply (Permutation_in _ Pr), M2, (Permutation_in _ PX'), He.
  - intros e' He'. destruct (M3 e' (Permutation_in _ Pr' He')) as [H|(x & E & R & N & e & He & A)].
    + left. apply (Permutation_in _ PX). exact H.
    + right. exists x. repeat split; auto.
      * intro K. apply N. apply (Permutation_in _ LX). exact K.
      * exists e. split; [apply (Permutation_in _ PX); exact He|exact A].
  - intros e a He Ha Hr. apply (Permutation_in _ Lr). apply (M4 e a); auto.
    apply (Permutation_in _ PX'). exact He.
Qed.

Lemma beneathb_iff d p : beneathb d p = true <-> beneath d p.
Proof.
  unfold beneathb. rewrite starts_with_iff. split; intros (rest & ->); exists rest.
  - rewrite <- app_assoc. reflexivity.
  - rewrite <- app_assoc. reflexivity.
Qed.

Lemma child_nodes_beneath d l : plain_loc l -> child_nodes d l = filter (fun e => beneathb l (loc e)) d.
Proof.
  intros (cs & Hne & HF & ->). unfold child_nodes, child_prefix.
  rewrite normpath_abs, rstrip_abs by assumption. reflexivity.
Qed.

Lemma no_kids t l : plain_loc l -> (forall e, In e t -> ~ beneath l (loc e)) -> child_nodes t l = [].
Proof.
  intros Hl H. rewrite child_nodes_beneath by exact Hl. apply filter_all_false. intros e He.
  destruct (beneathb l (loc e)) eqn:B; [|reflexivity]. apply beneathb_iff in B. destruct (H e He B).
Qed.

Lemma first_affected_none s d : (forall x, In x s -> child_nodes d (loc x) = []) -> first_affected s d = None.
Proof.
  induction s as [|x r IH]; intros H; cbn; [reflexivity|]. rewrite (H x (or_introl eq_refl)).
  apply IH. intros y Hy. apply H. right. exact Hy.
Qed.

Lemma move_children_none s : forall t adds, (forall x, In x s -> child_nodes t (loc x) = []) ->
  move_children s t adds = (t, adds).
Proof.
  induction s as [|x r IH]; intros t adds H; cbn; [reflexivity|]. rewrite (H x (or_introl eq_refl)).
  apply IH. intros y Hy. apply H. right. exact Hy.
Qed.

(* the dict after the first loop, when that loop finds nothing to rewrite: the symlinks last *)
Definition syms_last (raw : list entry) : list entry :=
  filter (fun e => negb (is_sym e)) raw ++ filter is_sym raw.

Lemma syms_last_perm raw : Permutation (syms_last raw) raw.
Proof. eapply perm_trans; [apply Permutation_app_comm|]. apply filter_split_perm. Qed.

Lemma convert_start raw : NoDup (map loc raw) ->
  (forall s, In s raw -> is_sym s = true -> child_nodes (filter is_sym raw) (loc s) = []) ->
  convert raw =
    let '(t2, adds) := move_children (rev (sort_loc (filter is_sym raw))) (syms_last raw) [] in
    Ok (isort final_lt (add_missing (dupdate t2 adds))).
Proof.
  intros Hnd Hno. unfold convert. rewrite (dupdate_fresh raw []) by exact Hnd. cbn [app].
  rewrite (dupdate_fresh _ []) by (apply NoDup_map_filter; exact Hnd). cbn [app sym_loop].
  rewrite first_affected_none.
  2:{ intros x Hx. apply (Permutation_in _ (isort_perm _ _)), filter_In in Hx. apply Hno; apply Hx. }
  rewrite ddiff_pred by exact Hnd. rewrite dupdate_fresh; [reflexivity|].
  apply (Permutation_NoDup (Permutation_map loc (Permutation_sym (syms_last_perm raw)))). exact Hnd.
Qed.

(* the last two steps of convert_archive, on a dict R that is X in another order *)
Lemma convert_finish R X : Permutation R X -> NoDup (map loc X) -> plain_locs R ->
  plus_missing X (isort final_lt (add_missing R)).
Proof.
  intros P ND Hp. apply (plus_missing_perm R _ (add_missing R)); [exact P|symmetry; apply isort_perm|].
  apply add_missing_exact; [|apply plain_normal, Hp].
  apply (Permutation_NoDup (Permutation_map loc (Permutation_sym P))), ND.
Qed.

Lemma convert_flat_dirs raw :
  NoDup (map loc raw) -> plain_locs raw -> flat_d raw ->
  exists r, convert raw = Ok r /\ plus_missing raw r.
Proof.
  intros Hnd Hp Hf.
  assert (Hno : forall t s, In s raw -> is_sym s = true -> incl t raw -> child_nodes t (loc s) = []).
  { intros t s Hs Ss Ht. apply no_kids; [apply Hp; exact Hs|]. intros e He. apply Hf; auto. }
  assert (Pt := syms_last_perm raw).
  rewrite convert_start; [|exact Hnd|intros s Hs Ss; apply Hno; auto; apply incl_filter].
  rewrite move_children_none.
  2:{ intros x Hx. apply in_rev, (Permutation_in _ (isort_perm _ _)), filter_In in Hx.
      apply Hno; try apply Hx. intros e He. apply (Permutation_in _ Pt). exact He. }
  eexists. split; [reflexivity|]. cbn [dupdate fold_left].
  apply convert_finish; [exact Pt|exact Hnd|]. intros e He. apply Hp, (Permutation_in _ Pt), He.
Qed.

Definition relocate (gl : str -> str) (e : entry) : entry := with_loc e (gl (loc e)).

Lemma with_loc_same e : with_loc e (loc e) = e.
Proof. destruct e; reflexivity. Qed.

Lemma obs_relocate gl a b : obs a = obs b -> obs (relocate gl a) = obs (relocate gl b).
Proof. unfold relocate, obs. cbn. intros H. injection H. intros. congruence. Qed.

Lemma map_loc_relocate gl l : map loc (map (relocate gl) l) = map gl (map loc l).
Proof. rewrite !map_map. reflexivity. Qed.

(* If convert_archive turns what was read of c into those entries at other locations (given by gl,
   which sends no two locations of c to one) plus the missing directories, then the round trip of c
   is c at those locations plus the missing directories. *)
Lemma roundtrip_relocated gl c raw r :
  roundtrip_ok c raw -> NoDup (map gl (map loc c)) ->
  plus_missing (map (relocate gl) raw) r -> roundtrip_dirs_ok (map (relocate gl) c) r.
Proof.
  intros [Pobs Links] NDg (NDr & Keep & New & Anc). set (g := relocate gl) in *.
  assert (Ploc := obs_perm_loc _ _ Pobs).
  assert (PL : Permutation (map loc (map g raw)) (map loc (map g c))).
  { unfold g. rewrite !map_loc_relocate. apply Permutation_map. exact Ploc. }
  assert (Back' : forall e, In e (map g raw) -> exists f, In f (map g c) /\ obs e = obs f).
  { intros e He. apply in_map_iff in He as (b & <- & Hb). destruct (obs_perm_in _ _ Pobs b Hb) as (f & Hf & O).
    exists (g f). split; [apply in_map; exact Hf|apply obs_relocate; exact O]. }
  assert (Forth' : forall f, In f (map g c) -> exists e, In e (map g raw) /\ obs e = obs f).
  { intros f Hf. apply in_map_iff in Hf as (a & <- & Ha).
    destruct (obs_perm_in _ _ (Permutation_sym Pobs) a Ha) as (e & He & O).
    exists (g e). split; [apply in_map; exact He|apply obs_relocate; symmetry; exact O]. }
  split; [exact NDr|]. split; [|split; [|split]].
  - intros f Hf. destruct (Forth' f Hf) as (e & He & O). exists e. split; [apply Keep; exact He|exact O].
  - intros r0 Hr0. destruct (New r0 Hr0) as [H|(y & E & R & N & e & He & A)]; [left; auto|right].
    exists y. repeat split; auto.
    + intro K. apply N. apply (Permutation_in _ (Permutation_sym PL)). exact K.
    + destruct (Back' e He) as (f & Hf & O). exists f. split; [exact Hf|]. rewrite <- (obs_loc _ _ O). exact A.
  - intros f a Hf Ha Hr. destruct (Forth' f Hf) as (e & He & O). apply (Anc e a); auto.
    rewrite (obs_loc _ _ O). exact Ha.
  - intros e1 e2 r1 r2 H1 H2 Hr1 Hr2 K1 K2 L1 L2.
    apply in_map_iff in H1 as (a1 & <- & Ha1). apply in_map_iff in H2 as (a2 & <- & Ha2).
    assert (G : forall a r0, In a c -> In r0 r -> loc r0 = loc (g a) ->
                exists b, In b raw /\ loc b = loc a /\ ino r0 = ino b).
    { intros a r0 Ha Hr0 L. destruct (New r0 Hr0) as [H|(y & E & _ & N & _)].
      - apply in_map_iff in H as (b & <- & Hb). exists b. split; [exact Hb|]. split; [|reflexivity].
        apply (NoDup_map_inj gl (map loc c)); auto; [|apply in_map; exact Ha].
        apply (Permutation_in _ Ploc). apply in_map. exact Hb.
      - exfalso. apply N. subst r0. cbn in L. rewrite L. change (gl (loc a)) with (loc (g a)).
        apply (Permutation_in _ (Permutation_sym PL)). apply in_map. apply in_map. exact Ha. }
    destruct (G a1 r1 Ha1 Hr1 L1) as (b1 & Hb1 & Lb1 & ->).
    destruct (G a2 r2 Ha2 Hr2 L2) as (b2 & Hb2 & Lb2 & ->).
    rewrite (Links a1 a2 b1 b2) by assumption.
    unfold same_file. change (hkey (g a1)) with (hkey a1). change (hkey (g a2)) with (hkey a2).
    split; intros [E|E]; auto; left.
    + cbn. rewrite E. reflexivity.
    + apply (NoDup_map_inj gl (map loc c)); auto; apply in_map; assumption.
Qed.

Lemma roundtrip_via gl c : wf c -> NoDup (map gl (map loc c)) ->
  (forall raw, roundtrip_ok c raw -> NoDup (map loc raw) -> plain_locs raw ->
     exists r, convert raw = Ok r /\ plus_missing (map (relocate gl) raw) r) ->
  exists r, of_members (to_members c) = Ok r /\ roundtrip_dirs_ok (map (relocate gl) c) r.
Proof.
  intros Hwf NDg Hconv. destruct (raw_back c Hwf) as (raw & Eraw & RB).
  destruct (Hconv raw RB) as (r & Er & PM).
  { apply (Permutation_NoDup (Permutation_sym (obs_perm_loc _ _ (proj1 RB)))), (wf_nodup c Hwf). }
  { intros e He. destruct (obs_perm_in _ _ (proj1 RB) e He) as (f & Hf & O).
    rewrite (obs_loc _ _ O). apply (wf_loc c Hwf), Hf. }
  exists r. split; [unfold of_members; rewrite Eraw; exact Er|].
  apply (roundtrip_relocated gl c raw); assumption.
Qed.

Lemma read_back_flat c raw : flat c -> roundtrip_ok c raw -> flat_d raw.
Proof.
  intros Hflat [Pobs _] s e Hs He Ss.
  destruct (obs_perm_in _ _ Pobs s Hs) as (fs & Hfs & Os). destruct (obs_perm_in _ _ Pobs e He) as (fe & Hfe & Oe).
  rewrite (obs_loc _ _ Os), (obs_loc _ _ Oe). apply Hflat; auto.
  rewrite <- (obs_knd _ _ Os). apply kind_eqb_eq. exact Ss.
Qed.

Lemma relocate_id l : map (relocate (fun p => p)) l = l.
Proof. rewrite <- (map_id l) at 2. apply map_ext. intros e. apply with_loc_same. Qed.

Theorem tar_roundtrip_dirs_proof : forall c, wf c -> flat c ->
  exists r, of_members (to_members c) = Ok r /\ roundtrip_dirs_ok c r.
Proof.
  intros c Hwf Hflat. destruct (roundtrip_via (fun p => p) c Hwf) as (r & E & H).
  - rewrite map_id. apply (wf_nodup c Hwf).
  - intros raw RB ND Hp. rewrite relocate_id. apply convert_flat_dirs; auto. apply (read_back_flat c); assumption.
  - rewrite relocate_id in H. eauto.
Qed.

(* when every parent is there nothing is missing ([closed_d] is the predicate [parents_closed]) *)
Lemma closed_ancestors d : closed_d d -> plain_locs d ->
  forall e a, In e d -> ancestor (loc e) a -> a <> [SL] -> In (normpath a) (map loc d).
Proof.
  intros Hc Hp e a He Ha Hr.
  assert (H : a = [SL] \/ In a (map loc d)).
  { clear Hr. remember (loc e) as p eqn:Ep. revert e He Ep. induction Ha as [p|p a Ha IH]; intros e He ->.
    - apply Hc. exact He.
    - destruct (IH e He eq_refl) as [->|H]; [left; reflexivity|].
      apply in_map_iff in H as (e' & <- & He'). apply Hc. exact He'. }
  destruct H as [H|H]; [contradiction|]. apply in_map_iff in H as (e' & <- & He').
  rewrite (plain_normal d Hp e' He'). apply in_map. exact He'.
Qed.

Lemma convert_flat raw :
  NoDup (map loc raw) -> plain_locs raw -> flat_d raw -> closed_d raw ->
  exists r, convert raw = Ok r /\ Permutation r raw.
Proof.
  intros Hnd Hp Hf Hc. destruct (convert_flat_dirs raw Hnd Hp Hf) as (r & Er & NDr & Keep & New & _).
  exists r. split; [exact Er|].
  apply NoDup_Permutation; [exact (NoDup_map_inv _ _ NDr)|exact (NoDup_map_inv _ _ Hnd)|].
  intros e. split; [|apply Keep]. intros He. destruct (New e He) as [H|(x & _ & R & N & e0 & He0 & A)]; [exact H|].
  destruct N. apply (closed_ancestors raw Hc Hp e0 x); assumption.
Qed.

Lemma nodup_obs l : NoDup (map loc l) -> NoDup (map obs l).
Proof.
  intros H. apply (NoDup_map_inv (fun o => fst (fst (fst (fst (fst o)))))). rewrite map_map. exact H.
Qed.

Lemma roundtrip_dirs_closed c r : wf c -> parents_closed c -> roundtrip_dirs_ok c r -> roundtrip_ok c r.
Proof.
  intros Hwf Hcl (NDr & Keep & New & _ & Links). split; [|exact Links].
  apply NoDup_Permutation; [apply nodup_obs; exact NDr|apply nodup_obs, (wf_nodup c Hwf)|].
  intros o. rewrite !in_map_iff. split.
  - intros (r0 & <- & Hr0). destruct (New r0 Hr0) as [(e & He & O)|(x & _ & R & N & e & He & A)]; [eauto|].
    destruct N. apply (closed_ancestors c Hcl (wf_loc c Hwf) e x); assumption.
  - intros (e & <- & He). destruct (Keep e He) as (r0 & Hr0 & O). eauto.
Qed.

(* example: a set whose directories were dropped: /u/a/f and /v/b/g with only /u recorded *)
Local Open Scope N_scope.
Definition exd_set :=
  [ mkE [47;117;47;97;47;102]%N KReg 420 0 0 8 [] (Some 1) (Some 3) 1 2 0 0 0;      (* /u/a/f *)
    mkE [47;117]%N KDir 493 0 0 8 [] None None 0 0 0 0 0;                          (* /u *)
    mkE [47;118;47;98;47;103]%N KFifo 384 0 0 8 [] None None 0 0 0 0 0 ].          (* /v/b/g *)
Example exd_read : match of_members (to_members exd_set) with
                   | Ok r => map (fun e => (loc e, knd e, mode e)) r
                   | Fail _ => [] end =
  [([47;117]%N, KDir, 493); ([47;117;47;97]%N, KDir, 509); ([47;118]%N, KDir, 509);
   ([47;118;47;98]%N, KDir, 509); ([47;118;47;98;47;103]%N, KFifo, 384); ([47;117;47;97;47;102]%N, KReg, 420)].
Proof. vm_compute. reflexivity. Qed.
