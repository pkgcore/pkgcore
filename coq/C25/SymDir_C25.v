(* SymDir_C25.v — the round trip for sets with entries recorded beneath ONE symlinked directory:
   what is read back is the live-merge resolution of the set (plus missing ancestor directories). *)
From Coq Require Import List ZArith Permutation.
Import ListNotations.
From Verif Require Import Base.Val Base.Lists C25.Path_C25 C25.Model_C25 C25.Spec_C25 C25.SpecSym_C25
                          C25.Proofs_C25 C25.RoundtripExt_C25.
From Verif Require C22.Proofs_C22 C22.Prop_C22.
Module P22 := Verif.C22.Proofs_C22.

Lemma split_join_app co s : co <> [] -> Forall nosl co ->
  split_sl (join_sl co ++ SL :: s) = co ++ split_sl s.
Proof.
  induction co as [|a r IH]; intros Hne HF; [congruence|]. inversion HF as [|? ? Ha Hr]; subst.
  destruct r as [|b r'].
  - cbn [join_sl app]. apply split_app_sl. exact Ha.
  - change (join_sl (a :: b :: r')) with (a ++ SL :: join_sl (b :: r')).
    rewrite <- app_assoc. cbn [app]. rewrite split_app_sl by exact Ha.
    rewrite IH by (auto; discriminate). reflexivity.
Qed.

Lemma join_app l1 l2 : l1 <> [] -> l2 <> [] -> join_sl (l1 ++ l2) = join_sl l1 ++ SL :: join_sl l2.
Proof. exact (P22.join_app l1 l2). Qed.

Lemma beneath_comps co ce : co <> [] -> Forall plainc co -> ce <> [] -> Forall plainc ce ->
  beneath (abs_of co) (abs_of ce) -> exists cr, cr <> [] /\ ce = co ++ cr.
Proof.
  intros H1 F1 H2 F2 (rest & E). unfold abs_of in E. injection E as E.
  apply (f_equal split_sl) in E. rewrite split_join in E by (auto using plain_nosl).
  rewrite split_join_app in E by (auto using plain_nosl).
  exists (split_sl rest). split; [apply P22.split_ne|exact E].
Qed.

Lemma reloc_child lx T l : plain_loc lx -> plain_loc T -> plain_loc l -> beneath lx l ->
  reloc lx T l = T ++ skipn (length lx) l /\ plain_loc (T ++ skipn (length lx) l).
Proof.
  intros (co & H1 & F1 & ->) (ct & H2 & F2 & ->) (ce & H3 & F3 & ->) B.
  destruct (beneath_comps co ce H1 F1 H3 F3 B) as (cr & Hr & ->).
  assert (Fr : Forall plainc cr) by (apply Forall_app in F3; apply F3).
  assert (E : abs_of ct ++ skipn (length (abs_of co)) (abs_of (co ++ cr)) = abs_of (ct ++ cr)).
  { unfold abs_of. rewrite !join_app by assumption. change (SL :: join_sl co ++ SL :: join_sl cr)
      with ((SL :: join_sl co) ++ SL :: join_sl cr).
    rewrite skipn_app, skipn_all, Nat.sub_diag. reflexivity. }
  rewrite E. split.
  - pose proof (Verif.C22.Prop_C22.relocate_prefix co ct cr 0 F1 F2 Fr) as R.
    cbn [repeat] in R. rewrite app_nil_r in R. exact R.
  - exists (ct ++ cr). split; [destruct ct; [congruence|discriminate]|]. split; [|reflexivity].
    apply Forall_app. split; assumption.
Qed.

Lemma ddiff_sub t a e : In e (ddiff t a) -> In e t.
Proof. rewrite ddiff_filter. intros H. apply filter_In in H. apply H. Qed.

(* the second loop when only x has anything beneath it *)
Lemma move_children_one x L : forall t adds,
  NoDup (map loc L) -> In x L ->
  (forall s, In s L -> loc s <> loc x -> forall t', (forall e, In e t' -> In e t) -> child_nodes t' (loc s) = []) ->
  move_children L t adds =
    (ddiff t (child_nodes t (loc x)), adds ++ change_offset (loc x) (resolved_target x) (child_nodes t (loc x))).
Proof.
  induction L as [|s L' IH]; intros t adds ND Hx Hno; [destruct Hx|].
  cbn in ND. inversion ND as [|? ? Ns NL]; subst.
  destruct (str_eqb (loc s) (loc x)) eqn:E.
  - apply str_eqb_eq in E. assert (s = x) by (apply (NoDup_map_inj loc (s :: L')); cbn; auto). subst s.
    assert (Rest : forall t0, (forall e, In e t0 -> In e t) -> forall adds0, move_children L' t0 adds0 = (t0, adds0)).
    { intros t0 Ht0 adds0. apply move_children_none. intros y Hy. apply (Hno y); [right; exact Hy| |exact Ht0].
      intro K. apply Ns. rewrite <- K. apply in_map. exact Hy. }
    cbn [move_children]. destruct (child_nodes t (loc x)) as [|a0 a'] eqn:Ea.
    + rewrite Rest by auto. cbn. rewrite app_nil_r. reflexivity.
    + rewrite Rest; [reflexivity|]. intros e He. eapply ddiff_sub. exact He.
  - apply str_eqb_neq in E. destruct Hx as [->|Hx]; [congruence|].
    cbn [move_children]. rewrite (Hno s (or_introl eq_refl) E t) by auto.
    apply IH; auto. intros y Hy. apply Hno. right. exact Hy.
Qed.

Lemma perm_split_map {A} (p : A -> bool) (g : A -> A) l :
  Permutation (filter (fun e => negb (p e)) l ++ map g (filter p l)) (map (fun e => if p e then g e else e) l).
Proof.
  induction l as [|a r IH]; cbn; [reflexivity|]. destruct (p a); cbn.
  - rewrite <- Permutation_middle. constructor. exact IH.
  - constructor. exact IH.
Qed.

Lemma convert_one raw x :
  NoDup (map loc raw) -> plain_locs raw -> In x raw -> is_sym x = true ->
  (forall s e, In s raw -> In e raw -> is_sym s = true -> beneath (loc s) (loc e) -> s = x) ->
  (forall e, In e raw -> beneath (loc x) (loc e) -> is_sym e = false) ->
  plain_loc (resolved_target x) ->
  NoDup (map loc (resolve_syms x raw)) ->
  exists r, convert raw = Ok r /\ plus_missing (resolve_syms x raw) r.
Proof.
  intros Hnd Hp Hx Sx Honly Hnos HT Hnd'.
  assert (Pt := syms_last_perm raw). set (t1 := syms_last raw) in *.
  assert (ND1 : NoDup (map loc t1)).
  { apply (Permutation_NoDup (Permutation_map loc (Permutation_sym Pt))). exact Hnd. }
  (* only x has entries beneath it, and no symlink among them *)
  assert (Hno : forall t s, In s raw -> is_sym s = true -> incl t raw ->
                  loc s <> loc x \/ (forall e, In e t -> is_sym e = true) -> child_nodes t (loc s) = []).
  { intros t s Hs Ss Ht Hor. apply no_kids; [apply Hp; exact Hs|]. intros e He B.
    assert (s = x) by (apply (Honly s e); auto). subst s. destruct Hor as [N|Hsy]; [congruence|].
    specialize (Hsy e He). rewrite (Hnos e (Ht e He) B) in Hsy. discriminate. }
  rewrite convert_start; [|exact Hnd|].
  2:{ intros s Hs Ss. apply Hno; auto; [apply incl_filter|]. right. intros e He. apply filter_In in He. apply He. }
  fold t1. rewrite (move_children_one x).
  2:{ rewrite map_rev. apply NoDup_rev.
      apply (Permutation_NoDup (Permutation_map loc (Permutation_sym (isort_perm _ _)))).
      apply NoDup_map_filter. exact Hnd. }
  2:{ apply -> in_rev. apply (Permutation_in _ (Permutation_sym (isort_perm _ _))).
      apply filter_In. split; assumption. }
  2:{ intros s Hs Ns t' Ht'. apply in_rev, (Permutation_in _ (isort_perm _ _)), filter_In in Hs.
      apply Hno; auto; try apply Hs. intros e He. apply (Permutation_in _ Pt). apply Ht'. exact He. }
  cbn [app].
  set (ch := fun e : entry => beneathb (loc x) (loc e)).
  rewrite (child_nodes_beneath t1 (loc x)) by (apply Hp; exact Hx). fold ch.
  rewrite ddiff_pred by exact ND1.
  assert (Hmv : forall e, In e (filter ch t1) ->
                  reloc (loc x) (resolved_target x) (loc e) = loc (moved x e) /\ plain_loc (loc (moved x e))).
  { intros e He. apply filter_In in He as [He1 He2].
    apply reloc_child; [apply Hp; exact Hx|exact HT|apply Hp; apply (Permutation_in _ Pt); exact He1
                        |apply beneathb_iff; exact He2]. }
  assert (Emv : change_offset (loc x) (resolved_target x) (filter ch t1)
                = dupdate [] (map (moved x) (filter ch t1))).
  { unfold change_offset. f_equal. apply map_ext_in. intros e He. unfold moved. f_equal. apply Hmv. exact He. }
  rewrite Emv.
  set (R := filter (fun e => negb (ch e)) t1 ++ map (moved x) (filter ch t1)).
  assert (PR : Permutation R (resolve_syms x raw)).
  { unfold R. eapply perm_trans; [apply perm_split_map|]. unfold resolve_syms. apply Permutation_map. exact Pt. }
  assert (NDR : NoDup (map loc R)).
  { apply (Permutation_NoDup (Permutation_map loc (Permutation_sym PR))). exact Hnd'. }
  rewrite (dupdate_fresh _ []) by (unfold R in NDR; rewrite map_app in NDR; apply NoDup_app in NDR; apply NDR).
  cbn [app]. rewrite dupdate_fresh by exact NDR. fold R.
  eexists. split; [reflexivity|]. apply convert_finish; [exact PR|exact Hnd'|].
  intros e He. apply in_app_or in He as [He|He].
  - apply filter_In in He as [He _]. apply Hp. apply (Permutation_in _ Pt). exact He.
  - apply in_map_iff in He as (e0 & <- & He0). apply Hmv. exact He0.
Qed.

(* where resolve_syms puts the entry at l: this makes resolve_syms x an instance of [relocate] *)
Definition gloc (x : entry) (l : str) : str :=
  if beneathb (loc x) l then resolved_target x ++ skipn (length (loc x)) l else l.

Lemma resolve_syms_relocate x l : resolve_syms x l = map (relocate (gloc x)) l.
Proof.
  apply map_ext. intros e. unfold relocate, gloc, moved.
  destruct (beneathb (loc x) (loc e)); [reflexivity|symmetry; apply with_loc_same].
Qed.

Lemma convert_symdir c x raw : one_symdir c x -> roundtrip_ok c raw -> NoDup (map loc raw) -> plain_locs raw ->
  exists r, convert raw = Ok r /\ plus_missing (resolve_syms x raw) r.
Proof.
  intros [Oin Osym Oonly Onos Otgt Ond] [Pobs _] NDraw Hp. assert (Back := obs_perm_in _ _ Pobs).
  (* x as it was read *)
  destruct (obs_perm_in _ _ (Permutation_sym Pobs) x Oin) as (x' & Hx' & Ox). symmetry in Ox.
  pose proof (obs_loc _ _ Ox) as Lx. pose proof (obs_knd _ _ Ox) as Kx.
  assert (Tx : target x' = target x).
  { unfold obs in Ox. rewrite Kx, Osym in Ox. injection Ox. auto. }
  assert (RT : resolved_target x' = resolved_target x) by (unfold resolved_target; rewrite Lx, Tx; reflexivity).
  assert (RS : forall l, resolve_syms x' l = resolve_syms x l).
  { intros l. unfold resolve_syms, moved. rewrite Lx, RT. reflexivity. }
  rewrite <- RS. apply convert_one; auto.
  - unfold is_sym. rewrite Kx, Osym. reflexivity.
  - intros s e Hs He Ss B. destruct (Back s Hs) as (fs & Hfs & Os). destruct (Back e He) as (fe & Hfe & Oe).
    assert (fs = x).
    { apply (Oonly fs fe); auto.
      - rewrite <- (obs_knd _ _ Os). apply kind_eqb_eq. exact Ss.
      - rewrite <- (obs_loc _ _ Os), <- (obs_loc _ _ Oe). exact B. }
    subst fs. apply (NoDup_map_inj loc raw); auto. rewrite (obs_loc _ _ Os). symmetry. exact Lx.
  - intros e He B. destruct (Back e He) as (fe & Hfe & Oe).
    assert (N : knd fe <> KSym).
    { apply Onos; auto. rewrite <- (obs_loc _ _ Oe), <- Lx. exact B. }
    unfold is_sym. rewrite (obs_knd _ _ Oe). destruct (knd fe); cbn; congruence.
  - rewrite RT. exact Otgt.
  - rewrite RS, resolve_syms_relocate, map_loc_relocate.
    apply (Permutation_NoDup (Permutation_map _ (Permutation_sym (obs_perm_loc _ _ Pobs)))).
    rewrite <- map_loc_relocate, <- resolve_syms_relocate. exact Ond.
Qed.

(* non-vacuity: /lib -> lib64 with /lib/f recorded beneath the symlink; it comes back as /lib64/f *)
Local Open Scope N_scope.
Definition exs_sym := mkE [47;108;105;98]%N KSym 511 0 0 4 [108;105;98;54;52]%N None None 0 0 0 0 0.
Definition exs_set :=
  [ mkE [47;108;105;98;54;52]%N KDir 493 0 0 4 [] None None 0 0 0 0 0;              (* /lib64 *)
    exs_sym;                                                                         (* /lib -> lib64 *)
    mkE [47;108;105;98;47;102]%N KReg 420 0 0 4 [] (Some 1) (Some 2) 1 3 0 0 0 ].    (* /lib/f *)
Example exs_resolve : map loc (resolve_syms exs_sym exs_set)
  = [[47;108;105;98;54;52]%N; [47;108;105;98]%N; [47;108;105;98;54;52;47;102]%N].
Proof. vm_compute. reflexivity. Qed.
Example exs_read : match of_members (to_members exs_set) with
                   | Ok r => map (fun e => (loc e, knd e)) r | Fail _ => [] end
  = [([47;108;105;98;54;52]%N, KDir); ([47;108;105;98]%N, KSym); ([47;108;105;98;54;52;47;102]%N, KReg)].
Proof. vm_compute. reflexivity. Qed.

(* the hypotheses of tar_roundtrip_symdir are satisfiable by that set *)
Example exs_hyps : wf exs_set /\ one_symdir exs_set exs_sym.
Proof.
  split; constructor.
  - intros e He. cbn in He. repeat destruct He as [<-|He]; try contradiction.
    + exact (plain_loc_abs [[108;105;98;54;52]]%N ltac:(discriminate) eq_refl).
    + exact (plain_loc_abs [[108;105;98]]%N ltac:(discriminate) eq_refl).
    + exact (plain_loc_abs [[108;105;98]; [102]]%N ltac:(discriminate) eq_refl).
  - apply nodupb_ok. reflexivity.
  - intros e He K. cbn in He. repeat destruct He as [<-|He]; try contradiction; cbn; try reflexivity; congruence.
  - intros e He K. cbn in He. repeat destruct He as [<-|He]; try contradiction; discriminate.
  - intros e1 e2 H1 H2 K1 K2 N E. cbn in H1, H2.
    repeat destruct H1 as [<-|H1]; try contradiction; try discriminate;
      repeat destruct H2 as [<-|H2]; try contradiction; try discriminate; cbn; auto.
  - cbn. auto.
  - reflexivity.
  - intros s e Hs He K (rest & E). cbn in Hs, He.
    repeat destruct Hs as [<-|Hs]; try contradiction; try discriminate. reflexivity.
  - intros e He (rest & E). cbn in He.
    repeat destruct He as [<-|He]; try contradiction; try discriminate.
  - exact (plain_loc_abs [[108;105;98;54;52]]%N ltac:(discriminate) eq_refl).
  - apply nodupb_ok. reflexivity.
Qed.
