(* Base/Lists.v — facts about [str_eqb] and about the standard list functions that the
   library of Coq 8.16 does not provide; shared by the property directories. *)
From Coq Require Import List NArith Bool.
Import ListNotations.
From Verif Require Import Base.Val.

Lemma str_eqb_spec a b : reflect (a = b) (str_eqb a b).
Proof. apply iff_reflect. symmetry. apply str_eqb_eq. Qed.

Lemma str_eqb_neq a b : str_eqb a b = false <-> a <> b.
Proof. destruct (str_eqb_spec a b); split; congruence. Qed.

Lemma str_eqb_sym a b : str_eqb a b = str_eqb b a.
Proof. destruct (str_eqb_spec a b), (str_eqb_spec b a); congruence. Qed.

Lemma existsb_str_In x l : existsb (str_eqb x) l = true <-> In x l.
Proof.
  rewrite existsb_exists. split.
  - intros (y & Hy & E). apply str_eqb_eq in E. subst. exact Hy.
  - intros H. exists x. split; [exact H|apply str_eqb_refl].
Qed.

Lemma existsb_N_In x l : existsb (N.eqb x) l = true <-> In x l.
Proof.
  rewrite existsb_exists. split.
  - intros (y & Hy & E). apply N.eqb_eq in E. subst. exact Hy.
  - intros H. exists x. split; [exact H|apply N.eqb_refl].
Qed.

Section Lists.
  Context {A B : Type}.
  Implicit Types (f g : A -> bool) (l : list A).

  Lemma forallb_ext_in f g l : (forall x, In x l -> f x = g x) -> forallb f l = forallb g l.
  Proof.
    induction l as [|x l IH]; cbn; intros H; [reflexivity|].
    rewrite H, IH by auto. reflexivity.
  Qed.

  Lemma existsb_ext_in f g l : (forall x, In x l -> f x = g x) -> existsb f l = existsb g l.
  Proof.
    induction l as [|x l IH]; cbn; intros H; [reflexivity|].
    rewrite H, IH by auto. reflexivity.
  Qed.

  Lemma existsb_false f l : existsb f l = false <-> forall x, In x l -> f x = false.
  Proof.
    induction l as [|x l IH]; cbn; [tauto|]. rewrite orb_false_iff, IH. split.
    - intros [Hx Hl] y [<-|Hy]; auto.
    - auto.
  Qed.

  Lemma forallb_impl f g l :
    (forall x, In x l -> f x = true -> g x = true) -> forallb f l = true -> forallb g l = true.
  Proof. rewrite !forallb_forall. auto. Qed.

  Lemma forallb_map (h : B -> bool) (m : A -> B) l : forallb h (map m l) = forallb (fun x => h (m x)) l.
  Proof. induction l as [|x l IH]; cbn; congruence. Qed.

  Lemma existsb_map (h : B -> bool) (m : A -> B) l : existsb h (map m l) = existsb (fun x => h (m x)) l.
  Proof. induction l as [|x l IH]; cbn; congruence. Qed.

  Lemma forallb_rev f l : forallb f (rev l) = forallb f l.
  Proof.
    induction l as [|x l IH]; cbn; [reflexivity|].
    rewrite forallb_app, IH. cbn. rewrite andb_true_r. apply andb_comm.
  Qed.

  Lemma filter_all_false f l : (forall x, In x l -> f x = false) -> filter f l = [].
  Proof.
    induction l as [|x l IH]; cbn; intros H; [reflexivity|].
    rewrite H by auto. auto.
  Qed.

  Lemma filter_all_true f l : (forall x, In x l -> f x = true) -> filter f l = l.
  Proof.
    induction l as [|x l IH]; cbn; intros H; [reflexivity|].
    rewrite H, IH by auto. reflexivity.
  Qed.

  Lemma filter_filter f g l : filter g (filter f l) = filter (fun x => f x && g x) l.
  Proof.
    induction l as [|x l IH]; cbn; [reflexivity|].
    destruct (f x); cbn; [destruct (g x)|]; congruence.
  Qed.

  Lemma filter_rev f l : filter f (rev l) = rev (filter f l).
  Proof.
    induction l as [|x l IH]; cbn; [reflexivity|].
    rewrite filter_app, IH. cbn. destruct (f x); cbn; [reflexivity|apply app_nil_r].
  Qed.

  Lemma Forall_filter (P : A -> Prop) f l : Forall P l -> Forall P (filter f l).
  Proof. rewrite !Forall_forall. intros H x Hx. apply filter_In in Hx. apply H, Hx. Qed.

  Lemma Forall_firstn (P : A -> Prop) n l : Forall P l -> Forall P (firstn n l).
  Proof.
    intros H. revert n. induction H as [|x l Hx _ IH]; intros [|n]; cbn; constructor; auto.
  Qed.

  Lemma NoDup_map_filter (k : A -> B) f l : NoDup (map k l) -> NoDup (map k (filter f l)).
  Proof.
    induction l as [|x l IH]; cbn; intros H; [exact H|].
    apply NoDup_cons_iff in H as [Hx Hl]. destruct (f x); cbn; auto.
    constructor; auto. intros Hi. apply Hx.
    apply in_map_iff in Hi as (y & E & Hy). apply filter_In in Hy.
    apply in_map_iff. exists y. tauto.
  Qed.

  Lemma NoDup_map_inj (k : A -> B) l x y :
    NoDup (map k l) -> In x l -> In y l -> k x = k y -> x = y.
  Proof.
    induction l as [|z l IH]; cbn; [tauto|]. intros H Hx Hy E.
    apply NoDup_cons_iff in H as [Hz Hl].
    destruct Hx as [->|Hx], Hy as [->|Hy]; auto.
    - exfalso. apply Hz. rewrite E. apply in_map, Hy.
    - exfalso. apply Hz. rewrite <- E. apply in_map, Hx.
  Qed.

  Lemma NoDup_app (a b : list A) :
    NoDup (a ++ b) <-> NoDup a /\ NoDup b /\ forall x, In x a -> ~ In x b.
  Proof.
    induction a as [|x a IH]; cbn.
    - split; [intros H; repeat split; [constructor|exact H|tauto]|tauto].
    - rewrite !NoDup_cons_iff, IH, in_app_iff. split.
      + intros (Hx & Ha & Hb & D). repeat split; try tauto.
        intros y [<-|Hy]; [tauto|auto].
      + intros ((Hx & Ha) & Hb & D). repeat split; auto.
        intros [Hi|Hi]; [tauto|]. apply (D x); auto.
  Qed.

  Lemma firstn_app_exact (a b : list A) : firstn (length a) (a ++ b) = a.
  Proof. induction a; cbn; congruence. Qed.

  Lemma skipn_app_exact (a b : list A) : skipn (length a) (a ++ b) = b.
  Proof. induction a; cbn; congruence. Qed.

  Lemma last_in l d : l <> [] -> In (last l d) l.
  Proof.
    induction l as [|x [|y l] IH]; cbn; [congruence|auto|].
    intros _. right. apply IH. discriminate.
  Qed.
End Lists.
