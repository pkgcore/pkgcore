(* Prop_C32.v — the property theorems of C32, each followed by the audit of its assumptions.
   Model = pkgcore with the repairs C33-install-fallback-status, C33-per-call-parser-defaults,
   C32-single-line-reply, C32-helper-state-reset, C32-read-array-raw applied.
   [body] (parse_args + run of ANY helper), [cwd_ok] and the world type are universally quantified
   in the protocol theorems; the external install(1) is the oracle [w_ans] + [ext_effect]. *)
From Coq Require Import List ZArith String.
Import ListNotations.
From Verif Require Import Base.Val C32.Model_C32 C32.Spec_C32 C32.Proofs_C32 C32.Exit_C32 C32.Lift_C32.
Local Open Scope N_scope.

(* one request -> exactly one line on the wire, or nothing and the daemon loop is left *)
Theorem one_reply_line : forall (W : Type) (body : list str -> list str -> W -> hres * W) (cwd_ok : str -> bool)
    (rest : str) (w : W) e rest' w',
  ipc_call W body cwd_ok rest w = (e, rest', w') ->
  e = CCrash /\ wire_of e = [] \/ one_line (wire_of e).
Proof.
  intros W body cwd_ok rest w e rest' w' H. pose proof (ipc_call_no_newline W body cwd_ok _ _ _ _ _ H) as Hd.
  destruct e; [right|right|right|left; now split]; exists data; now split.
Qed.
Print Assumptions one_reply_line.

(* the reply's status field is "0" exactly when the helper body completed *)
Theorem truthful : forall (W : Type) (body : list str -> list str -> W -> hres * W) (cwd_ok : str -> bool)
    l1 l2 l3 l4 l5 tail (w : W) options res w1 d,
  ~ In NL l1 -> ~ In NL l2 -> ~ In NL l3 -> ~ In NL l4 -> ~ In NL l5 ->
  shlex_split (strip l4) = Some options -> cwd_ok (strip l2) = true ->
  body options (split_args l5) w = (res, w1) ->
  (forall code msg, res = HCmdErr code msg -> code <> 0%Z) ->
  wire_of (fst (fst (ipc_call W body cwd_ok (framed l1 l2 l3 l4 l5 tail) w))) = d ++ [NL] ->
  (says_success d <-> completed res).
Proof. exact truthful_proof. Qed.
Print Assumptions truthful.

(* the premise of [truthful] holds for the install family, whatever install(1) answers *)
Theorem install_codes_nonzero : forall ed (ext_effect : list str -> image -> image) has_r de dflt options args w,
  hcode_nonzero (fst (body_install ed ext_effect has_r de dflt options args w)).
Proof. intros. apply body_ok_code, body_install_ok. Qed.
Print Assumptions install_codes_nonzero.

(* a reported success of the copy loop means every regular file is at its destination *)
Theorem install_int_post : forall ed fs im w w',
  (forall s1 d1 s2 d2, In (s1, d1) fs -> In (s2, d2) fs -> comps d1 = comps d2 -> s1 = s2) ->
  install_int ed fs im w = (None, w') ->
  forall s d, In (s, d) fs -> file_at w' s d.
Proof. exact install_int_post_proof. Qed.
Print Assumptions install_int_post.

(* ... and of the install(1) fallback, with the behaviour of install(1) as the ONLY assumption: when it
   exits 0 and DEST is not a directory, the sources (copies of one file) are at DEST, DEST has not
   become a directory and nothing else was touched *)
Theorem install_fallback_post : forall ed src (ext_effect : list str -> image -> image),
  (forall words ss d i s cid,
     rel d -> In s ss -> (forall s', In s' ss -> s' = s) -> assoc s src = Some (SFile cid) ->
     not_dir i (comps d) ->
     exists m, img_get (comps d) (ext_effect ([E "install"] ++ words ++ ss ++ [abs_of ed d]) i) = Some (NFile cid m)) ->
  (forall words ss d i,
     rel d -> not_dir i (comps d) ->
     not_dir (ext_effect ([E "install"] ++ words ++ ss ++ [abs_of ed d]) i) (comps d)) ->
  (forall words ss d i k,
     rel d -> k <> comps d -> not_dir i (comps d) ->
     img_get k (ext_effect ([E "install"] ++ words ++ ss ++ [abs_of ed d]) i) = img_get k i) ->
  forall fs words w w',
  w_src w = src ->
  (forall s d, In (s, d) fs -> rel d) ->
  (forall s d, In (s, d) fs -> not_dir (w_img w) (comps d)) ->
  (forall s1 d1 s2 d2, In (s1, d1) fs -> In (s2, d2) fs -> comps d1 = comps d2 -> s1 = s2) ->
  install_files ed ext_effect fs (IFallback words) w = (None, w') ->
  forall s d cid, In (s, d) fs -> assoc s src = Some (SFile cid) ->
                  exists m, img_get (comps d) (w_img w') = Some (NFile cid m).
Proof. exact install_fallback_post_proof. Qed.
Print Assumptions install_fallback_post.

(* the assumption is satisfiable (an install(1) that never treats DEST as a directory) *)
Theorem install_fallback_post_satisfiable : forall ed src fs words w w',
  w_src w = src ->
  (forall s d, In (s, d) fs -> rel d) ->
  (forall s d, In (s, d) fs -> not_dir (w_img w) (comps d)) ->
  (forall s1 d1 s2 d2, In (s1, d1) fs -> In (s2, d2) fs -> comps d1 = comps d2 -> s1 = s2) ->
  install_files ed (ideal_effect ed src) fs (IFallback words) w = (None, w') ->
  forall s d cid, In (s, d) fs -> assoc s src = Some (SFile cid) ->
                  exists m, img_get (comps d) (w_img w') = Some (NFile cid m).
Proof.
  intros ed src. apply (install_fallback_post_proof ed src (ideal_effect ed src));
    [apply ideal_installs|apply ideal_nodir|apply ideal_frame].
Qed.
Print Assumptions install_fallback_post_satisfiable.

(* nonfatal: code and message come back; otherwise the same line is written and the build fails *)
Theorem nonfatal_returns_code : forall (W : Type) (body : list str -> list str -> W -> hres * W) (cwd_ok : str -> bool)
    l1 l2 l3 l4 l5 tail (w : W) options code msg w1,
  ~ In NL l1 -> ~ In NL l2 -> ~ In NL l3 -> ~ In NL l4 -> ~ In NL l5 ->
  shlex_split (strip l4) = Some options -> cwd_ok (strip l2) = true ->
  body options (split_args l5) w = (HCmdErr code msg, w1) ->
  ipc_call W body cwd_ok (framed l1 l2 l3 l4 l5 tail) w =
    ((if str_eqb (strip l1) (lit "true") then CReplied else CFatal) (encode_err code msg), tail, w1)
  /\ status_field (encode_err code msg) = dec_Z code
  /\ (code <> 0%Z -> ~ says_success (encode_err code msg)).
Proof.
  intros W body cwd_ok l1 l2 l3 l4 l5 tail w options code msg w1 H1 H2 H3 H4 H5 Hs Hc Hb.
  rewrite ipc_call_framed, Hs, Hc, Hb by assumption. unfold says_success. rewrite status_field_err.
  repeat split; [cbn [outcome]; now destruct (str_eqb (strip l1) (lit "true"))|]. intros Hne Hz. now apply dec_Z_zero in Hz.
Qed.
Print Assumptions nonfatal_returns_code.

(* python side: a call reads exactly its own five lines *)
Theorem reads_five_lines : forall (W : Type) (body : list str -> list str -> W -> hres * W) (cwd_ok : str -> bool)
    l1 l2 l3 l4 l5 tail (w : W) e rest' w',
  ~ In NL l1 -> ~ In NL l2 -> ~ In NL l3 -> ~ In NL l4 -> ~ In NL l5 ->
  shlex_split (strip l4) <> None ->
  ipc_call W body cwd_ok (framed l1 l2 l3 l4 l5 tail) w = (e, rest', w') ->
  rest' = tail.
Proof.
  intros W body cwd_ok l1 l2 l3 l4 l5 tail w e rest' w' H1 H2 H3 H4 H5 Hs. rewrite ipc_call_framed by assumption.
  destruct (shlex_split (strip l4)) as [o|]; [|contradiction].
  destruct (cwd_ok (strip l2)); [destruct (body o (split_args l5) w)|]; intro H; now inversion H.
Qed.
Print Assumptions reads_five_lines.

(* the daemon loop over a stream of requests = the requests handled one by one in isolation *)
Theorem channel_in_sync : forall c rs w,
  Forall req_ok rs -> Forall (cmd_ok) rs ->
  exists rest,
    run_daemon c (stream rs) w
    = (fst (fst (serve c rs w [])), rest, snd (fst (serve c rs w [])), snd (serve c rs w []))
    /\ (snd (fst (serve c rs w [])) = SFinished -> rest = []).
Proof. intros c rs w Hok Hcmd. apply session_serve; try assumption. apply stream_length. Qed.
Print Assumptions channel_in_sync.

(* ... and what it writes is one line per answered request, as many as requests when it finishes *)
Theorem one_line_per_request : forall c rs w,
  exists ls, k_lines (fst (fst (serve c rs w []))) ls
             /\ (List.length ls <= List.length rs)%nat
             /\ (snd (fst (serve c rs w [])) = SFinished -> List.length ls = List.length rs).
Proof. intros c rs w. destruct (serve_lines c rs w []) as (ls & H1 & H2 & H). exists ls. now repeat split. Qed.
Print Assumptions one_line_per_request.

(* bash side: k reads take k replies off the channel, in order, nothing is left *)
Theorem lockstep : forall wire ls,
  k_lines wire ls -> bash_reads (List.length ls) wire = Some (map bash_fields ls, []).
Proof.
  intros wire ls [-> Hf]. induction Hf as [|l ls Hl _ IH]; [reflexivity|].
  cbn [List.length flat_map bash_reads]. rewrite <- app_assoc. cbn [app].
  now rewrite bash_reads_one_line, IH.
Qed.
Print Assumptions lockstep.

(* ... and __ipc_exit returns the code python sent (nonfatal) or dies *)
Theorem bash_exit : forall cmd nonfatal code msg,
  code <> 0%Z ->
  let '(st, _, died) := bash_ipc_exit cmd nonfatal (bash_fields (encode_err code msg)) in
  st = dec_Z code /\ died = negb nonfatal.
Proof. exact bash_exit_proof. Qed.
Print Assumptions bash_exit.

(* the repair folds without losing a one-line message *)
Theorem single_line_keeps_one_liners : forall s, ~ In NL s -> s <> [] -> single_line s = s.
Proof.
  intros s H Hne. unfold single_line. rewrite split_on_none by assumption.
  cbn. destruct s; [contradiction|reflexivity].
Qed.
Print Assumptions single_line_keeps_one_liners.

(* without repair C32-single-line-reply the statement is false *)
Theorem one_reply_line_unrepaired_refuted :
  exists code msg, In NL (encode_err_raw code msg) /\ ~ In NL (encode_err code msg).
Proof. exists 2%Z, tar_stderr. split; [vm_compute; tauto|apply encode_err_no_nl]. Qed.
Print Assumptions one_reply_line_unrepaired_refuted.

(* known class: a newline inside an argument breaks the framing (req_ok is necessary) *)
Theorem channel_in_sync_refuted :
  let r := ex_req true (lit "--dest=/usr") (lit "a" ++ [NL] ++ lit "b" ++ [0]) in
  newline_in_request r /\
  snd (fst (run_daemon ex_cfg (stream [r]) ex_world)) = SUnhandled.
Proof. exact channel_in_sync_refuted_proof. Qed.
Print Assumptions channel_in_sync_refuted.

(* TRUTHFUL ON DISK (install family, internal copy path): a reply with status "0" means that every
   regular file named in the request is in the image at <dest>/<name> with the source's content -
   through option parsing, makedirs and the Doins/Dodoc directory handling *)
Theorem install_reply_truthful_on_disk : forall ed (ext_effect : list str -> image -> image) has_r de dflt
    (cwd_ok : str -> bool) l1 l2 l3 l4 l5 tail w options d,
  ~ In NL l1 -> ~ In NL l2 -> ~ In NL l3 -> ~ In NL l4 -> ~ In NL l5 ->
  shlex_split (strip l4) = Some options -> cwd_ok (strip l2) = true ->
  let o := parse_options options {| o_dest := [47]; o_ins := None; o_dir := None; o_unknown := [] |} in
  (forall ws, install_mode (o_ins o) dflt <> IFallback ws) ->
  (forall ws, install_mode (o_dir o) [] <> IFallback ws) ->
  let r := ipc_call world (body_install ed ext_effect has_r de dflt) cwd_ok (framed l1 l2 l3 l4 l5 tail) w in
  wire_of (fst (fst r)) = d ++ [NL] -> says_success d ->
  forall t cid, In t (snd (fst (split_targets has_r (split_args l5)))) -> assoc t (w_src w) = Some (SFile cid) ->
                exists m, img_get (comps (pjoin (lstrip_sl (o_dest o)) t)) (w_img (snd r)) = Some (NFile cid m).
Proof.
  intros ed ext_effect has_r de dflt cwd_ok l1 l2 l3 l4 l5 tail w options d H1 H2 H3 H4 H5 Hs Hc o Him Hdm r Hw Hok. subst r.
  destruct (body_install ed ext_effect has_r de dflt options (split_args l5) w) as [res w1] eqn:Eb.
  destruct (install_success_is_none ed ext_effect has_r de dflt cwd_ok l1 l2 l3 l4 l5 tail w options d res w1)
    as [-> ->]; try assumption.
  now apply (install_truthful_internal_proof ed ext_effect has_r de dflt options (split_args l5) w).
Qed.
Print Assumptions install_reply_truthful_on_disk.

(* the body-level form: body returned None => files on disk *)
Theorem install_truthful_internal : forall ed (ext_effect : list str -> image -> image) has_r de dflt options args w w',
  let o := parse_options options {| o_dest := [47]; o_ins := None; o_dir := None; o_unknown := [] |} in
  (forall ws, install_mode (o_ins o) dflt <> IFallback ws) ->
  (forall ws, install_mode (o_dir o) [] <> IFallback ws) ->
  body_install ed ext_effect has_r de dflt options args w = (HNone, w') ->
  forall t cid, In t (snd (fst (split_targets has_r args))) -> assoc t (w_src w) = Some (SFile cid) ->
                exists m, img_get (comps (pjoin (lstrip_sl (o_dest o)) t)) (w_img w') = Some (NFile cid m).
Proof. exact install_truthful_internal_proof. Qed.
Print Assumptions install_truthful_internal.

(* DODIR: without injected faults the directory loop succeeds exactly when every requested directory,
   with all its parents, exists afterwards *)
Theorem dodir_truthful : forall ed rels dm w r w',
  w_faults w = [] -> (forall ws, dm <> IFallback ws) ->
  install_dirs_int ed rels dm w = (r, w') ->
  (r = None <-> forall d, In d rels -> dir_path (w_img w') (comps d)).
Proof. intros ed rels dm w r w' Hf _. now apply dodir_dirs_truthful. Qed.
Print Assumptions dodir_truthful.

(* ... and through Dodir's option/argument handling *)
Theorem dodir_body_truthful : forall ed (ext_effect : list str -> image -> image) options args w res w',
  let o := parse_options options {| o_dest := [47]; o_ins := None; o_dir := None; o_unknown := [] |} in
  o_unknown o = [] -> args <> [] -> w_faults w = [] ->
  install_mode (o_ins o) [] <> IBad ->
  install_mode (o_dir o) (E "-m0755") <> IBad ->
  (forall ws, install_mode (o_dir o) (E "-m0755") <> IFallback ws) ->
  body_dodir ed ext_effect options args w = (res, w') ->
  (res = HNone <->
   forall d, In d args -> dir_path (w_img w') (comps (pjoin (lstrip_sl (o_dest o)) (lstrip_sl d)))).
Proof.
  intros ed ext_effect options args w res w' o Hu Ha Hf Hi Hd Hfb. unfold body_dodir. fold o. rewrite Hu.
  destruct args as [|a0 args0] eqn:Eargs; [contradiction|]. cbn [is_nil negb]. rewrite <- Eargs.
  destruct (install_mode (o_ins o) []); destruct (install_mode (o_dir o) (E "-m0755")) eqn:E2;
    try contradiction; try (now destruct (Hfb words));
    now apply (dodir_finish_truthful ed ext_effect (fun d => pjoin (lstrip_sl (o_dest o)) (lstrip_sl d))).
Qed.
Print Assumptions dodir_body_truthful.

(* what the caller of a nonfatal helper sees in $?: the code modulo 256 ... *)
Theorem caller_sees_code_mod_256 : forall code,
  exit_status (dec_Z code) = dec_N (Z.to_N (code mod 256)).
Proof. exact caller_sees_code_mod_256_proof. Qed.
Print Assumptions caller_sees_code_mod_256.

(* ... so exactly the non-zero multiples of 256 are taken for success (finding status-multiple-of-256) *)
Theorem status_multiple_of_256 : forall cmd code msg,
  code <> 0%Z ->
  let '(st, _, died) := bash_ipc_exit cmd true (bash_fields (encode_err code msg)) in
  died = false /\ st = dec_Z code /\ (exit_status st = [48] <-> (code mod 256 = 0)%Z).
Proof.
  intros cmd code msg Hc. pose proof (bash_exit_proof cmd true code msg Hc) as H.
  destruct (bash_ipc_exit cmd true (bash_fields (encode_err code msg))) as [[st out] died].
  destruct H as [-> ->]. split; [reflexivity|]. split; [reflexivity|]. now apply misreported_codes_proof.
Qed.
Print Assumptions status_multiple_of_256.
