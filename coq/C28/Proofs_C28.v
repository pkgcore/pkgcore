(* Proofs_C28.v — the lemmas behind the C28 theorems.
   The write: the first call stages a private temporary (C18.FsLemmas.staged), the writes keep it
   staged, the rename commits.  Order independence: sorting entries with distinct names does not
   depend on their order.  Round trip: dec and the padded hex are digit strings that int() reads
   back; a rendered line splits into its tokens; a section parses back entry by entry. *)
From Coq Require Import List NArith ZArith Bool Lia Permutation.
Import ListNotations.
From Verif Require Import Base.Val Base.Lists C18.Fs C18.FsLemmas C28.Model_C28 C28.Spec_C28.

Lemma concat_chunks_fuel : forall fuel n s, (0 < n)%nat -> (length s <= fuel)%nat ->
  concat (chunks_fuel fuel n s) = s.
Proof.
  induction fuel as [|f IH]; intros n s Hn Hl; destruct s as [|x s']; cbn [chunks_fuel concat]; try reflexivity.
  - cbn in Hl. lia.
  - rewrite IH; [apply firstn_skipn|exact Hn|].
    rewrite skipn_length. cbn [length] in *. lia.
Qed.

Lemma concat_chunks_of n s : concat (chunks_of n s) = s.
Proof.
  destruct n as [|n]; cbn [chunks_of].
  - destruct s; cbn; [reflexivity|now rewrite app_nil_r].
  - apply concat_chunks_fuel; lia.
Qed.

Lemma TMP_neq_P : TMP <> P.
Proof. discriminate. Qed.

(* the temporary is absent, not a regular file (then open() fails and nothing happens), or a
   regular file no other name is linked to *)
Definition tmp_private (s : fs) : Prop :=
  match lookup s TMP with
  | Some (File _ _ _ _ _ i) => forall q n, q <> TMP -> lookup s q = Some n -> ino_of n <> Some i
  | _ => True
  end.

Lemma file_data_of s p d m u g t i : lookup s p = Some (File d m u g t i) -> file_data s p = Some d.
Proof. unfold file_data. now intros ->. Qed.

(* the first call stages an empty private temporary: created, or a stale one truncated *)
Lemma open_staged s mode s1 :
  tmp_private s -> apply_op s (open_tmp s mode) = Some s1 ->
  staged s TMP s1 /\ file_data s1 TMP = Some [].
Proof.
  unfold tmp_private, open_tmp. intros Hpriv H.
  destruct (lookup s TMP) as [[d m u g t i| | | | ]|] eqn:Hl.
  2-6: (split; [exact (staged_create _ _ _ _ H)|]; cbn [apply_op] in H; destruct (can_create s TMP); [|discriminate];
        injection H as <-; unfold file_data; now rewrite lookup_set_same).
  cbn in H. rewrite Hl in H.
  assert (Hst : staged s TMP s) by (split; [reflexivity|exists d, m, u, g, t, i; auto]).
  assert (Hk : keeps_file truncate_data) by (intros d0 m0 u0 g0 t0 i0; cbn; eauto 10).
  split; [exact (staged_update _ _ _ _ _ Hst Hk H)|].
  unfold file_data. now rewrite (update_self _ _ _ _ _ H Hl).
Qed.

Lemma appends_data s1 tmp chunks s2 :
  file_data s1 tmp = Some [] -> run_opt (appends tmp chunks) s1 = Some s2 ->
  file_data s2 tmp = Some (concat chunks).
Proof.
  unfold file_data. intros Ht H. destruct (lookup s1 tmp) as [[d m u g t i| | | |]|] eqn:E; try discriminate.
  injection Ht as ->.
  destruct (run_opt_appends_tmp _ _ _ _ _ _ _ _ _ _ E H) as [[-> ->]|H2]; [now rewrite E|now rewrite H2].
Qed.

Lemma write_mid s chunks :
  Forall (fun o => forall s1 s2, staged s TMP s1 -> apply_op s1 o = Some s2 -> staged s TMP s2) (appends TMP chunks).
Proof. rewrite <- (app_nil_r (appends TMP chunks)). apply staged_middle. constructor. Qed.

(* the calls before the rename keep the temporary staged and fill it with the text *)
Lemma staging_data s mode chunks s2 :
  tmp_private s -> run_opt (open_tmp s mode :: appends TMP chunks) s = Some s2 ->
  staged s TMP s2 /\ file_data s2 TMP = Some (concat chunks).
Proof.
  intros Hpriv H. split; [exact (staging_staged s TMP _ _ (fun s1 Ho => proj1 (open_staged s mode s1 Hpriv Ho)) (write_mid s _) s2 H)|].
  cbn [run_opt] in H. destruct (apply_op s (open_tmp s mode)) as [s1|] eqn:Ho; [|discriminate].
  exact (appends_data _ _ _ _ (proj2 (open_staged _ _ _ Hpriv Ho)) H).
Qed.

Lemma write_ops_atomic s mode chunk data k :
  tmp_private s ->
  let ops := write_ops s mode chunk data in
  let sk := run (firstn k ops) s in
  (forall q, q <> P -> q <> TMP -> lookup sk q = lookup s q) /\
  (lookup sk P = lookup s P \/ (file_data sk P = Some data /\ (length ops <= k)%nat)).
Proof.
  intros Hpriv. unfold write_ops. cbv zeta.
  destruct (staged_replace s TMP P (open_tmp s mode) (appends TMP (chunks_of chunk data)) TMP_neq_P
              (fun s1 Ho => proj1 (open_staged s mode s1 Hpriv Ho)) (write_mid s _) k) as [Hfr Hp].
  split; [exact Hfr|]. destruct Hp as [Hp|(s2 & Hs2 & Hp & _ & Hk)]; [now left|right].
  split; [|exact Hk]. unfold file_data at 1. rewrite Hp, <- (concat_chunks_of chunk data).
  apply (staging_data _ _ _ _ Hpriv Hs2).
Qed.

Lemma write_ops_complete s mode chunk data s' :
  tmp_private s -> run_opt (write_ops s mode chunk data) s = Some s' -> file_data s' P = Some data.
Proof.
  intros Hpriv H. unfold write_ops in H. rewrite app_comm_cons, run_opt_app in H.
  destruct (run_opt (open_tmp s mode :: appends TMP (chunks_of chunk data)) s) as [s2|] eqn:H2; [|discriminate].
  cbn [run_opt] in H. destruct (apply_op s2 (Rename TMP P)) as [s3|] eqn:Hr; [|discriminate]. injection H as <-.
  destruct (staging_data _ _ _ _ Hpriv H2) as [Hs2 Hd]. rewrite concat_chunks_of in Hd.
  destruct (staged_renamed _ _ _ _ _ TMP_neq_P Hs2 Hr) as (Hp & _).
  unfold file_data at 1. now rewrite Hp.
Qed.

Lemma update_ops_cases i s wr ops : update_ops i s = Ok (wr, ops) ->
  (wr = false /\ ops = []) \/
  exists text, update_text (u_thin i) (u_scan i) (u_fetch i) = Ok (Some text) /\
               wr = true /\ ops = write_ops s (u_mode i) (u_chunk i) text.
Proof.
  unfold update_ops, update_with.
  destruct (update_text (u_thin i) (u_scan i) (u_fetch i)) as [[text|]|kind]; [| |discriminate].
  - destruct (file_data s P) as [old|]; [destruct (str_eqb (read_nl old) text)|];
      intro H; injection H as <- <-; eauto.
  - intro H; injection H as <- <-; auto.
Qed.

(* an OSError raised by call k: removing the temporary afterwards does not touch the Manifest *)
Lemma eio_keeps_manifest s ops k :
  lookup (run (firstn k ops) s) P = lookup s P -> lookup (run (eio_ops ops k) s) P = lookup s P.
Proof.
  intro Hold. unfold eio_ops. rewrite run_app.
  destruct (run_opt (firstn k ops) s) as [s1|] eqn:Hr; [|exact Hold].
  rewrite (run_opt_run _ _ _ Hr) in Hold.
  destruct k as [|k]; [exact Hold|].
  cbn [run]. destruct (apply_op s1 (Unlink TMP)) as [s2|] eqn:Hu; [|exact Hold].
  rewrite <- Hold. eapply apply_op_frame; [exact Hu|].
  cbn. intros [E|[]]. exact (TMP_neq_P E).
Qed.

(* read_nl, top_level, py_int and strip_prefix16 match on numeral patterns, i.e. on the bits of the
   code point: a fact about "any other character" needs that many destructs *)
Lemma read_nl_cons c r : c <> 13 -> read_nl (c :: r) = c :: read_nl r.
Proof.
  intro H. destruct c as [|p]; [reflexivity|].
  repeat (destruct p as [p|p|]; try reflexivity).
  exfalso. apply H. reflexivity.
Qed.

Lemma read_nl_id s : ~ In 13 s -> read_nl s = s.
Proof.
  induction s as [|c r IH]; intro H; [reflexivity|].
  rewrite read_nl_cons by (intros ->; apply H; now left).
  rewrite IH; [reflexivity|]. intro Hin. apply H. now right.
Qed.

Lemma str_ltb_asym a : forall b, str_ltb a b = true -> str_ltb b a = false.
Proof.
  induction a as [|x a IH]; intros [|y b] H; cbn in *; try discriminate; try reflexivity.
  destruct (N.ltb_spec x y); destruct (N.ltb_spec y x); try lia; try reflexivity; try discriminate.
  now apply IH.
Qed.

Lemma str_ltb_trans a : forall b c, str_ltb a b = true -> str_ltb b c = true -> str_ltb a c = true.
Proof.
  induction a as [|x a IH]; intros [|y b] [|z c] H1 H2; cbn in *; try discriminate; try reflexivity.
  destruct (N.ltb_spec x y) as [Hxy|Hxy].
  - destruct (N.ltb_spec y z) as [Hyz|Hyz].
    + now rewrite (proj2 (N.ltb_lt x z)) by lia.
    + destruct (N.ltb_spec z y); [discriminate|]. assert (y = z) by lia. subst z.
      now rewrite (proj2 (N.ltb_lt x y) Hxy).
  - destruct (N.ltb_spec y x); [discriminate|]. assert (x = y) by lia. subst y.
    destruct (N.ltb_spec x z); [reflexivity|]. destruct (N.ltb_spec z x); [discriminate|]. eauto.
Qed.

Lemma str_ltb_total a : forall b, str_ltb a b = false -> str_ltb b a = false -> a = b.
Proof.
  induction a as [|x a IH]; intros [|y b] H1 H2; cbn in *; try discriminate; try reflexivity.
  destruct (N.ltb_spec x y); destruct (N.ltb_spec y x); try lia; try discriminate.
  assert (x = y) by lia. subst. f_equal. now apply IH.
Qed.

Section SortPerm.
  Context {A : Type} (key : A -> str).

  Lemma insert_perm x l : Permutation (insert key x l) (x :: l).
  Proof.
    induction l as [|y l IH]; cbn; [reflexivity|].
    destruct (str_leb (key x) (key y)); [reflexivity|].
    rewrite IH. apply perm_swap.
  Qed.
  Lemma sort_by_permutation l : Permutation (sort_by key l) l.
  Proof. induction l as [|x l IH]; cbn; [reflexivity|]. rewrite insert_perm. now constructor. Qed.

  (* sorting does not depend on the order of the input when the keys are distinct: insertions commute *)
  Lemma insert_cons x y r :
    insert key x (y :: r) = if str_ltb (key y) (key x) then y :: insert key x r else x :: y :: r.
  Proof. cbn [insert]. unfold str_leb. now destruct (str_ltb (key y) (key x)). Qed.

  Lemma insert_comm_lt x y l :
    str_ltb (key x) (key y) = true -> insert key x (insert key y l) = insert key y (insert key x l).
  Proof.
    intro Hxy. pose proof (str_ltb_asym _ _ Hxy) as Hyx.
    induction l as [|z l IH].
    - cbn [insert]. unfold str_leb. now rewrite Hxy, Hyx.
    - rewrite (insert_cons y z), (insert_cons x z).
      destruct (str_ltb (key z) (key y)) eqn:Hzy, (str_ltb (key z) (key x)) eqn:Hzx;
        rewrite ?insert_cons, ?Hzy, ?Hzx, ?Hxy, ?Hyx; try reflexivity.
      + now rewrite IH.
      + rewrite (str_ltb_trans _ _ _ Hzx Hxy) in Hzy. discriminate.
  Qed.

  Lemma insert_comm x y l : key x <> key y -> insert key x (insert key y l) = insert key y (insert key x l).
  Proof.
    intro H. destruct (str_ltb (key x) (key y)) eqn:E1.
    - now apply insert_comm_lt.
    - destruct (str_ltb (key y) (key x)) eqn:E2.
      + symmetry. now apply insert_comm_lt.
      + exfalso. apply H. now apply str_ltb_total.
  Qed.

  Lemma sort_by_order_irrelevant l l' : Permutation l l' -> NoDup (map key l) -> sort_by key l = sort_by key l'.
  Proof.
    unfold sort_by.
    induction 1 as [|x l l' Hp IH|x y l|l l' l'' Hp1 IH1 Hp2 IH2]; intro Hnd.
    - reflexivity.
    - cbn [fold_right]. cbn [map] in Hnd. inversion Hnd; subst. now rewrite IH.
    - cbn [fold_right]. apply insert_comm. cbn in Hnd. inversion Hnd as [|? ? Hn _]; subst. intro E. apply Hn. left. now symmetry.
    - rewrite IH1 by exact Hnd. apply IH2.
      eapply Permutation_NoDup; [|exact Hnd]. now apply Permutation_map.
  Qed.
End SortPerm.

Lemma dset_fresh {B} k (v : B) d : ~ In k (map fst d) -> dset k v d = d ++ [(k, v)].
Proof.
  induction d as [|[k' v'] d IH]; cbn; intro H; [reflexivity|].
  destruct (str_eqb_spec k k') as [->|_]; [tauto|]. rewrite IH; [reflexivity|tauto].
Qed.

Lemma picks_acc f scan : forall acc,
  NoDup (map fst (acc ++ covered f scan)) ->
  fold_left (fun d o => match f (classify o) with Some n => dset n (s_cks o) d | None => d end) scan acc
  = acc ++ covered f scan.
Proof.
  induction scan as [|o r IH]; intros acc Hnd; cbn [fold_left covered flat_map] in *.
  - now rewrite app_nil_r.
  - fold (covered f r) in *. destruct (f (classify o)) as [n|]; cbn [app] in *; [|now apply IH].
    rewrite dset_fresh.
    + rewrite IH; rewrite <- app_assoc; [reflexivity|exact Hnd].
    + rewrite map_app in Hnd. apply NoDup_remove_2 in Hnd. intro Hin. apply Hnd, in_or_app. now left.
Qed.

Lemma picks_covered f scan : NoDup (map fst (covered f scan)) -> picks f scan = covered f scan.
Proof. intro H. unfold picks. now rewrite picks_acc. Qed.

Lemma starts_with_app p : forall s, starts_with p s = true -> s = p ++ skipn (length p) s.
Proof.
  induction p as [|x p IH]; intros [|y s] H; cbn in *; try discriminate; try reflexivity.
  apply andb_true_iff in H as [H1 H2]. apply N.eqb_eq in H1. subst. f_equal. now apply IH.
Qed.

(* within a class, names determine locations: the location is a fixed prefix followed by the name *)
Definition prefix_of (f : cls -> option str) (pre : str) : Prop :=
  forall o n, f (classify o) = Some n -> s_loc o = pre ++ n.

Lemma top_level_loc loc : top_level loc = true -> loc = [47] ++ skipn 1 loc.
Proof. destruct loc as [|c r]; cbn; [discriminate|]. destruct (N.eq_dec c 47) as [->|H]; [reflexivity|].
  destruct c as [|p]; [discriminate|]. repeat (destruct p as [p|p|]; try discriminate). congruence. Qed.

Lemma classify_loc o n :
  (aux_of (classify o) = Some n -> s_loc o = FILESDIR ++ n) /\
  (ebuild_of (classify o) = Some n -> s_loc o = [47] ++ n) /\
  (misc_of (classify o) = Some n -> s_loc o = [47] ++ n).
Proof.
  unfold classify. destruct (negb (s_reg o)); [now cbn|]. destruct (excluded (s_loc o)); [now cbn|].
  destruct (starts_with FILESDIR (s_loc o)) eqn:E.
  - cbn. repeat split; try discriminate. intro H; injection H as <-. now apply (starts_with_app FILESDIR).
  - destruct (top_level (s_loc o)) eqn:T; [|now cbn].
    destruct (ends_with EBUILD_EXT (s_loc o)); cbn; repeat split; try discriminate;
      intro H; injection H as <-; now apply top_level_loc.
Qed.
Lemma prefix_aux : prefix_of aux_of FILESDIR.
Proof. intros o n. apply classify_loc. Qed.
Lemma prefix_ebuild : prefix_of ebuild_of [47].
Proof. intros o n. apply classify_loc. Qed.
Lemma prefix_misc : prefix_of misc_of [47].
Proof. intros o n. apply classify_loc. Qed.

Lemma covered_in f scan n : In n (map fst (covered f scan)) -> exists o, In o scan /\ f (classify o) = Some n.
Proof.
  unfold covered. rewrite in_map_iff. intros [[n' ck] [<- Hin]]. apply in_flat_map in Hin as [o [Ho Hin]].
  exists o. split; [exact Ho|]. destruct (f (classify o)); [|destruct Hin].
  destruct Hin as [E|[]]. now injection E as -> _.
Qed.

Lemma covered_nodup f pre scan : prefix_of f pre -> NoDup (map s_loc scan) -> NoDup (map fst (covered f scan)).
Proof.
  intros Hpre. induction scan as [|o r IH]; cbn; intro Hnd; [constructor|].
  inversion Hnd as [|? ? Hn Hr]; subst. fold (covered f r).
  destruct (f (classify o)) as [n|] eqn:E; cbn; [|now apply IH].
  constructor; [|now apply IH]. intro Hin. apply covered_in in Hin as [o' [Ho' E']].
  apply Hn. rewrite (Hpre _ _ E), <- (Hpre _ _ E'). now apply in_map.
Qed.

Lemma existsb_perm {A} (p : A -> bool) l l' : Permutation l l' -> existsb p l = existsb p l'.
Proof.
  induction 1; cbn; try congruence.
  destruct (p x), (p y); reflexivity.
Qed.

Lemma sorted_picks f pre scan scan' :
  prefix_of f pre -> Permutation scan scan' -> NoDup (map s_loc scan) ->
  sort_by fst (picks f scan) = sort_by fst (picks f scan').
Proof.
  intros Hpre Hp Hnd.
  assert (Hnd' : NoDup (map s_loc scan')) by (eapply Permutation_NoDup; [|exact Hnd]; now apply Permutation_map).
  rewrite !picks_covered by (eapply covered_nodup; eauto).
  apply sort_by_order_irrelevant; [now apply Permutation_flat_map|eapply covered_nodup; eauto].
Qed.

(* the text depends on its inputs only through: whether there are distfiles, whether a file is
   misplaced, and the sorted entries of each class *)
Lemma update_text_ext thin scan scan' fetch fetch' :
  length fetch = length fetch' -> has_bad scan = has_bad scan' ->
  sort_by fst fetch = sort_by fst fetch' ->
  (forall f pre, prefix_of f pre -> sort_by fst (picks f scan) = sort_by fst (picks f scan')) ->
  update_text thin scan fetch = update_text thin scan' fetch'.
Proof.
  intros Hl Hb Hd Hs. unfold update_text, manifest_text, section.
  rewrite Hb, Hd, (Hs _ _ prefix_aux), (Hs _ _ prefix_ebuild), (Hs _ _ prefix_misc).
  destruct fetch, fetch'; try discriminate Hl; reflexivity.
Qed.

(* what the proofs need of one digit character, as one boolean, so that a single evaluation over
   the 16 digits proves all of it (digit_facts_all) *)
Definition digit_facts (b d : N) : bool :=
  match digit_val b (digit_char d) with Some v => v =? d | None => false end
  && negb (digit_char d =? 95) && negb (is_space (digit_char d))
  && negb (digit_char d =? 120) && negb (digit_char d =? 88)
  && negb (digit_char d =? 43) && negb (digit_char d =? 45).
Lemma digit_facts_all b d : (b = 10 \/ b = 16) -> d < b -> digit_facts b d = true.
Proof.
  intros Hb Hd.
  assert (Hin : In d (map N.of_nat (seq 0 16))).
  { apply in_map_iff. exists (N.to_nat d). split; [apply N2Nat.id|]. apply in_seq. lia. }
  assert (Hall : forallb (fun d => (negb (d <? b)) || digit_facts b d) (map N.of_nat (seq 0 16)) = true)
    by (destruct Hb as [-> | ->]; vm_compute; reflexivity).
  rewrite forallb_forall in Hall. specialize (Hall d Hin).
  apply N.ltb_lt in Hd. rewrite Hd in Hall. exact Hall.
Qed.

Definition value (b : N) (ds : list N) (acc : N) : N := fold_left (fun a d => a * b + d) ds acc.
(* a digit string of base b: what dec and the padded hex produce *)
Definition digits_of (b : N) (ds : list N) : Prop := ds <> [] /\ Forall (fun d => d < b) ds.

Lemma digits_val_digits b : (b = 10 \/ b = 16) -> forall ds acc nd,
  Forall (fun d => d < b) ds -> (ds <> [] \/ nd = false) ->
  digits_val b acc nd (map digit_char ds) = Some (value b ds acc).
Proof.
  intros Hb. induction ds as [|d ds IH]; intros acc nd Hall Hne; cbn.
  - destruct Hne as [Hne| ->]; [congruence|reflexivity].
  - inversion Hall as [|? ? Hd Hr]; subst.
    pose proof (digit_facts_all b d Hb Hd) as F. unfold digit_facts in F.
    repeat (apply andb_true_iff in F as [F ?]).
    destruct (digit_char d =? 95); [discriminate|].
    destruct (digit_val b (digit_char d)) as [v|]; [|discriminate].
    apply N.eqb_eq in F. subst v. apply IH; [exact Hr|now right].
Qed.

Lemma py_int_nosign b c r : (c =? 43) = false -> (c =? 45) = false ->
  py_int b (c :: r) =
  match digits_val b 0 true (if b =? 16 then strip_prefix16 (c :: r) else c :: r) with
  | Some n => Some (Z.of_N n) | None => None end.
Proof.
  intros H1 H2. unfold py_int. destruct c as [|p]; [reflexivity|].
  repeat (destruct p as [p|p|]; try reflexivity); discriminate.
Qed.

Lemma strip_prefix16_id c r :
  Forall (fun x => (x =? 120) = false /\ (x =? 88) = false) r -> strip_prefix16 (c :: r) = c :: r.
Proof.
  intro H. destruct r as [|x r]; unfold strip_prefix16.
  - destruct c as [|p]; [reflexivity|]. repeat (destruct p as [p|p|]; try reflexivity).
  - inversion H as [|? ? [Hx1 Hx2] _]; subst.
    destruct c as [|p]; [reflexivity|].
    repeat (destruct p as [p|p|]; try reflexivity); rewrite Hx1, Hx2; reflexivity.
Qed.

Lemma digit_chars_facts b ds : (b = 10 \/ b = 16) -> Forall (fun d => d < b) ds ->
  Forall (fun c => (c =? 120) = false /\ (c =? 88) = false /\ (c =? 43) = false /\ (c =? 45) = false /\
                   is_space c = false) (map digit_char ds).
Proof.
  intros Hb H. induction H as [|d ds Hd _ IH]; cbn; constructor; [|exact IH].
  pose proof (digit_facts_all b d Hb Hd) as F. unfold digit_facts in F.
  repeat (apply andb_true_iff in F as [F ?]). repeat split; now apply negb_true_iff.
Qed.

Lemma py_int_digits b ds : (b = 10 \/ b = 16) -> digits_of b ds ->
  py_int b (map digit_char ds) = Some (Z.of_N (value b ds 0)).
Proof.
  intros Hb [Hne Hall]. pose proof (digit_chars_facts b ds Hb Hall) as F.
  destruct ds as [|d ds]; [congruence|]. cbn [map] in *.
  inversion F as [|? ? (_ & _ & F3 & F4 & _) Fr]; subst.
  rewrite py_int_nosign by assumption.
  assert (Hs : (if b =? 16 then strip_prefix16 (digit_char d :: map digit_char ds) else digit_char d :: map digit_char ds)
               = map digit_char (d :: ds)).
  { destruct (b =? 16); [|reflexivity]. apply strip_prefix16_id.
    eapply Forall_impl; [|exact Fr]. cbn. tauto. }
  rewrite Hs, (digits_val_digits b Hb (d :: ds) 0 true Hall) by (left; discriminate). reflexivity.
Qed.

Fixpoint lval (b : N) (ds : list N) : N :=
  match ds with [] => 0 | d :: r => lval b r * b + d end.
Lemma value_rev b ds : value b (rev ds) 0 = lval b ds.
Proof.
  unfold value. rewrite <- (fold_left_rev_right (fun d a => a * b + d)). rewrite rev_involutive.
  induction ds; cbn; congruence.
Qed.
Lemma rev_nonnil {A} (l : list A) : l <> [] -> rev l <> [].
Proof. destruct l; [congruence|]. intros _ E. symmetry in E. exact (app_cons_not_nil _ _ _ E). Qed.

Lemma digits_lsb_lval b : 2 <= b -> forall fuel n, n < 2 ^ N.of_nat fuel -> lval b (digits_lsb b fuel n) = n.
Proof.
  intros Hb. induction fuel as [|f IH]; intros n Hn.
  - cbn in *. assert (n = 0) by lia. now subst.
  - cbn [digits_lsb]. destruct (N.eqb_spec n 0) as [->|Hn0]; [reflexivity|].
    cbn [lval]. rewrite IH.
    + rewrite N.mul_comm. symmetry. apply N.div_mod'.
    + apply N.div_lt_upper_bound; [lia|].
      rewrite Nat2N.inj_succ, N.pow_succ_r' in Hn.
      assert (2 * 2 ^ N.of_nat f <= b * 2 ^ N.of_nat f) by (apply N.mul_le_mono_r; exact Hb). lia.
Qed.

Lemma digits_lsb_lt b : 0 < b -> forall fuel n, Forall (fun d => d < b) (digits_lsb b fuel n).
Proof.
  intros Hb. induction fuel as [|f IH]; intros n; cbn; [constructor|].
  destruct (n =? 0); [constructor|]. constructor; [apply N.mod_lt; lia|apply IH].
Qed.

Lemma dec_digits n : exists ds, dec n = map digit_char ds /\ digits_of 10 ds /\ value 10 ds 0 = n.
Proof.
  unfold dec, to_base. destruct (N.eqb_spec n 0) as [->|Hn].
  - exists [0]. repeat split; [discriminate|repeat constructor; lia].
  - eexists. split; [reflexivity|]. split; [split|].
    + apply rev_nonnil. destruct n as [|p]; [congruence|]. cbn [N.size N.to_nat].
      destruct (Pos2Nat.is_succ (Pos.size p)) as [k ->]. cbn. discriminate.
    + apply Forall_rev, digits_lsb_lt. lia.
    + rewrite value_rev. apply digits_lsb_lval; [lia|]. rewrite N2Nat.id. apply N.size_gt.
Qed.

(* hex: by nibbles of the binary representation *)
Fixpoint bval (l : list bool) : N := match l with [] => 0 | b :: r => 2 * bval r + b2n b end.
Lemma bval_pos_bits p : bval (pos_bits p) = Npos p.
Proof. induction p as [p IH|p IH|]; cbn [pos_bits bval b2n]; try rewrite IH; lia. Qed.

Lemma nibbles_lval : forall l, lval 16 (nibbles l) = bval l.
Proof.
  fix IH 1. intros [|b0 [|b1 [|b2 [|b3 r]]]]; cbn [nibbles lval bval]; try rewrite (IH r); lia.
Qed.

Lemma nibbles_lt : forall l, Forall (fun d => d < 16) (nibbles l).
Proof.
  fix IH 1. intros [|b0 [|b1 [|b2 [|b3 r]]]]; cbn [nibbles]; repeat constructor;
    try (destruct b0; try destruct b1; try destruct b2; try destruct b3; reflexivity).
  apply IH.
Qed.

Lemma rjust_hex_digits w n : exists ds, rjust0 w (hex n) = map digit_char ds /\ digits_of 16 ds /\ value 16 ds 0 = n.
Proof.
  assert (H : exists ds, hex n = map digit_char ds /\ digits_of 16 ds /\ value 16 ds 0 = n).
  { destruct n as [|p].
    - exists [0]. repeat split; [discriminate|repeat constructor; lia].
    - eexists. split; [reflexivity|]. split; [split|].
      + apply rev_nonnil. assert (pos_bits p <> []) by now destruct p.
        destruct (pos_bits p) as [|b0 [|b1 [|b2 [|b3 r]]]]; [congruence|..]; discriminate.
      + apply Forall_rev, nibbles_lt.
      + rewrite value_rev, nibbles_lval. apply bval_pos_bits. }
  destruct H as (ds & -> & [Hne Hlt] & Hv). unfold rjust0.
  exists (repeat 0 (w - length (map digit_char ds)) ++ ds). split; [|split; [split|]].
  - rewrite map_app. f_equal. induction (w - _)%nat; cbn; congruence.
  - destruct (repeat 0 _); [exact Hne|discriminate].
  - apply Forall_app. split; [|exact Hlt]. apply Forall_forall. intros x Hx. apply repeat_spec in Hx. lia.
  - rewrite <- Hv. unfold value. rewrite fold_left_app. f_equal. induction (w - _)%nat; [reflexivity|assumption].
Qed.

Lemma py_int_dec n : py_int 10 (dec n) = Some (Z.of_N n).
Proof. destruct (dec_digits n) as (ds & -> & Hd & <-). apply py_int_digits; auto. Qed.
Lemma py_int_hex w n : py_int 16 (rjust0 w (hex n)) = Some (Z.of_N n).
Proof. destruct (rjust_hex_digits w n) as (ds & -> & Hd & <-). apply py_int_digits; auto. Qed.

Definition nospace (t : str) : bool := forallb (fun c => negb (is_space c)) t.
Lemma name_ok_spec t : name_ok t = true <-> t <> [] /\ nospace t = true.
Proof.
  destruct t as [|c t]; cbn.
  - split; [discriminate|intros [H _]; congruence].
  - split; [intro H; split; [discriminate|exact H]|intros [_ H]; exact H].
Qed.

Lemma name_ok_digits b ds : (b = 10 \/ b = 16) -> digits_of b ds -> name_ok (map digit_char ds) = true.
Proof.
  intros Hb [Hne Hall]. apply name_ok_spec. split; [destruct ds; [congruence|discriminate]|].
  pose proof (digit_chars_facts b ds Hb Hall) as F. unfold nospace. apply forallb_forall.
  intros c Hc. rewrite Forall_forall in F. destruct (F c Hc) as (_ & _ & _ & _ & Hs). now rewrite Hs.
Qed.
Lemma name_ok_rjust w n : name_ok (rjust0 w (hex n)) = true.
Proof. destruct (rjust_hex_digits w n) as (ds & -> & Hd & _). apply (name_ok_digits 16); auto. Qed.
Lemma name_ok_dec n : name_ok (dec n) = true.
Proof. destruct (dec_digits n) as (ds & -> & Hd & _). apply (name_ok_digits 10); auto. Qed.

Lemma split_ws_token t : forall cur rest, nospace t = true ->
  split_ws_aux cur (t ++ rest) = split_ws_aux (rev t ++ cur) rest.
Proof.
  induction t as [|c t IH]; intros cur rest H; [reflexivity|].
  cbn in H. apply andb_true_iff in H as [Hc Ht]. apply negb_true_iff in Hc.
  cbn [app split_ws_aux rev]. rewrite Hc, IH by exact Ht. now rewrite <- app_assoc.
Qed.

(* the tokens of a rendered line after the first, each preceded by its blank *)
Definition jtail (l : list str) : str := concat (map (cons 32) l).

Lemma jtail_cons t r : jtail (t :: r) = 32 :: t ++ jtail r.
Proof. reflexivity. Qed.

Lemma split_ws_tail toks : forall cur, cur <> [] -> Forall (fun t => name_ok t = true) toks ->
  split_ws_aux cur (jtail toks) = rev cur :: toks.
Proof.
  induction toks as [|t r IH]; intros cur Hc Hall.
  - unfold jtail. cbn [map concat split_ws_aux]. destruct cur; [congruence|reflexivity].
  - inversion Hall as [|? ? Ht Hr]; subst. apply name_ok_spec in Ht as [Hne Hns].
    rewrite jtail_cons.
    cbn [split_ws_aux]. replace (is_space 32) with true by reflexivity.
    destruct cur as [|c0 cur]; [congruence|].
    rewrite split_ws_token by exact Hns. rewrite app_nil_r, IH; [now rewrite rev_involutive|now apply rev_nonnil|exact Hr].
Qed.

Lemma split_ws_rendered t0 toks : name_ok t0 = true -> Forall (fun t => name_ok t = true) toks ->
  split_ws (t0 ++ jtail toks) = t0 :: toks.
Proof.
  intros H0 Hall. apply name_ok_spec in H0 as [Hne Hns]. unfold split_ws.
  rewrite split_ws_token by exact Hns. rewrite app_nil_r, split_ws_tail; [now rewrite rev_involutive|now apply rev_nonnil|exact Hall].
Qed.

Definition not_nl (c : N) : bool := negb ((c =? 10) || (c =? 13)).
Lemma lines_aux_rendered l : forall cur rest, forallb not_nl l = true ->
  lines_aux cur (l ++ 10 :: rest) = (rev cur ++ l) :: lines_aux [] rest.
Proof.
  induction l as [|c l IH]; intros cur rest H.
  - cbn. now rewrite app_nil_r.
  - cbn in H. apply andb_true_iff in H as [Hc Hl]. unfold not_nl in Hc. apply negb_true_iff in Hc.
    cbn [app lines_aux]. rewrite Hc, IH by exact Hl. cbn [rev]. now rewrite <- app_assoc.
Qed.

Lemma nospace_not_nl c : is_space c = false -> not_nl c = true.
Proof.
  intro H. unfold not_nl. destruct (N.eqb_spec c 10) as [->|_]; [discriminate H|].
  destruct (N.eqb_spec c 13) as [->|_]; [discriminate H|]. reflexivity.
Qed.
Lemma tok_no_nl t : nospace t = true -> forallb not_nl t = true.
Proof.
  unfold nospace. rewrite !forallb_forall. intros H c Hc. apply nospace_not_nl.
  specialize (H c Hc). now apply negb_true_iff in H.
Qed.
Lemma jtail_no_nl toks : Forall (fun t => name_ok t = true) toks -> forallb not_nl (jtail toks) = true.
Proof.
  induction 1 as [|t r Ht _ IH]; [reflexivity|].
  rewrite jtail_cons. cbn [forallb].
  rewrite forallb_app, IH. apply name_ok_spec in Ht as [_ Ht]. now rewrite (tok_no_nl _ Ht).
Qed.

Definition chf_toks (l : chks) : list str :=
  flat_map (fun e => match chf_width (fst e) with
                     | Some w => [upper (fst e); rjust0 w (hex (snd e))]
                     | None => [] end) l.
Definition kn (e : str * N) : Prop := known (fst e) = true.

Lemma jtail_app a b : jtail (a ++ b) = jtail a ++ jtail b.
Proof. unfold jtail. now rewrite map_app, concat_app. Qed.

Lemma chf_toks_cons c v r : kn (c, v) ->
  exists w, chf_width c = Some w /\ chf_toks ((c, v) :: r) = upper c :: rjust0 w (hex v) :: chf_toks r.
Proof.
  unfold kn, known, chf_toks. cbn [fst snd flat_map]. destruct (chf_width c) as [w|]; [eauto|discriminate].
Qed.

Lemma render_chfs_ok l : Forall kn l -> render_chfs l = Ok (jtail (chf_toks l)).
Proof.
  induction 1 as [|[c v] r Hk _ IH]; [reflexivity|].
  destruct (chf_toks_cons c v r Hk) as (w & E & ->). cbn [render_chfs]. now rewrite E, IH, !jtail_cons.
Qed.

Definition chf_fact (e : str * nat) : bool :=
  name_ok (upper (fst e)) && str_eqb (lower (upper (fst e))) (fst e) && negb (str_eqb (fst e) SIZE).
Lemma table_facts : forallb chf_fact chf_table = true.
Proof. vm_compute. reflexivity. Qed.
Lemma assoc_in {B} k (l : list (str * B)) v : assoc k l = Some v -> In (k, v) l.
Proof.
  induction l as [|[k' v'] l IH]; cbn; [discriminate|].
  destruct (str_eqb_spec k k') as [->|_]; intro H; [injection H as ->; now left|right; now apply IH].
Qed.
Lemma known_facts c w : chf_width c = Some w ->
  name_ok (upper c) = true /\ lower (upper c) = c /\ str_eqb c SIZE = false.
Proof.
  intro H. apply assoc_in in H. pose proof table_facts as F. rewrite forallb_forall in F.
  specialize (F _ H). unfold chf_fact in F. cbn [fst] in F.
  apply andb_true_iff in F as [F F3]. apply andb_true_iff in F as [F1 F2].
  apply str_eqb_eq in F2. apply negb_true_iff in F3. auto.
Qed.

Lemma chf_toks_ok l : Forall kn l -> Forall (fun t => name_ok t = true) (chf_toks l).
Proof.
  induction 1 as [|[c v] r Hk _ IH]; [constructor|].
  destruct (chf_toks_cons c v r Hk) as (w & E & ->). destruct (known_facts c w E) as (H1 & _ & _).
  constructor; [exact H1|]. constructor; [apply name_ok_rjust|exact IH].
Qed.

Lemma chf_toks_even l : Forall kn l -> Nat.even (length (chf_toks l)) = true.
Proof.
  induction 1 as [|[c v] r Hk _ IH]; [reflexivity|].
  destruct (chf_toks_cons c v r Hk) as (w & _ & ->). exact IH.
Qed.

Definition zc (e : str * N) : str * Z := (fst e, Z.of_N (snd e)).

Lemma conv_pairs_ok l : forall acc, Forall kn l -> NoDup (map fst l) ->
  (forall c, In c (map fst l) -> ~ In c (map fst acc)) ->
  conv_pairs (chf_toks l) acc = Some (acc ++ map zc l).
Proof.
  induction l as [|[c v] r IH]; intros acc Hk Hnd Hfresh.
  - cbn. now rewrite app_nil_r.
  - inversion Hk as [|? ? Hc Hr]; subst. destruct (chf_toks_cons c v r Hc) as (w & E & ->).
    destruct (known_facts c w E) as (_ & H2 & H3).
    cbn [conv_pairs]. rewrite H2, H3, py_int_hex.
    cbn [map] in Hnd. inversion Hnd as [|? ? Hn Hnr]; subst.
    rewrite dset_fresh by (apply Hfresh; now left).
    rewrite IH; [|exact Hr|exact Hnr|].
    + rewrite <- app_assoc. reflexivity.
    + intros c' Hc' Hin. rewrite map_app in Hin. apply in_app_or in Hin as [Hin|Hin].
      * eapply Hfresh; [right; exact Hc'|exact Hin].
      * cbn in Hin. destruct Hin as [<-|[]]. exact (Hn Hc').
Qed.

Lemma nodupb_NoDup l : nodupb l = true -> NoDup l.
Proof.
  induction l as [|x r IH]; cbn; intro H; constructor.
  - apply andb_true_iff in H as [H _]. apply negb_true_iff in H. intro Hin. apply existsb_str_In in Hin. unfold mem in H. congruence.
  - apply andb_true_iff in H as [_ H]. now apply IH.
Qed.

Definition sorted_chfs (ck : chks) : chks := sort_by fst (filter not_size ck).
Lemma sorted_chfs_facts ck : chks_ok ck = true ->
  (exists sz, assoc SIZE ck = Some sz) /\ Forall kn (sorted_chfs ck) /\ NoDup (map fst (sorted_chfs ck)) /\
  (forall c, In c (map fst (sorted_chfs ck)) -> c <> SIZE).
Proof.
  unfold chks_ok. intro H. apply andb_true_iff in H as [H H3]. apply andb_true_iff in H as [H1 H2].
  assert (Hperm : Permutation (sorted_chfs ck) (filter not_size ck)) by apply sort_by_permutation.
  split; [|split; [|split]].
  - unfold has_key in H1. destruct (assoc SIZE ck) as [sz|]; [eauto|discriminate].
  - eapply Permutation_Forall; [symmetry; exact Hperm|]. apply Forall_forall. intros e He.
    apply filter_In in He as [He Hs]. rewrite forallb_forall in H2. specialize (H2 e He).
    unfold not_size in Hs. apply negb_true_iff in Hs. rewrite Hs in H2. exact H2.
  - eapply Permutation_NoDup; [symmetry; apply Permutation_map; exact Hperm|].
    now apply NoDup_map_filter, nodupb_NoDup.
  - intros c Hc. apply in_map_iff in Hc as [e [<- He]]. eapply Permutation_in in He; [|exact Hperm].
    apply filter_In in He as [_ Hs]. unfold not_size in Hs. apply negb_true_iff in Hs.
    intro E. rewrite E, str_eqb_refl in Hs. discriminate.
Qed.

Definition line_toks (name : str) (ck : chks) : list str :=
  name :: dec (size_of ck) :: chf_toks (sorted_chfs ck).

Lemma manifest_line_ok ty name ck : chks_ok ck = true ->
  manifest_line ty name ck = Ok ((upper ty ++ jtail (line_toks name ck)) ++ [10]).
Proof.
  intro H. destruct (sorted_chfs_facts ck H) as ([sz Hsz] & Hk & _ & _).
  unfold manifest_line, line_toks, size_of. rewrite Hsz. fold (sorted_chfs ck).
  rewrite (render_chfs_ok _ Hk). f_equal.
  rewrite !jtail_cons. repeat (rewrite <- ?app_assoc; cbn [app]; try reflexivity).
Qed.

Lemma has_key_app {B} n (d : list (str * B)) k v : has_key n (d ++ [(k, v)]) = has_key n d || str_eqb n k.
Proof.
  unfold has_key. induction d as [|[k' v'] d IH]; cbn.
  - destruct (str_eqb n k); reflexivity.
  - destruct (str_eqb n k'); [reflexivity|exact IH].
Qed.

Lemma parse_entry_ok d ty name ck : name_ok name = true -> chks_ok ck = true -> has_key name d = false ->
  parse_entry d (ty :: line_toks name ck) = Some (d ++ [(name, canon_chks ck)]).
Proof.
  intros Hn Hc Hfresh. destruct (sorted_chfs_facts ck Hc) as (_ & Hk & Hnd & Hns).
  unfold line_toks, parse_entry. rewrite (chf_toks_even _ Hk), Hfresh, py_int_dec.
  rewrite conv_pairs_ok; [reflexivity|exact Hk|exact Hnd|].
  intros c Hin [E|[]]. cbn in E. exact (Hns c Hin (eq_sym E)).
Qed.

(* one Manifest section as a lens on the parsed content, so that one proof serves the four sections *)
Record sel := Sel { s_ty : str; s_get : pm -> list pentry; s_set : pm -> list pentry -> pm }.
Definition sel_ok (S : sel) : Prop :=
  (forall m toks, parse_line m (s_ty S :: toks)
                  = option_map (s_set S m) (parse_entry (s_get S m) (s_ty S :: toks))) /\
  (forall m d, s_get S (s_set S m d) = d) /\
  (forall m d d', s_set S (s_set S m d) d' = s_set S m d') /\
  (forall m, s_set S m (s_get S m) = m) /\
  upper (s_ty S) = s_ty S /\ name_ok (s_ty S) = true.

Definition sel_dist := Sel T_DIST p_dist (fun m d => Pm d (p_aux m) (p_ebuild m) (p_misc m)).
Definition sel_aux := Sel T_AUX p_aux (fun m d => Pm (p_dist m) d (p_ebuild m) (p_misc m)).
Definition sel_ebuild := Sel T_EBUILD p_ebuild (fun m d => Pm (p_dist m) (p_aux m) d (p_misc m)).
Definition sel_misc := Sel T_MISC p_misc (fun m d => Pm (p_dist m) (p_aux m) (p_ebuild m) d).

Ltac sel_tac := repeat split; try reflexivity; try (intros [? ? ? ?]; reflexivity).
Lemma sel_dist_ok : sel_ok sel_dist. Proof. sel_tac. Qed.
Lemma sel_aux_ok : sel_ok sel_aux. Proof. sel_tac. Qed.
Lemma sel_ebuild_ok : sel_ok sel_ebuild. Proof. sel_tac. Qed.
Lemma sel_misc_ok : sel_ok sel_misc. Proof. sel_tac. Qed.

Definition efact (e : entry) : Prop := name_ok (fst e) = true /\ chks_ok (snd e) = true.
Definition canon_e (e : entry) : pentry := (fst e, canon_chks (snd e)).

Lemma not_nl_no_cr l : forallb not_nl l = true -> ~ In 13 l.
Proof. intros H Hin. rewrite forallb_forall in H. specialize (H 13 Hin). discriminate. Qed.

(* one rendered line: free of carriage returns, and parsed back as one entry of its section *)
Lemma parse_rendered_line (S : sel) (Hok : sel_ok S) name ck :
  name_ok name = true -> chks_ok ck = true ->
  exists l, manifest_line (s_ty S) name ck = Ok l /\ ~ In 13 l /\
    forall rest m, has_key name (s_get S m) = false ->
      parse_lines m (lines_aux [] (l ++ rest))
      = parse_lines (s_set S m (s_get S m ++ [(name, canon_chks ck)])) (lines_aux [] rest).
Proof.
  destruct Hok as (Hpl & _ & _ & _ & Hup & Hty). intros Hn Hc.
  assert (Htoks : Forall (fun t => name_ok t = true) (line_toks name ck)).
  { destruct (sorted_chfs_facts ck Hc) as (_ & Hk & _ & _).
    unfold line_toks. constructor; [exact Hn|]. constructor; [apply name_ok_dec|now apply chf_toks_ok]. }
  assert (Hnl : forallb not_nl (s_ty S ++ jtail (line_toks name ck)) = true).
  { rewrite forallb_app, (jtail_no_nl _ Htoks). apply name_ok_spec in Hty as [_ Hty].
    now rewrite (tok_no_nl _ Hty). }
  rewrite (manifest_line_ok _ _ _ Hc), Hup. eexists. split; [reflexivity|]. split.
  - intro Hin. apply in_app_or in Hin as [Hin|[Hin|[]]]; [exact (not_nl_no_cr _ Hnl Hin)|discriminate Hin].
  - intros rest m Hfresh. rewrite <- app_assoc. cbn [app]. rewrite lines_aux_rendered by exact Hnl.
    cbn [rev app parse_lines].
    now rewrite (split_ws_rendered _ _ Hty Htoks), Hpl, (parse_entry_ok _ _ _ _ Hn Hc Hfresh).
Qed.

Lemma parse_rendered_section (S : sel) (Hok : sel_ok S) : forall L,
  Forall efact L -> NoDup (map fst L) ->
  exists t, concat_res (map (fun e => manifest_line (s_ty S) (fst e) (snd e)) L) = Ok t /\ ~ In 13 t /\
    forall rest m, (forall n, In n (map fst L) -> has_key n (s_get S m) = false) ->
      parse_lines m (lines_aux [] (t ++ rest))
      = parse_lines (s_set S m (s_get S m ++ map canon_e L)) (lines_aux [] rest).
Proof.
  pose proof Hok as (_ & Hgs & Hss & Hsg & _).
  induction L as [|[name ck] L IH]; intros Hall Hnd.
  - exists []. split; [reflexivity|]. split; [intros []|]. intros rest m _. cbn [map app]. now rewrite app_nil_r, Hsg.
  - inversion Hall as [|? ? [Hn Hc] Hr]; subst. inversion Hnd as [|? ? Hnin Hndr]; subst.
    destruct (IH Hr Hndr) as (t' & Ht' & Hcr' & Hparse).
    destruct (parse_rendered_line S Hok name ck Hn Hc) as (l & Hl & Hcr & Hline).
    cbn [map concat_res fst snd]. rewrite Hl, Ht'. exists (l ++ t'). split; [reflexivity|]. split.
    + intro Hin. apply in_app_or in Hin as [Hin|Hin]; auto.
    + intros rest m Hfresh. rewrite <- app_assoc, Hline by (apply Hfresh; now left). rewrite Hparse.
      * now rewrite Hgs, Hss, <- app_assoc.
      * intros n Hin. rewrite Hgs, (has_key_app n (s_get S m)), (Hfresh n (or_intror Hin)).
        destruct (str_eqb_spec n name) as [->|]; [contradiction|reflexivity].
Qed.

Lemma entries_ok_facts l : entries_ok l = true -> Forall efact l /\ NoDup (map fst l).
Proof.
  unfold entries_ok. intro H. apply andb_true_iff in H as [H1 H2]. split; [|now apply nodupb_NoDup].
  apply Forall_forall. intros e He. rewrite forallb_forall in H1. specialize (H1 e He).
  apply andb_true_iff in H1. exact H1.
Qed.

Lemma sorted_facts (l : list entry) : Forall efact l -> NoDup (map fst l) ->
  Forall efact (sort_by fst l) /\ NoDup (map fst (sort_by fst l)).
Proof.
  intros H1 H2. pose proof (sort_by_permutation fst l) as Hp. split.
  - eapply Permutation_Forall; [symmetry; exact Hp|exact H1].
  - eapply Permutation_NoDup; [symmetry; apply Permutation_map; exact Hp|exact H2].
Qed.

Lemma canon_sec_map l : canon_sec l = map canon_e (sort_by fst l).
Proof. reflexivity. Qed.

Lemma parse_plain_section (S : sel) (Hok : sel_ok S) l : entries_ok l = true ->
  exists t, section (s_ty S) (fun n => n) l = Ok t /\ ~ In 13 t /\
    forall rest m, s_get S m = [] ->
      parse_lines m (lines_aux [] (t ++ rest)) = parse_lines (s_set S m (canon_sec l)) (lines_aux [] rest).
Proof.
  intro H. destruct (entries_ok_facts l H) as [H1 H2]. destruct (sorted_facts l H1 H2) as [H3 H4].
  destruct (parse_rendered_section S Hok (sort_by fst l) H3 H4) as (t & Ht & Hcr & Hp).
  exists t. split; [exact Ht|]. split; [exact Hcr|]. intros rest m Hg. rewrite Hp.
  - rewrite Hg. reflexivity.
  - intros n _. now rewrite Hg.
Qed.

Lemma split_on_noslash s : forall cur, existsb (N.eqb 47) s = false -> split_on_aux 47 cur s = [rev cur ++ s].
Proof.
  induction s as [|x s IH]; intros cur H; cbn [split_on_aux].
  - now rewrite app_nil_r.
  - cbn [existsb] in H. apply orb_false_iff in H as [Hx Hs]. rewrite N.eqb_sym in Hx. rewrite Hx, IH by exact Hs.
    cbn [rev]. now rewrite <- app_assoc.
Qed.
Lemma basename_noslash n : no_slash n = true -> basename n = n.
Proof.
  unfold no_slash, basename, split_on. intro H. apply negb_true_iff in H. now rewrite split_on_noslash.
Qed.

Lemma section_basename ty l : forallb (fun e => no_slash (fst e)) l = true ->
  section ty basename l = section ty (fun n => n) l.
Proof.
  intro H. unfold section. f_equal. apply map_ext_in. intros e He.
  rewrite basename_noslash; [reflexivity|].
  rewrite forallb_forall in H. apply H. eapply Permutation_in; [apply sort_by_permutation|exact He].
Qed.

Lemma parse_rendered_text a d e m :
  entries_ok a = true -> entries_ok d = true -> entries_ok e = true -> entries_ok m = true ->
  forallb (fun x => no_slash (fst x)) d = true ->
  exists t, manifest_text a d e m = Ok t /\ ~ In 13 t /\
            parse_text t = Some (Pm (canon_sec d) (canon_sec a) (canon_sec e) (canon_sec m)).
Proof.
  intros Ha Hd He Hm Hns.
  destruct (parse_plain_section sel_aux sel_aux_ok a Ha) as (ta & Hta & Ca & Pa).
  destruct (parse_plain_section sel_dist sel_dist_ok d Hd) as (td & Htd & Cd & Pd).
  destruct (parse_plain_section sel_ebuild sel_ebuild_ok e He) as (te & Hte & Ce & Pe).
  destruct (parse_plain_section sel_misc sel_misc_ok m Hm) as (tm & Htm & Cm & Pm_).
  cbn [s_ty sel_aux sel_dist sel_ebuild sel_misc] in Hta, Htd, Hte, Htm.
  exists (ta ++ td ++ te ++ tm). split; [|split].
  - unfold manifest_text. rewrite (section_basename _ _ Hns), Hta, Htd, Hte, Htm. reflexivity.
  - rewrite !in_app_iff. tauto.
  - unfold parse_text, lines. rewrite Pa by reflexivity. rewrite Pd by reflexivity.
    rewrite Pe by reflexivity. rewrite <- (app_nil_r tm). rewrite Pm_ by reflexivity.
    reflexivity.
Qed.

(* the text of well-formed inputs: never a failure, free of carriage returns, and parsed back
   (parse_manifest) to exactly the covered files and distfiles with their sizes and checksums *)
Lemma text_roundtrip thin scan fetch :
  wf_update thin scan fetch = true ->
  match update_text thin scan fetch with
  | Ok (Some t) => parse_text t = Some (expected_pm thin scan fetch) /\ ~ In 13 t
  | Ok None => thin = true /\ fetch = []
  | Fail _ => False
  end.
Proof.
  intros H. unfold wf_update in H.
  apply andb_true_iff in H as [H Hrest]. apply andb_true_iff in H as [Hf Hns].
  unfold update_text, expected_pm. destruct thin.
  - cbn [andb]. destruct fetch as [|f0 fr]; [split; reflexivity|].
    cbn [negb andb].
    destruct (parse_rendered_text [] (f0 :: fr) [] [] eq_refl Hf eq_refl eq_refl Hns) as (t & -> & Hcr & Hp). now split.
  - cbn [orb] in Hrest. cbn [andb negb].
    apply andb_true_iff in Hrest as [Hrest Hm]. apply andb_true_iff in Hrest as [Hrest He].
    apply andb_true_iff in Hrest as [Hrest Ha]. apply andb_true_iff in Hrest as [Hb Hl].
    apply negb_true_iff in Hb. rewrite Hb.
    rewrite !picks_covered by (apply entries_ok_facts; assumption).
    destruct (parse_rendered_text _ _ _ _ Ha Hf He Hm Hns) as (t & -> & Hcr & Hp). now split.
Qed.

Definition ex_ck (sz h : N) : chks := [(s2l "md5"%bs, h); (SIZE, sz); (s2l "sha1"%bs, h + 1)].
Definition ex_scan : list scanned :=
  [Scanned (s2l "/pkg-1.ebuild"%bs) true (ex_ck 3 5); Scanned (s2l "/files"%bs) false [];
   Scanned (s2l "/metadata.xml"%bs) true (ex_ck 40 6); Scanned (s2l "/files/b.patch"%bs) true (ex_ck 7 255);
   Scanned (s2l "/files/a.patch"%bs) true (ex_ck 8 4096); Scanned (s2l "/CVS/Entries"%bs) true (ex_ck 1 1);
   Scanned (s2l "/Manifest"%bs) true (ex_ck 1 2); Scanned (s2l "/.update.Manifest"%bs) true (ex_ck 1 3)].
Definition ex_fetch : list entry := [(s2l "z-1.tar"%bs, ex_ck 1000 77); (s2l "a-1.tar"%bs, ex_ck 2000 78)].
Definition ex_in : uin := Uin false ex_scan ex_fetch 420 40.

Example ex_wf : wf_update false ex_scan ex_fetch = true.
Proof. vm_compute. reflexivity. Qed.
Example ex_text : exists t, update_text false ex_scan ex_fetch = Ok (Some t) /\ (length t > 400)%nat /\
  parse_text t = Some (expected_pm false ex_scan ex_fetch) /\
  map fst (p_aux (expected_pm false ex_scan ex_fetch)) = [s2l "a.patch"%bs; s2l "b.patch"%bs] /\
  map fst (p_misc (expected_pm false ex_scan ex_fetch)) = [s2l "metadata.xml"%bs].
Proof.
  (* the witness stays folded: each fact about it is evaluated on its own, the parse is text_roundtrip *)
  set (T := match update_text false ex_scan ex_fetch with Ok (Some t) => t | _ => [] end).
  assert (E : update_text false ex_scan ex_fetch = Ok (Some T)) by (vm_compute; reflexivity).
  exists T. split; [exact E|]. split; [vm_compute; lia|]. split; [|split; vm_compute; reflexivity].
  pose proof (text_roundtrip false ex_scan ex_fetch ex_wf) as W. rewrite E in W. apply W.
Qed.
Example ex_perm : update_text false (rev ex_scan) (rev ex_fetch) = update_text false ex_scan ex_fetch.
Proof. vm_compute. reflexivity. Qed.

(* the counterexample to the atomicity of the unrepaired write *)
Definition old_fs : fs := mkfs (Some (s2l "DIST a 1 MD5 00000000000000000000000000000001
"%bs)) None.
Definition new_in : uin := Uin true [] [(s2l "a"%bs, [(SIZE, 2); (s2l "md5"%bs, 1)])] 420 0.

Lemma mkfs_private old stale : tmp_private (mkfs old stale).
Proof.
  unfold tmp_private, mkfs. destruct old as [o|], stale as [st|]; cbn [app]; cbn [lookup].
  - destruct (path_eq_dec TMP P) as [E|_]; [exfalso; exact (TMP_neq_P E)|].
    destruct (path_eq_dec TMP TMP) as [_|N]; [|congruence]. unfold mkfile.
    intros q n Hq Hl. destruct (path_eq_dec q P); [injection Hl as <-; cbn; congruence|].
    destruct (path_eq_dec q TMP); [contradiction|discriminate].
  - destruct (path_eq_dec TMP P) as [E|_]; [exfalso; exact (TMP_neq_P E)|exact I].
  - destruct (path_eq_dec TMP TMP) as [_|N]; [|congruence]. unfold mkfile.
    intros q n Hq Hl. destruct (path_eq_dec q TMP); [contradiction|discriminate].
  - exact I.
Qed.

(* a stale Manifest and a stale temporary: the update issues open(truncate) + 2 writes + rename, all
   succeed, the new text is in place and the temporary is gone *)
Example ex_update :
  let s := mkfs (Some (s2l "DIST old 1 MD5 00000000000000000000000000000001"%bs)) (Some (s2l "junk"%bs)) in
  exists ops s' t, update_ops (Uin true [] ex_fetch 420 150) s = Ok (true, ops) /\ length ops = 4%nat /\
    run_opt ops s = Some s' /\ update_text true [] ex_fetch = Ok (Some t) /\
    file_data s' P = Some t /\ file_data s' TMP = None.
Proof.
  intro s. set (i := Uin true [] ex_fetch 420 150).
  exists (ops_of (update_ops i s)), (run (ops_of (update_ops i s)) s),
         (match update_text true [] ex_fetch with Ok (Some t) => t | _ => [] end).
  repeat split; vm_compute; reflexivity.
Qed.
