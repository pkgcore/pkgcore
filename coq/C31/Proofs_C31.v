(* Proofs_C31.v — the framing part of C31: decimal numerals, ASCII lines, and the daemon's reader
   on what send_env writes (the round trip of the quoting is in Roundtrip_C31.v). *)
From Coq Require Import List NArith ZArith Bool Lia DecimalFacts Decimal.
Import ListNotations.
From Verif Require Import Base.Val Base.Lists C31.Model_C31 C31.Spec_C31.
Local Open Scope N_scope.

Lemma str_uint_uint_str u : str_uint (uint_str u) = Some u.
Proof. induction u; cbn [uint_str str_uint]; try rewrite IHu; reflexivity. Qed.

Lemma to_uint_no_leading_zero n u : N.to_uint n = D0 u -> u = Nil.
Proof.
  intro H.
  assert (E : N.to_uint n = unorm (N.to_uint n)).
  { rewrite <- (DecimalN.Unsigned.to_of (N.to_uint n)), DecimalN.Unsigned.of_to. reflexivity. }
  rewrite H in E. unfold unorm in E. cbn [nzhead] in E.
  pose proof (nb_digits_nzhead u) as L.
  destruct (nzhead u) eqn:Z; try discriminate.
  - injection E as ->. reflexivity.
  - injection E as ->. cbn [nb_digits] in L. lia.
Qed.

Lemma to_uint_not_nil n : N.to_uint n <> Nil.
Proof.
  destruct n as [|p]; cbn; [discriminate|].
  apply DecimalPos.Unsigned.to_uint_nonnil.
Qed.

Lemma parse_dec_dec n : parse_dec (dec n) = Some n.
Proof.
  unfold dec, parse_dec.
  pose proof (str_uint_uint_str (N.to_uint n)) as R.
  pose proof (DecimalN.Unsigned.of_to n) as O.
  destruct (N.to_uint n) as [|u|u|u|u|u|u|u|u|u|u] eqn:E.
  1: exfalso; eapply to_uint_not_nil; eassumption.
  1: apply to_uint_no_leading_zero in E as ->; cbn; cbn in O; congruence.
  (* a leading digit 1..9: the numeral is read as it stands *)
  all: cbn [uint_str] in *; cbn -[str_uint]; rewrite R, O; reflexivity.
Qed.

Lemma uint_str_digits u : forallb is_digit (uint_str u) = true.
Proof. induction u; cbn [uint_str forallb]; try rewrite IHu; reflexivity. Qed.
Lemma dec_digits n : forallb is_digit (dec n) = true.
Proof. apply uint_str_digits. Qed.

(* ASCII and not a newline *)
Definition line_char (c : N) : bool := (c <? 128) && negb (c =? c_nl).
Definition ascii_line (s : str) : Prop := forallb line_char s = true.

Lemma ascii_line_app a b : ascii_line a -> ascii_line b -> ascii_line (a ++ b).
Proof. unfold ascii_line; intros; rewrite forallb_app; apply andb_true_iff; auto. Qed.

Lemma ascii_line_encode s : ascii_line s -> encode s = s.
Proof.
  unfold ascii_line, encode. induction s as [|c s IH]; cbn [forallb flat_map]; intro H; [reflexivity|].
  apply andb_true_iff in H as [Hc Hs]. rewrite (IH Hs).
  unfold line_char in Hc. apply andb_true_iff in Hc as [Hc _].
  unfold utf8. rewrite Hc. reflexivity.
Qed.

Lemma ascii_line_no_nl s : ascii_line s -> ~ In c_nl s.
Proof.
  unfold ascii_line. rewrite forallb_forall. intros H I. specialize (H _ I). discriminate H.
Qed.

Lemma digits_ascii_line s : forallb is_digit s = true -> ascii_line s.
Proof.
  unfold ascii_line. rewrite !forallb_forall. intros H c I. specialize (H c I).
  unfold is_digit in H. unfold line_char, c_nl.
  apply andb_true_iff in H as [H1 H2]. apply N.leb_le in H1, H2.
  apply andb_true_iff; split; [apply N.ltb_lt; lia | apply negb_true_iff, N.eqb_neq; lia].
Qed.

Lemma encode_app a b : encode (a ++ b) = encode a ++ encode b.
Proof. apply flat_map_app. Qed.

Lemma encode_line hdr arg more :
  ascii_line hdr -> ascii_line arg ->
  encode (hdr ++ arg ++ [c_nl] ++ more) = (hdr ++ arg) ++ c_nl :: encode more.
Proof.
  intros Hh Ha. rewrite app_assoc, encode_app, (ascii_line_encode _ (ascii_line_app _ _ Hh Ha)). reflexivity.
Qed.

Lemma read_line_app l r : ~ In c_nl l -> read_line (l ++ c_nl :: r) = Some (l, r).
Proof.
  induction l as [|b l IH]; cbn [Datatypes.app read_line]; intro H.
  - reflexivity.
  - apply not_in_cons in H as [Hb Hl]. rewrite (proj2 (N.eqb_neq _ _)), (IH Hl) by congruence.
    reflexivity.
Qed.

Lemma strip_prefix_app p s : strip_prefix p (p ++ s) = Some s.
Proof.
  induction p as [|x p IH]; cbn [Datatypes.app strip_prefix]; [destruct s; reflexivity|].
  rewrite N.eqb_refl. exact IH.
Qed.

Lemma hdr_bytes_line : ascii_line HDR_BYTES.  Proof. reflexivity. Qed.
Lemma hdr_file_line : ascii_line HDR_FILE.    Proof. reflexivity. Qed.

(* `start_receiving_env bytes <n>`, newline, then exactly n bytes and anything after them *)
Lemma reader_counted payload rest :
  reader ((HDR_BYTES ++ dec (N.of_nat (length payload))) ++ c_nl :: payload ++ rest)
  = Some (payload, rest).
Proof.
  unfold reader.
  rewrite read_line_app
    by (apply ascii_line_no_nl, ascii_line_app; [exact hdr_bytes_line | apply digits_ascii_line, dec_digits]).
  rewrite strip_prefix_app, parse_dec_dec, Nat2N.id.
  rewrite (proj2 (Nat.ltb_ge _ _)) by (rewrite app_length; lia).
  rewrite firstn_app_exact, skipn_app_exact. reflexivity.
Qed.

Lemma reader_file_line path rest :
  ascii_line path -> reader_file ((HDR_FILE ++ path) ++ c_nl :: rest) = Some (path, rest).
Proof.
  intro P. unfold reader_file.
  rewrite read_line_app by (apply ascii_line_no_nl, ascii_line_app; [exact hdr_file_line | exact P]).
  rewrite strip_prefix_app. reflexivity.
Qed.

Example framing_example :
  reader (frame [65; 61; 39; 233; 32; 8364; 39] ++ PROBE)
  = Some ([65; 61; 39; 195; 169; 32; 226; 130; 172; 39], PROBE).
Proof. vm_compute. reflexivity. Qed.
