(* All theorems quantify over EVERY text / line over the full code-point alphabet (str = list N),
   every atom predicate [aof] and every suggestion function; [isspace] / [is_lb] are Python's
   str.isspace and str.splitlines classes (checked against the interpreter for every code
   point on each run). *)
From Coq Require Import List ZArith.
Import ListNotations.
From Verif Require Import Base.Val C38.Model_C38 C38.Spec_C38 C38.Proofs_C38.

(* parsing a package list and rendering it back reproduces the text exactly *)
Theorem render_parse_id : forall (aof : str -> option str) (t : str) (es : list entry),
  parse aof t = Ok es -> render es = t.
Proof. intros aof t es H. rewrite (parse_lines_render _ _ _ _ H). apply concat_splitlines. Qed.
Print Assumptions render_parse_id.

(* building a list from (spec, keywords) entries parses back to those entries (and no comments) *)
Theorem build_parse : forall (aof : str -> option str) (es : list (str * list str)),
  Forall (fun x => wf_tok (fst x) /\ Forall wf_tok (snd x) /\ aof (fst x) <> None) es ->
  exists ents, parse aof (build es) = Ok ents /\
               map (fun e => (pkg e, keywords e, comment e)) ents
               = map (fun x => (aof (fst x), snd x, [])) es.
Proof. intros aof es. apply build_parse_gen. Qed.
Print Assumptions build_parse.

(* with_keywords on any parsed line: a line without a spec is returned unchanged; otherwise the
   result is  prefix ++ [one space if the line had no keywords] ++ " ".join(ks) ++ suffix  where
   raw = prefix ++ keyword-region ++ suffix is the decomposition of the ORIGINAL line fixed by
   Spec_C38.kw_region, every other field is kept, and (for well-formed ks) parsing the new
   line again yields exactly that entry: same spec, comment, line ending, the new keywords *)
Theorem with_keywords_local : forall (aof : str -> option str) (t : str) (n : N) (line : str)
                                     (e : entry) (ks : list str),
  In line (splitlines t) -> parse_line aof n line = Ok e ->
  (pkg e = None -> with_keywords e ks = e) /\
  (pkg e <> None ->
   exists pfx mid sfx,
     kw_region e pfx mid sfx /\
     with_keywords e ks = rewritten e pfx sfx ks /\
     (Forall wf_tok ks ->
      parse_line aof n (raw (with_keywords e ks) ++ eol (with_keywords e ks)) = Ok (with_keywords e ks))).
Proof. exact with_keywords_local_proof. Qed.
Print Assumptions with_keywords_local.

(* what the keyword loop of expand computes for one line, and exactly when it refuses *)
Theorem sentinel_meaning : forall (sug : list str) (prev : option (list str)) (ks : list str),
  expand_kws sug prev (more_than_one ks) ks =
  if refused prev ks then inl (match prev with None => 1 | Some _ => 2 end)%N
  else inr (expansion sug prev ks).
Proof. intros sug prev ks. apply expand_kws_spec. Qed.
Print Assumptions sentinel_meaning.

(* expand: the result is the rendering of entries that are line by line in the frame relation
   with the parsed input: same lineno/spec/comment/line ending; a line without sentinels is
   identical; a changed line differs from the original only inside its keyword region; and the
   keywords are the declared meaning of the sentinels *)
Theorem expand_frame : forall (aof : str -> option str) (suggest : str -> list str) (t t' : str),
  expand_text aof suggest t = Ok t' ->
  exists es es', parse aof t = Ok es /\ render es = t /\ render es' = t' /\
                 Forall2 line_frame es es' /\
                 map keywords es' = expected_kws suggest None es.
Proof.
  intros aof suggest t t' H. apply expand_text_inv in H as (es & es' & ch & Ep & Ee & ->).
  destruct (expand_entries_frame aof t suggest None es es' ch (parse_parsed _ _ _ Ep) Ee) as (F & Hch & Hk).
  pose proof (render_parse_id aof t es Ep) as Hr. exists es, es'. repeat split; auto.
  destruct ch; [reflexivity|]. now rewrite Hch.
Qed.
Print Assumptions expand_frame.

(* with well-formed suggestions the EXPANDED TEXT parses again (str.splitlines breaks it at the
   same places) into exactly those entries: every line keeps its number, spec, comment and line
   ending, lines without sentinels are identical, changed lines differ only inside the keyword
   region, and the keywords are the declared meaning of the sentinels *)
Theorem expand_reparse : forall (aof : str -> option str) (suggest : str -> list str) (t t' : str),
  (forall p, Forall wf_tok (suggest p)) ->
  expand_text aof suggest t = Ok t' ->
  exists es es', parse aof t = Ok es /\ parse aof t' = Ok es' /\
                 Forall2 line_frame es es' /\
                 map keywords es' = expected_kws suggest None es.
Proof.
  intros aof suggest t t' Hsug H. apply expand_text_inv in H as (es & es' & ch & Ep & Ee & ->).
  destruct (expand_entries_frame aof t suggest None es es' ch (parse_parsed _ _ _ Ep) Ee) as (F & Hch & Hk).
  exists es, es'. repeat split; auto.
  destruct ch; [now apply (expand_entries_parse aof suggest t es es' true) | now rewrite Hch].
Qed.
Print Assumptions expand_reparse.
