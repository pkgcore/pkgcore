(* Sorted_C08.v — sorted and stacked queries: orders are transitive, the sorted query is a sorted
   permutation of the plain one, the stacked query is the chain / merge of the per-repository
   answers; the unversioned query over bare tuples. *)
From Coq Require Import List NArith Bool Sorting.Sorted Sorting.Permutation.
Import ListNotations.
From Verif Require Import Base.Val C06.Restr C06.RestrInd C06.Proofs_C06
  C08.Ord_C08 C08.Model_C08 C08.Spec_C08 C08.Proofs_C08.

Lemma str_leb_trans a : forall b c, str_leb a b = true -> str_leb b c = true -> str_leb a c = true.
Proof.
  induction a as [|x a IH]; intros [|y b] [|z c]; cbn; try discriminate; auto.
  destruct (N.eqb x y) eqn:E1; destruct (N.eqb y z) eqn:E2.
  - apply N.eqb_eq in E1, E2. subst. rewrite N.eqb_refl. apply IH.
  - apply N.eqb_eq in E1. subst. rewrite E2. auto.
  - apply N.eqb_eq in E2. subst. rewrite E1. auto.
  - intros H1 H2. apply N.ltb_lt in H1, H2. assert (H : (x < z)%N) by (eapply N.lt_trans; eauto).
    destruct (N.eqb x z) eqn:E3.
    + apply N.eqb_eq in E3. subst. exfalso. exact (N.lt_irrefl _ H).
    + now apply N.ltb_lt.
Qed.
Lemma str_leb_antisym a : forall b, str_leb a b = true -> str_leb b a = true -> a = b.
Proof.
  induction a as [|x a IH]; intros [|y b]; cbn; try discriminate; auto.
  rewrite (N.eqb_sym y x). destruct (N.eqb x y) eqn:E.
  - apply N.eqb_eq in E. subst. intros H1 H2. f_equal. now apply IH.
  - intros H1 H2. apply N.ltb_lt in H1, H2. exfalso. exact (N.lt_asymm _ _ H1 H2).
Qed.

Lemma cp_leb_trans a b c : cp_leb a b = true -> cp_leb b c = true -> cp_leb a c = true.
Proof.
  destruct a as [a1 a2], b as [b1 b2], c as [c1 c2]. unfold cp_leb. cbn [fst snd].
  destruct (str_eqb a1 b1) eqn:E1; destruct (str_eqb b1 c1) eqn:E2.
  - apply str_eqb_eq in E1, E2. subst. rewrite str_eqb_refl. apply str_leb_trans.
  - apply str_eqb_eq in E1. subst. rewrite E2. auto.
  - apply str_eqb_eq in E2. subst. rewrite E1. auto.
  - intros H1 H2. destruct (str_eqb a1 c1) eqn:E3.
    + apply str_eqb_eq in E3. subst. rewrite (str_leb_antisym _ _ H1 H2), str_eqb_refl in E1. discriminate.
    + exact (str_leb_trans _ _ _ H1 H2).
Qed.

Definition cp_le (a b : cp) : Prop := cp_leb a b = true.
Definition ver_le (a b : N) : Prop := N.leb a b = true.

Lemma cp_sort_strong l : StronglySorted cp_le (CpSort.sort l).
Proof.
  apply Sorted_StronglySorted; [intros a b c; apply cp_leb_trans|]. apply CpSort.Sorted_sort.
Qed.
Lemma ver_sort_strong l : StronglySorted ver_le (VerSort.sort l).
Proof.
  apply Sorted_StronglySorted; [|apply VerSort.Sorted_sort].
  intros a b c H1 H2. unfold ver_le in *. apply N.leb_le in H1, H2. apply N.leb_le. eapply N.le_trans; eauto.
Qed.

Lemma SS_app {A} (Rel : A -> A -> Prop) l1 l2 :
  StronglySorted Rel l1 -> StronglySorted Rel l2 ->
  (forall x y, In x l1 -> In y l2 -> Rel x y) -> StronglySorted Rel (l1 ++ l2).
Proof.
  induction l1 as [|a l1 IH]; cbn; intros H1 H2 Hx; [assumption|].
  inversion H1; subst. constructor.
  - apply IH; auto.
  - apply Forall_app. split; [assumption|]. apply Forall_forall. intros y Hy. apply Hx; auto.
Qed.
Lemma SS_filter {A} (Rel : A -> A -> Prop) (f : A -> bool) l :
  StronglySorted Rel l -> StronglySorted Rel (filter f l).
Proof.
  induction 1 as [|a l Hs IH Hf]; cbn; [constructor|]. destruct (f a); [|assumption].
  constructor; [assumption|]. rewrite Forall_forall in *. intros x Hx. apply filter_In in Hx. apply Hf. tauto.
Qed.
Lemma SS_map {A B} (RA : A -> A -> Prop) (RB : B -> B -> Prop) (f : A -> B) l :
  (forall x y, RA x y -> RB (f x) (f y)) -> StronglySorted RA l -> StronglySorted RB (map f l).
Proof.
  intros Hm. induction 1 as [|a l Hs IH Hf]; cbn; constructor; [assumption|].
  rewrite Forall_forall in *. intros y Hy. apply in_map_iff in Hy as [x [<- Hx]]. auto.
Qed.
Lemma SS_strict {A} (Rel : A -> A -> Prop) l :
  StronglySorted Rel l -> NoDup l -> StronglySorted (fun a b => Rel a b /\ a <> b) l.
Proof.
  induction 1 as [|a l Hs IH Hf]; intros Hnd; [constructor|]. inversion Hnd; subst.
  constructor; [auto|]. rewrite Forall_forall in *. intros x Hx. split; [auto|]. intros ->. contradiction.
Qed.
Lemma SS_flat_map {A B} (RA : A -> A -> Prop) (RB : B -> B -> Prop) (g : A -> list B) (key : B -> A) ks :
  StronglySorted RA ks -> (forall k, StronglySorted RB (g k)) ->
  (forall k x, In x (g k) -> key x = k) ->
  (forall x y, RA (key x) (key y) -> RB x y) -> StronglySorted RB (flat_map g ks).
Proof.
  intros Hks Hg Hkey Hrel. induction Hks as [|k ks Hs IH Hf]; cbn; [constructor|].
  apply SS_app; auto. intros x y Hx Hy. apply in_flat_map in Hy as [k' [Hk' Hy]].
  apply Hrel. rewrite (Hkey _ _ Hx), (Hkey _ _ Hy). rewrite Forall_forall in Hf. auto.
Qed.
Lemma Permutation_filter' {A} (f : A -> bool) l l' :
  Permutation l l' -> Permutation (filter f l) (filter f l').
Proof.
  induction 1; cbn; auto.
  - destruct (f x); auto.
  - destruct (f x), (f y); auto. apply perm_swap.
  - eapply Permutation_trans; eauto.
Qed.
Lemma Permutation_flat_map_pw {A B} (f g : A -> list B) l :
  (forall a, Permutation (f a) (g a)) -> Permutation (flat_map f l) (flat_map g l).
Proof. intros H. induction l; cbn; auto. apply Permutation_app; auto. Qed.

Lemma obj_le_keys x y : cp_le (okey x) (okey y) /\ okey x <> okey y -> obj_le x y.
Proof.
  intros [Hle Hne]. unfold obj_le, obj_leb.
  destruct (str_eqb (fst (okey x)) (fst (okey y)) && str_eqb (snd (okey x)) (snd (okey y))) eqn:E; [|exact Hle].
  apply andb_true_iff in E as [E1 E2]. apply str_eqb_eq in E1, E2. exfalso. apply Hne.
  destruct (okey x), (okey y). cbn in *. congruence.
Qed.

Lemma expand_sorted_strong R m k : StronglySorted obj_le (expand_sorted R m k).
Proof.
  unfold expand_sorted, expand. destruct m.
  - apply (SS_map ver_le); [|apply ver_sort_strong]. intros x y H. unfold obj_le, obj_leb. cbn.
    now rewrite !str_eqb_refl.
  - destruct (nonempty _); repeat constructor.
  - destruct (nonempty _); repeat constructor.
Qed.
Lemma expand_sorted_perm R m k : Permutation (expand R m k) (expand_sorted R m k).
Proof.
  unfold expand_sorted, expand. destruct m; auto. apply Permutation_map. apply VerSort.Permuted_sort.
Qed.
Lemma expand_sorted_key R m k x : In x (expand_sorted R m k) -> okey x = k.
Proof.
  intros H. apply (Permutation_in _ (Permutation_sym (expand_sorted_perm R m k))) in H.
  exact (proj1 (expand_in R m k x H)).
Qed.

Theorem sorted_query_proof : forall w R m r l,
  repo_wf R -> itermatch_sorted w R m r = Some l ->
  StronglySorted obj_le l /\ exists got, itermatch w R m r = Some got /\ Permutation got l.
Proof.
  intros w R m r l Hwf Hq. unfold itermatch_sorted in Hq. unfold itermatch.
  destruct (candidates w R r) as [cs|] eqn:Ec; [|discriminate]. injection Hq as <-. split.
  - apply SS_filter.
    apply (SS_flat_map (fun a b => cp_le a b /\ a <> b) obj_le (expand_sorted R m) okey).
    + apply SS_strict; [apply cp_sort_strong|].
      apply (Permutation_NoDup (CpSort.Permuted_sort cs)). exact (candidates_distinct w R Hwf r cs Ec).
    + apply expand_sorted_strong.
    + apply expand_sorted_key.
    + apply obj_le_keys.
  - eexists. split; [reflexivity|]. apply Permutation_filter'.
    eapply Permutation_trans; [apply Permutation_flat_map_pw; apply expand_sorted_perm|].
    apply Permutation_flat_map. apply CpSort.Permuted_sort.
Qed.

Lemma all_some_Forall2 {A B} (f : A -> option B) l xs :
  all_some (map f l) = Some xs -> Forall2 (fun a x => f a = Some x) l xs.
Proof.
  revert xs. induction l as [|a l IH]; cbn; intros xs H.
  - injection H as <-. constructor.
  - destruct (f a) as [x|] eqn:E; [|discriminate]. destruct (all_some (map f l)) as [xs'|]; [|discriminate].
    injection H as <-. constructor; auto.
Qed.

Lemma fold_merge_perm parts : Permutation (concat parts) (fold_right ObjSort.merge [] parts).
Proof.
  induction parts as [|p parts IH]; cbn; [constructor|].
  eapply Permutation_trans; [apply Permutation_app_head; exact IH|]. apply ObjSort.Permuted_merge.
Qed.
Lemma fold_merge_sorted parts : Forall (Sorted obj_le) parts -> Sorted obj_le (fold_right ObjSort.merge [] parts).
Proof.
  induction 1 as [|p parts Hp _ IH]; cbn; [constructor|].
  apply Sorted_LocallySorted_iff. apply ObjSort.Sorted_merge; apply Sorted_LocallySorted_iff; assumption.
Qed.

(* the per-repository sorted answers are sorted, and together a permutation of the plain ones *)
Lemma sorted_parts w m r Rs parts : Forall repo_wf Rs ->
  Forall2 (fun R part => itermatch_sorted w R m r = Some part) Rs parts ->
  Forall (Sorted obj_le) parts /\
  exists gots, all_some (map (fun R => itermatch w R m r) Rs) = Some gots /\
               Permutation (concat gots) (concat parts).
Proof.
  intros Hwf E. induction E as [|R part Rs parts H E IH].
  - split; [constructor|]. exists []. split; [reflexivity|constructor].
  - inversion Hwf as [|? ? HR HRs]; subst. destruct (IH HRs) as [Hs [gots [Hg Hp]]].
    destruct (sorted_query_proof w R m r part HR H) as [Hss [got [Hgot Hperm]]].
    split; [constructor; [now apply StronglySorted_Sorted|assumption]|].
    exists (got :: gots). cbn [map all_some]. rewrite Hgot, Hg. split; [reflexivity|].
    cbn [concat]. now apply Permutation_app.
Qed.

(* the full statement for the default unversioned call: the tuples yielded are exactly the
   category/package pairs whose package object the restriction matches *)
Definition unversioned_tuple_full : Prop :=
  forall w R r got, repo_wf R -> flat_atom r = true ->
    itermatch w R MUnvTuple r = Some got ->
    forall o, In o got <-> In o (map as_tuple (brute w R MUnvCPV r)).

Definition ex_a : str := [97]%N.
Definition ex_b : str := [98]%N.
Definition ex_x : str := [120]%N.
Definition ex_y : str := [121]%N.
Definition ex_repo : repo :=
  [(ex_a, [(ex_x, [1; 2]%N); (ex_y, [1]%N)]); (ex_b, [(ex_x, [1]%N); (ex_y, [])])].
(* leaf 0: category == a, leaf 1: package == x, leaf 2: some other attribute (true on version 1) *)
Definition ex_world : world :=
  {| info := fun i => match i with 0%N => LCat (MExact ex_a false) | 1%N => LPkg (MExact ex_x false) | _ => LOther 0%N end;
     pred := fun _ _ => false;
     opq := fun _ o => match o with PV _ _ 1%N => true | _ => false end |}.

Lemma ex_repo_wf : repo_wf ex_repo.
Proof.
  assert (Hab : ex_a <> ex_b) by discriminate. assert (Hxy : ex_x <> ex_y) by discriminate.
  split.
  - cbn. repeat constructor; cbn; intuition congruence.
  - repeat constructor; cbn; try (intuition congruence); try (intros [H|[]]; discriminate).
Qed.

Lemma no_elements {A} (l : list A) : (forall x, ~ In x l) -> l = [].
Proof. destruct l as [|a l]; [reflexivity|]. intros H. destruct (H a). now left. Qed.

Lemma pl_leaves r : forall b x, In x (pl b r) -> In (snd x) (leaves r).
Proof.
  induction r as [n i|b0|r _|k n cs IH] using restr_ind'; intros b x H; try contradiction.
  - cbn in H. destruct (b && n); [destruct H|]. destruct H as [<-|[]]. now left.
  - rewrite Forall_forall in IH. cbn [leaves].
    assert (Hg : In x (flat_map (pl true) cs) -> In (snd x) (flat_map leaves cs)).
    { intros H'. apply in_flat_map in H' as [ch [Hch Hx]]. apply in_flat_map. exists ch. split; [assumption|].
      exact (IH ch Hch true x Hx). }
    destruct k; destruct n; cbn in H; try contradiction; auto.
Qed.

Lemma eval_leaffree e1 e2 r : leaves r = [] -> eval e1 r = eval e2 r.
Proof.
  induction r as [n i| |r IH|k n cs IH] using restr_ind'; intros H; try discriminate; try reflexivity.
  - cbn. f_equal. now apply IH.
  - cbn [eval]. f_equal. apply map_ext_Forall. rewrite Forall_forall in *. intros ch Hch.
    apply IH; [assumption|]. apply no_elements. intros i Hi. cbn [leaves] in H.
    assert (Hin : In i (flat_map leaves cs)) by (apply in_flat_map; eauto). now rewrite H in Hin.
Qed.

(* nothing to prune by: every key the repository lists is a candidate *)
Lemma leaffree_candidates w R r cs c p : leaves r = [] ->
  In c (categories R) -> In p (packages_get R c) -> candidates w R r = Some cs -> In (c, p) cs.
Proof.
  intros Hl Hc Hp Hcs. unfold candidates in Hcs.
  assert (Hpl : forall b, pl b r = []).
  { intros b. apply no_elements. intros x Hx. apply pl_leaves in Hx. now rewrite Hl in Hx. }
  destruct (atom_key w r) as [k|] eqn:Ek.
  - exfalso. destruct r as [| | |[] [] chs]; try discriminate. cbn in Ek.
    destruct (first_some (leaf_exact w true) chs) as [c0|] eqn:E1; [|discriminate].
    destruct (first_some_leaf w true chs c0 E1) as [i [Hi _]]. cbn [leaves] in Hl.
    assert (H : In i (flat_map leaves chs)) by (apply in_flat_map; exists (Leaf false i); split; [assumption|now left]).
    now rewrite Hl in H.
  - assert (Hfast : In (c, p) (fast w R r)) by (apply fast_complete_nocoll; auto).
    assert (Hd : identify_dnf w R r = Some cs -> In (c, p) cs).
    { unfold identify_dnf. destruct (dnf_total true r) as [s [Hs Hne]]. rewrite Hs.
      destruct s as [|cl s]; [congruence|]. cbn [map existsb].
      assert (E : flat_map (pl true) cl = []).
      { apply no_elements. intros x Hx. assert (H : In x (pl true r)) by (apply (dnf_leaves r _ Hs); exists cl; split; [now left|assumption]).
        now rewrite Hpl in H. }
      unfold clause_cp at 1 2. rewrite E. cbn. intros [= <-]. now apply in_cps_of. }
    destruct r as [n i|b|r'|[] n chs]; cbn [identify] in Hcs; try exact (Hd Hcs); now injection Hcs as <-.
Qed.

Lemma universe_tuple R o : In o (universe R MUnvTuple) <->
  exists c p, o = PT c p /\ In (PU c p) (universe R MUnvCPV).
Proof.
  rewrite in_universe. split.
  - intros (c & ps & p & vs & Hc & Hp & H). exists c, p. rewrite in_universe. cbn in H.
    destruct (nonempty vs) eqn:E; [|destruct H]. destruct H as [<-|[]]. split; [reflexivity|].
    exists c, ps, p, vs. cbn. rewrite E. cbn. auto.
  - intros (c & p & -> & H). apply in_universe in H as (c' & ps & p' & vs & Hc & Hp & H). cbn in H.
    destruct (nonempty vs) eqn:E; [|destruct H]. destruct H as [[= -> ->]|[]].
    exists c, ps, p, vs. cbn. rewrite E. cbn. auto.
Qed.

(* a restriction that reads no attribute cannot tell a bare tuple from a package object *)
Theorem tuple_query_leaffree w R r got : repo_wf R -> leaves r = [] ->
  itermatch w R MUnvTuple r = Some got ->
  forall o, In o got <-> In o (map as_tuple (brute w R MUnvCPV r)).
Proof.
  intros Hwf Hl Hq o.
  unfold itermatch in Hq. destruct (candidates w R r) as [cs|] eqn:Ec; [|discriminate]. injection Hq as <-.
  rewrite filter_In, in_map_iff. unfold brute, matches. split.
  - intros [Hin Hm]. apply in_flat_map in Hin as [k [_ Hin]].
    apply expand_in, proj2, universe_tuple in Hin as (c & p & -> & Hu).
    exists (PU c p). split; [reflexivity|]. apply filter_In. split; [assumption|].
    rewrite <- Hm. now apply eval_leaffree.
  - intros [o' [<- Ho']]. apply filter_In in Ho' as [Hu Hm].
    assert (Ht : In (as_tuple o') (universe R MUnvTuple)).
    { apply universe_tuple. pose proof Hu as Hu'.
      apply in_universe in Hu' as (c & ps & p & vs & _ & _ & H). cbn in H.
      destruct (nonempty vs); [|destruct H]. destruct H as [<-|[]]. now exists c, p. }
    destruct (universe_expand R Hwf MUnvTuple _ Ht) as [Hexp [Hcat Hpkg]].
    split; [|rewrite <- Hm; now apply eval_leaffree].
    apply in_flat_map. exists (okey (as_tuple o')). split; [|assumption].
    destruct (okey (as_tuple o')) as [c p]. exact (leaffree_candidates w R r cs c p Hl Hcat Hpkg Ec).
Qed.

(* And(category != a through the wrapper's negate, package == x) *)
Example ex_negated_wrapper :
  itermatch ex_world ex_repo MVersioned (Node KAnd false [Leaf true 0%N; Leaf false 1%N])
  = Some [PV ex_b ex_x 1%N]
  /\ brute ex_world ex_repo MVersioned (Node KAnd false [Leaf true 0%N; Leaf false 1%N]) = [PV ex_b ex_x 1%N]
  /\ length (universe ex_repo MVersioned) = 4%nat.
Proof. vm_compute. auto. Qed.
(* a normal form mixing a clause that names category and package with one that names neither *)
Example ex_mixed_dnf :
  let r := Node KOr false [Node KAnd false [Leaf false 0%N; Leaf false 1%N]; Node KAnd false [Leaf false 2%N; Leaf true 1%N]] in
  candidates ex_world ex_repo r = Some (all_cp ex_repo)
  /\ itermatch ex_world ex_repo MVersioned r = Some [PV ex_a ex_x 1%N; PV ex_a ex_x 2%N; PV ex_a ex_y 1%N].
Proof. vm_compute. auto. Qed.
(* the fast path narrowing to one key, and the sorted / unversioned / stacked variants *)
Example ex_variants :
  let r := Node KAnd false [Leaf false 0%N; Leaf false 1%N] in
  candidates ex_world ex_repo r = Some [(ex_a, ex_x)]
  /\ itermatch_sorted ex_world [(ex_a, [(ex_x, [2; 1]%N)])] MVersioned r = Some [PV ex_a ex_x 1%N; PV ex_a ex_x 2%N]
  /\ itermatch ex_world ex_repo MUnvCPV r = Some [PU ex_a ex_x]
  /\ itermatch ex_world ex_repo MUnvTuple r = Some []
  /\ multiplex_sorted ex_world [ex_repo; [(ex_a, [(ex_x, [3; 1]%N)])]] MVersioned r
     = Some [PV ex_a ex_x 1%N; PV ex_a ex_x 1%N; PV ex_a ex_x 2%N; PV ex_a ex_x 3%N].
Proof. vm_compute. repeat split. Qed.
