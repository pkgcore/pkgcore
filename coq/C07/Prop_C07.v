From Coq Require Import List ZArith Bool.
Import ListNotations.
From Verif Require Import C07.Model_C07 C07.Spec_C07 C07.Proofs_C07.

(* restrictions that compare equal match the same subjects (every subject, every regex engine) —
   outside the class "a _UseDepDefaultContainment is compared while if_missing is not part of its identity",
   which is empty once fixes/C04-usedep-default-identity.patch is applied (udc_keyed c = true) *)
Theorem eq_implies_same_match : forall c a b,
  parsed_alike a b -> known c false a b = false -> r_eq c a b = true -> same_matches a b.
Proof. intros c a b PA K E. exact (proj2 (eq_interchangeable c a b E) PA K). Qed.
Print Assumptions eq_implies_same_match.

(* ... and have equal hash keys — outside that class and the class "two atoms with different original text" *)
Theorem eq_implies_same_hash_key : forall c a b,
  known c true a b = false -> r_eq c a b = true -> hk_eq c a b = true.
Proof. intros c a b K E. exact (proj1 (eq_interchangeable c a b E) K). Qed.
Print Assumptions eq_implies_same_hash_key.

Theorem eq_interchangeable_partial : forall c a b,
  parsed_alike a b -> known c true a b = false -> known c false a b = false ->
  r_eq c a b = true -> interchangeable c a b.
Proof. intros c a b PA K1 K2 E. destruct (eq_interchangeable c a b E) as [H M]. split; auto. Qed.
Print Assumptions eq_interchangeable_partial.

(* with if_missing in _UseDepDefaultContainment's identity the class excluded by eq_implies_same_match is
   empty: equal restrictions always match alike *)
Theorem known_match_empty_when_keyed : forall c, udc_keyed c = true -> forall a b, known c false a b = false.
Proof.
  (* known c false is negb (udc_keyed c) or false at the leaves, a disjunction over the children above them *)
  intros c Hc a. induction a using restr_ind'; intros []; try reflexivity; cbn [known]; rewrite ?Hc;
    auto using orb_false_intro, any2_false_Forall, existsb2_false_Forall.
Qed.
Print Assumptions known_match_empty_when_keyed.

(* a restriction-keyed cache returns, for a key found by ==, the value the memoised query has for THAT key *)
Theorem cache_sound_partial : forall c (V : Type) (compute : restr -> V) m k v,
  respects_matching V compute -> filled_by V compute m ->
  (forall k' v', In (k', v') m -> parsed_alike k' k /\ known c false k' k = false) ->
  lookup c V k m = Some v -> v = compute k.
Proof.
  intros c V compute m k v RM F W L. apply lookup_Some in L as (k' & Hin & E).
  rewrite (F k' v Hin). apply RM. destruct (W k' v Hin) as [PA K].
  exact (eq_implies_same_match c k' k PA K E).
Qed.
Print Assumptions cache_sound_partial.

(* the unrestricted statement is false of the faithful model: *)
Theorem full_statement_refuted_atom_text : forall c, ~ C07_full_statement c.
Proof.
  intros c H. destruct (H (RAtom (mk_atom [33;97;47;98]%N false None)) at2 eq_refl) as [K _].   (* !a/b == !!a/b *)
  vm_compute in K. discriminate.
Qed.
Print Assumptions full_statement_refuted_atom_text.

Theorem full_statement_refuted_udc : ~ C07_full_statement cfg_pinned.
Proof.
  intro H. destruct (H (RUdc true [sx] false) (RUdc false [sx] false) eq_refl) as [_ M].
  specialize (M rx_lit (SMulti [ASet []; ASet []])). vm_compute in M. discriminate.   (* (iuse, use) both empty *)
Qed.
Print Assumptions full_statement_refuted_udc.

(* before fixes/C07-versionmatch-eq-hash.patch: a negated ~ equals the plain ~ and matches the complement;
   a negated < equals >= with another hash key *)
Theorem versionmatch_orig_refuted :
  (ver_eq_orig true [49%N] None false [0%Z] true [49%N] None true [0%Z] = true
   /\ ver_match true [49%N] None false [0%Z] pk1 <> ver_match true [49%N] None true [0%Z] pk1)
  /\ (ver_eq_orig false [49%N] None true [(-1)%Z] false [49%N] None false [0%Z; 1%Z] = true
      /\ ver_hk_orig false [49%N] None true [(-1)%Z] false [49%N] None false [0%Z; 1%Z] = false).
Proof. vm_compute. repeat split; discriminate. Qed.
Print Assumptions versionmatch_orig_refuted.

(* before fixes/C07-depset-hash.patch: DepSet.__hash__ hashes the ordered tuple although __eq__ compares sets *)
Theorem depset_orig_refuted : forall c,
  r_eq c (RDepSet [at1; at2]) (RDepSet [at2; at1]) = true
  /\ depset_hk_orig c [at1; at2] [at2; at1] = false
  /\ r_eq c (RDepSet [at1; at1]) (RDepSet [at1]) = true
  /\ depset_hk_orig c [at1; at1] [at1] = false.
Proof. intros [[|]]; vm_compute; repeat split. Qed.
Print Assumptions depset_orig_refuted.
