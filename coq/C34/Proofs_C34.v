From Coq Require Import List NArith Bool Lia.
Import ListNotations.
From Verif Require Import Base.Val C34.Model_C34 C34.Spec_C34 C34.Lemmas_C34.
Local Open Scope N_scope.

Definition dropf (vm fm : option (str -> bool)) (d : def) : bool :=
  match d with
  | Assign n _ => match vm with Some f => f n | None => false end
  | Func n _ _ => match fm with Some f => f n | None => false end
  end.
Definition expected (vm fm : option (str -> bool)) (ds : list def) : str :=
  flat_map (fun d => (if dropf vm fm d then [] else render_def d) ++ [cNL]) ds.

Section Top.
Variable g : str.

(* what one iteration of the top-level loop does with a whole definition *)
Definition def_step (d : def) : Prop :=
  forall n p T' ws we out vm fm, (n > 3 * length (render_def d) + 2)%nat ->
  process_scope g (S n) (mkcur p (render_def d ++ cNL :: T')) cNUL vm fm ws we out =
  process_scope g n (mkcur (lastp p (render_def d)) (cNL :: T')) cNUL vm fm
    (match we with Some _ => render_def d ++ cNL :: T' | None => ws end)
    (if dropf vm fm d then Some (render_def d ++ cNL :: T') else None)
    (match we with Some e => out ++ slice ws e | None => out end).

Lemma ps_same n c1 c2 endc vm fm ws w1 w2 out :
  c1 = c2 -> w1 = w2 ->
  process_scope g n c1 endc vm fm ws w1 out = process_scope g n c2 endc vm fm ws w2 out.
Proof. intros -> ->. reflexivity. Qed.

Lemma def_step_assign n v : var_name_ok n = true -> value_ok v = true ->
  (forall m p rest endc, (m > 3 * length (render_value v) + 2)%nat ->
     env_value g m (mkcur p (render_value v ++ cNL :: rest)) endc
     = Ok (mkcur (lastp p (render_value v)) (cNL :: rest))) ->
  def_step (Assign n v).
Proof.
  intros Hn Hv EVv m p T' ws we out vm fm Hm.
  cbn [render_def] in *. rewrite !app_length in Hm. cbn [length] in Hm.
  assert (Hn' := Hn). unfold var_name_ok in Hn'. apply andb_true_iff in Hn' as [Hn' _].
  apply andb_true_iff in Hn' as [Hne Hid].
  destruct n as [|c n]; [discriminate|]. cbn [forallb] in Hid. apply andb_true_iff in Hid as [Hc _].
  destruct (ident_facts c Hc) as (Hsp&_&_&_&_&Hh&Hz).
  replace (((c :: n) ++ [cEQ] ++ render_value v) ++ cNL :: T')
    with ((c :: n) ++ cEQ :: (render_value v ++ cNL :: T'))
    by (rewrite <- !app_assoc; reflexivity).
  rewrite process_scope_S. cbn [suf app]. rewrite Hz, Hsp, Hh.
  change (c :: n ++ cEQ :: render_value v ++ cNL :: T') with ((c :: n) ++ cEQ :: render_value v ++ cNL :: T').
  rewrite is_function_assign by assumption. rewrite is_envvar_assign by assumption.
  cbn [suf]. destruct (render_value v ++ cNL :: T') eqn:E; [destruct (render_value v); discriminate|].
  rewrite <- E. rewrite EVv by lia. cbn [bind dropf].
  apply ps_same.
  - f_equal. unfold lastp. cbn [app fold_left]. rewrite ?fold_left_app. cbn [fold_left]. reflexivity.
  - destruct vm as [fv|]; [destruct (fv _)|]; reflexivity.
Qed.

Lemma def_step_func n lead b : func_name_ok n = true -> forallb isspace lead = true -> body_ok b = true ->
  def_step (Func n lead b).
Proof.
  intros Hn Hl Hb m p T' ws we out vm fm Hm.
  cbn [render_def] in *. rewrite !app_length in Hm. cbn [length] in Hm.
  assert (Hn' := Hn). unfold func_name_ok in Hn'. apply andb_true_iff in Hn' as [Hn' _].
  apply andb_true_iff in Hn' as [Hne Hid].
  destruct n as [|c n]; [discriminate|]. cbn [forallb] in Hid. apply andb_true_iff in Hid as [Hc _].
  destruct (fname_facts c Hc) as (Hsp&_&_&Hh&Hz).
  replace ((func_head (c :: n) ++ lead ++ render_body b ++ [cRB]) ++ cNL :: T')
    with (func_head (c :: n) ++ (lead ++ render_body b ++ cRB :: cNL :: T'))
    by (rewrite <- !app_assoc; reflexivity).
  rewrite process_scope_S.
  assert (Ehd : suf (mkcur p (func_head (c :: n) ++ lead ++ render_body b ++ cRB :: cNL :: T'))
                = c :: (n ++ [cSP; cLP; cRP; cSP; cNL; cLB]) ++ lead ++ render_body b ++ cRB :: cNL :: T')
    by reflexivity.
  rewrite Ehd. rewrite Hz, Hsp, Hh. rewrite is_function_head by assumption.
  cbn [suf].
  replace m with (length lead + (m - length lead))%nat at 1 by (unfold func_head in Hm; rewrite app_length in Hm; lia).
  rewrite ps_ws by (assumption || reflexivity).
  destruct (body_walk g b (m - length lead)%nat (lastp (Some cLB) lead) (cNL :: T')
              (lead ++ render_body b ++ cRB :: cNL :: T') [] Hb
              ltac:(unfold func_head in Hm; rewrite app_length in Hm; lia)) as [o Ho].
  rewrite Ho. cbn [bind fst]. rewrite adv1_cons. cbn [dropf].
  apply ps_same.
  - f_equal. unfold lastp. cbn [app fold_left]. rewrite ?fold_left_app. cbn [fold_left]. reflexivity.
  - destruct fm as [ff|]; [destruct (ff _)|]; reflexivity.
Qed.

Lemma ps_newline n q T' vm fm ws we out :
  process_scope g (S n) (mkcur q (cNL :: T')) cNUL vm fm ws we out =
  process_scope g n (mkcur (Some cNL) T') cNUL vm fm
    (match we with Some _ => cNL :: T' | None => ws end) None
    (match we with Some e => out ++ slice ws e | None => out end).
Proof. rewrite process_scope_S. reflexivity. Qed.

Lemma render_cons d ds : render (d :: ds) = render_def d ++ cNL :: render ds.
Proof. unfold render. cbn [flat_map]. rewrite <- app_assoc. reflexivity. Qed.


Definition out_of (r : res (cur * str)) : option str :=
  match r with Ok (_, o) => Some o | _ => None end.

Lemma top_loop ds : Forall def_step ds ->
  forall n p ws we out A vm fm,
  ws = A ++ (match we with Some e => e | None => render ds ++ [cNUL] end) ->
  (n > 3 * length (render ds ++ [cNUL]))%nat ->
  out_of (process_scope g n (mkcur p (render ds ++ [cNUL])) cNUL vm fm ws we out)
  = Some (out ++ A ++ expected vm fm ds).
Proof.
  induction 1 as [|d ds Hd _ IH]; intros n p ws we out A vm fm Hws Hn.
  - destruct n as [|n]; [cbn in Hn; lia|]. rewrite process_scope_S. cbn [render flat_map app suf].
    change (cNUL =? cNUL) with true. cbn iota. cbn [out_of]. f_equal. f_equal.
    subst ws. destruct we; cbn [expected flat_map]; rewrite slice_app; now rewrite app_nil_r.
  - rewrite render_cons in *. rewrite <- app_assoc in *. cbn [app] in *.
    rewrite app_length in Hn. cbn [length] in Hn.
    assert (HL : (length (render ds ++ [cNUL]) >= 1)%nat) by (rewrite app_length; cbn; lia).
    destruct n as [|n]; [lia|]. rewrite Hd by lia.
    destruct n as [|n]; [lia|]. rewrite ps_newline.
    set (T' := render ds ++ [cNUL]) in *.
    set (X := render_def d) in *.
    cbn [expected flat_map]. fold (expected vm fm ds).
    destruct (dropf vm fm d); cbv iota.
    + (* dropped: the window is closed at the start of the definition *)
      erewrite (IH _ _ _ _ _ [cNL] _ _); [|reflexivity|lia].
      f_equal. subst ws.
      destruct we; rewrite ?slice_app, ?slice_self; cbn [app]; rewrite ?app_nil_r, <- ?app_assoc; reflexivity.
    + (* kept: the window goes on *)
      destruct we as [e|].
      * erewrite (IH _ _ _ _ _ (X ++ [cNL]) _ _); [|rewrite <- app_assoc; reflexivity|lia].
        f_equal. subst ws. rewrite slice_app. rewrite <- !app_assoc. reflexivity.
      * erewrite (IH _ _ _ _ _ (A ++ X ++ [cNL]) _ _); [|subst ws; rewrite <- !app_assoc; reflexivity|lia].
        f_equal. rewrite <- !app_assoc. reflexivity.
Qed.
End Top.

Definition seg_tok (v : vseg) : list tok :=
  match v with VDq s => [TDq s] | VAnsi s => [TAnsi s] | _ => [] end.
Definition elem_toks (e : str * list vseg) : list tok :=
  TLit 91 :: map TLit (fst e) ++ [TLit 93; TLit cEQ] ++ flat_map seg_tok (snd e).
Fixpoint elems_toks (l : list (str * list vseg)) : list tok :=
  match l with
  | [] => []
  | e :: r => match r with [] => elem_toks e | _ :: _ => elem_toks e ++ TLit cSP :: elems_toks r end
  end.

Lemma render_toks_app a b : render_toks (a ++ b) = render_toks a ++ render_toks b.
Proof. unfold render_toks. apply flat_map_app. Qed.
Lemma render_map_lit s : render_toks (map TLit s) = s.
Proof. induction s as [|c s IH]; [reflexivity|]. cbn. f_equal. exact IH. Qed.
Lemma render_seg_toks l : forallb elem_seg_ok l = true -> render_toks (flat_map seg_tok l) = render_vsegs l.
Proof.
  induction l as [|v l IH]; [reflexivity|]. cbn [forallb]. intros H. apply andb_true_iff in H as [H1 H2].
  cbn [flat_map]. rewrite render_toks_app, IH by assumption.
  destruct v; try discriminate; cbn; rewrite ?app_nil_r; reflexivity.
Qed.
Lemma ok_seg_toks l : forallb elem_seg_ok l = true -> forallb (tok_ok true) (flat_map seg_tok l) = true.
Proof.
  induction l as [|v l IH]; [reflexivity|]. cbn [forallb]. intros H. apply andb_true_iff in H as [H1 H2].
  cbn [flat_map]. rewrite forallb_app, IH by assumption.
  destruct v; try discriminate; cbn [seg_tok forallb tok_ok elem_seg_ok vseg_ok] in *; rewrite H1; reflexivity.
Qed.
Lemma ident_lit c : is_ident c = true -> tok_ok true (TLit c) = true.
Proof.
  intros H. cbn [tok_ok]. apply orb_true_iff. left. unfold lit_char, mem. cbn [existsb].
  ctest H; reflexivity.
Qed.

Definition simple_tok (t : tok) : bool :=
  match t with TLit _ | TDq _ | TAnsi _ => true | _ => false end.
Lemma simple_follow l : forallb simple_tok l = true -> forallb deep_follow l = true /\ follows l = true.
Proof.
  induction l as [|t l IH]; [split; reflexivity|]. cbn [forallb follows]. intros H.
  apply andb_true_iff in H as [H1 H2]. destruct (IH H2) as [A B]. rewrite A, B.
  destruct t; try discriminate H1; split; reflexivity.
Qed.
Lemma simple_seg_toks l : forallb simple_tok (flat_map seg_tok l) = true.
Proof.
  induction l as [|v l IH]; [reflexivity|]. cbn [flat_map]. rewrite forallb_app, IH.
  destruct v; reflexivity.
Qed.
Lemma simple_map_lit s : forallb simple_tok (map TLit s) = true.
Proof. induction s; [reflexivity|]. cbn. assumption. Qed.
Lemma simple_elem_toks e : forallb simple_tok (elem_toks e) = true.
Proof.
  unfold elem_toks. cbn [forallb simple_tok]. rewrite !forallb_app, simple_map_lit, simple_seg_toks. reflexivity.
Qed.
Lemma simple_elems_toks l : forallb simple_tok (elems_toks l) = true.
Proof.
  induction l as [|e l IH]; [reflexivity|]. destruct l as [|e2 l]; [apply simple_elem_toks|].
  change (elems_toks (e :: e2 :: l)) with (elem_toks e ++ TLit cSP :: elems_toks (e2 :: l)).
  rewrite forallb_app, simple_elem_toks. cbn [forallb simple_tok]. exact IH.
Qed.

Definition elem_ok (e : str * list vseg) : bool := forallb idx_char (fst e) && forallb elem_seg_ok (snd e).

Lemma elem_toks_spec e : elem_ok e = true ->
  render_toks (elem_toks e) = [91] ++ fst e ++ [93; cEQ] ++ render_vsegs (snd e)
  /\ forallb (tok_ok true) (elem_toks e) = true.
Proof.
  unfold elem_ok. intros H. apply andb_true_iff in H as [Hi Hs]. unfold elem_toks. split.
  - change (TLit 91 :: map TLit (fst e) ++ [TLit 93; TLit cEQ] ++ flat_map seg_tok (snd e))
      with ([TLit 91] ++ map TLit (fst e) ++ [TLit 93; TLit cEQ] ++ flat_map seg_tok (snd e)).
    rewrite !render_toks_app, render_map_lit, render_seg_toks by assumption. reflexivity.
  - cbn [forallb]. rewrite !forallb_app. rewrite ok_seg_toks by assumption.
    assert (forallb (tok_ok true) (map TLit (fst e)) = true) as ->.
    { clear -Hi. induction (fst e) as [|c s IH]; [reflexivity|]. cbn [forallb map] in *.
      apply andb_true_iff in Hi as [H1 H2]. rewrite ident_lit by assumption. now apply IH. }
    reflexivity.
Qed.

Lemma elems_toks_spec l : forallb elem_ok l = true ->
  render_toks (elems_toks l) = render_elems l /\ forallb (tok_ok true) (elems_toks l) = true.
Proof.
  induction l as [|[i e] l IH]; [split; reflexivity|].
  cbn [forallb]. intros H. apply andb_true_iff in H as [H1 H2].
  destruct (elem_toks_spec (i, e) H1) as [R O]. cbn [fst snd] in R.
  destruct l as [|e2 l].
  - cbn [elems_toks render_elems]. split; assumption.
  - destruct (IH H2) as [R2 O2].
    change (elems_toks ((i, e) :: e2 :: l)) with (elem_toks (i, e) ++ TLit cSP :: elems_toks (e2 :: l)).
    change (render_elems ((i, e) :: e2 :: l))
      with ([91] ++ i ++ [93; cEQ] ++ render_vsegs e ++ [cSP] ++ render_elems (e2 :: l)).
    split.
    + rewrite render_toks_app, R. change (TLit cSP :: elems_toks (e2 :: l)) with ([TLit cSP] ++ elems_toks (e2 :: l)).
      rewrite render_toks_app, R2. rewrite <- !app_assoc. reflexivity.
    + rewrite forallb_app, O. cbn [forallb]. rewrite O2. reflexivity.
Qed.

Section Main.
Variable g : str.

Lemma value_walk v : value_ok v = true ->
  forall m p rest endc, (m > 3 * length (render_value v) + 2)%nat ->
  env_value g m (mkcur p (render_value v ++ cNL :: rest)) endc
  = Ok (mkcur (lastp p (render_value v)) (cNL :: rest)).
Proof.
  intros Hv m p rest endc Hm. destruct v as [l|l]; cbn [render_value value_ok] in *.
  - apply scalar_walk; [assumption|lia].
  - destruct (elems_toks_spec l Hv) as [R O]. rewrite <- R in *.
    rewrite !app_length in Hm. cbn [length] in Hm.
    destruct m as [|m]; [lia|].
    replace (([cLP] ++ render_toks (elems_toks l) ++ [cRP]) ++ cNL :: rest)
      with (cLP :: (render_toks (elems_toks l) ++ cRP :: cNL :: rest))
      by (cbn; rewrite <- !app_assoc; reflexivity).
    rewrite env_value_S. cbn [suf]. cbn -[walk_escaped env_value]. rewrite ?adv1_cons.
    destruct (simple_follow _ (simple_elems_toks l)) as [DF FW].
    rewrite (WEc_all g _ O DF FW cRP (or_intror eq_refl) false) by (reflexivity || lia). cbn [bind]. rewrite adv1_cons.
    rewrite env_value_nl by lia. lastp_norm.
Qed.

Lemma def_ok_step d : def_ok d = true -> def_step g d.
Proof.
  destruct d as [n v|n lead b]; cbn [def_ok]; intros H.
  - apply andb_true_iff in H as [H1 H2]. apply def_step_assign; auto. now apply value_walk.
  - apply andb_true_iff in H as [H H3]. apply andb_true_iff in H as [H1 H2]. now apply def_step_func.
Qed.
End Main.

Lemma build_match_spec names wl :
  names_ok names = true ->
  exists m, build_match names wl = match names with [] => None | _ => Some (Some m) end
            /\ forall n, (match names with [] => false | _ => m n end) = dropped names wl n.
Proof.
  intros H. destruct names as [|a names]; [exists (fun _ => false); split; reflexivity|].
  unfold names_ok in H. unfold build_match.
  destruct (filter nonempty (a :: names)) as [|t ts] eqn:E.
  - exfalso. apply existsb_exists in H as (x & Hin & Hx).
    assert (In x (filter nonempty (a :: names))) by (apply filter_In; auto). rewrite E in H. destruct H.
  - exists (fun name => xorb wl (str_mem name (t :: ts))). split; [reflexivity|].
    intros n. unfold dropped. rewrite E. reflexivity.
Qed.

Lemma expected_filtered vars funcs vwl fwl vm fm ds :
  (forall n, (match vm with Some f => f n | None => false end) = dropped vars vwl n) ->
  (forall n, (match fm with Some f => f n | None => false end) = dropped funcs fwl n) ->
  expected vm fm ds = render_filtered vars funcs vwl fwl ds.
Proof.
  intros Hv Hf. unfold expected, render_filtered. apply flat_map_ext. intros d.
  destruct d as [n v|n l b]; cbn [dropf drop_def is_func def_name]; now rewrite ?Hv, ?Hf.
Qed.

Lemma run_buf_filtered ds vars funcs vwl fwl vm fm :
  forallb def_ok ds = true ->
  (forall n, (match vm with Some f => f n | None => false end) = dropped vars vwl n) ->
  (forall n, (match fm with Some f => f n | None => false end) = dropped funcs fwl n) ->
  run_buf (render ds ++ [cNUL]) vm fm = Ok (render_filtered vars funcs vwl fwl ds).
Proof.
  intros Hd Hvm Hfm.
  assert (HS : Forall (def_step (render ds ++ [cNUL])) ds).
  { apply Forall_forall. intros d Hin. apply def_ok_step. rewrite forallb_forall in Hd. now apply Hd. }
  unfold run_buf.
  match goal with
  | |- bind ?Q _ = _ =>
      assert (T : out_of Q = Some ([] ++ [] ++ expected vm fm ds))
        by (apply (top_loop (render ds ++ [cNUL]) ds HS); [reflexivity | unfold fuel_of; lia]);
      destruct Q as [[c o]| |]
  end; cbn [out_of] in T; try discriminate T.
  rewrite (expected_filtered vars funcs vwl fwl vm fm ds Hvm Hfm) in T. cbn [app] in T.
  inversion T; subst. reflexivity.
Qed.

Lemma render_filtered_keep vars funcs vwl fwl ds :
  render_filtered vars funcs vwl fwl ds
  = flat_map (fun kd : bool * def => (if fst kd then render_def (snd kd) else []) ++ [cNL])
             (combine (map (fun d => negb (drop_def vars funcs vwl fwl d)) ds) ds).
Proof.
  unfold render_filtered. induction ds as [|d ds IH]; [reflexivity|]. cbn [map combine flat_map fst snd].
  rewrite IH. destruct (drop_def vars funcs vwl fwl d); reflexivity.
Qed.

Definition s_ (l : list N) : str := l.
(*  FOO=a'b c'\''d'  A=([0]="x y" [1]=$'p\nq')  f () { echo "}" '{' ${x%y}; { echo a; }; }  *)
Definition ex_defs : list def :=
  [ Assign [70;79;79] (QScalar [VBare [97]; VSq [98;32;99]; VEsc 39; VSq [100]]);
    Assign [65] (QArray [([48], [VDq [(false,120);(false,32);(false,121)]]);
                         ([49], [VAnsi [(false,112);(true,110);(false,113)]])]);
    Func [102] [32;10;32;32;32;32]
      [ {| s_toks := [TLit 101;TLit 99;TLit 104;TLit 111;TLit 32;TDq [(false,125)];TLit 32;TSq [123];TLit 32;
                      TPE [120;37;121]];
           s_sep := 59; s_ws := [10;32;32;32;32] |};
        {| s_toks := [TBr [TLit 32;TLit 10;TLit 101;TLit 99;TLit 104;TLit 111;TLit 32;TLit 97;TLit 10;TLit 32]];
           s_sep := 10; s_ws := [] |} ] ].

Example ex_defs_ok : forallb def_ok ex_defs = true.
Proof. vm_compute. reflexivity. Qed.
Example ex_filter_blacklist :
  main_run (render ex_defs) [[70;79;79]] [[102]] false false = MOut [10; 65;61;40;91;48;93;61;34;120;32;121;34;32;91;49;93;61;36;39;112;92;110;113;39;41;10; 10].
Proof. vm_compute. reflexivity. Qed.
Example ex_filter_whitelist :
  main_run (render ex_defs) [[70;79;79]] [] true false
  = MOut (render_filtered [[70;79;79]] [] true false ex_defs).
Proof. vm_compute. reflexivity. Qed.

(*  g () { case $x in a) echo "$y/${z}" $((1+(2))) $(ls $d/'a )') <<< "$(pwd)" ;; esac; }  as bash lays it out *)
Definition ex_defs2 : list def :=
  [ Func [103] [32;10;32;32;32;32]
      [ {| s_toks := [TLit 99;TLit 97;TLit 115;TLit 101;TLit 32;TVar [120];TLit 32;TLit 105;TLit 110;TLit 32];
           s_sep := 10; s_ws := [32;32;32;32] |};
        {| s_toks := [TLit 97;TLit 41]; s_sep := 10; s_ws := [32;32;32;32] |};
        {| s_toks := [TLit 101;TLit 99;TLit 104;TLit 111;TLit 32;
                      TDqx [TVar [121];TLit 47;TPE [122]];TLit 32;
                      TArith [TLit 49;TLit 43;TPar [TLit 50]];TLit 32;
                      TSub [TLit 108;TLit 115;TLit 32;TVar [100];TLit 47;TSq [97;32;41]];TLit 32;THs;TLit 32;
                      TDqx [TSub [TLit 112;TLit 119;TLit 100]]];
           s_sep := 10; s_ws := [32;32;32;32] |};
        {| s_toks := []; s_sep := 59; s_ws := [] |};
        {| s_toks := []; s_sep := 59; s_ws := [10;32;32;32;32] |};
        {| s_toks := [TLit 101;TLit 115;TLit 97;TLit 99]; s_sep := 10; s_ws := [] |} ] ].
Example ex_defs2_ok : forallb def_ok ex_defs2 = true.
Proof. vm_compute. reflexivity. Qed.
Example ex_defs2_filter : main_run (render ex_defs2) [] [[103]] false false = MOut [10].
Proof. vm_compute. reflexivity. Qed.


(* A dump bash itself prints (the harness checks it against real bash: WITNESS_TEXT in harness/c34.py):
     f ()                      bash source:  f() { { echo }; }; }
     {
         {
             echo }
         }
     }
     Z=1
   Filtering out f leaves a stray "}" line: the literal "}" word closes the group early. *)
Definition witness_f : str :=
  [102;32;40;41;32;10;123;32;10;32;32;32;32;123;32;10;32;32;32;32;32;32;32;32;101;99;104;111;32;125;10;
   32;32;32;32;125;10;125;10].
Definition witness_input : dump_input :=
  (([((true, [102]), witness_f); ((false, [90]), [90;61;49;10])], @nil str, [[102]]), (false, false)).

(* the property for EVERY dump AST (no restriction on the token trees of function bodies) *)
Definition filter_commutes_full : Prop :=
  forall ds vars funcs vwl fwl, names_ok vars = true -> names_ok funcs = true ->
  main_run (render ds) vars funcs vwl fwl = MOut (render_filtered vars funcs vwl fwl ds).

Definition witness_defs : list def :=
  [ Func [102] [32;10;32;32;32;32]
      [ {| s_toks := [TBr [TLit 32;TLit 10;TLit 32;TLit 32;TLit 32;TLit 32;TLit 32;TLit 32;TLit 32;TLit 32;
                           TLit 101;TLit 99;TLit 104;TLit 111;TLit 32;TLit 125;TLit 10;TLit 32;TLit 32;TLit 32;TLit 32]];
           s_sep := 10; s_ws := [] |} ];
    Assign [90] (QScalar [VBare [49]]) ].

Example witness_defs_render : render witness_defs = witness_f ++ [90;61;49;10].
Proof. vm_compute. reflexivity. Qed.
Example witness_defs_not_ok : forallb def_ok witness_defs = false.
Proof. vm_compute. reflexivity. Qed.
Lemma witness_defs_run :
  main_run (render witness_defs) [] [[102]] false false = MOut [10;125;10;90;61;49;10].
Proof. vm_compute. reflexivity. Qed.
