(* Ord_C08.v — data shared by model and spec of C08: python's string operations and orderings
   (str comparison by code point, tuple comparison, package comparison by (category, package,
   version)), and the standard library's merge sort instantiated with them (the totality lemmas the
   functor asks for are the only proofs here). *)
From Coq Require Import List NArith Sorting.Mergesort Orders.
Import ListNotations.
From Verif Require Import Base.Val Base.Lists.

(* ------------------------------------------------------------------ strings *)
Fixpoint prefixb (a s : str) : bool :=                  (* s.startswith(a) *)
  match a, s with
  | [], _ => true
  | x :: a', y :: s' => N.eqb x y && prefixb a' s'
  | _ :: _, [] => false
  end.
Definition suffixb (a s : str) : bool := prefixb (rev a) (rev s).   (* s.endswith(a) *)
Fixpoint substrb (a s : str) : bool :=                  (* a in s *)
  prefixb a s || match s with [] => false | _ :: s' => substrb a s' end.
Definition mem_str (s : str) (l : list str) : bool := existsb (str_eqb s) l.
Fixpoint dedup (l : list str) : list str :=             (* a python set of strings, as a list *)
  match l with
  | [] => []
  | x :: r => if mem_str x r then dedup r else x :: dedup r
  end.

(* python's order on str: lexicographic by code point *)
Fixpoint str_leb (a b : str) : bool :=
  match a, b with
  | [], _ => true
  | _ :: _, [] => false
  | x :: a', y :: b' => if N.eqb x y then str_leb a' b' else N.ltb x y
  end.

Definition ver := N.
Definition cp := (str * str)%type.

(* what a restriction is matched against *)
Inductive pobj : Type :=
| PV (c p : str) (v : ver)                  (* package_class(c, p, v) *)
| PU (c p : str)                            (* versioned=False, raw_pkg_cls=UnversionedCPV *)
| PT (c p : str).                           (* versioned=False, default raw_pkg_cls: the bare tuple *)


(* --- sorter=sorted: python's order on (category, package) tuples and on packages *)
Definition cp_leb (a b : cp) : bool :=
  if str_eqb (fst a) (fst b) then str_leb (snd a) (snd b) else str_leb (fst a) (fst b).
Definition okey (o : pobj) : cp := match o with PV c p _ | PU c p | PT c p => (c, p) end.
Definition over (o : pobj) : N := match o with PV _ _ v => v | _ => 0%N end.
Definition obj_leb (a b : pobj) : bool :=
  if str_eqb (fst (okey a)) (fst (okey b)) && str_eqb (snd (okey a)) (snd (okey b))
  then N.leb (over a) (over b) else cp_leb (okey a) (okey b).

Lemma str_leb_total a : forall b, str_leb a b = true \/ str_leb b a = true.
Proof.
  induction a as [|x a IH]; intros [|y b]; cbn; auto.
  rewrite (N.eqb_sym y x). destruct (N.eqb x y) eqn:E; [apply IH|].
  apply N.eqb_neq in E. destruct (N.ltb x y) eqn:L; [auto|right].
  apply N.ltb_ge in L. apply N.ltb_lt. apply N.le_neq; split; auto.
Qed.
Module CpOrder <: TotalLeBool.
  Definition t := cp.
  Definition leb := cp_leb.
  Theorem leb_total : forall a b, leb a b = true \/ leb b a = true.
  Proof.
    intros a b. unfold leb, cp_leb. rewrite (str_eqb_sym (fst b) (fst a)).
    destruct (str_eqb (fst a) (fst b)); apply str_leb_total.
  Qed.
End CpOrder.
Module VerOrder <: TotalLeBool.
  Definition t := N.
  Definition leb := N.leb.
  Theorem leb_total : forall a b, leb a b = true \/ leb b a = true.
  Proof. intros a b. unfold leb. rewrite !N.leb_le. apply N.le_ge_cases. Qed.
End VerOrder.
Module ObjOrder <: TotalLeBool.
  Definition t := pobj.
  Definition leb := obj_leb.
  Theorem leb_total : forall a b, leb a b = true \/ leb b a = true.
  Proof.
    intros a b. unfold leb, obj_leb.
    rewrite (str_eqb_sym (fst (okey b)) (fst (okey a))), (str_eqb_sym (snd (okey b)) (snd (okey a))).
    destruct (str_eqb (fst (okey a)) (fst (okey b)) && str_eqb (snd (okey a)) (snd (okey b))).
    - apply VerOrder.leb_total.
    - apply CpOrder.leb_total.
  Qed.
End ObjOrder.
Module CpSort := Sort CpOrder.
Module VerSort := Sort VerOrder.
Module ObjSort := Sort ObjOrder.

