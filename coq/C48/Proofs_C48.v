From Coq Require Import List NArith Bool Arith Lia.
Import ListNotations.
From Verif Require Import C48.Model_C48 C48.Spec_C48.
Local Open Scope N_scope.

Lemma ec_lookup_visible st n f : ec_lookup st n = Some f <-> visible st n f.
Proof.
  split.
  - revert f. induction st as [|repo r IH]; cbn; intros f H; [discriminate|].
    destruct (assoc n repo) as [f'|] eqn:E.
    + injection H as <-. exists [], repo, r. repeat split; auto. intros x [].
    + destruct (IH f H) as (pre & repo' & post & -> & Ha & Hp).
      exists (repo :: pre), repo', post. repeat split; auto.
      intros x [<-|Hx]; auto.
  - intros (pre & repo & post & -> & Ha & Hp). induction pre as [|x pre IH]; cbn.
    + rewrite Ha. reflexivity.
    + rewrite (Hp x (or_introl eq_refl)). apply IH. intros y Hy. apply Hp. now right.
Qed.

Lemma ecl_same_refl lay f : ecl_same lay f f = true.
Proof. destruct lay; cbn; rewrite ?N.eqb_refl; reflexivity. Qed.

Lemma ecl_ok_still lay st r : ecl_ok lay st r = true <-> eclass_still lay st r.
Proof.
  unfold ecl_ok, eclass_still. split.
  - destruct (ec_lookup st (fst r)) as [now|] eqn:E; [|discriminate]. intro H.
    exists now. split; [apply ec_lookup_visible; exact E|].
    destruct lay; cbn in H.
    + apply andb_true_iff in H as [H1 H2]. apply N.eqb_eq in H1, H2. auto.
    + apply N.eqb_eq in H. exact H.
  - intros [now [Hv H]]. apply ec_lookup_visible in Hv. rewrite Hv.
    destruct lay; cbn.
    + destruct H as [-> ->]. rewrite !N.eqb_refl. reflexivity.
    + rewrite H. apply N.eqb_refl.
Qed.

Lemma validate_spec lay w e : validate lay w e = true <-> spec_valid lay w e.
Proof.
  unfold validate, spec_valid. destruct (c_chf e =? chf_of lay (w_ebuild w)) eqn:Ec; cbn [negb].
  - apply N.eqb_eq in Ec. destruct (c_ecl e) as [l|].
    + destruct (c_inherit e) eqn:Ei; cbn [negb].
      * unfold rebuild_ok. rewrite forallb_forall. split.
        -- intro H. split; [exact Ec|]. right. exists l. repeat split; auto.
           intros r Hr. apply ecl_ok_still. auto.
        -- intros [_ [H|[l' [El [_ H]]]]]; [discriminate|]. injection El as <-.
           intros r Hr. apply ecl_ok_still. auto.
      * split; [discriminate|]. intros [_ [H|[l' [_ [H _]]]]]; discriminate.
    + split; [intros _; split; [exact Ec|now left]|reflexivity].
  - split; [discriminate|]. intros [H _]. apply N.eqb_neq in Ec. contradiction.
Qed.

Lemma invalid_validate_false w c e : ~ cache_valid w c -> c_slot c = Entry e -> validate (c_lay c) w e = false.
Proof.
  intros H Es. destruct (validate (c_lay c) w e) eqn:V; [|reflexivity].
  destruct H. exists e. split; [exact Es|]. now apply validate_spec.
Qed.
Notation invalid w := (fun c : cache => ~ cache_valid w c).

(* what the scan does to a cache it passes: a stale entry of a writable cache is deleted *)
Definition purge (c : cache) : cache :=
  match c_slot c with
  | Entry _ => if c_ro c then c else with_slot c Absent
  | _ => c
  end.

Lemma scan_none w cs : forall k, Forall (invalid w) cs -> scan w k cs = (None, map purge cs).
Proof.
  induction cs as [|c r IH]; intros k H; [reflexivity|]. inversion H as [|? ? Hc Hr]; subst.
  cbn [scan map]. unfold purge at 1. rewrite (IH (S k) Hr).
  destruct (c_slot c) as [| |e] eqn:Es; try reflexivity. now rewrite (invalid_validate_false w c e Hc Es).
Qed.

Lemma scan_first w pre c e post : forall k,
  Forall (invalid w) pre -> c_slot c = Entry e -> validate (c_lay c) w e = true ->
  scan w k (pre ++ c :: post) = (Some ((k + length pre)%nat, c_payload e), map purge pre ++ c :: post).
Proof.
  induction pre as [|x pre IH]; intros k H Es Hv.
  - cbn [app scan length map]. rewrite Es, Hv, Nat.add_0_r. reflexivity.
  - inversion H as [|? ? Hx Hp]; subst. cbn [app scan length map]. unfold purge at 1.
    rewrite (IH (S k) Hp Es Hv). replace (S k + length pre)%nat with (k + S (length pre))%nat by lia.
    destruct (c_slot x) as [| |ex] eqn:Ex; try reflexivity. now rewrite (invalid_validate_false w x ex Hx Ex).
Qed.

Lemma get_metadata_used w pre c e post :
  Forall (invalid w) pre -> c_slot c = Entry e -> validate (c_lay c) w e = true ->
  get_metadata w (pre ++ c :: post) = (Used (length pre) (c_payload e), map purge pre ++ c :: post).
Proof. intros H Es Hv. unfold get_metadata. now rewrite (scan_first w pre c e post 0%nat H Es Hv). Qed.

Lemma first_valid_split w cs :
  Forall (invalid w) cs \/
  exists pre c e post, cs = pre ++ c :: post /\ Forall (invalid w) pre /\
                       c_slot c = Entry e /\ validate (c_lay c) w e = true.
Proof.
  induction cs as [|c r IH]; [left; constructor|].
  destruct (c_slot c) as [| |e] eqn:Es; [| |destruct (validate (c_lay c) w e) eqn:V].
  3:{ right. exists [], c, e, r. repeat split; auto. }
  all: assert (Hc : ~ cache_valid w c)
    by (intros (e' & Es' & Hv'); apply validate_spec in Hv'; congruence).
  all: destruct IH as [H|(pre & c' & e' & post & -> & Hp & Es' & Hv)]; [left; now constructor|right].
  all: exists (c :: pre), c', e', post; repeat split; auto.
Qed.

(* the read, in closed form: regenerate when no cache is valid, else use the first valid one *)
Lemma get_metadata_cases w cs :
  (Forall (invalid w) cs /\ get_metadata w cs = (Regen (w_payload w), store_first w (map purge cs)))
  \/ exists pre c e post,
       cs = pre ++ c :: post /\ Forall (invalid w) pre /\ c_slot c = Entry e /\ spec_valid (c_lay c) w e /\
       get_metadata w cs = (Used (length pre) (c_payload e), map purge pre ++ c :: post).
Proof.
  destruct (first_valid_split w cs) as [H|(pre & c & e & post & -> & Hp & Es & Hv)].
  - left. split; [exact H|]. unfold get_metadata. now rewrite scan_none.
  - right. exists pre, c, e, post. split; [reflexivity|]. split; [exact Hp|]. split; [exact Es|].
    split; [now apply validate_spec|]. now apply get_metadata_used.
Qed.

(* a cache the scan passed over: untouched if read-only or not holding an entry; a (stale)
   entry of a writable cache is deleted *)
Definition passed_rel (c c' : cache) : Prop :=
  same_cfg c c' /\
  (c_ro c = true -> c_slot c' = c_slot c) /\
  (c_ro c = false -> (forall e, c_slot c = Entry e -> c_slot c' = Absent) /\
                     ((forall e, c_slot c <> Entry e) -> c_slot c' = c_slot c)).
(* a cache after a regeneration: read-only ones untouched; a writable one holds the fresh
   entry, or nothing, or the unreadable file it held before — never a stale entry *)
Definition regen_rel (w : world) (c c' : cache) : Prop :=
  same_cfg c c' /\
  (c_ro c = true -> c_slot c' = c_slot c) /\
  (c_ro c = false -> c_slot c' = Entry (fresh (c_lay c) w) \/ c_slot c' = Absent \/
                     (c_slot c' = Corrupt /\ c_slot c = Corrupt)).

Lemma purge_cfg c : same_cfg c (purge c).
Proof. unfold purge, same_cfg. destruct (c_slot c); try (repeat split; reflexivity). destruct (c_ro c) eqn:E; repeat split; cbn; auto. Qed.

Lemma purge_slot c :
  c_slot (purge c) = match c_slot c with Entry e => if c_ro c then Entry e else Absent | s => s end.
Proof. unfold purge. destruct (c_slot c) eqn:E; try exact E. destruct (c_ro c); [exact E|reflexivity]. Qed.

Lemma purge_passed c : passed_rel c (purge c).
Proof.
  split; [apply purge_cfg|]. rewrite purge_slot. split.
  - intro Hro. rewrite Hro. destruct (c_slot c); reflexivity.
  - intro Hro. rewrite Hro. split.
    + intros e Es. rewrite Es. reflexivity.
    + intro Hn. destruct (c_slot c) as [| |e] eqn:Es; try reflexivity. exfalso. exact (Hn e eq_refl).
Qed.

Lemma purge_regen w c : regen_rel w c (purge c).
Proof.
  split; [apply purge_cfg|]. rewrite purge_slot. split.
  - intro Hro. rewrite Hro. destruct (c_slot c); reflexivity.
  - intro Hro. rewrite Hro. destruct (c_slot c) as [| |e] eqn:Es.
    + right. left. reflexivity.
    + right. right. split; reflexivity.
    + right. left. reflexivity.
Qed.

Lemma purge_invalid w c : ~ cache_valid w c -> ~ cache_valid w (purge c).
Proof.
  intros H (e & Es & Hv). rewrite purge_slot in Es. destruct (purge_cfg c) as (L & _). rewrite L in Hv.
  destruct (c_slot c) as [| |e0] eqn:Es0; try discriminate.
  destruct (c_ro c); [|discriminate]. apply H. exists e. now rewrite Es0.
Qed.
Lemma purge_passed_all pre : Forall2 passed_rel pre (map purge pre).
Proof. induction pre; cbn; constructor; [apply purge_passed|assumption]. Qed.
Lemma purge_regen_all w l : Forall2 (regen_rel w) l (map purge l).
Proof. induction l; cbn; constructor; [apply purge_regen|assumption]. Qed.
Lemma purge_invalid_all w l : Forall (invalid w) l -> Forall (invalid w) (map purge l).
Proof. induction 1; cbn; constructor; [apply purge_invalid|]; assumption. Qed.

Lemma writable_purge c : writable (purge c) = writable c.
Proof. destruct (purge_cfg c) as (_ & H1 & H2). unfold writable. rewrite H1, H2. reflexivity. Qed.

Lemma store_first_split w pre c post :
  Forall (fun x => writable x = false) pre -> writable c = true ->
  store_first w (map purge (pre ++ c :: post)) =
  map purge pre ++ with_slot (purge c) (Entry (fresh (c_lay c) w)) :: map purge post.
Proof.
  intros Hp Hc. induction Hp as [|x pre Hx Hp IH]; cbn [app map store_first].
  - fold (writable (purge c)). rewrite writable_purge, Hc.
    destruct (purge_cfg c) as (-> & _). reflexivity.
  - fold (writable (purge x)). rewrite writable_purge, Hx. rewrite IH. reflexivity.
Qed.

Lemma store_first_none w cs : Forall (fun x => writable x = false) cs -> store_first w cs = cs.
Proof.
  induction 1 as [|x r Hx Hr IH]; cbn [store_first]; [reflexivity|].
  fold (writable x). rewrite Hx, IH. reflexivity.
Qed.

Lemma first_writable_split (cs : list cache) :
  Forall (fun x => writable x = false) cs \/
  exists pre c post, cs = pre ++ c :: post /\ Forall (fun x => writable x = false) pre /\ writable c = true.
Proof.
  induction cs as [|c r IH]; [left; constructor|]. destruct (writable c) eqn:W.
  - right. exists [], c, r. repeat split; auto.
  - destruct IH as [H|(pre & c' & post & -> & Hp & Hc)].
    + left. constructor; assumption.
    + right. exists (c :: pre), c', post. repeat split; auto.
Qed.

Lemma store_first_regen w cs : Forall2 (regen_rel w) cs (store_first w (map purge cs)).
Proof.
  induction cs as [|c r IH]; cbn [map store_first]; [constructor|].
  fold (writable (purge c)). rewrite writable_purge. destruct (writable c) eqn:W.
  - constructor.
    + destruct (purge_cfg c) as (L & R & F). split; [repeat split; assumption|]. split.
      * intro Hro. unfold writable in W. rewrite Hro in W. discriminate.
      * intros _. left. cbn. rewrite L. reflexivity.
    + apply purge_regen_all.
  - constructor; [apply purge_regen|exact IH].
Qed.

Lemma store_first_nth w pre c post :
  Forall (fun x => writable x = false) pre -> writable c = true ->
  exists c', nth_error (store_first w (map purge (pre ++ c :: post))) (length pre) = Some c'
             /\ c_slot c' = Entry (fresh (c_lay c) w).
Proof.
  intros Hp Hc. rewrite (store_first_split w pre c post Hp Hc).
  exists (with_slot (purge c) (Entry (fresh (c_lay c) w))). split; [|reflexivity].
  rewrite nth_error_app2 by (rewrite map_length; lia). rewrite map_length, Nat.sub_diag. reflexivity.
Qed.

(* a regenerated entry that records eclasses but carries no INHERIT key would itself be stale under
   the upgrade rule of validate_entry; [fresh_ok] excludes that *)
Definition fresh_ok (w : world) : Prop := w_inherit_key w = true \/ w_inherited w = [].

Lemma fresh_valid lay w : fresh_ok w -> validate lay w (fresh lay w) = true.
Proof.
  intro Hok. unfold validate, fresh. cbn [c_chf c_ecl c_inherit]. rewrite N.eqb_refl. cbn [negb].
  destruct (w_inherited w) as [|n l] eqn:Ei; [reflexivity|].
  destruct Hok as [Hk|Hk]; [|congruence]. rewrite Hk. cbn [negb].
  unfold rebuild_ok. apply forallb_forall. intros r Hr. apply in_flat_map in Hr as [m [_ Hr]].
  destruct (ec_lookup (w_stack w) m) as [f|] eqn:E; [|destruct Hr]. destruct Hr as [<-|[]].
  unfold ecl_ok. cbn [fst snd]. rewrite E. apply ecl_same_refl.
Qed.

Lemma regen_then_used w cs :
  Forall (invalid w) cs -> existsb writable cs = true -> fresh_ok w ->
  exists i, fst (get_metadata w (store_first w (map purge cs))) = Used i (w_payload w).
Proof.
  intros Ha Hw Hok. destruct (first_writable_split cs) as [Hn|(pre & c & post & -> & Hp & Hc)].
  - exfalso. apply existsb_exists in Hw as [x [Hx Wx]]. rewrite Forall_forall in Hn. rewrite (Hn x Hx) in Wx. discriminate.
  - rewrite (store_first_split w pre c post Hp Hc).
    exists (length (map purge pre)).
    rewrite (get_metadata_used w (map purge pre) _ (fresh (c_lay c) w) (map purge post)).
    + reflexivity.
    + apply Forall_app in Ha as [Ha _]. now apply purge_invalid_all.
    + reflexivity.
    + cbn [c_lay with_slot]. destruct (purge_cfg c) as (-> & _). apply fresh_valid. exact Hok.
Qed.

Definition ex_stack : stack := [[(1, mk_f 1 100 7)]; [(1, mk_f 2 90 7); (2, mk_f 2 50 9)]].
Definition ex_world : world := mk_w (mk_f 0 1000 42) ex_stack [1; 2] true 5.
Definition ex_good : slot := mk_e 1000 (Some [(1, mk_f 1 100 0); (2, mk_f 2 50 0)]) true 4.
Definition ex_moved : slot := mk_e 1000 (Some [(1, mk_f 2 100 0)]) true 3.      (* eclass 1 recorded in repo 2 *)
Example ex_used : fst (get_metadata ex_world [mk_c Flat false false ex_moved; mk_c Flat true false ex_good]) = Used 1 4.
Proof. reflexivity. Qed.
Example ex_purged : snd (get_metadata ex_world [mk_c Flat false false ex_moved; mk_c Flat true false ex_good])
                    = [mk_c Flat false false Absent; mk_c Flat true false ex_good].
Proof. reflexivity. Qed.
Example ex_regen : fst (get_metadata ex_world [mk_c Flat true false ex_moved; mk_c Md5 false false Corrupt]) = Regen 5.
Proof. reflexivity. Qed.
Example ex_valid : cache_valid ex_world (mk_c Flat true false ex_good).
Proof. eexists. split; [reflexivity|]. apply validate_spec. reflexivity. Qed.
(* the md5 layout does not record the location: the moved eclass is still valid there *)
Example ex_md5_moved : validate Md5 ex_world {| c_chf := 42; c_ecl := Some [(1, mk_f 2 0 7)]; c_inherit := true; c_payload := 1 |} = true
                    /\ validate Flat ex_world {| c_chf := 1000; c_ecl := Some [(1, mk_f 2 100 0)]; c_inherit := true; c_payload := 1 |} = false.
Proof. split; reflexivity. Qed.
