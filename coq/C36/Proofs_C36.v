(* Proofs_C36.v — proofs about Model_C36.fetch against Spec_C36, for every checksum function H,
   every target, every URI list, every outcome sequence of any length, every attempt budget
   and every initial file (induction over the attempt loop). *)
From Coq Require Import List ZArith Bool Lia.
Import ListNotations.
From Verif Require Import C36.Model_C36 C36.Spec_C36.

Section WithHash.
Variable H : N -> bytes -> N.

Lemma hashes_ok_iff T d : hashes_ok H T d = true <-> digests_ok H T d.
Proof.
  unfold hashes_ok, digests_ok. rewrite forallb_forall. split.
  - intros A a v Hin. apply A in Hin. cbn in Hin. now apply N.eqb_eq.
  - intros A [a v] Hin. cbn. apply N.eqb_eq. now apply A.
Qed.

Lemma hashes_ok_false T d : hashes_ok H T d = false <-> ~ digests_ok H T d.
Proof.
  rewrite <- hashes_ok_iff. destruct (hashes_ok H T d); split; congruence.
Qed.

Lemma size_okb_iff T d : size_okb T d = true <-> size_ok T d.
Proof.
  unfold size_okb, size_ok. destruct (tsize T) as [n|].
  - rewrite N.eqb_eq. split; [intro E; split; [intros m [= <-]; exact E | discriminate] | intros [S _]; now apply S].
  - destruct d; split; try easy. intros [_ S]. now elim (S eq_refl).
Qed.

(* _verify in terms of the two tests of the statement: size first, then digests *)
Lemma verify_alt T f : verify H T f =
  if tbad T then VNoHandler else
  match f with
  | None => VMissing
  | Some d => if size_okb T d then (if hashes_ok H T d then VOk else VBad)
              else match tsize T with
                   | Some n => if (flen d <? n)%N then VSmall else VBig
                   | None => VEmpty
                   end
  end.
Proof. unfold verify, size_okb, flen. destruct (tbad T), (tsize T), f as [[|b d]|]; reflexivity. Qed.

Lemma verifiedb_iff T f : verifiedb H T f = true <-> verified H T f.
Proof.
  unfold verifiedb, verified. rewrite andb_true_iff, negb_true_iff.
  split; intros [B V]; (split; [exact B|]).
  - destruct f as [d|]; [|discriminate]. apply andb_true_iff in V as [S D].
    exists d. split; [reflexivity|]. split; [apply size_okb_iff, S | apply hashes_ok_iff, D].
  - destruct V as (d & -> & S & D). apply andb_true_iff. split; [apply size_okb_iff, S | apply hashes_ok_iff, D].
Qed.

Lemma verify_ok_iff T f : verify H T f = VOk <-> verified H T f.
Proof.
  rewrite <- verifiedb_iff, verify_alt. unfold verifiedb.
  destruct (tbad T), f as [d|]; try easy.
  (* the statement's digest test is the model's, under another name *)
  change (digests_okb H T d) with (hashes_ok H T d). cbn.
  destruct (size_okb T d), (hashes_ok H T d); cbn; try easy; destruct (tsize T); try destruct (_ <? _)%N; easy.
Qed.

Lemma verify_small_iff T f : verify H T f = VSmall <-> is_partial T f.
Proof.
  rewrite verify_alt. unfold is_partial, size_okb. split.
  - destruct (tbad T); [discriminate|]. intro A. split; [reflexivity|]. destruct f as [d|]; [|discriminate].
    destruct (tsize T) as [n|]; [|destruct d; [discriminate | now destruct (hashes_ok H T _)]].
    destruct (flen d =? n)%N; [now destruct (hashes_ok H T d)|].
    destruct (N.ltb_spec (flen d) n); [|discriminate]. exists n, d. auto.
  - intros [-> (n & d & -> & -> & L)].
    destruct (N.eqb_spec (flen d) n); [lia|]. destruct (N.ltb_spec (flen d) n); [reflexivity | lia].
Qed.

Lemma verify_stuck_iff T f : (verify H T f = VBig \/ verify H T f = VBad) <-> stuck H T f.
Proof.
  rewrite verify_alt. unfold stuck, oversized. split.
  - destruct (tbad T); [intros [?|?]; discriminate|]. intro A. split; [reflexivity|].
    destruct f as [d|]; [|destruct A; discriminate].
    destruct (size_okb T d) eqn:S.
    + destruct (hashes_ok H T d) eqn:D; [destruct A; discriminate|].
      right. exists d. split; [reflexivity|]. split; [apply size_okb_iff, S | apply hashes_ok_false, D].
    + unfold size_okb in S. destruct (tsize T) as [n|]; [|destruct A; discriminate].
      destruct (N.ltb_spec (flen d) n); [destruct A; discriminate|].
      left. exists n, d. apply N.eqb_neq in S. repeat split. lia.
  - intros [-> [(n & d & E & -> & L) | (d & -> & S & D)]].
    + unfold size_okb. rewrite E. destruct (N.eqb_spec (flen d) n); [lia|].
      destruct (N.ltb_spec (flen d) n); [lia | now left].
    + apply size_okb_iff in S. apply hashes_ok_false in D. rewrite S, D. now right.
Qed.

Lemma verify_nohandler T f : verify H T f = VNoHandler -> tbad T = true.
Proof.
  rewrite verify_alt. destruct (tbad T); [reflexivity|]. destruct f as [d|]; [|discriminate].
  destruct (size_okb T d), (hashes_ok H T d), (tsize T); try destruct (_ <? _)%N; discriminate.
Qed.

Lemma final_path T f : final H T f = RPath <-> verify H T f = VOk.
Proof. unfold final. destruct (verify H T f); cbn; split; congruence. Qed.

(* [Run n us outs f r ff ev]: with n attempts left, URIs us, scripted outcomes outs and the file f,
   the loop ends with result r, file ff and events ev *)
Inductive Run (hasres : bool) (T : target)
  : nat -> list N -> list outcome -> file -> result -> file -> list event -> Prop :=
| R_out us outs f : Run hasres T 0 us outs f (final H T f) f []
| R_ok n us outs f : verify H T f = VOk -> Run hasres T (S n) us outs f RPath f []
| R_raise n us outs f :
    verify H T f <> VOk -> prep (verify H T f) f = None ->
    Run hasres T (S n) us outs f (RErr (err_of (verify H T f))) f []
| R_nouri n outs f k f1 :
    verify H T f <> VOk -> prep (verify H T f) f = Some (k, f1) ->
    Run hasres T (S n) [] outs f (RErr ENoUris) f1 []
| R_step n u us outs f k f1 a st r ff ev :
    verify H T f <> VOk -> prep (verify H T f) f = Some (k, f1) ->
    pick (hd idle outs) (shown hasres k) = (a, st) ->
    Run hasres T n us (tl outs) (settle T st (act a f1)) r ff ev ->
    Run hasres T (S n) (u :: us) outs f r ff
        ({| ekind := k; euri := u; eseen := f1; epost := act a f1; estatus := st |} :: ev).

Lemma loop_Run hasres T n : forall us outs f r ff ev,
  loop H hasres n T us outs f = (r, ff, ev) -> Run hasres T n us outs f r ff ev.
Proof.
  induction n as [|n IH]; intros us outs f r ff ev; cbn [loop]; [intros [= <- <- <-]; constructor|].
  destruct (verify H T f) eqn:Ev; cbn [prep].
  1: intros [= <- <- <-]; now apply R_ok.
  4-6: intros [= <- <- <-]; pose proof (R_raise hasres T n us outs f) as R; rewrite Ev in R; now apply R.
  all: destruct us as [|u us']; [intros [= <- <- <-]; eapply R_nouri; rewrite Ev; easy|].
  all: destruct (pick _ _) as [a st] eqn:Ep.
  all: destruct (loop H hasres n T us' (tl outs) _) as [[r' ff'] ev'] eqn:El.
  all: intros [= <- <- <-]; eapply R_step; rewrite ?Ev; try easy; apply IH, El.
Qed.

Lemma fetch_Run i r ff ev : fetch H i = (r, ff, ev) ->
  Run (has_resume i) (tgt i) (attempts i) (uris i) (outs i) (file0 i) r ff ev.
Proof. apply loop_Run. Qed.

Definition chksum_err (e : err) : Prop := e = EBig \/ e = EBad.

Section Runs.
Variables (hasres : bool) (T : target).

Lemma Run_only_verified n us outs f r ff ev :
  Run hasres T n us outs f r ff ev -> r = RPath -> verified H T ff.
Proof.
  induction 1; intro E; try discriminate; auto.
  - apply verify_ok_iff, final_path, E.
  - now apply verify_ok_iff.
Qed.

Lemma settle_good st f : (nochk T = true -> st = 0%Z) -> settle T st f = f.
Proof.
  unfold settle. intro A. destruct (nochk T); [|reflexivity].
  rewrite (A eq_refl). reflexivity.
Qed.

Lemma Run_uses_every_attempt n us outs f r ff ev :
  Run hasres T n us outs f r ff ev ->
  (verified H T f \/ exists e, In e ev /\ good_event H T e) -> r = RPath.
Proof.
  induction 1 as [us outs f | | n us outs f Ne _ | n outs f k f1 Ne _ | n u us outs f k f1 a st r ff ev Ne _ _ _ IH];
    intros [G | (e & Hin & Ge)]; try (now destruct Hin); try reflexivity;
    try (apply verify_ok_iff in G; contradiction).
  - apply final_path, verify_ok_iff, G.
  - apply IH. destruct Hin as [<- | Hin]; [left | right; eauto].
    destruct Ge as [Gv Gs]. cbn in Gv, Gs. rewrite settle_good; assumption.
Qed.

Lemma prep_partial f k f1 : prep (verify H T f) f = Some (k, f1) ->
  (is_partial T f -> k = CResume /\ f1 = f) /\ (k = CResume -> is_partial T f).
Proof.
  destruct (verify H T f) eqn:Ev; cbn; intros [= <- <-];
    (split; [intro P; apply verify_small_iff in P; split; congruence | intro E]);
    try discriminate. now apply verify_small_iff.
Qed.

Lemma nochk_not_partial f : nochk T = true -> ~ is_partial T f.
Proof.
  unfold nochk, is_partial. intros A [_ [n [d [S _]]]]. rewrite S in A. discriminate.
Qed.

Lemma kept_settle st p ev ff : kept T (settle T st p) ev ff -> kept T p ev ff.
Proof.
  unfold settle. destruct (nochk T) eqn:A; cbn; [|auto]. destruct (negb (st =? 0)%Z); [|auto].
  pose proof (nochk_not_partial None A). pose proof (nochk_not_partial p A).
  destruct ev as [|e r]; cbn; tauto.
Qed.

Lemma Run_kept n us outs f r ff ev : Run hasres T n us outs f r ff ev -> kept T f ev ff.
Proof.
  induction 1 as [ | | | n outs f k f1 _ Hp | n u us outs f k f1 a st r ff ev _ Hp _ _ IH]; cbn; auto.
  - intro P. now apply (prep_partial _ _ _ Hp).
  - apply prep_partial in Hp as [P1 P2]. apply kept_settle in IH. auto.
Qed.

Lemma Run_uris n us outs f r ff ev :
  Run hasres T n us outs f r ff ev -> map euri ev = firstn (length ev) us.
Proof. induction 1; cbn; congruence. Qed.

Lemma Run_world n us outs f r ff ev : Run hasres T n us outs f r ff ev -> world_ok hasres outs ev.
Proof.
  induction 1 as [ | | | | n u us outs f k f1 a st r ff ev _ _ Hk _ IH]; cbn; auto. now rewrite Hk.
Qed.

Lemma Run_length n us outs f r ff ev :
  Run hasres T n us outs f r ff ev -> (length ev <= Nat.min n (length us))%nat.
Proof. induction 1; cbn [length]; lia. Qed.

Lemma last_state_indep p q ev : ev <> [] -> last_state p ev = last_state q ev.
Proof. destruct ev as [|e r]; [congruence|]. intros _. reflexivity. Qed.

Lemma stuck_settle st p : stuck H T (settle T st p) -> settle T st p = p.
Proof.
  unfold settle. destruct (nochk T && negb (st =? 0)%Z); [|reflexivity].
  intros [_ [[n [d [_ [[=] _]]]] | [d [[=] _]]]].
Qed.

Lemma Run_gives_up n us outs f r ff ev : Run hasres T n us outs f r ff ev ->
  forall e, r = RErr e -> tbad T = false ->
  length ev = Nat.min n (length us)
  \/ (chksum_err e /\ stuck H T (last_state f ev) /\ ff = last_state f ev).
Proof.
  induction 1 as [ | | n us outs f Ne Hp | | n u us outs f k f1 a st r ff ev _ _ _ _ IH]; intros e E B;
    try (now left); try discriminate.
  - injection E as <-. right. cbn.
    assert (V : verify H T f = VBig \/ verify H T f = VBad).
    { destruct (verify H T f) eqn:Ev; try discriminate; auto; [congruence|].
      apply verify_nohandler in Ev. congruence. }
    split; [|split; [now apply verify_stuck_iff | reflexivity]].
    destruct V as [-> | ->]; [now left | now right].
  - destruct (IH e E B) as [L | (Ce & St & ->)]; [left; cbn [length]; lia|].
    right. change (last_state f (_ :: ev)) with (last_state (act a f1) ev).
    destruct ev as [|e' r'].
    + cbn in St |- *. rewrite (stuck_settle _ _ St) in St |- *. auto.
    + rewrite (last_state_indep (settle T st (act a f1)) (act a f1)) in St |- * by discriminate. auto.
Qed.

Lemma world_nth : forall i outs ev e,
  world_ok hasres outs ev -> nth_error ev i = Some e ->
  epost e = act (fst (pick (nth i outs idle) (shown hasres (ekind e)))) (eseen e)
  /\ estatus e = snd (pick (nth i outs idle) (shown hasres (ekind e))).
Proof.
  induction i as [|i IH]; intros outs ev e W Hn.
  - destruct ev as [|e0 r]; [discriminate|]. injection Hn as ->. cbn in W. destruct W as [W _].
    replace (nth 0 outs idle) with (hd idle outs) by (destruct outs; reflexivity).
    destruct (pick (hd idle outs) (shown hasres (ekind e))) as [a st]. exact W.
  - destruct ev as [|e0 r]; [discriminate|]. cbn in Hn, W. destruct W as [_ W].
    replace (nth (S i) outs idle) with (nth i (tl outs) idle) by (destruct outs; [destruct i|]; reflexivity).
    eapply IH; eassumption.
Qed.

Lemma Run_every_attempt n us outs f r ff ev k :
  Run hasres T n us outs f r ff ev ->
  (k < Nat.min n (length us))%nat -> robust_good H T (nth k outs idle) ->
  r = RPath \/ (exists e, r = RErr e /\ chksum_err e /\ (length ev <= k)%nat
                          /\ stuck H T (last_state f ev)).
Proof.
  intros R Hk G. destruct (nth_error ev k) as [e|] eqn:Hn.
  - left. apply (Run_uses_every_attempt _ _ _ _ _ _ _ R). right. exists e. split.
    + eapply nth_error_In. exact Hn.
    + destruct (world_nth _ _ _ _ (Run_world _ _ _ _ _ _ _ R) Hn) as [P S].
      destruct (G (shown hasres (ekind e)) (eseen e)) as [V St].
      split; [now rewrite P | intro A; rewrite S; now apply St].
  - apply nth_error_None in Hn. destruct r as [|e]; [now left|]. right.
    destruct (Run_gives_up _ _ _ _ _ _ _ R e eq_refl) as [L | (Ce & St & _)]; [|lia|eauto].
    destruct (G CFetch None) as [[B _] _]. exact B.
Qed.

End Runs.
End WithHash.

(* every host of every entry yields exactly one URI: the number of URIs a fetch can consume is
   the number of plain URIs plus the number of hosts of all mirror entries *)
Definition usrc_count (e : usrc) : nat :=
  match e with UStr _ => 1 | USub hs _ => length hs | UMirror hs => length hs end.
Definition uri_count (l : list usrc) : nat := fold_right (fun e n => (usrc_count e + n)%nat) O l.

Lemma total_len_heads_tails gs : total_len gs = (length (heads gs) + total_len (tails gs))%nat.
Proof.
  induction gs as [|g r IH]; [reflexivity|]. destruct g as [|x t]; unfold total_len in *; cbn in *; lia.
Qed.

Lemma heads_nil_tails gs : heads gs = [] -> tails gs = [].
Proof.
  induction gs as [|g r IH]; [reflexivity|]. destruct g as [|x t]; cbn; [exact IH|discriminate].
Qed.

Lemma round_robin_nil k : round_robin k [] = [].
Proof. destruct k; reflexivity. Qed.

Lemma round_robin_len : forall fuel gs,
  (total_len gs < fuel)%nat -> length (round_robin fuel gs) = total_len gs.
Proof.
  induction fuel as [|k IH]; intros gs L; [lia|].
  destruct gs as [|g r]; [reflexivity|].
  cbn [round_robin]. rewrite app_length, (total_len_heads_tails (g :: r)).
  destruct (heads (g :: r)) as [|h hs] eqn:Eh.
  - apply heads_nil_tails in Eh. rewrite Eh, round_robin_nil. reflexivity.
  - rewrite IH; [reflexivity|]. rewrite (total_len_heads_tails (g :: r)), Eh in L. cbn [length] in L. lia.
Qed.

Lemma take_subs_spec sub : forall l g rest,
  take_subs sub l = (g, rest) ->
  uri_count l = (total_len g + uri_count rest)%nat /\ (length rest <= length l)%nat
  /\ (forall hs s r, l = USub hs s :: r -> (length rest < length l)%nat).
Proof.
  induction l as [|e r IH]; intros g rest E.
  - injection E as <- <-. repeat split; auto. discriminate.
  - destruct e as [u|hs s|hs]; try (injection E as <- <-; repeat split; auto; discriminate).
    cbn in E. destruct (take_subs sub r) as [g' rest'] eqn:Er. injection E as <- <-.
    destruct (IH _ _ eq_refl) as (C & L & _). unfold uri_count, total_len in *. cbn.
    rewrite map_length. split; [lia|]. split; [lia|]. intros; lia.
Qed.

Lemma uri_iter_fuel_len fname : forall fuel l,
  (length l < fuel)%nat -> length (uri_iter_fuel fuel fname l) = uri_count l.
Proof.
  induction fuel as [|k IH]; intros l L; [lia|].
  destruct l as [|e r]; [reflexivity|]. destruct e as [u|hs s|hs].
  - cbn in *. f_equal. apply IH. lia.
  - cbn [uri_iter_fuel]. destruct (take_subs (last_sub (USub hs s :: r) s) (USub hs s :: r)) as [g rest] eqn:Et.
    destruct (take_subs_spec _ _ _ _ Et) as (C & _ & Lt). specialize (Lt _ _ _ eq_refl).
    rewrite app_length, round_robin_len by lia. rewrite IH by (cbn in *; lia). now rewrite C.
  - cbn in *. rewrite app_length, map_length. f_equal. apply IH. lia.
Qed.

(* Counterfactual reading of "uses every allowed attempt": a fetch that fails has spent
   min(attempts, #URIs) commands; and an attempt within that budget whose outcome would leave
   a verified file whatever it finds always yields a path.  Both are FALSE of the code: an
   oversized / wrong-checksum file makes it raise at once (known class [stuck]). *)
Definition gives_up_only_when_exhausted_full : Prop :=
  forall H i e ff ev, fetch H i = (RErr e, ff, ev) -> tbad (tgt i) = false ->
  length ev = Nat.min (attempts i) (length (uris i)).
Definition every_attempt_counts_full : Prop :=
  forall H i k r ff ev, fetch H i = (r, ff, ev) ->
  (k < Nat.min (attempts i) (length (uris i)))%nat -> robust_good H (tgt i) (nth k (outs i) idle) ->
  r = RPath.

Definition want : bytes := [97;98;99;100;101;102;103;104]%N.          (* "abcdefgh" *)
Definition corrupt : bytes := [97;98;99;100;88;102;103;104]%N.        (* "abcdXfgh" *)
Definition T_sh : target := {| tsize := Some 8%N; thashes := [(1%N, toyH 1 want)]; tbad := false |}.
Definition T_none : target := {| tsize := None; thashes := []; tbad := false |}.
Definition writes (d : bytes) (st : Z) : outcome := {| ofetch := (Write d, st); oresume := (Write d, st) |}.
Definition wget (d : bytes) (st : Z) : outcome := {| ofetch := (Write d, st); oresume := (Resume d, st) |}.

(* corrupt download first, a correct one second, two attempts, two URIs *)
Definition witness : input :=
  {| attempts := 2; tgt := T_sh; uris := [0;1]%N; outs := [writes corrupt 0; writes want 0];
     file0 := None; has_resume := true |}.

Lemma witness_run :
  fetch toyH witness =
  (RErr EBad, Some corrupt,
   [{| ekind := CFetch; euri := 0%N; eseen := None; epost := Some corrupt; estatus := 0%Z |}]).
Proof. vm_compute. reflexivity. Qed.

Lemma writes_want_robust : robust_good toyH T_sh (writes want 0).
Proof.
  intros k f. destruct k; cbn; (split; [|reflexivity]); apply verifiedb_iff; vm_compute; reflexivity.
Qed.

Theorem gives_up_only_when_exhausted_refuted : ~ gives_up_only_when_exhausted_full.
Proof. intro F. specialize (F toyH witness _ _ _ witness_run eq_refl). discriminate F. Qed.

Theorem every_attempt_counts_refuted : ~ every_attempt_counts_full.
Proof.
  intro F. assert (A : RErr EBad = RPath); [|discriminate A].
  apply (F toyH witness 1%nat _ _ _ witness_run); [cbn; lia | exact writes_want_robust].
Qed.

Example witness_in_known_class : stuck toyH T_sh (Some corrupt).
Proof. apply verify_stuck_iff. right. vm_compute. reflexivity. Qed.

(* Before fixes/C36-verify-after-last-attempt.patch: with one allowed attempt and no file in
   distdir the fetch fails with MissingDistfile WHATEVER the download leaves. *)
Example legacy_vs_repaired :
  let i := {| attempts := 1; tgt := T_sh; uris := [0]%N; outs := [writes want 0]; file0 := None;
              has_resume := true |} in
  fst (fetch_legacy toyH i) = (RErr EMissing, Some want) /\ fst (fetch toyH i) = (RPath, Some want).
Proof. split; vm_compute; reflexivity. Qed.

(* a partial download, then a resume that completes it: path returned, resume command used on
   the kept partial file *)
Example resume_run :
  fetch toyH {| attempts := 3; tgt := T_sh; uris := [0;1;2]%N;
                outs := [wget [97;98;99]%N 1; wget want 0]; file0 := None; has_resume := true |}
  = (RPath, Some want,
     [{| ekind := CFetch; euri := 0%N; eseen := None; epost := Some [97;98;99]%N; estatus := 1%Z |};
      {| ekind := CResume; euri := 1%N; eseen := Some [97;98;99]%N; epost := Some want; estatus := 0%Z |}]).
Proof. vm_compute. reflexivity. Qed.

(* the last allowed attempt completes the file: verified after the loop *)
Example last_attempt_run :
  fst (fetch toyH {| attempts := 2; tgt := T_sh; uris := [0;1]%N;
                     outs := [wget [97;98;99]%N 1; wget want 0]; file0 := None; has_resume := true |})
  = (RPath, Some want).
Proof. vm_compute. reflexivity. Qed.

(* budget exhausted on a partial file: the error says so and the partial file stays *)
Example partial_left_run :
  fst (fetch toyH {| attempts := 1; tgt := T_sh; uris := [0;1]%N;
                     outs := [wget [97;98;99]%N 1]; file0 := None; has_resume := true |})
  = (RErr ESmall, Some [97;98;99]%N).
Proof. vm_compute. reflexivity. Qed.

Example uris_exhausted_run :
  fst (fetch toyH {| attempts := 3; tgt := T_sh; uris := [0]%N;
                     outs := [wget [97;98;99]%N 1; wget want 0]; file0 := None; has_resume := true |})
  = (RErr ENoUris, Some [97;98;99]%N).
Proof. vm_compute. reflexivity. Qed.

(* no checksums: a non-zero exit status discards the file, a zero one keeps it *)
Example nochk_runs :
  fst (fetch toyH {| attempts := 1; tgt := T_none; uris := [0]%N; outs := [writes want 92];
                     file0 := None; has_resume := true |}) = (RErr EMissing, None)
  /\ fst (fetch toyH {| attempts := 1; tgt := T_none; uris := [0]%N; outs := [writes want 0];
                        file0 := None; has_resume := true |}) = (RPath, Some want).
Proof. split; vm_compute; reflexivity. Qed.

(* the notions the clauses speak of are inhabited *)
Example good_event_exists :
  good_event toyH T_sh {| ekind := CFetch; euri := 0%N; eseen := None; epost := Some want; estatus := 0%Z |}.
Proof. split; [apply verifiedb_iff; vm_compute; reflexivity | discriminate]. Qed.

Example is_partial_exists : is_partial T_sh (Some [97;98;99]%N).
Proof. split; [reflexivity|]. exists 8%N, [97;98;99]%N. repeat split. Qed.
