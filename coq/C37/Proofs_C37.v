(* Proofs_C37.v — rendered chart trees and their reader; batches; the meaning of & and any_of. *)
From Coq Require Import List ZArith Bool Lia DecimalN.
Import ListNotations.
From Verif Require Import Base.Val Base.Lists C37.Model_C37 C37.Spec_C37.

(* [chart] is nested through [list chart]; the generated principle gives no hypothesis for the
   children of a group, so a tree and a list of trees are treated together *)
Lemma chart_list_ind (P : chart -> Prop) (Q : list chart -> Prop) :
  (forall f o vs n s, P (Crit f o vs n s)) ->
  (forall j cs, Q cs -> P (Group j cs)) ->
  Q [] -> (forall c r, P c -> Q r -> Q (c :: r)) ->
  (forall c, P c) /\ (forall cs, Q cs).
Proof.
  intros HC HG HN HK.
  assert (H : forall c, P c).
  { fix IH 1. intros [f o vs n s | j cs]; [apply HC | apply HG].
    induction cs as [|c r IHr]; [exact HN | apply HK; [apply IH | exact IHr]]. }
  split; [exact H|]. induction cs; auto.
Qed.

Lemma render_k_group j cs slot :
  render_k (Group j cs) slot =
  ((PC KF slot, s_OP) :: (PC KJ slot, join_str j) ::
     fst (render_list cs (N.succ slot)) ++ [(PC KF (snd (render_list cs (N.succ slot))), s_CP)],
   N.succ (snd (render_list cs (N.succ slot)))).
Proof.
  cbn [render_k]. generalize (N.succ slot) as s.
  enough (E : forall s,
    (fix go (cs : list chart) (s : N) : kparams * N :=
       match cs with
       | [] => ([], s)
       | c :: r => let (p1, s1) := render_k c s in let (p2, s2) := go r s1 in (p1 ++ p2, s2)
       end) cs s = render_list cs s) by (intro s; rewrite E; reflexivity).
  induction cs as [|c r IHr]; intro s; cbn; [reflexivity|].
  destruct (render_k c s) as [p1 s1]. rewrite IHr. reflexivity.
Qed.

Lemma render_list_cons c r s :
  render_list (c :: r) s =
  (fst (render_k c s) ++ fst (render_list r (snd (render_k c s))),
   snd (render_list r (snd (render_k c s)))).
Proof.
  cbn [render_list]. destruct (render_k c s) as [p1 s1]. cbn [fst snd].
  destruct (render_list r s1) as [p2 s2]. reflexivity.
Qed.

Lemma render_list_app a b s :
  render_list (a ++ b) s =
  (fst (render_list a s) ++ fst (render_list b (snd (render_list a s))),
   snd (render_list b (snd (render_list a s)))).
Proof.
  revert s; induction a as [|c r IH]; intro s.
  - cbn. destruct (render_list b s); reflexivity.
  - rewrite <- app_comm_cons, !render_list_cons, IH. cbn [fst snd]. now rewrite app_assoc.
Qed.

Fixpoint nslots (c : chart) : nat :=
  match c with
  | Crit _ _ _ _ _ => 1
  | Group _ cs => S (S (list_sum (map nslots cs)))
  end.
Definition nslots_l (cs : list chart) : nat := list_sum (map nslots cs).

Lemma Nseq_app s a b : Nseq s (a + b) = Nseq s a ++ Nseq (s + N.of_nat a) b.
Proof.
  revert s; induction a as [|a IH]; intro s; cbn [Nseq Nat.add List.app].
  - now rewrite N.add_0_r.
  - rewrite IH. replace (s + N.of_nat (S a))%N with (N.succ s + N.of_nat a)%N by lia. reflexivity.
Qed.

Lemma f_slots_app a b : f_slots (a ++ b) = f_slots a ++ f_slots b.
Proof. apply flat_map_app. Qed.
Lemma markers_app a b : markers (a ++ b) = markers a ++ markers b.
Proof. apply flat_map_app. Qed.

Lemma no_f_key ps : (forall s v, ~ In (PC KF s, v) ps) -> f_slots ps = [] /\ markers ps = [].
Proof.
  induction ps as [|[k v] r IH]; intro H; [split; reflexivity|].
  destruct IH as [F M]; [intros s w Hin; apply (H s w); now right|].
  unfold f_slots, markers in *. cbn [flat_map fst]. rewrite F, M.
  destruct k as [n|[] s]; try (split; reflexivity). elim (H s v). now left.
Qed.

(* all keys of [ps] are chart parameters of slots in [lo, hi) *)
Definition in_range (ps : kparams) (lo hi : N) : Prop :=
  forall k v, In (k, v) ps -> exists kind id, k = PC kind id /\ (lo <= id < hi)%N.

Lemma in_range_app a b lo hi : in_range a lo hi -> in_range b lo hi -> in_range (a ++ b) lo hi.
Proof. intros Ha Hb k v H. apply in_app_or in H as [H|H]; eauto. Qed.
Lemma in_range_weaken a lo hi lo' hi' :
  in_range a lo hi -> (lo' <= lo)%N -> (hi <= hi')%N -> in_range a lo' hi'.
Proof. intros Ha ? ? k v H. destruct (Ha k v H) as (kd & id & -> & ?). exists kd, id. split; [easy|lia]. Qed.
Lemma in_range_one kd s v : in_range [(PC kd s, v)] s (N.succ s).
Proof. intros k w [H|[]]. injection H as <- <-. exists kd, s. split; [reflexivity | lia]. Qed.

Lemma crit_in_range f o vs n s : in_range (crit_params f o vs n s) s (N.succ s).
Proof.
  unfold crit_params. apply (in_range_app [_; _]); [|apply in_range_app].
  - apply (in_range_app [_] [_]); apply in_range_one.
  - intros k v H. apply in_map_iff in H as (x & H & _). injection H as <- <-.
    exists KV, s. split; [reflexivity | lia].
  - destruct n; [apply in_range_one | intros k v []].
Qed.

Lemma values_no_f slot (vs : list str) :
  f_slots (map (fun v => (PC KV slot, v)) vs) = [] /\ markers (map (fun v => (PC KV slot, v)) vs) = [].
Proof. apply no_f_key. intros s v H. apply in_map_iff in H as (x & E & _). discriminate. Qed.

Lemma crit_f f o vs n s :
  f_slots (crit_params f o vs n s) = [s] /\ markers (crit_params f o vs n s) = [f].
Proof.
  unfold crit_params. destruct (values_no_f s vs) as [F M].
  rewrite !f_slots_app, !markers_app, F, M. destruct n; split; reflexivity.
Qed.

Lemma group_f j cs s :
  let r := render_list cs (N.succ s) in
  f_slots (fst (render_k (Group j cs) s)) = s :: f_slots (fst r) ++ [snd r] /\
  markers (fst (render_k (Group j cs) s)) = s_OP :: markers (fst r) ++ [s_CP].
Proof.
  rewrite render_k_group. cbn [fst].
  change ((PC KF s, s_OP) :: (PC KJ s, join_str j) :: ?x) with ([(PC KF s, s_OP); (PC KJ s, join_str j)] ++ x).
  rewrite !f_slots_app, !markers_app. split; reflexivity.
Qed.

Lemma Nseq_group s n : Nseq s (S (S n)) = s :: Nseq (N.succ s) n ++ [(N.succ s + N.of_nat n)%N].
Proof.
  change (Nseq s (S (S n))) with (s :: Nseq (N.succ s) (S n)). f_equal.
  replace (S n) with (n + 1)%nat by lia. apply Nseq_app.
Qed.

(* everything about the slots of rendered trees: they are consecutive from the starting slot *)
Definition slot_facts (ps : kparams) (s s' : N) (n : nat) : Prop :=
  s' = (s + N.of_nat n)%N /\ f_slots ps = Nseq s n /\ in_range ps s s'.

Lemma render_slots_both :
  (forall c s, slot_facts (fst (render_k c s)) s (snd (render_k c s)) (nslots c)) /\
  (forall cs s, slot_facts (fst (render_list cs s)) s (snd (render_list cs s)) (nslots_l cs)).
Proof.
  apply chart_list_ind.
  - intros f o vs n sp s. cbn [render_k fst snd nslots].
    split; [lia|]. split; [apply crit_f | apply crit_in_range].
  - intros j cs IH s. destruct (IH (N.succ s)) as (E & F & R).
    change (nslots (Group j cs)) with (S (S (nslots_l cs))). split; [|split].
    + rewrite render_k_group. cbn [snd]. lia.
    + rewrite (proj1 (group_f j cs s)), F, Nseq_group, E. reflexivity.
    + rewrite render_k_group. cbn [fst snd].
      apply (in_range_app [_; _]); [apply (in_range_app [_] [_]) | apply in_range_app];
        eapply in_range_weaken; try apply in_range_one; try exact R; lia.
  - intro s. split; [cbn; lia|]. split; [reflexivity | intros k v []].
  - intros c r Hc Hr s. rewrite render_list_cons. cbn [fst snd].
    destruct (Hc s) as (E1 & F1 & R1). destruct (Hr (snd (render_k c s))) as (E2 & F2 & R2).
    change (nslots_l (c :: r)) with (nslots c + nslots_l r)%nat. split; [lia|]. split.
    + rewrite f_slots_app, F1, F2, Nseq_app, E1. reflexivity.
    + apply in_range_app; eapply in_range_weaken; eauto; lia.
Qed.
Definition render_slots := proj1 render_slots_both.
Definition render_list_slots := proj2 render_slots_both.

Lemma slot_facts_exact ps s s' n : slot_facts ps s s' n -> slots_exact ps s s'.
Proof.
  intros (E & F & R). split; [lia|]. split.
  - rewrite F. f_equal. lia.
  - intros k id v Hin. destruct (R _ _ Hin) as (kd & id' & Hk & ?). injection Hk as -> ->. assumption.
Qed.

Lemma render_k_slots c s :
  (s < snd (render_k c s))%N /\ slots_exact (fst (render_k c s)) s (snd (render_k c s)).
Proof.
  pose proof (render_slots c s) as H. split; [|exact (slot_facts_exact _ _ _ _ H)].
  destruct H as (E & _). assert (0 < nslots c)%nat by (destruct c; cbn; lia). lia.
Qed.

Lemma Nseq_NoDup n : forall s, NoDup (Nseq s n).
Proof.
  assert (G : forall m t x, In x (Nseq t m) -> (t <= x)%N).
  { induction m as [|m IHm]; intros t x H; [destruct H|]. destruct H as [<-|H]; [lia|].
    apply IHm in H. lia. }
  induction n as [|n IH]; intro s; cbn [Nseq]; constructor; [|apply IH].
  intro H. apply G in H. lia.
Qed.

Lemma render_balanced_both :
  (forall c, wf_chart c = true -> forall s d rest,
     balanced_from d (markers (fst (render_k c s)) ++ rest) = balanced_from d rest) /\
  (forall cs, forallb wf_chart cs = true -> forall s d rest,
     balanced_from d (markers (fst (render_list cs s)) ++ rest) = balanced_from d rest).
Proof.
  apply chart_list_ind.
  - intros f o vs n sp W s d rest. cbn [render_k fst]. rewrite (proj2 (crit_f f o vs n s)).
    cbn [wf_chart] in W. apply andb_true_iff in W as [W1 W2]. apply negb_true_iff in W1, W2.
    cbn [List.app balanced_from]. now rewrite W1, W2.
  - intros j cs IH W s d rest. rewrite (proj2 (group_f j cs s)), <- app_comm_cons, <- app_assoc.
    cbn [balanced_from]. change (str_eqb s_OP s_OP) with true. cbn iota. rewrite (IH W). reflexivity.
  - reflexivity.
  - intros c r Hc Hr W s d rest. cbn [forallb] in W. apply andb_true_iff in W as [Wc Wr].
    rewrite render_list_cons. cbn [fst]. rewrite markers_app, <- app_assoc, Hc, Hr; auto.
Qed.

Lemma render_balanced c s : wf_chart c = true -> balanced (fst (render_k c s)) = true.
Proof.
  intro W. unfold balanced. rewrite <- (app_nil_r (markers _)). now rewrite (proj1 render_balanced_both).
Qed.
Lemma render_list_balanced cs s : forallb wf_chart cs = true -> balanced (fst (render_list cs s)) = true.
Proof.
  intro W. unfold balanced. rewrite <- (app_nil_r (markers _)). now rewrite (proj2 render_balanced_both).
Qed.

Lemma pkey_eqb_spec a b : reflect (a = b) (pkey_eqb a b).
Proof.
  destruct a as [x|k s], b as [y|k' s']; cbn; try (constructor; discriminate).
  - destruct (str_eqb_spec x y); constructor; congruence.
  - destruct (N.eqb_spec s s') as [->|]; [|rewrite andb_false_r; constructor; congruence].
    rewrite andb_true_r. destruct k, k'; constructor; congruence.
Qed.
Lemma pkey_eqb_refl k : pkey_eqb k k = true.
Proof. destruct (pkey_eqb_spec k k); congruence. Qed.

Lemma vals_of_app a b k : vals_of (a ++ b) k = vals_of a k ++ vals_of b k.
Proof. unfold vals_of. now rewrite filter_app, map_app. Qed.
Lemma drop_key_app a b k : drop_key (a ++ b) k = drop_key a k ++ drop_key b k.
Proof. apply filter_app. Qed.

Definition no_key (ps : kparams) (k : pkey) : Prop := forall v, ~ In (k, v) ps.
Lemma no_key_eqb ps k : no_key ps k -> forall x, In x ps -> pkey_eqb (fst x) k = false.
Proof.
  intros H [k' v] Hin. cbn. destruct (pkey_eqb_spec k' k) as [->|]; [elim (H v Hin) | reflexivity].
Qed.
Lemma vals_of_nokey ps k : no_key ps k -> vals_of ps k = [].
Proof. intro H. unfold vals_of. rewrite filter_all_false; [reflexivity | apply no_key_eqb, H]. Qed.
Lemma drop_key_nokey ps k : no_key ps k -> drop_key ps k = ps.
Proof. intro H. apply filter_all_true. intros x Hx. now rewrite (no_key_eqb _ _ H x Hx). Qed.
Lemma no_key_app a b k : no_key a k -> no_key b k -> no_key (a ++ b) k.
Proof. intros Ha Hb v H. apply in_app_or in H as [H|H]; [eapply Ha | eapply Hb]; eauto. Qed.

Lemma vals_of_values k (vs : list str) k' :
  vals_of (map (fun v => (k, v)) vs) k' = if pkey_eqb k k' then vs else [].
Proof.
  unfold vals_of. induction vs as [|v r IH]; cbn [map filter fst]; [now destruct (pkey_eqb k k')|].
  destruct (pkey_eqb k k'); cbn [map snd]; now rewrite IH.
Qed.
Lemma drop_key_values k (vs : list str) k' :
  drop_key (map (fun v => (k, v)) vs) k' = if pkey_eqb k k' then [] else map (fun v => (k, v)) vs.
Proof.
  unfold drop_key. induction vs as [|v r IH]; cbn [map filter fst]; [now destruct (pkey_eqb k k')|].
  destruct (pkey_eqb k k'); cbn [negb]; now rewrite IH.
Qed.
Lemma shape_lookup A B k vs : no_key A k -> no_key B k ->
  vals_of (A ++ map (fun v => (k, v)) vs ++ B) k = vs /\
  drop_key (A ++ map (fun v => (k, v)) vs ++ B) k = A ++ B.
Proof.
  intros NA NB. rewrite !vals_of_app, !drop_key_app, vals_of_values, drop_key_values, pkey_eqb_refl.
  rewrite !vals_of_nokey, !drop_key_nokey by assumption. now rewrite app_nil_r.
Qed.

Lemma in_range_no_ps ps lo hi n : in_range ps lo hi -> no_key ps (PS n).
Proof. intros R v H. destruct (R _ _ H) as (? & ? & E & _). discriminate. Qed.
Lemma in_range_no_pc ps lo hi kd id : in_range ps lo hi -> ~ (lo <= id < hi)%N -> no_key ps (PC kd id).
Proof. intros R Hn v H. destruct (R _ _ H) as (? & ? & E & ?). injection E as <- <-. tauto. Qed.

Lemma crit_vals f o vs n s kd :
  vals_of (crit_params f o vs n s) (PC kd s) =
  match kd with KF => [f] | KO => [o] | KV => vs | KN => if n then [s_one] else [] | KJ => [] end.
Proof.
  unfold crit_params. rewrite !vals_of_app, vals_of_values. unfold vals_of.
  destruct kd, n; cbn; rewrite ?N.eqb_refl; cbn; rewrite ?app_nil_r; reflexivity.
Qed.
Lemma in_simple_params s k v :
  In (k, v) (simple_params s) -> exists n vs, k = PS n /\ In (n, vs) s /\ In v vs.
Proof.
  intro H. apply in_flat_map in H as ([n vs] & Hin & H).
  apply in_map_iff in H as (x & E & Hx). injection E as <- <-. eauto.
Qed.
Lemma in_tail_params q k v : In (k, v) (tail_params q) -> exists n, k = PS n /\ is_control n = true.
Proof.
  unfold tail_params.
  destruct (limit q), (offset q) as [o|], (order q); try destruct (Z.eqb o 0); cbn; intro H;
    repeat (destruct H as [H|H]; [injection H as <- _; eexists; split; reflexivity|]); destruct H.
Qed.

Lemma simple_no_pc s kd id : no_key (simple_params s) (PC kd id).
Proof. intros v H. apply in_simple_params in H as (? & ? & E & _). discriminate. Qed.
Lemma simple_no_other s key : (forall vs, ~ In (key, vs) s) -> no_key (simple_params s) (PS key).
Proof. intros Hn v H. apply in_simple_params in H as (n & vs & E & Hin & _). injection E as <-. exact (Hn vs Hin). Qed.
Lemma tail_no_pc q kd id : no_key (tail_params q) (PC kd id).
Proof. intros v H. apply in_tail_params in H as (? & E & _). discriminate. Qed.
Lemma tail_no_plain q k : is_control k = false -> no_key (tail_params q) (PS k).
Proof. intros Hc v H. apply in_tail_params in H as (n & E & Hn). injection E as <-. congruence. Qed.

Lemma charts_tail_no_plain q k :
  is_control k = false -> no_key (fst (render_list (charts q) 1) ++ tail_params q) (PS k).
Proof.
  intro Hc. apply no_key_app; [|now apply tail_no_plain].
  eapply in_range_no_ps, (render_list_slots (charts q) 1).
Qed.

Lemma params_f q :
  f_slots (params_k q) = f_slots (fst (render_list (charts q) 1)) /\
  markers (params_k q) = markers (fst (render_list (charts q) 1)).
Proof.
  destruct (no_f_key (simple_params (simple q))) as [F1 M1].
  { intros s v. apply simple_no_pc. }
  destruct (no_f_key (tail_params q)) as [F2 M2].
  { intros s v. apply tail_no_pc. }
  unfold params_k. rewrite !f_slots_app, !markers_app, F1, F2, M1, M2, !app_nil_r. split; reflexivity.
Qed.

Lemma simple_params_app a b : simple_params (a ++ b) = simple_params a ++ simple_params b.
Proof. apply flat_map_app. Qed.
Lemma simple_params_cons k vs r :
  simple_params ((k, vs) :: r) = map (fun v => (PS k, v)) vs ++ simple_params r.
Proof. reflexivity. Qed.

Lemma drop_key_simple s key :
  drop_key (simple_params s) (PS key)
  = simple_params (filter (fun kv => negb (str_eqb (fst kv) key)) s).
Proof.
  induction s as [|[k vs] r IH]; [reflexivity|].
  rewrite simple_params_cons, drop_key_app, drop_key_values, IH. cbn [filter fst pkey_eqb].
  destruct (str_eqb k key); reflexivity.
Qed.
Lemma vals_of_simple s key vals :
  NoDup (map fst s) -> In (key, vals) s -> vals_of (simple_params s) (PS key) = vals.
Proof.
  induction s as [|[k vs] r IH]; intros ND Hin; [destruct Hin|].
  apply NoDup_cons_iff in ND as [Hnot ND].
  rewrite simple_params_cons, vals_of_app, vals_of_values. cbn [pkey_eqb]. destruct Hin as [E|Hin].
  - injection E as -> ->. rewrite str_eqb_refl, vals_of_nokey, app_nil_r; [reflexivity|].
    apply simple_no_other. intros vs' H. apply Hnot. apply (in_map fst _ _ H).
  - rewrite (IH ND Hin). destruct (str_eqb_spec k key) as [->|]; [|reflexivity].
    elim Hnot. apply (in_map fst _ _ Hin).
Qed.

Lemma first_max_in rest : forall best, In (first_max best rest) (best :: rest).
Proof.
  induction rest as [|a r IH]; intro best; cbn [first_max]; [now left|].
  destruct (joined_len (ax_vals best) <? joined_len (ax_vals a))%N.
  - right. apply IH.
  - destruct (IH best) as [H|H]; [now left | right; now right].
Qed.

Lemma chart_cands_spec cs : forall i a, In a (chart_cands i cs) ->
  exists j f o vals n, a = AxChart (i + j) f vals /\ nth_error cs j = Some (Crit f o vals n true).
Proof.
  induction cs as [|c r IH]; intros i a H; [destruct H|].
  assert (R : In a (chart_cands (S i) r) ->
              exists j f o vals n, a = AxChart (i + j) f vals /\ nth_error (c :: r) j = Some (Crit f o vals n true)).
  { intro H'. destruct (IH _ _ H') as (j & f & o & vals & n & -> & Hn).
    exists (S j), f, o, vals, n. split; [f_equal; lia | exact Hn]. }
  destruct c as [f o vs n [|] | j cs]; cbn [chart_cands] in H; auto.
  destruct H as [<-|H]; auto.
  exists 0%nat, f, o, vs, n. split; [f_equal; lia | reflexivity].
Qed.

(* an axis _split_axis can return: the plain key "id" of the query, or one of its splittable criteria *)
Inductive axis_ok (q : query) : axis -> Prop :=
| ax_ok_simple vals : In (s_id, vals) (simple q) -> axis_ok q (AxSimple s_id vals)
| ax_ok_chart i f o vals n : nth_error (charts q) i = Some (Crit f o vals n true) -> axis_ok q (AxChart i f vals).

Lemma split_axis_ok q a : split_axis q = Some a -> axis_ok q a.
Proof.
  unfold split_axis. destruct (candidates q) as [|b r] eqn:E; [discriminate|].
  intro H. injection H as <-.
  assert (Hin : In (first_max b r) (candidates q)) by (rewrite E; apply first_max_in).
  unfold candidates in Hin. apply in_app_or in Hin as [Hin|Hin].
  - apply in_flat_map in Hin as ([k vs] & Hs & Hin). cbn [fst snd] in Hin.
    destruct (str_eqb_spec k s_id) as [->|]; [|destruct Hin]. destruct Hin as [<-|[]]. now constructor.
  - apply chart_cands_spec in Hin as (j & f & o & vals & n & -> & Hn). econstructor; exact Hn.
Qed.

Lemma replace_nth_at l1 c l2 vs :
  replace_nth (length l1) (l1 ++ c :: l2) vs = l1 ++ with_values c vs :: l2.
Proof. induction l1 as [|x r IH]; cbn; [reflexivity | now rewrite IH]. Qed.

Lemma slot_of_at l1 l2 : slot_of (l1 ++ l2) (length l1) = snd (render_list l1 1).
Proof. unfold slot_of. now rewrite firstn_app, firstn_all, Nat.sub_diag, app_nil_r. Qed.

Lemma tail_params_rebuild q a vs : tail_params (rebuild q a vs) = tail_params q.
Proof. destruct a; reflexivity. Qed.

(* The parameters of a batch: the values of the axis stand in a row under one name, which occurs
   nowhere else; what stands before and after does not depend on the values.  For a criterion the
   query itself has this shape. *)
Lemma rebuild_shape q a : axis_ok q a ->
  exists A B, no_key A (ax_key q a) /\ no_key B (ax_key q a) /\
    (forall vs, params_k (rebuild q a vs) = A ++ map (fun v => (ax_key q a, v)) vs ++ B) /\
    match a with AxSimple _ _ => drop_key (params_k q) (ax_key q a) = A ++ B
               | AxChart _ _ vals => params_k q = params_k (rebuild q a vals) end.
Proof.
  intros [vals Hin | i f o vals n Hn]; cbn [ax_key].
  - assert (NB : no_key (fst (render_list (charts q) 1) ++ tail_params q) (PS s_id)).
    { now apply charts_tail_no_plain. }
    exists (simple_params (filter (fun kv => negb (str_eqb (fst kv) s_id)) (simple q))),
           (fst (render_list (charts q) 1) ++ tail_params q).
    split; [|split; [exact NB|split]].
    + apply simple_no_other. intros vs H. apply filter_In in H as [_ H]. cbn [fst] in H.
      rewrite str_eqb_refl in H. discriminate.
    + intro vs. unfold params_k. rewrite tail_params_rebuild. cbn [rebuild simple charts].
      rewrite simple_params_app, <- app_assoc. f_equal. f_equal.
      destruct vs; [reflexivity | apply app_nil_r].
    + unfold params_k. now rewrite drop_key_app, drop_key_simple, (drop_key_nokey _ _ NB).
  - apply nth_error_split in Hn as (l1 & l2 & Ec & <-).
    rewrite Ec, slot_of_at. set (s1 := snd (render_list l1 1)).
    destruct (render_list_slots l1 1) as (E1 & _ & R1). fold s1 in E1, R1.
    destruct (render_list_slots l2 (N.succ s1)) as (E2 & _ & R2).
    assert (Sh : forall vs, params_k (rebuild q (AxChart (length l1) f vals) vs) =
              (simple_params (simple q) ++ fst (render_list l1 1) ++ [(PC KF s1, f); (PC KO s1, o)])
              ++ map (fun v => (PC KV s1, v)) vs
              ++ (if n then [(PC KN s1, s_one)] else []) ++ fst (render_list l2 (N.succ s1)) ++ tail_params q).
    { intro vs. unfold params_k. rewrite tail_params_rebuild. cbn [rebuild simple charts].
      rewrite Ec, replace_nth_at, render_list_app, render_list_cons. cbn [fst snd with_values render_k].
      fold s1. unfold crit_params. now rewrite <- !app_assoc. }
    eexists _, _. split; [|split; [|split; [exact Sh|]]].
    + apply no_key_app; [apply simple_no_pc | apply no_key_app].
      * eapply in_range_no_pc; [exact R1 | lia].
      * intros v [H|[H|[]]]; discriminate.
    + apply no_key_app; [|apply no_key_app; [eapply in_range_no_pc; [exact R2 | lia] | apply tail_no_pc]].
      destruct n; intros v H; [destruct H as [H|[]]; discriminate | destruct H].
    + unfold params_k. rewrite tail_params_rebuild. cbn [rebuild simple charts].
      now rewrite Ec, replace_nth_at.
Qed.

Lemma axis_params q a : NoDup (map fst (simple q)) -> axis_ok q a ->
  vals_of (params_k q) (ax_key q a) = ax_vals a /\
  forall vs, vals_of (params_k (rebuild q a vs)) (ax_key q a) = vs /\
             drop_key (params_k (rebuild q a vs)) (ax_key q a) = drop_key (params_k q) (ax_key q a).
Proof.
  intros ND OK. destruct (rebuild_shape q a OK) as (A & B & NA & NB & Sh & Q).
  assert (L := fun vs => shape_lookup A B (ax_key q a) vs NA NB).
  destruct OK as [vals Hin | i f o vals n Hn]; cbn [ax_vals ax_key] in *.
  - split; [|intro vs; now rewrite Sh, Q].
    unfold params_k. rewrite vals_of_app, (vals_of_simple _ _ _ ND Hin).
    rewrite vals_of_nokey, app_nil_r; [reflexivity | now apply charts_tail_no_plain].
  - rewrite Q, !Sh. split; [apply L|]. intro vs. rewrite Sh. split; [apply L|].
    now rewrite (proj2 (L vs)), (proj2 (L vals)).
Qed.

Lemma digits_uint_digits u : digits_uint (uint_digits u) = Some u.
Proof. induction u; cbn [uint_digits digits_uint]; try rewrite IHu; reflexivity. Qed.

Lemma undec_dec n : undec (dec_N n) = Some n.
Proof.
  unfold undec, dec_N. destruct (uint_digits (N.to_uint n)) as [|c r] eqn:E.
  - exfalso. destruct n as [|p]; [discriminate|].
    apply (DecimalPos.Unsigned.to_uint_nonnil p). cbn in E. now destruct (Pos.to_uint p).
  - rewrite <- E, digits_uint_digits. cbn [option_map]. f_equal. apply DecimalN.Unsigned.of_to.
Qed.

Lemma classify_chart_key kd id : classify (key_str (PC kd id)) = PC kd id.
Proof.
  cbn [key_str classify].
  assert (E : ckind_of_char (ckind_char kd) = Some kd) by (destruct kd; reflexivity).
  now rewrite E, undec_dec.
Qed.
Lemma classify_plain n : plain_name n = true -> classify n = PS n.
Proof.
  unfold plain_name, classify. destruct n as [|c r]; [reflexivity|].
  destruct (ckind_of_char c); [destruct (undec r)|]; intro H; try discriminate; reflexivity.
Qed.
Lemma classify_control n : is_control n = true -> classify n = PS n.
Proof.
  unfold is_control. intro H. repeat (apply orb_true_iff in H as [H|H]);
    apply str_eqb_eq in H; subst; reflexivity.
Qed.

(* every key prints to a name that [classify] reads back as that key *)
Definition keys_ok (ps : kparams) : Prop := forall k v, In (k, v) ps -> classify (key_str k) = k.
Lemma read_print ps : keys_ok ps -> read_keys (print_params ps) = ps.
Proof.
  induction ps as [|[k v] r IH]; intro H; [reflexivity|].
  cbn [print_params read_keys map fst snd]. rewrite (H k v (or_introl eq_refl)).
  f_equal. apply IH. intros k' v' Hin. apply (H k' v'). now right.
Qed.
Lemma keys_ok_app a b : keys_ok a -> keys_ok b -> keys_ok (a ++ b).
Proof. intros Ha Hb k v H. apply in_app_or in H as [H|H]; eauto. Qed.

Lemma wf_query_simple q : wf_query q = true ->
  forall k vs, In (k, vs) (simple q) -> plain_name k = true /\ is_control k = false.
Proof.
  unfold wf_query. intro W. apply andb_true_iff in W as [W _]. rewrite forallb_forall in W.
  intros k vs Hin. specialize (W _ Hin). cbn [fst] in W. apply andb_true_iff in W as [W1 W2].
  split; [exact W1 | now apply negb_true_iff in W2].
Qed.
Lemma wf_query_charts q : wf_query q = true -> forallb wf_chart (charts q) = true.
Proof. unfold wf_query. intro W. now apply andb_true_iff in W as [_ W]. Qed.

Lemma read_keys_params q : wf_query q = true -> read_keys (params q) = params_k q.
Proof.
  intro W. apply read_print. unfold params_k. apply keys_ok_app; [|apply keys_ok_app]; intros k v H.
  - apply in_simple_params in H as (n & vs & -> & Hin & _).
    apply classify_plain. exact (proj1 (wf_query_simple q W n vs Hin)).
  - destruct (render_list_slots (charts q) 1) as (_ & _ & R).
    destruct (R _ _ H) as (kd & id & -> & _). apply classify_chart_key.
  - apply in_tail_params in H as (n & -> & Hn). now apply classify_control.
Qed.

(* [env] holds, for the slots in [lo, hi), the chart parameters of [ps] *)
Definition agree (env ps : kparams) (lo hi : N) : Prop :=
  forall kd id, (lo <= id < hi)%N -> vals_of env (PC kd id) = vals_of ps (PC kd id).

Lemma agree_split env a b lo mid hi :
  in_range a lo mid -> in_range b mid hi -> (lo <= mid <= hi)%N -> agree env (a ++ b) lo hi ->
  agree env a lo mid /\ agree env b mid hi.
Proof.
  intros Ra Rb L A. split; intros kd id Hid; rewrite (A kd id) by lia; rewrite vals_of_app.
  - rewrite (vals_of_nokey b); [apply app_nil_r | eapply in_range_no_pc; [exact Rb | lia]].
  - rewrite (vals_of_nokey a); [reflexivity | eapply in_range_no_pc; [exact Ra | lia]].
Qed.

Lemma group_head_vals s x y kd :
  vals_of [(PC KF s, x); (PC KJ s, y)] (PC kd s) = match kd with KF => [x] | KJ => [y] | _ => [] end.
Proof. unfold vals_of. destruct kd; cbn; rewrite ?N.eqb_refl; reflexivity. Qed.
Lemma vals_of_one k v : vals_of [(k, v)] k = [v].
Proof. unfold vals_of. cbn. now rewrite pkey_eqb_refl. Qed.

Lemma join_of_str j : join_of (join_str j) = j.
Proof. destruct j; reflexivity. Qed.

(* [rest]: the slot ids still to walk; [cur]: the charts read so far at the current nesting level,
   newest first; [stack]: the enclosing open groups *)
Lemma read_chart_both :
  (forall c, wf_chart c = true -> forall env s rest cur stack,
     agree env (fst (render_k c s)) s (snd (render_k c s)) ->
     read_ids env (Nseq s (nslots c) ++ rest) cur stack = read_ids env rest (erase c :: cur) stack) /\
  (forall cs, forallb wf_chart cs = true -> forall env s rest cur stack,
     agree env (fst (render_list cs s)) s (snd (render_list cs s)) ->
     read_ids env (Nseq s (nslots_l cs) ++ rest) cur stack
     = read_ids env rest (List.rev (map erase cs) ++ cur) stack).
Proof.
  apply chart_list_ind.
  - intros f o vs n sp W env s rest cur stack A. cbn [render_k fst snd] in A.
    cbn [nslots Nseq List.app read_ids erase].
    rewrite (A KF s), (A KO s), (A KV s), (A KN s), !crit_vals by lia.
    cbn [first_or_nil]. cbn [wf_chart] in W. apply andb_true_iff in W as [W1 W2].
    apply negb_true_iff in W1, W2. rewrite W1, W2. destruct n; reflexivity.
  - intros j cs IH W env s rest cur stack A. cbn [wf_chart] in W.
    rewrite render_k_group in A. cbn [fst snd] in A.
    destruct (render_list_slots cs (N.succ s)) as (E & _ & R).
    set (s2 := snd (render_list cs (N.succ s))) in *. set (P := fst (render_list cs (N.succ s))) in *.
    (* the group's parameters: its head at slot s, its children, its closing marker at slot s2 *)
    destruct (agree_split env [(PC KF s, s_OP); (PC KJ s, join_str j)] (P ++ [(PC KF s2, s_CP)])
                s (N.succ s) (N.succ s2)) as [Ah A'];
      [apply (in_range_app [_] [_]); apply in_range_one | | lia | exact A |].
    { apply in_range_app; eapply in_range_weaken; try apply in_range_one; try exact R; lia. }
    destruct (agree_split env P [(PC KF s2, s_CP)] (N.succ s) s2 (N.succ s2)) as [Ac Ae];
      [exact R | apply in_range_one | lia | exact A' |].
    change (nslots (Group j cs)) with (S (S (nslots_l cs))).
    rewrite Nseq_group, <- E, <- app_comm_cons, <- app_assoc. cbn [read_ids].
    rewrite (Ah KF s), (Ah KJ s), (Ah KN s), !group_head_vals by lia. cbn [first_or_nil truthy].
    change (str_eqb s_OP s_OP) with true. cbn iota. rewrite join_of_str.
    rewrite (IH W env _ _ _ _ Ac). cbn [List.app read_ids]. rewrite (Ae KF s2), vals_of_one by lia.
    cbn [first_or_nil]. change (str_eqb s_CP s_OP) with false. change (str_eqb s_CP s_CP) with true.
    cbn iota. rewrite app_nil_r, rev_involutive. reflexivity.
  - reflexivity.
  - intros c r Hc Hr W env s rest cur stack A. cbn [forallb] in W. apply andb_true_iff in W as [Wc Wr].
    rewrite render_list_cons in A. cbn [fst snd] in A.
    destruct (render_slots c s) as (E1 & _ & R1).
    destruct (render_list_slots r (snd (render_k c s))) as (E2 & _ & R2).
    destruct (agree_split env _ _ _ _ _ R1 R2) as [A1 A2]; [lia | exact A |].
    change (nslots_l (c :: r)) with (nslots c + nslots_l r)%nat.
    rewrite Nseq_app, <- app_assoc, <- E1, (Hc Wc _ _ _ _ _ A1), (Hr Wr _ _ _ _ _ A2).
    cbn [map List.rev]. now rewrite <- app_assoc.
Qed.

Lemma insert_sorted : forall n s, fold_right insert_u [] (Nseq s n) = Nseq s n.
Proof.
  induction n as [|n IH]; intro s; [reflexivity|].
  cbn [Nseq fold_right]. rewrite IH. destruct n as [|n]; [reflexivity|].
  cbn [Nseq insert_u]. assert (H : (s <? N.succ s)%N = true) by (apply N.ltb_lt; lia). now rewrite H.
Qed.

Lemma read_charts_k_params q : forallb wf_chart (charts q) = true ->
  read_charts_k (params_k q) = Some (map erase (charts q)).
Proof.
  intro W. unfold read_charts_k, field_ids.
  destruct (render_list_slots (charts q) 1) as (E & F & R).
  rewrite (proj1 (params_f q)), F, insert_sorted, <- (app_nil_r (Nseq 1 _)).
  rewrite (proj2 read_chart_both (charts q) W (params_k q) 1%N [] [] []).
  - cbn [read_ids]. now rewrite app_nil_r, rev_involutive.
  - intros kd id _. unfold params_k. rewrite !vals_of_app.
    rewrite (vals_of_nokey _ _ (simple_no_pc _ _ _)), (vals_of_nokey _ _ (tail_no_pc _ _ _)).
    apply app_nil_r.
Qed.

Lemma dict_get_set d k v k2 :
  dict_get (dict_set d k v) k2 = if str_eqb k k2 then Some v else dict_get d k2.
Proof.
  induction d as [|[k1 v1] r IH]; cbn [dict_set dict_get]; [reflexivity|].
  destruct (str_eqb_spec k1 k) as [->|N]; cbn [dict_get]; [now destruct (str_eqb k k2)|].
  rewrite IH. destruct (str_eqb_spec k1 k2) as [->|]; [|reflexivity].
  destruct (str_eqb_spec k k2); congruence.
Qed.

Lemma keys_set d k v k' : In k' (map fst (dict_set d k v)) <-> In k' (map fst d) \/ k' = k.
Proof.
  induction d as [|[k1 v1] r IH]; cbn [dict_set map fst In]; [intuition|].
  destruct (str_eqb_spec k1 k) as [->|]; cbn [map fst In]; [|rewrite IH]; intuition.
Qed.
Lemma nodup_set d k v : NoDup (map fst d) -> NoDup (map fst (dict_set d k v)).
Proof.
  induction d as [|[k1 v1] r IH]; cbn [dict_set map fst]; intro ND; [repeat constructor; intros []|].
  apply NoDup_cons_iff in ND as [Hn ND]. destruct (str_eqb_spec k1 k) as [->|]; cbn [map fst].
  - now constructor.
  - constructor; [|apply IH, ND]. intro H. apply keys_set in H as [H|H]; [contradiction | congruence].
Qed.

Lemma dict_get_none d k : ~ In k (map fst d) -> dict_get d k = None.
Proof.
  induction d as [|[k1 v1] r IH]; intro H; [reflexivity|]. cbn [dict_get].
  destruct (str_eqb_spec k1 k) as [->|]; [elim H; now left | apply IH; intro H'; apply H; now right].
Qed.
Lemma dict_get_in d k vs : dict_get d k = Some vs -> In (k, vs) d.
Proof.
  induction d as [|[k1 v1] r IH]; cbn [dict_get]; [discriminate|].
  destruct (str_eqb_spec k1 k) as [->|]; intro H; [injection H as <-; now left | right; now apply IH].
Qed.
Lemma in_dict_get d k vs : NoDup (map fst d) -> In (k, vs) d -> dict_get d k = Some vs.
Proof.
  induction d as [|[k1 v1] r IH]; intros ND H; [destruct H|]. cbn [dict_get].
  apply NoDup_cons_iff in ND as [Hn ND]. destruct H as [H|H].
  - injection H as -> ->. now rewrite str_eqb_refl.
  - destruct (str_eqb_spec k1 k) as [->|]; [elim Hn; apply (in_map fst _ _ H) | now apply IH].
Qed.

Lemma dict_set_fresh d k v : ~ In k (map fst d) -> dict_set d k v = d ++ [(k, v)].
Proof.
  induction d as [|[k1 v1] r IH]; intro H; [reflexivity|]. cbn [dict_set].
  destruct (str_eqb_spec k1 k) as [->|]; [elim H; now left|].
  cbn. f_equal. apply IH. intro H'. apply H. now right.
Qed.
Lemma dict_of_nodup l : NoDup (map fst l) -> dict_of l = l.
Proof.
  unfold dict_of. change l with ([] ++ l) at 1 3. generalize (@nil (str * list str)) as acc.
  induction l as [|[k v] r IH]; intros acc ND; cbn [fold_left]; [now rewrite app_nil_r|].
  cbn [fst snd]. rewrite dict_set_fresh.
  - rewrite IH; rewrite <- app_assoc; [reflexivity | exact ND].
  - rewrite map_app in ND. apply NoDup_remove_2 in ND. intro H. apply ND, in_or_app. now left.
Qed.

Lemma merge_step_get d kv k2 :
  dict_get (merge_step d kv) k2
  = if str_eqb (fst kv) k2
    then Some (get_or_nil d (fst kv) ++ filter (fun x => negb (mem_str x (get_or_nil d (fst kv)))) (snd kv))
    else dict_get d k2.
Proof. apply dict_get_set. Qed.

Lemma fold_merge_get b : NoDup (map fst b) -> forall d k,
  dict_get (fold_left merge_step b d) k
  = match dict_get b k with
    | None => dict_get d k
    | Some vb => Some (get_or_nil d k ++ filter (fun x => negb (mem_str x (get_or_nil d k))) vb)
    end.
Proof.
  induction b as [|[k1 v1] r IH]; intros ND d k; [reflexivity|].
  apply NoDup_cons_iff in ND as [Hn ND].
  cbn [fold_left dict_get]. rewrite (IH ND), merge_step_get. cbn [fst snd].
  destruct (str_eqb_spec k1 k) as [->|N].
  - now rewrite (dict_get_none r k Hn).
  - unfold get_or_nil at 1 2. rewrite merge_step_get. cbn [fst].
    destruct (str_eqb_spec k1 k); [contradiction | reflexivity].
Qed.

Lemma fold_merge_keys b : forall d k,
  In k (map fst (fold_left merge_step b d)) <-> In k (map fst d) \/ In k (map fst b).
Proof.
  induction b as [|[k1 v1] r IH]; intros d k; cbn [fold_left map fst In]; [tauto|].
  rewrite IH. unfold merge_step. rewrite keys_set. cbn [fst]. intuition.
Qed.
Lemma fold_merge_nodup b : forall d, NoDup (map fst d) -> NoDup (map fst (fold_left merge_step b d)).
Proof.
  induction b as [|kv r IH]; intros d ND; [exact ND|]. cbn [fold_left]. apply IH.
  unfold merge_step. now apply nodup_set.
Qed.

Lemma and_keys_nodup a b : NoDup (map fst (simple (and_q a b))).
Proof.
  cbn [and_q simple]. unfold merge_simple, dict_of. apply fold_merge_nodup.
  enough (G : forall acc, NoDup (map fst acc) ->
    NoDup (map fst (fold_left (fun d kv => dict_set d (fst kv) (snd kv)) (simple a) acc)))
    by (apply G; constructor).
  induction (simple a) as [|kv r IH]; intros acc ND; [exact ND|]. apply IH. now apply nodup_set.
Qed.

Lemma forallb_const {A} (X : bool) (l : list A) : forallb (fun _ => X) l = is_nil l || X.
Proof. induction l as [|a r IH]; [reflexivity|]. cbn [forallb is_nil orb]. rewrite IH. destruct X, (is_nil r); reflexivity. Qed.

Section SemProofs.
  Variable bug : Type.
  Variable has : str -> str -> bug -> bool.
  Variable cond : str -> str -> list str -> bug -> bool.

  (* a plain key with its values: no value = no parameter = no constraint *)
  Definition key_sem (x : bug) (kv : str * list str) : bool :=
    is_nil (snd kv) || existsb (fun v => has (fst kv) v x) (snd kv).
  Definition simple_sem (s : sdict) (x : bug) : bool := forallb (key_sem x) s.

  Lemma simple_ok_params q x : wf_query q = true -> NoDup (map fst (simple q)) ->
    simple_ok bug has (params_k q) x = simple_sem (simple q) x.
  Proof.
    intros W ND. unfold simple_ok. set (ps := params_k q). unfold params_k in ps. unfold ps at 2.
    rewrite forallb_app.
    (* chart part and paging part are no constraints *)
    replace (forallb _ (_ ++ tail_params q)) with true; [rewrite andb_true_r|].
    2:{ symmetry. apply forallb_forall. intros [k v] Hin. apply in_app_or in Hin as [Hin|Hin].
        - destruct (render_list_slots (charts q) 1) as (_ & _ & R).
          destruct (R _ _ Hin) as (kd & id & -> & _). reflexivity.
        - apply in_tail_params in Hin as (n & -> & Hn). cbn [fst]. now rewrite Hn. }
    (* plain part: one test per key *)
    assert (V : forall k vs, In (k, vs) (simple q) -> is_control k = false /\ vals_of ps (PS k) = vs).
    { intros k vs Hin. destruct (wf_query_simple q W k vs Hin) as [_ Hc]. split; [exact Hc|].
      unfold ps. rewrite vals_of_app, (vals_of_simple _ _ _ ND Hin).
      rewrite vals_of_nokey, app_nil_r; [reflexivity | now apply charts_tail_no_plain]. }
    revert V. generalize (simple q) as s. clear ND W.
    induction s as [|[k vs] r IH]; intro V; [reflexivity|].
    rewrite simple_params_cons, forallb_app. cbn [simple_sem forallb].
    rewrite IH by (intros k' vs' H; apply V; now right). f_equal.
    destruct (V k vs (or_introl eq_refl)) as [Hc Hv].
    rewrite forallb_map. cbn [fst]. rewrite Hc, Hv. apply forallb_const.
  Qed.

  Lemma sem_charac q x : wf_query q = true -> NoDup (map fst (simple q)) ->
    sem bug has cond q x
    = Some (simple_sem (simple q) x && charts_ok bug cond x (map erase (charts q))).
  Proof.
    intros W ND. unfold sem, sem_params. rewrite (read_keys_params q W). unfold sem_k.
    rewrite (read_charts_k_params q (wf_query_charts q W)). now rewrite simple_ok_params.
  Qed.

  Lemma charts_ok_app x a b :
    charts_ok bug cond x (a ++ b) = charts_ok bug cond x a && charts_ok bug cond x b.
  Proof. unfold charts_ok, somes. now rewrite map_app, flat_map_app, forallb_app. Qed.

  Lemma key_sem_merged x k va vb :
    is_nil va || is_nil vb || same_set va vb = true ->
    key_sem x (k, va ++ filter (fun y => negb (mem_str y va)) vb)
    = key_sem x (k, va) && key_sem x (k, vb).
  Proof.
    intro H. destruct va as [|a ra].
    - cbn [List.app mem_str existsb negb]. rewrite filter_all_true by reflexivity. reflexivity.
    - destruct vb as [|b rb]; [cbn [filter]; rewrite app_nil_r; now rewrite andb_true_r|].
      cbn [is_nil orb] in H. unfold same_set in H. apply andb_true_iff in H as [H1 H2].
      rewrite forallb_forall in H1, H2.
      rewrite filter_all_false, app_nil_r by (intros y Hy; now rewrite (H2 y Hy)).
      unfold key_sem. cbn [fst snd is_nil orb].
      replace (existsb (fun v => has k v x) (b :: rb)) with (existsb (fun v => has k v x) (a :: ra));
        [now rewrite andb_diag|].
      apply Bool.eq_iff_eq_true. rewrite !existsb_exists.
      split; intros (y & Hy & Hh); exists y; (split; [apply existsb_str_In | exact Hh]);
        [apply H1 | apply H2]; exact Hy.
  Qed.

  Definition get_sem (d : sdict) (x : bug) (k : str) : bool :=
    match dict_get d k with Some vs => key_sem x (k, vs) | None => true end.

  Lemma simple_sem_iff d x : NoDup (map fst d) ->
    (simple_sem d x = true <-> forall k, get_sem d x k = true).
  Proof.
    intro ND. unfold simple_sem, get_sem. rewrite forallb_forall. split.
    - intros H k. destruct (dict_get d k) eqn:G; [apply H, dict_get_in, G | reflexivity].
    - intros H [k vs] Hin. specialize (H k). now rewrite (in_dict_get _ _ _ ND Hin) in H.
  Qed.

  Lemma simple_sem_merge a b x : NoDup (map fst a) -> NoDup (map fst b) ->
    (forall k va vb, dict_get a k = Some va -> dict_get b k = Some vb ->
                     is_nil va || is_nil vb || same_set va vb = true) ->
    simple_sem (merge_simple a b) x = simple_sem a x && simple_sem b x.
  Proof.
    intros NDa NDb NC. unfold merge_simple. rewrite (dict_of_nodup _ NDa).
    assert (G : forall k, get_sem (fold_left merge_step b a) x k = get_sem a x k && get_sem b x k).
    { intro k. unfold get_sem. rewrite (fold_merge_get b NDb). unfold get_or_nil.
      destruct (dict_get b k) as [vb|] eqn:Gb; [|now rewrite andb_true_r].
      destruct (dict_get a k) as [va|] eqn:Ga; [apply key_sem_merged; eapply NC; eauto|].
      apply (key_sem_merged x k [] vb). reflexivity. }
    apply Bool.eq_iff_eq_true. rewrite andb_true_iff, !simple_sem_iff by auto using fold_merge_nodup.
    split.
    - intro H. split; intro k; specialize (H k); rewrite G in H; apply andb_true_iff in H; apply H.
    - intros [Ha Hb] k. now rewrite G, Ha, Hb.
  Qed.
End SemProofs.

Lemma no_conflict_spec a b : conflict a b = false ->
  forall k va vb, dict_get (simple a) k = Some va -> dict_get (simple b) k = Some vb ->
  is_nil va || is_nil vb || same_set va vb = true.
Proof.
  intros C k va vb Ga Gb. destruct (is_nil va || is_nil vb || same_set va vb) eqn:E; [reflexivity|].
  apply orb_false_iff in E as [E E3]. apply orb_false_iff in E as [E1 E2].
  rewrite <- C. apply existsb_exists. exists (k, vb). split; [now apply dict_get_in|].
  cbn [fst snd]. now rewrite Ga, E1, E2, E3.
Qed.

Lemma wf_and a b : wf_query a = true -> wf_query b = true -> NoDup (map fst (simple a)) ->
  wf_query (and_q a b) = true.
Proof.
  intros Wa Wb NDa. unfold wf_query. apply andb_true_iff. split.
  - apply forallb_forall. intros [k vs] Hin. cbn [fst].
    apply (in_map fst) in Hin. cbn [and_q simple fst] in Hin.
    unfold merge_simple in Hin. rewrite (dict_of_nodup _ NDa) in Hin. apply fold_merge_keys in Hin.
    assert (G : forall q, wf_query q = true -> In k (map fst (simple q)) ->
                plain_name k && negb (is_control k) = true).
    { intros q W H. apply in_map_iff in H as ([k' vs'] & <- & H).
      destruct (wf_query_simple q W k' vs' H) as [H1 H2]. cbn [fst]. now rewrite H1, H2. }
    destruct Hin; eauto.
  - cbn [and_q charts]. rewrite forallb_app. now rewrite (wf_query_charts a Wa), (wf_query_charts b Wb).
Qed.

Definition and_is_conjunction_stmt : Prop :=
  forall (bug : Type) has cond a b (x : bug),
    wf_query a = true -> wf_query b = true ->
    NoDup (map fst (simple a)) -> NoDup (map fst (simple b)) ->
    sem bug has cond (and_q a b) x = opt_and (sem bug has cond a x) (sem bug has cond b x).

Definition s1 : str := [49%N]. Definition s2 : str := [50%N]. Definition s3 : str := [51%N].
Lemma conflict_witness : conflict (ctor 0 [s1; s2]) (ctor 0 [s2; s3]) = true.
Proof. reflexivity. Qed.

Lemma chunks_concat cost budget vals : forall br used,
  concat (chunks cost budget vals br used) = List.rev br ++ vals.
Proof.
  induction vals as [|v r IH]; intros br used; cbn [chunks].
  - cbn. now rewrite !app_nil_r.
  - destruct (negb (is_nil br) && (budget <? used + cost v)%Z); cbn [concat]; rewrite IH; cbn.
    + reflexivity.
    + now rewrite <- app_assoc.
Qed.

Section Budget.
  Variable enc : str -> N.

  Lemma tot_len_app a b : tot_len enc (a ++ b) = (tot_len enc a + tot_len enc b)%N.
  Proof. unfold tot_len. induction a as [|x r IH]; cbn [List.app fold_right]; [reflexivity|]. rewrite IH. lia. Qed.

  Definition sum_cost (cost : str -> Z) (vs : list str) : Z :=
    fold_right (fun v acc => (cost v + acc)%Z) 0%Z vs.

  Lemma sum_cost_app cost a b : sum_cost cost (a ++ b) = (sum_cost cost a + sum_cost cost b)%Z.
  Proof. unfold sum_cost. induction a as [|x r IH]; cbn [List.app fold_right]; [reflexivity|]. rewrite IH. lia. Qed.

  (* the true length of a chunk's parameters under name k: at least one, and no more than its price
     when k encodes no longer than the name batches() prices the values with *)
  Lemma tot_len_values k ck v vs : (enc (key_str k) <= enc ck)%N ->
    (1 <= Z.of_N (tot_len enc (map (fun v => (k, v)) (v :: vs)))
       <= sum_cost (value_cost enc ck) (v :: vs))%Z.
  Proof.
    intro H. assert (G : (0 <= Z.of_N (tot_len enc (map (fun v => (k, v)) vs))
                            <= sum_cost (value_cost enc ck) vs)%Z).
    { unfold tot_len, sum_cost, value_cost, pair_len.
      induction vs as [|x r IH]; cbn [map fold_right fst snd]; lia. }
    unfold tot_len, sum_cost, value_cost, pair_len in *. cbn [map fold_right fst snd] in *. lia.
  Qed.

  Lemma chunks_inv cost budget : forall vals br used,
    used = sum_cost cost (List.rev br) ->
    (length br <= 1)%nat \/ (used <= budget)%Z ->
    forall c, In c (chunks cost budget vals br used) ->
    (length c <= 1)%nat \/ (sum_cost cost c <= budget)%Z.
  Proof.
    induction vals as [|v r IH]; intros br used Hu Hinv c Hc; cbn [chunks] in Hc.
    - destruct Hc as [<-|[]]. now rewrite rev_length, <- Hu.
    - destruct (negb (is_nil br) && (budget <? used + cost v)%Z) eqn:E.
      + destruct Hc as [<-|Hc]; [now rewrite rev_length, <- Hu|].
        apply (IH [v] (cost v)); [cbn; lia | now left | exact Hc].
      + apply (IH (v :: br) (used + cost v)%Z); [| | exact Hc].
        * cbn [List.rev]. rewrite sum_cost_app, <- Hu. cbn. lia.
        * apply andb_false_iff in E as [E|E]; [left; now destruct br | right; lia].
  Qed.

  Lemma chunks_values cost budget vals c x :
    In c (chunks cost budget vals [] 0%Z) -> In x c -> In x vals.
  Proof.
    intros Hc Hx. change vals with (List.rev [] ++ vals).
    rewrite <- (chunks_concat cost budget vals [] 0%Z). apply in_concat. eauto.
  Qed.

  Definition fits (base max : Z) (q : query) : Prop :=
    (base + Z.of_N (ulen enc (params_k q)) <= max)%Z.

  (* whenever every single value fits, every batch fits — provided the parameter name of the axis
     encodes no longer than the name its values are priced with *)
  Lemma batches_fit q base max a :
    split_axis q = Some a ->
    (enc (key_str (ax_key q a)) <= enc (ax_cost_key a))%N ->
    ax_vals a <> [] ->
    (forall v, In v (ax_vals a) -> fits base max (rebuild q a [v])) ->
    forall b, In b (batches enc q base max) -> fits base max b.
  Proof.
    intros E KL NE Single b Hb. unfold batches in Hb. rewrite E in Hb.
    apply in_map_iff in Hb as (c & <- & Hc).
    destruct (rebuild_shape q a (split_axis_ok _ _ E)) as (A & B & _ & _ & Sh & _).
    destruct c as [|v c'].
    - (* an empty chunk is shorter than any single value *)
      destruct (ax_vals a) as [|v vs]; [congruence|]. specialize (Single v (or_introl eq_refl)).
      unfold fits, ulen in *. rewrite Sh in *. rewrite !tot_len_app in *.
      cbn [map tot_len fold_right List.app] in *. rewrite !N.pred_sub in *. lia.
    - destruct (chunks_inv _ _ (ax_vals a) [] 0%Z eq_refl (or_introl (Nat.le_0_l 1)) _ Hc) as [H|H].
      + destruct c'; [|cbn in H; lia]. apply Single. eapply chunks_values; [exact Hc | now left].
      + pose proof (tot_len_values (ax_key q a) (ax_cost_key a) v c' KL) as TV.
        unfold fits, ulen, budget_of, ulen in *. rewrite Sh in *. cbn [map List.app] in H.
        rewrite !tot_len_app in *. rewrite !N.pred_sub in *. lia.
  Qed.
End Budget.

Definition batch_within_budget_stmt : Prop :=
  forall enc q base max a,
    split_axis q = Some a -> ax_vals a <> [] ->
    (forall v, In v (ax_vals a) -> fits enc base max (rebuild q a [v])) ->
    forall b, In b (batches enc q base max) -> fits enc base max b.

(* the known class: the split axis is a criterion whose field name encodes shorter than v<slot> *)
Definition short_field_axis (enc : str -> N) (q : query) (a : axis) : bool :=
  (enc (ax_cost_key a) <? enc (key_str (ax_key q a)))%N.

Lemma simple_axis_not_short enc q vals : short_field_axis enc q (AxSimple s_id vals) = false.
Proof. unfold short_field_axis. cbn. apply N.ltb_irrefl. Qed.

(* witness: ten keyword conditions, then a splittable criterion on field "a" (slot 11, key v11):
   each value is priced 4 but costs 6, so two values are put into a budget of 8 *)
Definition kw (n : N) : chart := Crit s_keywords s_anywords [107%N :: dec_N n] false false.
Definition wq : query :=
  {| simple := []; charts := map kw [0;1;2;3;4;5;6;7;8;9]%N ++ [Crit [97%N] s_anywords [[120%N]; [121%N]; [122%N]] false true];
     limit := None; offset := None; order := None |}.
Definition wax : axis := AxChart 10 [97%N] [[120%N]; [121%N]; [122%N]].
Definition wmax : Z := (Z.of_N (ulen qlen (params_k (rebuild wq wax []))) + 8)%Z.

Lemma short_field_witness : short_field_axis qlen wq wax = true.
Proof. reflexivity. Qed.

Definition any_of_is_disjunction_stmt : Prop :=
  forall (bug : Type) has cond qs q (x : bug),
    (forall o, In o qs -> wf_query o = true) -> any_of qs = Some q ->
    sem bug has cond q x = opt_or_list (map (fun o => sem bug has cond o x) qs).

Definition ex_group : chart :=
  Group JOr [Crit s_keywords s_anywords [s1; s2] false false;
             Group JAndG [Crit s_tag s_nowordssubstr [s3] true false]; Group JAnd []].
Example ex_slots : fst (render_k ex_group 5) <> [] /\ snd (render_k ex_group 5) = 13%N
                   /\ wf_chart ex_group = true.
Proof. split; [vm_compute; discriminate | split; reflexivity]. Qed.
Definition ex_q1 : query := and_q (and_q (ctor 2 [s1; s2]) (ctor 7 [])) (and_q (ctor 9 [s1; s2]) (q_chart ex_group)).
Definition ex_q2 : query := and_q (ctor 0 [s1; s2; s3]) (ctor 10 [s3]).
Example ex_and_premises :
  wf_query ex_q1 = true /\ wf_query ex_q2 = true /\ conflict ex_q1 ex_q2 = false
  /\ NoDup (map fst (simple ex_q1)) /\ NoDup (map fst (simple ex_q2))
  /\ length (params (and_q ex_q1 ex_q2)) = 29%nat.
Proof.
  split; [reflexivity|]. split; [reflexivity|]. split; [reflexivity|].
  split; [|split; [|reflexivity]]; apply and_keys_nodup.
Qed.
Example ex_batches :
  let q := and_q (ctor 0 [s1; s2; s3; s1; s2]) (ctor 7 []) in
  split_axis q = Some (AxSimple s_id [s1; s2; s3; s1; s2]) /\
  length (batches qlen q 0 26) = 3%nat /\
  (forall v, In v [s1; s2; s3; s1; s2] -> fits qlen 0 26 (rebuild q (AxSimple s_id [s1; s2; s3; s1; s2]) [v])).
Proof.
  cbn zeta. split; [reflexivity|]. split; [reflexivity|].
  intros v H. repeat (destruct H as [<-|H]; [vm_compute; discriminate|]). destruct H.
Qed.

(* a chart that contributes nothing: a condition without values, a group of such *)
Fixpoint vacuous (c : chart) : bool :=
  match c with
  | Crit _ _ vs _ _ => is_nil vs
  | Group _ cs => forallb vacuous cs
  end.

Section AnyOf.
  Variable bug : Type.
  Variable has : str -> str -> bug -> bool.
  Variable cond : str -> str -> list str -> bug -> bool.

  Lemma eval_none_both x :
    (forall c, eval bug cond x (erase c) = None <-> vacuous c = true) /\
    (forall cs, somes (map (eval bug cond x) (map erase cs)) = [] <-> forallb vacuous cs = true).
  Proof.
    apply chart_list_ind.
    - intros f o vs n sp. cbn. destruct vs; split; intro H; try discriminate; reflexivity.
    - intros j cs IH. cbn [erase eval vacuous]. rewrite <- IH.
      destruct (somes _); split; intro; try discriminate; reflexivity.
    - split; reflexivity.
    - intros c r Hc Hr. cbn [map somes flat_map forallb]. rewrite andb_true_iff, <- Hc, <- Hr.
      destruct (eval bug cond x (erase c)); cbn [List.app]; split; try discriminate; try tauto.
      intros [H _]. discriminate.
  Qed.

  Definition unit_operand (o : query) (c : chart) : Prop :=
    wf_query o = true /\ simple o = [] /\ charts o = [c] /\ vacuous c = false.

  Lemma operands_values x qs cs : Forall2 unit_operand qs cs ->
    exists vs, map (fun c => eval bug cond x (erase c)) cs = map Some vs /\
               map (fun o => sem bug has cond o x) qs = map Some vs /\
               flat_map charts qs = cs /\ forallb wf_chart cs = true.
  Proof.
    induction 1 as [|o c qs cs (W & S & C & V) _ (vs & E1 & E2 & E3 & E4)].
    - exists []. repeat split; reflexivity.
    - destruct (eval bug cond x (erase c)) as [v|] eqn:Ev.
      2:{ apply (proj1 (eval_none_both x)) in Ev. congruence. }
      exists (v :: vs). cbn [map flat_map forallb]. rewrite Ev, E1, E2, E3, E4, C.
      assert (ND : NoDup (map fst (simple o))) by (rewrite S; constructor).
      rewrite (sem_charac bug has cond o x W ND), S, C. cbn [map simple_sem forallb].
      unfold charts_ok. cbn [map somes flat_map]. rewrite Ev. cbn [List.app forallb id andb]. rewrite andb_true_r.
      pose proof (wf_query_charts o W) as Wc. rewrite C in Wc. cbn [forallb] in Wc.
      apply andb_true_iff in Wc as [Wc _]. rewrite Wc. repeat split; reflexivity.
  Qed.

  Lemma somes_map_some vs : somes (map Some vs) = vs.
  Proof. induction vs as [|v r IH]; [reflexivity|]. cbn [map somes flat_map List.app]. now f_equal. Qed.

  Lemma opt_or_list_values vs :
    opt_or_list (map Some vs) = Some (existsb id vs).
  Proof.
    induction vs as [|v r IH]; [reflexivity|]. cbn [map opt_or_list fold_right existsb].
    unfold opt_or_list in IH. now rewrite IH.
  Qed.

  Lemma or_group_sem cs vs x :
    forallb wf_chart cs = true -> map (fun c => eval bug cond x (erase c)) cs = map Some vs -> vs <> [] ->
    sem bug has cond (q_chart (Group JOr cs)) x = Some (existsb id vs).
  Proof.
    intros W E NE.
    rewrite sem_charac; [|unfold wf_query; cbn; now rewrite W | constructor].
    unfold charts_ok. cbn [q_chart simple charts simple_sem forallb map erase eval].
    rewrite map_map, E, somes_map_some. destruct vs as [|v r]; [congruence|].
    cbn [somes flat_map List.app forallb xorb]. unfold id at 1. now destruct (existsb id (v :: r)).
  Qed.
End AnyOf.
