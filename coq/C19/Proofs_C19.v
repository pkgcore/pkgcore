(* Proofs_C19.v — lemmas for C19: crash prefixes of do_link's and ensure_perms' blocks, and the
   localisation of every crash state of a merge in one step block. *)
From Coq Require Import List ZArith Lia.
Import ListNotations.
From Verif Require Import C18.Fs C18.FsLemmas C18.Model_C18 C18.Spec_C18 C18.Proofs_C18.

Definition all_prefixes (P : fs -> Prop) (ops : list op) (s : fs) : Prop :=
  forall k, P (run (firstn k ops) s).
Lemma all_prefixes_nil (P : fs -> Prop) s : P s -> all_prefixes P [] s.
Proof. intros H k. destruct k; exact H. Qed.
Lemma all_prefixes_cons (P : fs -> Prop) o r s :
  P s -> (forall s1, apply_op s o = Some s1 -> all_prefixes P r s1) -> all_prefixes P (o :: r) s.
Proof.
  intros H0 H1 [|k]; cbn; [exact H0|]. destruct (apply_op s o) as [s1|] eqn:E; [now apply H1|exact H0].
Qed.

(* the block  pre; Link a tmp; Rename tmp b  where the crash prefixes of [pre] change nothing but
   tmp: at every crash point b holds its old node or a's node (the complete new hard link);
   nothing but b and tmp changes *)
Lemma link_rename_crash pre a b tmp s na k :
  tmp <> b -> a <> tmp -> lookup s a = Some na ->
  (forall j q, q <> tmp -> lookup (run (firstn j pre) s) q = lookup s q) ->
  let st := run (firstn k (pre ++ [Link a tmp; Rename tmp b])) s in
  (forall q, q <> b -> q <> tmp -> lookup st q = lookup s q) /\
  (lookup st b = lookup s b \/ lookup st b = Some na).
Proof.
  intros Hne Hat Ha Hpre. cbv zeta.
  set (P := fun st : fs =>
    (forall q, q <> b -> q <> tmp -> lookup st q = lookup s q) /\
    (lookup st b = lookup s b \/ lookup st b = Some na)).
  assert (Hfr : forall st, (forall q, q <> tmp -> lookup st q = lookup s q) -> P st)
    by (intros st F; split; [intros q _ Hq; now apply F|left; apply F; congruence]).
  (* from any state that agrees with s outside tmp, Link; Rename keeps P at every prefix *)
  assert (Htail : forall s1, (forall q, q <> tmp -> lookup s1 q = lookup s q) ->
                  all_prefixes P [Link a tmp; Rename tmp b] s1).
  { intros s1 F1. apply all_prefixes_cons; [now apply Hfr|]. intros s2 Hl. cbn in Hl.
    rewrite (F1 a Hat), Ha in Hl. destruct (is_file_node na) eqn:Hf; [|discriminate].
    cbn in Hl. destruct (can_create s1 tmp); [|discriminate]. injection Hl as <-.
    assert (F2 : forall q, q <> tmp -> lookup (set_node s1 tmp na) q = lookup s q)
      by (intros q Hq; rewrite lookup_set_other by exact Hq; now apply F1).
    apply all_prefixes_cons; [now apply Hfr|]. intros s3 Hr. apply all_prefixes_nil.
    assert (Hnd : is_dir_node na = false) by (destruct na; try discriminate; reflexivity).
    destruct (rename_nondir_cases _ _ _ _ _ Hr (lookup_set_same s1 tmp na) Hnd Hne) as [[-> _]|(Hb & _ & F3)].
    - now apply Hfr.
    - split; [|now right]. intros q Hq1 Hq2. rewrite F3 by assumption. now apply F2. }
  destruct (run_firstn_app pre [Link a tmp; Rename tmp b] k s) as [[_ ->]|[_ ->]].
  - apply Hfr. intros q Hq. now apply Hpre.
  - destruct (run_opt pre s) as [s1|] eqn:E.
    + apply Htail. intros q Hq. rewrite <- (run_opt_run _ _ _ E), <- (firstn_all pre). now apply Hpre.
    + apply Hfr. intros q Hq. rewrite <- (firstn_all pre). now apply Hpre.
Qed.

(* ensure_perms of an existing directory: lchown (if [chown]), then utime (if [ot] is set).
   Between the two the directory has its new owner and still its old mtime; its mode never
   changes: the one allowed intermediate state *)
Lemma owner_then_mtime_crash cp s k m u g t (chown : bool) ou og (ot : option Z) :
  lookup s cp = Some (Dir m u g t) ->
  let pick (o : option N) old := match o with Some v => v | None => old end in
  let st := run (firstn k ((if chown then [Chown cp ou og] else [])
                           ++ match ot with Some t1 => [Utime cp t1] | None => [] end)) s in
  (forall q, q <> cp -> lookup st q = lookup s q) /\
  exists u' g' t', lookup st cp = Some (Dir m u' g' t') /\
    (t' = t \/ (Some t' = ot /\ u' = pick ou u /\ g' = pick og g) \/ (Some t' = ot /\ u' = u /\ g' = g)).
Proof.
  intros Hd pick. cbv zeta.
  set (P := fun st : fs =>
    (forall q, q <> cp -> lookup st q = lookup s q) /\
    exists u' g' t', lookup st cp = Some (Dir m u' g' t') /\
      (t' = t \/ (Some t' = ot /\ u' = pick ou u /\ g' = pick og g) \/ (Some t' = ot /\ u' = u /\ g' = g))).
  assert (P0 : P s) by (split; [reflexivity|exists u, g, t; split; [exact Hd|now left]]).
  assert (Hut : forall s1 u1 g1, (forall q, q <> cp -> lookup s1 q = lookup s q) ->
            lookup s1 cp = Some (Dir m u1 g1 t) ->
            (u1 = u /\ g1 = g \/ u1 = pick ou u /\ g1 = pick og g) ->
            all_prefixes P (match ot with Some t1 => [Utime cp t1] | None => [] end) s1).
  { intros s1 u1 g1 F1 H1 Hug.
    assert (P1 : P s1) by (split; [exact F1|exists u1, g1, t; split; [exact H1|now left]]).
    destruct ot as [t1|]; [|now apply all_prefixes_nil].
    apply all_prefixes_cons; [exact P1|]. intros s2 Hop. apply all_prefixes_nil.
    cbn in Hop. rewrite H1 in Hop. cbn in Hop. unfold update in Hop. rewrite H1 in Hop. cbn in Hop.
    injection Hop as <-. split.
    - intros q Hq. rewrite lookup_set_other by exact Hq. now apply F1.
    - exists u1, g1, t1. rewrite lookup_set_same. split; [reflexivity|].
      destruct Hug as [[-> ->]|[-> ->]]; [right; right|right; left]; repeat split. }
  destruct chown; cbn [app].
  - apply all_prefixes_cons; [exact P0|]. intros s1 Hop.
    cbn in Hop. unfold update in Hop. rewrite Hd in Hop. cbn in Hop. injection Hop as <-.
    eapply Hut; [intros q Hq; now apply lookup_set_other|apply lookup_set_same|now right].
  - eapply Hut; eauto.
Qed.

(* [Loc Q ops s]: every crash state of [ops] from [s] is a crash state of a single block
   [blk] with [Q sb blk], started from a state [sb] that is itself a crash state of [ops]
   (a boundary reached after whole blocks). *)
Definition Loc (Q : fs -> list op -> Prop) (ops : list op) (s : fs) : Prop :=
  forall k, exists sb blk k' j,
    Q sb blk /\ run (firstn k ops) s = run (firstn k' blk) sb /\ sb = run (firstn j ops) s.

Lemma Loc_single (Q : fs -> list op -> Prop) ops s : Q s ops -> Loc Q ops s.
Proof. intros H k. exists s, ops, k, 0. repeat split; auto. Qed.

Lemma Loc_app (Q : fs -> list op -> Prop) a b s :
  Loc Q a s -> (forall s', run_opt a s = Some s' -> Loc Q b s') -> Loc Q (a ++ b) s.
Proof.
  intros Ha Hb k.
  assert (Hshort : forall k0, k0 <= length a -> exists sb blk k' j,
            Q sb blk /\ run (firstn k0 a) s = run (firstn k' blk) sb /\ sb = run (firstn j (a ++ b)) s).
  { intros k0 Hk0. destruct (Ha k0) as (sb & blk & k' & j & HQ & Hrun & Hsb).
    exists sb, blk, k', (Nat.min j (length a)). repeat split; auto.
    rewrite firstn_app_le by lia. rewrite Hsb. f_equal.
    destruct (Nat.le_gt_cases j (length a)).
    - now rewrite Nat.min_l by lia.
    - rewrite Nat.min_r by lia. rewrite firstn_all. now rewrite firstn_all2 by lia. }
  destruct (run_firstn_app a b k s) as [[Hk ->]|[Hk ->]]; [now apply Hshort|].
  destruct (run_opt a s) as [s'|] eqn:E.
  - destruct (Hb s' eq_refl (k - length a)) as (sb & blk & k' & j & HQ & Hrun & Hsb).
    exists sb, blk, k', (length a + j). repeat split; auto.
    rewrite Hsb. rewrite firstn_app. rewrite (firstn_all2 a) by lia.
    replace (length a + j - length a) with j by lia. rewrite run_app, E. reflexivity.
  - replace (run a s) with (run (firstn (length a) a) s) by now rewrite firstn_all.
    apply Hshort. lia.
Qed.

Inductive step_block (i : minput) : fs -> list op -> Prop :=
| SB_offset s : step_block i s (fst (offset_ops (i_umask i) s (i_offset i)))
| SB_dir s x : In x (cset_of i) -> is_kdir x = true ->
    step_block i s (fst (dir_step (i_umask i) s x))
| SB_nondir s merged x : In x (cset_of i) -> is_kdir x = false ->
    step_block i s (fst (fst (nondir_step (i_umask i) s merged x)))
| SB_nil s : step_block i s [].

Lemma dirs_phase_loc i : forall ds s,
  (forall x, In x ds -> In x (cset_of i) /\ is_kdir x = true) ->
  Loc (step_block i) (fst (fst (dirs_phase (i_umask i) s ds))) s.
Proof.
  induction ds as [|x r IH]; intros s Hin; cbn [dirs_phase].
  - cbn. apply Loc_single. constructor.
  - destruct (dir_step (i_umask i) s x) as [ops err] eqn:Ed.
    assert (Hb : step_block i s ops).
    { replace ops with (fst (dir_step (i_umask i) s x)) by now rewrite Ed.
      apply SB_dir; apply Hin; now left. }
    destruct err as [e|]; cbn [fst].
    + now apply Loc_single.
    + destruct (dirs_phase (i_umask i) (run ops s) r) as [[ops2 s2] err2] eqn:Ep. cbn [fst].
      apply Loc_app; [now apply Loc_single|].
      intros s' Hs'. apply run_opt_run in Hs'. subst s'.
      specialize (IH (run ops s)). rewrite Ep in IH. apply IH. intros y Hy. apply Hin. now right.
Qed.

Lemma nondirs_phase_loc i : forall xs s merged,
  (forall x, In x xs -> In x (cset_of i) /\ is_kdir x = false) ->
  Loc (step_block i) (fst (fst (nondirs_phase (i_umask i) s merged xs))) s.
Proof.
  induction xs as [|x r IH]; intros s merged Hin; cbn [nondirs_phase].
  - cbn. apply Loc_single. constructor.
  - destruct (nondir_step (i_umask i) s merged x) as [[ops err] merged'] eqn:Ed.
    assert (Hb : step_block i s ops).
    { replace ops with (fst (fst (nondir_step (i_umask i) s merged x))) by now rewrite Ed.
      apply SB_nondir; apply Hin; now left. }
    destruct err as [e|]; cbn [fst].
    + now apply Loc_single.
    + destruct (nondirs_phase (i_umask i) (run ops s) merged' r) as [[ops2 s2] err2] eqn:Ep. cbn [fst].
      apply Loc_app; [now apply Loc_single|].
      intros s' Hs'. apply run_opt_run in Hs'. subst s'.
      specialize (IH (run ops s) merged'). rewrite Ep in IH. apply IH. intros y Hy. apply Hin. now right.
Qed.

Lemma merge_loc i : Loc (step_block i) (merge_ops i) (i_fs i).
Proof.
  unfold merge_ops, merge.
  destruct (offset_ops (i_umask i) (i_fs i) (i_offset i)) as [ops0 err0] eqn:E0.
  assert (H0 : step_block i (i_fs i) ops0).
  { replace ops0 with (fst (offset_ops (i_umask i) (i_fs i) (i_offset i))) by now rewrite E0. constructor. }
  destruct err0 as [e|]; cbn [fst]; [now apply Loc_single|].
  fold (cset_of i).
  destruct (dirs_phase (i_umask i) (run ops0 (i_fs i)) (sort_entries (filter is_kdir (cset_of i))))
    as [[ops1 s2] err1] eqn:E1.
  assert (H1 : Loc (step_block i) ops1 (run ops0 (i_fs i))).
  { pose proof (dirs_phase_loc i (sort_entries (filter is_kdir (cset_of i))) (run ops0 (i_fs i))) as H.
    rewrite E1 in H. apply H. intros x Hx. apply (proj1 (In_sort_entries_iff _ _)) in Hx. apply filter_In in Hx. exact Hx. }
  destruct err1 as [e|]; cbn [fst].
  - apply Loc_app; [now apply Loc_single|]. intros s' Hs'. apply run_opt_run in Hs'. now subst s'.
  - destruct (nondirs_phase (i_umask i) s2 [] (filter (fun x => negb (is_kdir x)) (cset_of i)))
      as [[ops2 s3] err2] eqn:E2. cbn [fst].
    apply Loc_app; [now apply Loc_single|]. intros s' Hs'. apply run_opt_run in Hs'. subst s'.
    apply Loc_app; [exact H1|]. intros s' Hs'.
    rewrite <- (dirs_phase_state _ _ _ _ _ E1 _ Hs').
    pose proof (nondirs_phase_loc i (filter (fun x => negb (is_kdir x)) (cset_of i)) s2 []) as H.
    rewrite E2 in H. apply H. intros x Hx. apply filter_In in Hx. destruct Hx as [Hx Hk].
    split; [exact Hx|]. now destruct (is_kdir x).
Qed.
