(* Proofs_C42.v — chains of chunks ([Walk]), the invariant of the line loop ([Inv]), the file order. *)
From Coq Require Import List ZArith Lia Sorting.Sorted Sorting.Permutation.
Import ListNotations.
From Verif Require Import Base.Val Base.Lists C42.Model_C42 C42.Spec_C42.

Lemma nth_error_lt {A} (l : list A) i x : nth_error l i = Some x -> i < length l.
Proof. intro H. apply nth_error_Some. congruence. Qed.

Lemma lookup_app k m k0 v :
  lookup k (m ++ [(k0, v)]) =
  match lookup k m with Some x => Some x | None => if str_eqb k k0 then Some v else None end.
Proof.
  induction m as [|[k1 v1] m IH]; cbn.
  - reflexivity.
  - destruct (str_eqb k k1); [reflexivity | exact IH].
Qed.

Lemma lookup_set_tail k k0 t m :
  lookup k (set_tail k0 t m) =
  if str_eqb k k0 then match lookup k0 m with Some (h, _) => Some (h, t) | None => None end
  else lookup k m.
Proof.
  induction m as [|[k1 [h1 t1]] m IH]; cbn.
  - destruct (str_eqb k k0); reflexivity.
  - destruct (str_eqb_spec k0 k1) as [<-|N]; cbn.
    + destruct (str_eqb k k0); reflexivity.
    + destruct (str_eqb_spec k k1) as [->|]; [|exact IH].
      destruct (str_eqb_spec k1 k0); [congruence | reflexivity].
Qed.

Lemma mem_str_In k l : mem_str k l = true <-> In k l.
Proof. apply existsb_str_In. Qed.

Lemma remove_str_In k x l : In x (remove_str k l) <-> In x l /\ x <> k.
Proof.
  unfold remove_str. rewrite filter_In. destruct (str_eqb_spec k x); cbn; intuition congruence.
Qed.

Lemma length_upd h j x : length (upd h j x) = length h.
Proof. revert j; induction h as [|d h IH]; intros [|j]; cbn; auto. Qed.

Lemma nth_error_upd_eq h j x d :
  nth_error h j = Some d -> nth_error (upd h j x) j = Some (d ++ x).
Proof.
  revert j; induction h as [|d0 h IH]; intros [|j]; cbn; intro H; try discriminate.
  - injection H as ->. reflexivity.
  - apply IH. exact H.
Qed.

Lemma nth_error_upd_neq h j x i : i <> j -> nth_error (upd h j x) i = nth_error h i.
Proof.
  revert j i; induction h as [|d0 h IH]; intros [|j] [|i] H; cbn; try reflexivity.
  - contradiction.
  - apply IH. congruence.
Qed.

Lemma upd_two h j a b : upd h j [a; b] = upd (upd h j [a]) j [b].
Proof.
  revert j; induction h as [|d h IH]; intros [|j]; cbn; try reflexivity.
  - rewrite <- app_assoc. reflexivity.
  - rewrite IH. reflexivity.
Qed.

Lemma nth_error_two (h : heap) :
  nth_error (h ++ [[]; []]) (length h) = Some [] /\ nth_error (h ++ [[]; []]) (S (length h)) = Some [].
Proof.
  split; rewrite nth_error_app2 by lia.
  - rewrite Nat.sub_diag. reflexivity.
  - replace (S (length h) - length h) with 1 by lia. reflexivity.
Qed.

Lemma flat_map_cmds (f : nat -> list cmd) cs :
  flat_map (fun it => match it with ICmd c => [c] | IRef j => f j end) (map ICmd cs) = cs.
Proof. induction cs as [|c cs IH]; cbn; [reflexivity | rewrite IH; reflexivity]. Qed.

Lemma open_not_ref cs cs' j : map ICmd cs <> map ICmd cs' ++ [IRef j].
Proof.
  intro H. assert (I : In (IRef j) (map ICmd cs)).
  { rewrite H. apply in_or_app. right. left. reflexivity. }
  apply in_map_iff in I as [c [Hc _]]. discriminate.
Qed.

(* The chain of chunks hanging off a deque: [Walk h i out e] — starting at deque i, the commands
   met are [out] and the chain ends in the deque e, which holds no reference (it is "open"). *)
Inductive Walk (h : heap) : nat -> list cmd -> nat -> Prop :=
| W_open i cs : nth_error h i = Some (map ICmd cs) -> Walk h i cs i
| W_ref i cs j out e :
    nth_error h i = Some (map ICmd cs ++ [IRef j]) -> i < j -> Walk h j out e ->
    Walk h i (cs ++ out) e.

Lemma Walk_le h i out e : Walk h i out e -> i <= e.
Proof. induction 1; lia. Qed.

Lemma Walk_lt h i out e : Walk h i out e -> i < length h.
Proof. destruct 1 as [i cs H | i cs j out e H _ _]; exact (nth_error_lt _ _ _ H). Qed.

(* references point to younger deques, so fuel [length h - i] suffices for flattening *)
Lemma Walk_flat h i out e :
  Walk h i out e -> forall n, length h - i <= n -> flat n h i = out.
Proof.
  induction 1 as [i cs H | i cs j out e H Hij W IH]; intros n Hn;
    pose proof (nth_error_lt _ _ _ H); (destruct n as [|n]; [lia|]);
    cbn [flat]; rewrite (nth_error_nth _ _ _ H).
  - apply flat_map_cmds.
  - rewrite flat_map_app, flat_map_cmds. cbn. rewrite app_nil_r, (IH n) by lia. reflexivity.
Qed.

Lemma Walk_result h i out e : Walk h i out e -> flat (S (length h)) h i = out.
Proof. intro W. apply (Walk_flat _ _ _ _ W). lia. Qed.

Lemma Walk_app h x i out e : Walk h i out e -> Walk (h ++ x) i out e.
Proof.
  induction 1 as [i cs H | i cs j out e H Hij W IH].
  - apply W_open. rewrite nth_error_app1; [exact H | exact (nth_error_lt _ _ _ H)].
  - eapply W_ref; [|exact Hij|exact IH].
    rewrite nth_error_app1; [exact H | exact (nth_error_lt _ _ _ H)].
Qed.

Lemma Walk_upd_other h i out e :
  Walk h i out e -> forall j cs x, nth_error h j = Some (map ICmd cs) -> e <> j ->
  Walk (upd h j x) i out e.
Proof.
  induction 1 as [i cs0 H | i cs0 j0 out e H Hij W IH]; intros j cs x Hj Ne.
  - apply W_open. rewrite nth_error_upd_neq by exact Ne. exact H.
  - eapply W_ref; [|exact Hij|eapply IH; eassumption].
    rewrite nth_error_upd_neq; [exact H|].
    intros ->. rewrite H in Hj. injection Hj as Hj. symmetry in Hj.
    exact (open_not_ref _ _ _ Hj).
Qed.

Lemma Walk_upd_cmd h i out e c :
  Walk h i out e -> Walk (upd h e [ICmd c]) i (out ++ [c]) e.
Proof.
  induction 1 as [i cs H | i cs j out e H Hij W IH].
  - apply W_open. rewrite (nth_error_upd_eq _ _ _ _ H), map_app. reflexivity.
  - rewrite <- app_assoc. eapply W_ref; [|exact Hij|exact IH].
    rewrite nth_error_upd_neq; [exact H|]. apply Walk_le in W. lia.
Qed.

Lemma Walk_upd_ref h i out e d :
  Walk h i out e -> e < d -> nth_error h d = Some [] -> Walk (upd h e [IRef d]) i out d.
Proof.
  induction 1 as [i cs H | i cs j out e H Hij W IH]; intros Hd Hn.
  - rewrite <- (app_nil_r cs). eapply W_ref.
    + apply nth_error_upd_eq. exact H.
    + exact Hd.
    + apply (W_open _ d []). rewrite nth_error_upd_neq by lia. exact Hn.
  - eapply W_ref; [|exact Hij|apply IH; assumption].
    rewrite nth_error_upd_neq; [exact H|]. apply Walk_le in W. lia.
Qed.

(* [sp k] is the state of the sequential reference for the package that started as k.
   inv_tail: the tail of every name is a deque without reference, so what is appended to it ends a chain;
   inv_inj: no two names share a tail, so appending to the tail of one name extends only the chains of
   the packages that carry that name; inv_pk: the chain from the head of k spells the commands of k
   and ends in the tail of the name k carries now; inv_none: names never seen are untouched;
   inv_moved: nobody carries a name that is in the `moved` table. *)
Record Inv (s : st) (sp : str -> list cmd * str) : Prop := {
  inv_tail : forall k hd tl, lookup k (mods s) = Some (hd, tl) ->
             exists cs, nth_error (hp s) tl = Some (map ICmd cs);
  inv_inj : forall x y hx hy t, lookup x (mods s) = Some (hx, t) -> lookup y (mods s) = Some (hy, t) -> x = y;
  inv_pk : forall k hd tl, lookup k (mods s) = Some (hd, tl) ->
           exists hd' tl', lookup (snd (sp k)) (mods s) = Some (hd', tl')
                           /\ Walk (hp s) hd (fst (sp k)) tl';
  inv_none : forall k, lookup k (mods s) = None -> sp k = ([], k);
  inv_moved : forall x, In x (moved s) -> forall k, snd (sp k) <> x
}.

Lemma Inv_ext s sp sp' : (forall k, sp k = sp' k) -> Inv s sp -> Inv s sp'.
Proof.
  intros E [A B C D F]. split; intros.
  - eapply A; eassumption.
  - eapply B; eassumption.
  - rewrite <- E. eapply C; eassumption.
  - rewrite <- E. apply D; assumption.
  - rewrite <- E. apply F; assumption.
Qed.

Lemma Inv_init : Inv init (fun k => ([], k)).
Proof. split; cbn; intros; try discriminate; try reflexivity; contradiction. Qed.

Lemma inv_tail_lt s sp k hd tl :
  Inv s sp -> lookup k (mods s) = Some (hd, tl) -> tl < length (hp s).
Proof. intros I H. destruct (inv_tail _ _ I _ _ _ H) as [cs Hc]. exact (nth_error_lt _ _ _ Hc). Qed.

Lemma Inv_touch x s sp : Inv s sp -> Inv (touch x s) sp.
Proof.
  intros I. unfold touch. destruct (lookup x (mods s)) as [p|] eqn:Ex; [exact I|].
  pose proof (fun k hd tl => inv_tail_lt s sp k hd tl I) as Old. destruct I as [A B C D F].
  set (d := length (hp s)).
  assert (L : forall k hd tl, lookup k (mods s ++ [(x, (d, d))]) = Some (hd, tl) ->
              lookup k (mods s) = Some (hd, tl) \/ k = x /\ hd = d /\ tl = d).
  { intros k hd tl. rewrite lookup_app. destruct (lookup k (mods s)); [auto|].
    destruct (str_eqb_spec k x); [|discriminate]. intro H. injection H as <- <-. auto. }
  assert (Hd : nth_error (hp s ++ [[]]) d = Some []).
  { rewrite nth_error_app2, Nat.sub_diag by apply le_n. reflexivity. }
  split; cbn [hp mods moved]; try assumption.
  - intros k hd tl H. destruct (L _ _ _ H) as [H' | [_ [_ ->]]]; [|exists []; exact Hd].
    destruct (A _ _ _ H') as [cs Hc]. exists cs.
    rewrite nth_error_app1; [exact Hc | exact (nth_error_lt _ _ _ Hc)].
  - intros a b ha hb t Ha Hb.
    destruct (L _ _ _ Ha) as [Ha' | [-> [_ ->]]]; destruct (L _ _ _ Hb) as [Hb' | [-> [_ Et]]].
    + eapply B; eassumption.
    + apply Old in Ha'. lia.
    + apply Old in Hb'. lia.
    + reflexivity.
  - intros k hd tl H. destruct (L _ _ _ H) as [H' | [-> [-> ->]]].
    + destruct (C _ _ _ H') as [hd' [tl' [L' W]]]. exists hd', tl'.
      split; [rewrite lookup_app, L'; reflexivity | apply Walk_app; exact W].
    + rewrite (D _ Ex). exists d, d. split.
      * cbn. rewrite lookup_app, Ex, str_eqb_refl. reflexivity.
      * apply (W_open _ _ []). exact Hd.
  - intros k H. rewrite lookup_app in H. destruct (lookup k (mods s)) eqn:Ek; [discriminate|].
    apply D. exact Ek.
Qed.

Lemma touch_lookup x s : exists hd tl, lookup x (mods (touch x s)) = Some (hd, tl).
Proof.
  unfold touch. destruct (lookup x (mods s)) as [[hd tl]|] eqn:E.
  - exists hd, tl. exact E.
  - cbn. rewrite lookup_app, E, str_eqb_refl. eauto.
Qed.

Lemma touch_keeps x y s hd tl :
  lookup y (mods s) = Some (hd, tl) -> lookup y (mods (touch x s)) = Some (hd, tl).
Proof.
  intro H. unfold touch. destruct (lookup x (mods s)); [exact H|]. cbn. rewrite lookup_app, H. reflexivity.
Qed.

Definition sp_step (sp : str -> list cmd * str) (o : op) : str -> list cmd * str :=
  fun k => seq_step (sp k) o.

Definition op_src (o : op) : option str :=
  match o with OMove s _ _ => Some s | OSlot s _ => Some s | OSkip => None end.

(* a line whose source was moved away (and not repopulated since) concerns no package *)
Lemma blocked_step s sp o src :
  Inv s sp -> op_src o = Some src -> In src (moved s) -> forall k, sp k = sp_step sp o k.
Proof.
  intros I Ho H k. unfold sp_step, seq_step. pose proof (inv_moved _ _ I _ H k) as Nk.
  destruct (sp k) as [out cur]. cbn in Nk.
  destruct o; try discriminate; injection Ho as ->;
    (destruct (str_eqb_spec src cur); [congruence | reflexivity]).
Qed.

Lemma Inv_step_slot s sp src c :
  Inv s sp -> Inv (step s (OSlot src c)) (sp_step sp (OSlot src c)).
Proof.
  intro I0. cbn [step]. destruct (mem_str src (moved s)) eqn:Em.
  - apply mem_str_In in Em. eapply Inv_ext; [|exact I0]. exact (blocked_step _ _ (OSlot src c) _ I0 eq_refl Em).
  - pose proof (Inv_touch src _ _ I0) as I. destruct (touch_lookup src s) as [hs [ts Ls]].
    set (s1 := touch src s) in *. unfold tail_of. rewrite Ls.
    destruct I as [A B C D F]. destruct (A _ _ _ Ls) as [css Hts].
    split; cbn [hp mods moved]; try assumption.
    + intros k hd tl H. destruct (Nat.eq_dec tl ts) as [->|Ne].
      * exists (css ++ [c]). rewrite (nth_error_upd_eq _ _ _ _ Hts), map_app. reflexivity.
      * rewrite nth_error_upd_neq by exact Ne. eapply A; eassumption.
    + intros k hd tl H. destruct (C _ _ _ H) as [hd' [tl' [L W]]]. unfold sp_step, seq_step.
      destruct (sp k) as [out cur]. cbn [fst snd] in *.
      destruct (str_eqb_spec src cur) as [<-|N]; cbn [fst snd].
      * rewrite Ls in L. injection L as <- <-.
        exists hs, ts. split; [exact Ls | apply Walk_upd_cmd; exact W].
      * exists hd', tl'. split; [exact L|].
        eapply Walk_upd_other; [exact W | exact Hts |].
        intros ->. apply N. eapply B; eassumption.
    + intros k H. unfold sp_step. rewrite (D _ H). cbn.
      destruct (str_eqb_spec src k); [congruence | reflexivity].
    + intros x H k. unfold sp_step, seq_step. specialize (F x H k).
      destruct (sp k) as [out cur]. destruct (str_eqb src cur); exact F.
Qed.

(* Both names are bound; two deques n and d = S n are allocated; the command and a reference to d go
   to the tail of src, which starts again at n; the tail of trg (n, in a move of a name to itself)
   gets a reference to d, and d becomes the tail of trg. *)
Lemma Inv_step_move s sp src trg c :
  Inv s sp -> Inv (step s (OMove src trg c)) (sp_step sp (OMove src trg c)).
Proof.
  intro I0. cbn [step]. destruct (mem_str src (moved s)) eqn:Em.
  - apply mem_str_In in Em. eapply Inv_ext; [|exact I0]. exact (blocked_step _ _ (OMove src trg c) _ I0 eq_refl Em).
  - pose proof (Inv_touch trg _ _ (Inv_touch src _ _ I0)) as I.
    destruct (touch_lookup src s) as [hs [ts Ls]]. apply (touch_keeps trg) in Ls.
    destruct (touch_lookup trg (touch src s)) as [ht [tt Lt]].
    set (s2 := touch trg (touch src s)) in *. clearbody s2. clear I0 Em.
    set (n := length (hp s2)).
    pose proof (fun k hd tl => inv_tail_lt s2 sp k hd tl I) as Old. fold n in Old.
    destruct I as [A B C D F].
    pose proof (Old _ _ _ Ls) as Lts. pose proof (Old _ _ _ Lt) as Ltt.
    destruct (A _ _ _ Ls) as [css Hts].
    destruct (nth_error_two (hp s2)) as [Hn Hd]. fold n in Hn, Hd.
    set (h3 := hp s2 ++ [[]; []]) in *.
    assert (H3 : forall i, i < n -> nth_error h3 i = nth_error (hp s2) i).
    { intros i Hi. apply nth_error_app1. exact Hi. }
    unfold tail_of at 1. rewrite Ls.
    set (h4 := upd h3 ts [ICmd c; IRef (S n)]).
    set (m3 := set_tail src n (mods s2)).
    assert (L3 : forall k, lookup k m3 = if str_eqb k src then Some (hs, n) else lookup k (mods s2)).
    { intro k. unfold m3. rewrite lookup_set_tail, Ls. reflexivity. }
    (* the tail of trg at the time its deque receives the reference *)
    assert (T : exists ht' tt', lookup trg m3 = Some (ht', tt')
              /\ (exists t0, lookup trg (mods s2) = Some (ht', t0))
              /\ tt' <> ts /\ tt' < S n
              /\ (exists cs', nth_error h4 tt' = Some (map ICmd cs'))
              /\ (trg <> src -> tt' = tt)
              /\ (forall k h t, k <> trg -> k <> src -> lookup k (mods s2) = Some (h, t) -> t <> tt')).
    { rewrite L3. destruct (str_eqb_spec trg src) as [->|Nts].
      - exists hs, n. split; [reflexivity|]. split; [eauto|].
        split; [lia|]. split; [lia|]. split.
        + exists []. unfold h4. rewrite nth_error_upd_neq by lia. exact Hn.
        + split; [congruence|]. intros k h t _ _ Hk. apply Old in Hk. lia.
      - exists ht, tt. split; [exact Lt|]. split; [eauto|].
        assert (Ntt : tt <> ts) by (intros ->; apply Nts; eapply B; eassumption).
        split; [exact Ntt|]. split; [lia|]. split.
        + destruct (A _ _ _ Lt) as [cst Hct]. exists cst. unfold h4.
          rewrite nth_error_upd_neq by exact Ntt. rewrite H3 by exact Ltt. exact Hct.
        + split; [reflexivity|]. intros k h t Nk _ Hk ->. apply Nk. eapply B; eassumption. }
    destruct T as [ht' [tt' [Lt3 [[t0 Lt0] [Ntts [Ltt' [[cs' Htt'] [Ptt Pother]]]]]]]].
    unfold tail_of. rewrite Lt3.
    set (h5 := upd h4 tt' [IRef (S n)]).
    set (m4 := set_tail trg (S n) m3).
    assert (L4 : forall k, lookup k m4 = if str_eqb k trg then Some (ht', S n) else lookup k m3).
    { intro k. unfold m4. rewrite lookup_set_tail, Lt3. reflexivity. }
    (* every entry of the new mods, classified *)
    assert (Cl : forall k hd tl, lookup k m4 = Some (hd, tl) ->
              (k = trg /\ tl = S n /\ hd = ht')
              \/ (k <> trg /\ k = src /\ tl = n /\ hd = hs)
              \/ (k <> trg /\ k <> src /\ lookup k (mods s2) = Some (hd, tl) /\ tl < n)).
    { intros k hd tl H. rewrite L4 in H. destruct (str_eqb_spec k trg) as [Ek|Nk].
      - injection H as <- <-. left. auto.
      - rewrite L3 in H. destruct (str_eqb_spec k src) as [Ek|Nk'].
        + injection H as <- <-. right. left. auto.
        + right. right. repeat split; try assumption. eapply Old; eassumption. }
    assert (Hd4 : nth_error h4 (S n) = Some []).
    { unfold h4. rewrite nth_error_upd_neq by lia. exact Hd. }
    assert (Hts3 : nth_error h3 ts = Some (map ICmd css)) by (rewrite H3 by exact Lts; exact Hts).
    split; cbn [hp mods moved]; fold h3 h4 m3 h5 m4.
    + intros k hd tl H. destruct (Cl _ _ _ H) as [[-> [-> _]] | [[Nk [-> [-> _]]] | [Nk [Nk' [Hk Hl]]]]].
      * exists []. unfold h5. rewrite nth_error_upd_neq by lia. exact Hd4.
      * exists []. unfold h5, h4. rewrite Ptt in * by congruence.
        rewrite !nth_error_upd_neq by lia. exact Hn.
      * destruct (A _ _ _ Hk) as [cs Hc]. exists cs. unfold h5, h4.
        rewrite nth_error_upd_neq by (eapply Pother; eassumption).
        rewrite nth_error_upd_neq by (intros ->; apply Nk'; eapply B; eassumption).
        rewrite H3 by exact Hl. exact Hc.
    + intros x y hx hy t Hx Hy.
      destruct (Cl _ _ _ Hx) as [[-> [-> _]] | [[Nx [-> [-> _]]] | [Nx [Nx' [Kx Lx]]]]];
      destruct (Cl _ _ _ Hy) as [[-> [Ey _]] | [[Ny [-> [Ey _]]] | [Ny [Ny' [Ky Ly]]]]];
        try reflexivity; try lia.
      eapply B; eassumption.
    + (* inv_pk *)
      intros k hd tl H.
      assert (Hk : exists tl0, lookup k (mods s2) = Some (hd, tl0)).
      { destruct (Cl _ _ _ H) as [[-> [_ ->]] | [[_ [-> [_ ->]]] | [_ [_ [Hk _]]]]]; eauto. }
      destruct Hk as [tl0 Hk].
      destruct (C _ _ _ Hk) as [hd' [tl' [L W]]]. unfold sp_step, seq_step.
      destruct (sp k) as [out cur]. cbn [fst snd] in *.
      apply (Walk_app _ [[]; []]) in W. fold h3 in W.
      destruct (str_eqb_spec src cur) as [<-|Nsc]; cbn [fst snd].
      * rewrite Ls in L. injection L as <- <-.
        exists ht', (S n). split; [rewrite L4, str_eqb_refl; reflexivity|].
        unfold h5. eapply Walk_upd_other; [| exact Htt' | lia].
        unfold h4. rewrite upd_two. apply Walk_upd_ref; [apply Walk_upd_cmd; exact W | lia |].
        rewrite nth_error_upd_neq by lia. exact Hd.
      * assert (Ntl : tl' <> ts) by (intros ->; apply Nsc; eapply B; eassumption).
        assert (W4 : Walk h4 hd out tl') by (unfold h4; eapply Walk_upd_other; eassumption).
        destruct (str_eqb_spec cur trg) as [->|Nct].
        -- rewrite Lt in L. injection L as <- <-.
           exists ht', (S n). split; [rewrite L4, str_eqb_refl; reflexivity|].
           unfold h5. rewrite Ptt by congruence. apply Walk_upd_ref; [exact W4 | lia | exact Hd4].
        -- exists hd', tl'. split.
           ++ rewrite L4, L3. destruct (str_eqb_spec cur trg); [contradiction|].
              destruct (str_eqb_spec cur src); [congruence | exact L].
           ++ unfold h5. eapply Walk_upd_other; [exact W4 | exact Htt' |].
              eapply Pother; [exact Nct | congruence | exact L].
    + intros k H. rewrite L4 in H. destruct (str_eqb_spec k trg); [discriminate|].
      rewrite L3 in H. destruct (str_eqb_spec k src); [discriminate|].
      unfold sp_step. rewrite (D _ H). cbn. destruct (str_eqb_spec src k); [congruence | reflexivity].
    + intros x Hx k. apply remove_str_In in Hx as [Hx Nx]. unfold sp_step, seq_step.
      assert (Fk : In x (moved s2) -> snd (sp k) <> x) by (intro Hm; exact (F x Hm k)).
      destruct (sp k) as [out cur]. destruct (str_eqb_spec src cur); cbn [snd] in *; [congruence|].
      destruct Hx as [<-|Hx]; [congruence | exact (Fk Hx)].
Qed.

Lemma Inv_step s sp o : Inv s sp -> Inv (step s o) (sp_step sp o).
Proof.
  destruct o as [src trg c | src c |].
  - apply Inv_step_move.
  - apply Inv_step_slot.
  - apply Inv_ext. intro k. unfold sp_step, seq_step. destruct (sp k); reflexivity.
Qed.

Lemma Inv_fold ops : forall s sp, Inv s sp ->
  Inv (fold_left step ops s) (fun k => fold_left seq_step ops (sp k)).
Proof.
  induction ops as [|o ops IH]; intros s sp I; cbn [fold_left].
  - exact I.
  - apply (IH _ (sp_step sp o)). apply Inv_step. exact I.
Qed.

Lemma Inv_run ops : Inv (run ops) (fun k => chain_state k ops).
Proof. exact (Inv_fold ops _ _ Inv_init). Qed.

Lemma chain_skip k ops1 ops2 : chain_spec k (ops1 ++ OSkip :: ops2) = chain_spec k (ops1 ++ ops2).
Proof.
  unfold chain_spec, chain_state. rewrite !fold_left_app. cbn [fold_left].
  destruct (fold_left seq_step ops1 ([], k)) as [o c]. reflexivity.
Qed.

Lemma chain_spec_app k ops1 ops2 :
  chain_spec k (ops1 ++ ops2) =
  chain_spec k ops1 ++ chain_spec (current_name k ops1) ops2.
Proof.
  unfold chain_spec, current_name, chain_state. rewrite fold_left_app.
  destruct (fold_left seq_step ops1 ([], k)) as [out cur]. cbn [fst snd].
  rewrite <- (app_nil_r out) at 1. generalize (@nil cmd) as acc.
  revert cur. induction ops2 as [|o ops2 IH]; intros cur acc; cbn [fold_left].
  - reflexivity.
  - destruct o as [s t c | s c |]; cbn [seq_step]; try destruct (str_eqb s cur);
      rewrite <- ?app_assoc; apply IH.
Qed.

Lemma str_leb_total a b : str_leb a b = false -> str_leb b a = true.
Proof.
  revert b; induction a as [|x a IH]; intros [|y b]; cbn; intro H; try discriminate; try reflexivity.
  destruct (N.ltb x y) eqn:L; [discriminate|].
  destruct (N.eqb x y) eqn:E.
  - apply N.eqb_eq in E. subst y. rewrite N.ltb_irrefl, N.eqb_refl. apply IH. exact H.
  - apply N.ltb_ge in L. apply N.eqb_neq in E.
    assert (Lt : (y <? x)%N = true) by (apply N.ltb_lt; lia). rewrite Lt. reflexivity.
Qed.

Lemma str_leb_trans a b c : str_leb a b = true -> str_leb b c = true -> str_leb a c = true.
Proof.
  revert b c; induction a as [|x a IH]; intros [|y b] [|z c]; cbn; intros H1 H2;
    try discriminate; try reflexivity.
  destruct (N.ltb x y) eqn:L1; destruct (N.ltb y z) eqn:L2.
  - apply N.ltb_lt in L1, L2. assert (Lt : (x <? z)%N = true) by (apply N.ltb_lt; lia). rewrite Lt. reflexivity.
  - destruct (N.eqb y z) eqn:E2; [|discriminate]. apply N.eqb_eq in E2. subst z. rewrite L1. reflexivity.
  - destruct (N.eqb x y) eqn:E1; [|discriminate]. apply N.eqb_eq in E1. subst y. rewrite L2. reflexivity.
  - destruct (N.eqb x y) eqn:E1; [|discriminate]. destruct (N.eqb y z) eqn:E2; [|discriminate].
    apply N.eqb_eq in E1, E2. subst y z. rewrite L1, N.eqb_refl. eapply IH; eassumption.
Qed.

Lemma str_leb_antisym a b : str_leb a b = true -> str_leb b a = true -> a = b.
Proof.
  revert b; induction a as [|x a IH]; intros [|y b]; cbn; intros H1 H2; try discriminate; try reflexivity.
  destruct (N.ltb x y) eqn:L1.
  - apply N.ltb_lt in L1. assert (L2 : (y <? x)%N = false) by (apply N.ltb_ge; lia). rewrite L2 in H2.
    destruct (N.eqb y x) eqn:E; [apply N.eqb_eq in E; lia | discriminate].
  - destruct (N.eqb x y) eqn:E; [|discriminate]. apply N.eqb_eq in E. subst y.
    rewrite N.ltb_irrefl, N.eqb_refl in H2. f_equal. apply IH; assumption.
Qed.

Lemma insert_perm k x l : Permutation (insert_by k x l) ((k, x) :: l).
Proof.
  induction l as [|[k' x'] l IH]; cbn.
  - apply Permutation_refl.
  - destruct (str_leb k k').
    + apply Permutation_refl.
    + eapply Permutation_trans; [apply perm_skip; exact IH | apply perm_swap].
Qed.

Lemma insert_sorted k x l : StronglySorted key_le l -> StronglySorted key_le (insert_by k x l).
Proof.
  induction 1 as [|[k' x'] l S IH F]; cbn.
  - constructor; constructor.
  - destruct (str_leb k k') eqn:L.
    + constructor; [constructor; assumption|]. constructor; [exact L|].
      eapply Forall_impl; [|exact F]. intros [k2 x2]. apply str_leb_trans. exact L.
    + constructor; [exact IH|].
      eapply Permutation_Forall; [apply Permutation_sym, insert_perm|].
      constructor; [|exact F]. apply str_leb_total. exact L.
Qed.

Lemma scan_file_order eapi8 files : is_file_order eapi8 files (scan eapi8 files).
Proof.
  split; induction files as [|[name lines] files IH]; cbn; try constructor;
    destruct (file_key eapi8 name) as [k|]; cbn; try exact IH.
  - eapply Permutation_trans; [apply insert_perm | apply perm_skip; exact IH].
  - apply insert_sorted. exact IH.
Qed.

Lemma sorted_perm_unique (l1 l2 : list (str * list str)) :
  StronglySorted key_le l1 -> StronglySorted key_le l2 -> Permutation l1 l2 ->
  (forall a b, In a l1 -> In b l1 -> fst a = fst b -> a = b) -> l1 = l2.
Proof.
  intros S1; revert l2. induction S1 as [|a l1 S1 IH F1]; intros l2 S2 P U.
  - apply Permutation_nil in P. subst. reflexivity.
  - destruct S2 as [|b l2 S2 F2]; [apply Permutation_sym, Permutation_nil in P; discriminate|].
    assert (E : a = b).
    { assert (Ia : In a (b :: l2)) by (eapply Permutation_in; [exact P | left; reflexivity]).
      assert (Ib : In b (a :: l1)) by (eapply Permutation_in; [apply Permutation_sym; exact P | left; reflexivity]).
      destruct Ia as [<- | Ia]; [reflexivity|]. pose proof Ib as Ib'. destruct Ib as [<- | Ib]; [reflexivity|].
      rewrite Forall_forall in F1, F2.
      apply U; [left; reflexivity | exact Ib' | apply str_leb_antisym; [apply F1, Ib | apply F2, Ia]]. }
    subst b. f_equal. apply IH; [exact S2 | eapply Permutation_cons_inv; exact P |].
    intros x y Hx Hy. apply U; right; assumption.
Qed.

Lemma keyed_perm eapi8 f1 f2 : Permutation f1 f2 -> Permutation (keyed eapi8 f1) (keyed eapi8 f2).
Proof.
  unfold keyed. induction 1; cbn.
  - apply Permutation_refl.
  - apply Permutation_app_head. assumption.
  - rewrite !app_assoc. apply Permutation_app_tail. apply Permutation_app_comm.
  - eapply Permutation_trans; eassumption.
Qed.

Lemma file_order_unique eapi8 files files' o o' :
  Permutation files files' ->
  (forall a b, In a (keyed eapi8 files) -> In b (keyed eapi8 files) -> fst a = fst b -> a = b) ->
  is_file_order eapi8 files o -> is_file_order eapi8 files' o' -> o = o'.
Proof.
  intros P U [P1 S1] [P2 S2]. apply sorted_perm_unique; try assumption.
  - rewrite P1, P2. apply keyed_perm. exact P.
  - intros a b Ha Hb. apply U; eapply Permutation_in; try exact P1; assumption.
Qed.

Local Notation s := s2l.
Local Open Scope bs_scope.
(* quarter files listed out of order; a chain a/p -> a/q -> a/r over three files with a slotmove of
   the intermediate name, a redundant repeat, a malformed line and an incorrectly named file *)
Example ex_chain :
  read_updates false
    [ (s "1Q-2020", [s "slotmove a/q 0 1"; s "move a/p a/q"; s "move a/q"; s "move a/q a/r"]);
      (s "frobnicate", [s "move a/p b/s"]);
      (s "4Q-2019", [s "move a/p a/q"]);
      (s "2Q-2020", [s "slotmove =a/r-1 1 2"]) ] (s "a/p")
  = [CMove (s "a/p") (s "a/q"); CSlot (s "a/q:0") (s "1"); CMove (s "a/q") (s "a/r");
     CSlot (s "=a/r-1:1") (s "2")].
Proof. vm_compute. reflexivity. Qed.

(* a cycle a/p -> a/q -> a/p: the name a/p carries the package again, its later commands count *)
Example ex_cycle :
  map (fun k => length (read_updates false
    [ (s "1Q-2020", [s "move a/p a/q"; s "move a/q a/p"; s "slotmove a/p 0 1"; s "move a/p a/r"]) ] (s k)))
    ["a/p"; "a/q"; "a/r"]
  = [4; 3; 0]%nat.
Proof. vm_compute. reflexivity. Qed.

(* a name that was moved away is reused as a target: the two packages keep separate histories *)
Example ex_reuse :
  map (fun k => read_updates false
    [ (s "1Q-2020", [s "move a/q a/r"; s "move a/p a/q"; s "slotmove a/q 0 1"; s "slotmove a/r 0 2"]) ] (s k))
    ["a/p"; "a/q"]
  = [ [CMove (s "a/p") (s "a/q"); CSlot (s "a/q:0") (s "1")];
      [CMove (s "a/q") (s "a/r"); CSlot (s "a/r:0") (s "2")] ].
Proof. vm_compute. reflexivity. Qed.

(* after a/p -> a/q -> a/p the name a/q is in the `moved` table *)
Example ex_moved_nonempty :
  moved (run (map parse_line [s "move a/p a/q"; s "move a/q a/p"])) = [s "a/q"].
Proof. vm_compute. reflexivity. Qed.

(* lines the parser skips: empty, wrong arity, versioned or slotted atom, bad category, unknown
   command, bad slot *)
Example ex_malformed :
  map parse_line [s ""; s "move a/p"; s "move =a/p-1 a/q"; s "slotmove a/p:0 0 1"; s "move ap a/q";
                  s "frob a/p a/q"; s "slotmove a/p 0 -x"]
  = [OSkip; OSkip; OSkip; OSkip; OSkip; OSkip; OSkip].
Proof. vm_compute. reflexivity. Qed.
