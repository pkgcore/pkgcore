(* Proofs_C07.v — [eq_interchangeable] (equal restrictions have equal hash keys and equal matches, each outside
   its excluded class) with what it needs; the examples tying the model's key tuples to the source. *)
From Coq Require Import List ZArith Bool.
Import ListNotations.
From Verif Require Import Base.Val Base.Lists gen.Tables_C07 C01.Model_C01 C06.Restr C07.Model_C07 C07.Spec_C07.

Definition cfg_fixed : cfg := {| udc_keyed := true |}.
Definition cfg_pinned : cfg := {| udc_keyed := false |}.

(* gen/Tables_C07.v is regenerated from today's source (the __attr_comparison__ and hashed tuples).  These
   examples compare it with the tuples typed in here, those Model_C07 was written from: an edited Python tuple
   breaks the build.  Nothing ties either to the fields cmpr reads. *)
Definition S (l : list N) : str := l.
Example tbl_exact_ok : tbl_StrExactMatch =
  [S [101;120;97;99;116]; S [99;97;115;101;95;115;101;110;115;105;116;105;118;101]; S [110;101;103;97;116;101]]%N.
Proof. reflexivity. Qed.
Example tbl_glob_ok : tbl_StrGlobMatch =
  [S [103;108;111;98]; S [112;114;101;102;105;120]; S [110;101;103;97;116;101]; S [102;108;97;103;115]]%N.
Proof. reflexivity. Qed.
Example tbl_regex_ok : tbl_StrRegex =
  [S [114;101;103;101;120]; S [110;101;103;97;116;101]; S [102;108;97;103;115]; S [105;115;109;97;116;99;104]]%N.
Proof. reflexivity. Qed.
Example tbl_cont_ok : tbl_ContainmentMatch = [S [118;97;108;115]; S [97;108;108]; S [110;101;103;97;116;101]]%N.
Proof. reflexivity. Qed.
Example tbl_pr_ok : tbl_PackageRestriction =
  [S [95;95;99;108;97;115;115;95;95]; S [110;101;103;97;116;101]; S [95;97;116;116;114;95;115;112;108;105;116];
   S [114;101;115;116;114;105;99;116;105;111;110]]%N.
Proof. reflexivity. Qed.
Example tbl_cond_ok : tbl_Conditional =
  [S [95;95;99;108;97;115;115;95;95]; S [110;101;103;97;116;101]; S [97;116;116;114];
   S [114;101;115;116;114;105;99;116;105;111;110]; S [112;97;121;108;111;97;100]]%N.
Proof. reflexivity. Qed.
Example tbl_bool_ok : tbl_boolean_base =
  [S [95;95;99;108;97;115;115;95;95]; S [110;101;103;97;116;101]; S [116;121;112;101];
   S [114;101;115;116;114;105;99;116;105;111;110;115]]%N.
Proof. reflexivity. Qed.
Example tbl_atom_ok : tbl_atom =
  [S [99;112;118;115;116;114]; S [111;112]; S [98;108;111;99;107;115]; S [110;101;103;97;116;101;95;118;101;114;115];
   S [117;115;101]; S [115;108;111;116]; S [115;117;98;115;108;111;116];
   S [115;108;111;116;95;111;112;101;114;97;116;111;114]; S [114;101;112;111;95;105;100]]%N.
Proof. reflexivity. Qed.
(* repaired _VersionMatch.__hash__: hash((self.droprev, self.ver, self.rev, self._convert_ops(self))) *)
Example tbl_hash_vm_ok : tbl_hash_VersionMatch =
  [S [100;114;111;112;114;101;118]; S [118;101;114]; S [114;101;118];
   S [95;99;111;110;118;101;114;116;95;111;112;115;40;41]]%N.
Proof. reflexivity. Qed.
Example tbl_hash_pr_ok : tbl_hash_PackageRestriction =
  [S [110;101;103;97;116;101]; S [97;116;116;114;115]; S [114;101;115;116;114;105;99;116;105;111;110]]%N.
Proof. reflexivity. Qed.
Example tbl_hash_cond_ok : tbl_hash_Conditional =
  [S [97;116;116;114]; S [110;101;103;97;116;101]; S [114;101;115;116;114;105;99;116;105;111;110];
   S [112;97;121;108;111;97;100]]%N.
Proof. reflexivity. Qed.

(* lstr_eqb, llstr_eqb and list_Z_eqb are one and the same list equality over three element types *)
Lemma list_eqb_eq {A} (e : A -> A -> bool) (le : list A -> list A -> bool) :
  (forall x y, e x y = true -> x = y) ->
  (forall a b, le a b = match a, b with
                        | [], [] => true
                        | x :: a', y :: b' => e x y && le a' b'
                        | _, _ => false
                        end) ->
  forall a b, le a b = true -> a = b.
Proof.
  intros He Hle a. induction a as [|x a IH]; intros [|y b] H; rewrite Hle in H; try discriminate H; [reflexivity|].
  apply andb_prop in H as [H1 H2]. f_equal; auto.
Qed.
Lemma lstr_eqb_eq a b : lstr_eqb a b = true -> a = b.
Proof. apply (list_eqb_eq str_eqb); [intros x y; apply str_eqb_eq|intros [] []; reflexivity]. Qed.
Lemma llstr_eqb_eq a b : llstr_eqb a b = true -> a = b.
Proof. apply (list_eqb_eq lstr_eqb); [exact lstr_eqb_eq|intros [] []; reflexivity]. Qed.
Lemma list_Z_eqb_eq a b : list_Z_eqb a b = true -> a = b.
Proof. apply (list_eqb_eq Z.eqb); [intros x y; apply Z.eqb_eq|intros [] []; reflexivity]. Qed.
Lemma opt_eqb_eq {A} (e : A -> A -> bool) a b :
  (forall x y, e x y = true -> x = y) -> opt_eqb e a b = true -> a = b.
Proof. intros He. destruct a, b; cbn; intro H; try discriminate H; [f_equal; auto|reflexivity]. Qed.
Lemma optstr_eqb_eq a b : optstr_eqb a b = true -> a = b.
Proof. apply opt_eqb_eq. intros x y. apply str_eqb_eq. Qed.
Lemma kind_eqb_eq a b : kind_eqb a b = true -> a = b.
Proof. destruct a, b; cbn; intro; congruence. Qed.

Lemma existsb_impl {A} (p q : A -> bool) l :
  (forall x, p x = true -> q x = true) -> existsb p l = true -> existsb q l = true.
Proof. intro H. rewrite !existsb_exists. intros [x [Hx Hp]]. exists x; auto. Qed.

Lemma subset_incl a b : subset a b = true <-> incl a b.
Proof.
  unfold subset, smem, incl. rewrite forallb_forall.
  split; intros H x Hx; apply existsb_str_In; auto.
Qed.
(* everything that matches reads a frozenset of flags only through membership *)
Definition same_elems (a b : list str) : Prop := forall x, In x a <-> In x b.
Lemma set_eqb_same_elems a b : set_eqb a b = true -> same_elems a b.
Proof.
  unfold set_eqb. intros [H1 H2]%andb_prop x. apply subset_incl in H1, H2. split; auto.
Qed.
Lemma subset_same_elems a a' l : same_elems a a' -> subset a l = subset a' l.
Proof.
  intro E. unfold subset. apply eq_true_iff_eq. rewrite !forallb_forall.
  split; intros H x Hx; apply H, E, Hx.
Qed.
Lemma existsb_same_elems (P : str -> bool) a a' : same_elems a a' -> existsb P a = existsb P a'.
Proof.
  intro E. apply eq_true_iff_eq. rewrite !existsb_exists.
  split; intros [x [Hx HP]]; exists x; (split; [apply E; assumption|assumption]).
Qed.
Lemma inter_same_elems a a' l : same_elems a a' -> same_elems (inter a l) (inter a' l).
Proof. intros E x. unfold inter. rewrite !filter_In, (E x). tauto. Qed.
Lemma nonempty_same_elems a a' : same_elems a a' -> nonempty a = nonempty a'.
Proof.
  intro E. destruct a as [|x a], a' as [|y a']; try reflexivity; exfalso.
  - apply (E y). left; reflexivity.
  - apply (E x). left; reflexivity.
Qed.

Lemma same_matches_cont v v' all neg : same_elems v v' -> same_matches (RCont v all neg) (RCont v' all neg).
Proof.
  intros E rx s. change (cont_match v all neg s = cont_match v' all neg s).
  unfold cont_match. destruct s as [[x|l]|l|p]; try reflexivity.
  - rewrite (existsb_same_elems _ v v' E). reflexivity.
  - rewrite (subset_same_elems v v' l E), (existsb_same_elems _ v v' E). reflexivity.
  - rewrite (subset_same_elems v v' _ E), (existsb_same_elems _ v v' E). reflexivity.
Qed.
Lemma same_matches_udc f v v' neg : same_elems v v' -> same_matches (RUdc f v neg) (RUdc f v' neg).
Proof.
  intros E rx s. change (udc_match f v neg s = udc_match f v' neg s). unfold udc_match.
  destruct s as [a|[|[x|iuse] [|[y|use] [|a l]]]|p]; try reflexivity.
  rewrite (subset_same_elems v v' iuse E), (subset_same_elems v v' use E).
  rewrite (nonempty_same_elems _ _ (inter_same_elems v v' iuse E)).
  rewrite (subset_same_elems _ _ use (inter_same_elems v v' iuse E)). reflexivity.
Qed.

(* ver_cmp, with or without C01's repair, is three-valued on all strings: every comparison function of
   cpv.ver_cmp ends in 0, in a cmp() of two numbers (sgn), in a branch between such results, or in a call of
   another one of them; the hint set says so. *)
Definition tri (z : Z) : Prop := z = (-1)%Z \/ z = 0%Z \/ z = 1%Z.
Lemma tri_0 : tri 0%Z.
Proof. unfold tri; auto. Qed.
Lemma tri_sgn c : tri (sgn c).
Proof. destruct c; unfold tri; cbn; auto. Qed.
Lemma tri_if (b : bool) x y : tri x -> tri y -> tri (if b then x else y).
Proof. destruct b; auto. Qed.
Create HintDb tri.
#[local] Hint Resolve tri_0 tri_sgn tri_if : tri.

Lemma tri_str_cmp a b : tri (str_cmp a b).
Proof.
  revert b; induction a as [|x a IH]; intros [|y b]; cbn [str_cmp]; unfold tri; auto.
  destruct (N.compare x y); auto. apply IH.
Qed.
#[local] Hint Resolve tri_str_cmp : tri.
Lemma tri_comp_cmp f a b : tri (comp_cmp f a b).
Proof. unfold comp_cmp, cmpN. auto with tri. Qed.
#[local] Hint Resolve tri_comp_cmp : tri.
Lemma tri_comps_cmp f l1 l2 : tri (comps_cmp f l1 l2).
Proof. revert f l2; induction l1 as [|a t1 IH]; intros f [|b t2]; cbn [comps_cmp]; auto with tri. Qed.
#[local] Hint Resolve tri_comps_cmp : tri.
Lemma tri_num_cmp f p1 p2 : tri (num_cmp f p1 p2).
Proof.
  unfold num_cmp, cmp_len, cmpZ.
  destruct (pull_letter (split_on 46 p1)) as [c1 l1], (pull_letter (split_on 46 p2)) as [c2 l2].
  auto 6 with tri.
Qed.
#[local] Hint Resolve tri_num_cmp : tri.
Lemma tri_suf_loop l1 l2 c : suf_loop l1 l2 = Some c -> tri c.
Proof.
  revert l2 c; induction l1 as [|s1 t1 IH]; intros [|s2 t2] c; cbn [suf_loop]; unfold cmpZ, cmpN.
  - discriminate.
  - destruct (parse_suffix s2) as [n d], (negb _); intros [= <-]; auto with tri.
  - destruct (parse_suffix s1) as [n d], (negb _); intros [= <-]; auto with tri.
  - destruct (str_eqb s1 s2); [apply IH|].
    destruct (parse_suffix s1) as [n1 d1], (parse_suffix s2) as [n2 d2].
    destruct (negb _); [intros [= <-]; auto with tri|].
    destruct (negb _); [intros [= <-]; auto with tri|apply IH].
Qed.
Lemma tri_ver_cmp_gen f v1 r1 v2 r2 : tri (ver_cmp_gen f v1 r1 v2 r2).
Proof.
  unfold ver_cmp_gen, rev_cmp, cmpN. cbv zeta.
  destruct (suf_loop _ _) eqn:E; [apply tri_suf_loop in E|]; auto with tri.
Qed.

(* a negated _VersionMatch accepts exactly the complementary comparison results *)
Lemma memZ_convert c neg vals : tri c -> xorb (memZ c vals) neg = memZ c (convert_ops neg vals).
Proof.
  intros T. unfold convert_ops. destruct neg; [|apply xorb_false_r].
  unfold complement_ops.
  destruct T as [ -> | [ -> | -> ] ]; cbn;
    destruct (memZ (-1) vals), (memZ 0 vals), (memZ 1 vals); reflexivity.
Qed.
Lemma ver_match_ops d v r neg vals p :
  ver_match d v r neg vals p =
  match pver p with
  | None => false
  | Some pv => let '(r1, r2) := if d then (None, None) else (r, prev p) in
               memZ (ver_cmp pv r2 v r1) (convert_ops neg vals)
  end.
Proof.
  unfold ver_match. destruct (pver p); [|reflexivity].
  destruct d; apply memZ_convert; apply tri_ver_cmp_gen.
Qed.
Lemma same_matches_ver d1 v1 r1 n1 l1 d2 v2 r2 n2 l2 :
  ver_eq d1 v1 r1 n1 l1 d2 v2 r2 n2 l2 = true -> same_matches (RVer d1 v1 r1 n1 l1) (RVer d2 v2 r2 n2 l2).
Proof.
  unfold ver_eq. intros [[[Hd Hv]%andb_prop Hr]%andb_prop Hl]%andb_prop rx [a|l|p]; try reflexivity.
  apply eqb_prop in Hd. apply str_eqb_eq in Hv. apply list_Z_eqb_eq in Hl.
  apply (opt_eqb_eq N.eqb) in Hr; [|intros x y; apply N.eqb_eq]. subst.
  change (ver_match d2 v2 r2 n1 l1 p = ver_match d2 v2 r2 n2 l2 p). rewrite !ver_match_ops, Hl. reflexivity.
Qed.

Section RInd.
  Variable P : restr -> Prop.
  Hypothesis HExact : forall e c n h, P (RExact e c n h).
  Hypothesis HGlob : forall g p n i h, P (RGlob g p n i h).
  Hypothesis HRegex : forall g n i m h, P (RRegex g n i m h).
  Hypothesis HCont : forall v a n, P (RCont v a n).
  Hypothesis HUdc : forall f v n, P (RUdc f v n).
  Hypothesis HVer : forall d v r n l, P (RVer d v r n l).
  Hypothesis HAlways : forall o b, P (RAlways o b).
  Hypothesis HNegate : forall o r, P r -> P (RNegate o r).
  Hypothesis HNode : forall k t n cs, Forall P cs -> P (RNode k t n cs).
  Hypothesis HAttr : forall k n a r, P r -> P (RAttr k n a r).
  Hypothesis HMulti : forall k n a r, P r -> P (RMulti k n a r).
  Hypothesis HCond : forall n a r p, P r -> Forall P p -> P (RCond n a r p).
  Hypothesis HAtom : forall a, P (RAtom a).
  Hypothesis HDepSet : forall cs, Forall P cs -> P (RDepSet cs).

  Fixpoint restr_ind' (r : restr) : P r :=
    let fix go (l : list restr) : Forall P l :=
      match l with
      | [] => Forall_nil P
      | c :: l' => Forall_cons c (restr_ind' c) (go l')
      end in
    match r with
    | RExact e c n h => HExact e c n h
    | RGlob g p n i h => HGlob g p n i h
    | RRegex g n i m h => HRegex g n i m h
    | RCont v a n => HCont v a n
    | RUdc f v n => HUdc f v n
    | RVer d v r' n l => HVer d v r' n l
    | RAlways o b => HAlways o b
    | RNegate o r' => HNegate o r' (restr_ind' r')
    | RNode k t n cs => HNode k t n cs (go cs)
    | RAttr k n a r' => HAttr k n a r' (restr_ind' r')
    | RMulti k n a r' => HMulti k n a r' (restr_ind' r')
    | RCond n a r' p => HCond n a r' p (restr_ind' r') (go p)
    | RAtom a => HAtom a
    | RDepSet cs => HDepSet cs (go cs)
    end.
End RInd.

(* [parsed_alike a b] is [atoms_alike (atoms_of a) (atoms_of b)] *)
Definition atoms_alike (la lb : list atomrec) : Prop :=
  forall x y, In x la -> In y lb -> atom_parsed_alike x y.
Lemma atoms_alike_app la la' lb lb' :
  atoms_alike (la ++ la') (lb ++ lb') -> atoms_alike la lb /\ atoms_alike la' lb'.
Proof. intro H. split; intros x y Hx Hy; apply H; apply in_or_app; auto. Qed.

(* atom.restrictions reads, beside the compared attributes, only what CPV parsing derives from them *)
Lemma atom_eq_restrictions x y :
  atom_parsed_alike x y -> atom_eq x y = true -> atom_restrictions x = atom_restrictions y.
Proof.
  intros PA H. unfold atom_eq in H.
  apply andb_prop in H as [[[[[[[[Hcpv Hop]%andb_prop _]%andb_prop Hneg]%andb_prop Huse]%andb_prop
                               Hslot]%andb_prop Hsub]%andb_prop _]%andb_prop Hrepo].
  apply str_eqb_eq in Hcpv, Hop. apply eqb_prop in Hneg. apply (opt_eqb_eq _ _ _ lstr_eqb_eq) in Huse.
  apply optstr_eqb_eq in Hslot, Hsub, Hrepo.
  destruct (PA Hcpv Hop) as (Hcat & Hpkg & Hfv & Hver & Hrev).
  unfold atom_restrictions. rewrite Hrepo, Hpkg, Hcat, Hfv, Hop, Hver, Hrev, Hneg, Hslot, Hsub, Huse.
  reflexivity.
Qed.

Lemma same_matches_negate o1 o2 r1 r2 : same_matches r1 r2 -> same_matches (RNegate o1 r1) (RNegate o2 r2).
Proof. intros H rx s. unfold rmatch. cbn [rmatch_core]. f_equal. apply H. Qed.
Lemma same_matches_node k t1 t2 n cs1 cs2 :
  (forall rx s, map (fun r => rmatch rx r s) cs1 = map (fun r => rmatch rx r s) cs2) ->
  same_matches (RNode k t1 n cs1) (RNode k t2 n cs2).
Proof. intros H rx s. unfold rmatch. cbn [rmatch_core]. f_equal. apply H. Qed.
Lemma same_matches_attr k n a r1 r2 : same_matches r1 r2 -> same_matches (RAttr k n a r1) (RAttr k n a r2).
Proof.
  intros H rx [v|l|p]; try reflexivity. unfold rmatch. cbn [rmatch_core].
  destruct (N.eqb k 1); [apply H|]. destruct (pull (pattrs p) a); [|reflexivity]. f_equal. apply H.
Qed.
Lemma same_matches_multi k1 k2 n a r1 r2 :
  same_matches r1 r2 -> same_matches (RMulti k1 n a r1) (RMulti k2 n a r2).
Proof.
  intros H rx [v|l|p]; try reflexivity. unfold rmatch. cbn [rmatch_core].
  destruct (pull_all (pattrs p) a); [|reflexivity]. f_equal. apply H.
Qed.
(* the payload of a Conditional plays no part in matching *)
Lemma same_matches_cond n a r1 r2 p1 p2 : same_matches r1 r2 -> same_matches (RCond n a r1 p1) (RCond n a r2 p2).
Proof.
  intros H rx [v|l|p]; try reflexivity. unfold rmatch. cbn [rmatch_core].
  destruct (pull (pattrs p) a); [|reflexivity]. f_equal. apply H.
Qed.

Section Interchangeable.
  Variable c : cfg.

  (* what a == b gives for one a and every b: each half under its own exclusion *)
  Definition eq_inter (a : restr) : Prop :=
    forall b, r_eq c a b = true ->
      (known c true a b = false -> hk_eq c a b = true)
      /\ (atoms_alike (atoms_of a) (atoms_of b) -> known c false a b = false -> same_matches a b).

  Lemma eq_inter_children cs1 : Forall eq_inter cs1 -> forall cs2,
    list_all2 (r_eq c) cs1 cs2 = true ->
    (any2 (known c true) cs1 cs2 = false -> list_all2 (hk_eq c) cs1 cs2 = true)
    /\ (atoms_alike (flat_map atoms_of cs1) (flat_map atoms_of cs2) -> any2 (known c false) cs1 cs2 = false ->
        forall rx s, map (fun r => rmatch rx r s) cs1 = map (fun r => rmatch rx r s) cs2).
  Proof.
    induction 1 as [|x cs1 Hx _ IH]; intros [|y cs2] E; try discriminate E; [split; reflexivity|].
    cbn [list_all2] in E. apply andb_prop in E as [Ex Ecs].
    destruct (Hx y Ex) as [Hh Hm], (IH cs2 Ecs) as [IHh IHm]. cbn [list_all2 any2 flat_map map].
    split.
    - intros K. apply orb_false_iff in K as [Kx Kcs]. rewrite (Hh Kx). apply IHh, Kcs.
    - intros PA K rx s. apply orb_false_iff in K as [Kx Kcs]. apply atoms_alike_app in PA as [PAx PAcs].
      f_equal; [apply Hm|apply IHm]; assumption.
  Qed.

  Theorem eq_interchangeable : forall a, eq_inter a.
  Proof.
    unfold eq_inter, r_eq, hk_eq.
    induction a as [e1 c1 n1 h1|g1 p1 n1 i1 h1|g1 n1 i1 m1 h1|v1 a1 n1|f1 v1 n1|d1 v1 r1 n1 l1|o1 b1|o1 r1 IH
                   |k1 t1 n1 cs1 IH|k1 n1 at1 r1 IH|k1 n1 at1 r1 IH|n1 at1 r1 p1 IH IHp|x1|cs1 IH]
      using restr_ind';
      intros b E;
      destruct b as [e2 c2 n2 h2|g2 p2 n2 i2 h2|g2 n2 i2 m2 h2|v2 a2 n2|f2 v2 n2|d2 v2 r2 n2 l2|o2 b2|o2 r2
                    |k2 t2 n2 cs2|k2 n2 at2 r2|k2 n2 at2 r2|n2 at2 r2 p2|x2|cs2];
      try discriminate E;
      cbn [cmpr orb] in E; cbn [cmpr known atoms_of orb andb].
    (* The hash key is the compared tuple without the `_hash` slot and the class; where the tuple has
       neither (RCont, RUdc, RVer, RAlways) the hash half is E itself. *)
    - (* RExact *) apply andb_prop in E as [[[_ Ee]%andb_prop Ec]%andb_prop En]. split.
      + intros _. rewrite Ee, Ec, En. reflexivity.
      + intros _ _ rx s. apply str_eqb_eq in Ee. apply eqb_prop in Ec, En. subst. reflexivity.
    - (* RGlob *) apply andb_prop in E as [[[[_ Eg]%andb_prop Ep]%andb_prop En]%andb_prop Ei]. split.
      + intros _. rewrite Eg, Ep, En, Ei. reflexivity.
      + intros _ _ rx s. apply str_eqb_eq in Eg. apply eqb_prop in Ep, En, Ei. subst. reflexivity.
    - (* RRegex *) apply andb_prop in E as [[[[_ Eg]%andb_prop En]%andb_prop Ei]%andb_prop Em]. split.
      + intros _. rewrite Eg, En, Ei, Em. reflexivity.
      + intros _ _ rx s. apply str_eqb_eq in Eg. apply eqb_prop in En, Ei, Em. subst. reflexivity.
    - (* RCont *) split; [intros _; exact E|].
      apply andb_prop in E as [[Ev Ea]%andb_prop En]. intros _ _. apply eqb_prop in Ea, En. subst.
      apply same_matches_cont, set_eqb_same_elems, Ev.
    - (* RCont == RUdc only while if_missing is not keyed: the excluded class *)
      split; [intros _; exact E|].
      apply andb_prop in E as [[[Ek _]%andb_prop _]%andb_prop _]. intros _ K. rewrite K in Ek. discriminate Ek.
    - (* RUdc == RCont, likewise *) split; [intros _; exact E|].
      apply andb_prop in E as [[[Ek _]%andb_prop _]%andb_prop _]. intros _ K. rewrite K in Ek. discriminate Ek.
    - (* RUdc *) split; [intros _; exact E|].
      apply andb_prop in E as [[Ev En]%andb_prop Ef]. intros _ K. rewrite K in Ef.
      apply eqb_prop in En, Ef. subst. apply same_matches_udc, set_eqb_same_elems, Ev.
    - (* RVer *) split; [intros _; exact E|]. intros _ _. apply same_matches_ver, E.
    - (* RAlways *) split; [intros _; exact E|].
      apply andb_prop in E as [_ Eb]. intros _ _ rx s. apply eqb_prop, Eb.
    - (* RNegate *) apply andb_prop in E as [Eo Er]. destruct (IH r2 Er) as [IHh IHm]. split.
      + intros K. rewrite Eo. apply IHh, K.
      + intros PA K. apply same_matches_negate, IHm; assumption.
    - (* RNode *) apply andb_prop in E as [[[Ek Et]%andb_prop En]%andb_prop Ecs].
      destruct (eq_inter_children cs1 IH cs2 Ecs) as [IHh IHm]. split.
      + intros K. rewrite Ek, Et, En. apply IHh, K.
      + intros PA K. apply kind_eqb_eq in Ek. apply eqb_prop in En. subst.
        apply same_matches_node, IHm; assumption.
    - (* RAttr *) apply andb_prop in E as [[[Ek En]%andb_prop Ea]%andb_prop Er].
      destruct (IH r2 Er) as [IHh IHm]. split.
      + intros K. rewrite En, Ea. apply IHh, K.
      + intros PA K. apply N.eqb_eq in Ek. apply eqb_prop in En. apply lstr_eqb_eq in Ea. subst.
        apply same_matches_attr, IHm; assumption.
    - (* RMulti *) apply andb_prop in E as [[[_ En]%andb_prop Ea]%andb_prop Er].
      destruct (IH r2 Er) as [IHh IHm]. split.
      + intros K. rewrite En, Ea. apply IHh, K.
      + intros PA K. apply eqb_prop in En. apply llstr_eqb_eq in Ea. subst.
        apply same_matches_multi, IHm; assumption.
    - (* RCond *) apply andb_prop in E as [[[En Ea]%andb_prop Er]%andb_prop Ep].
      destruct (IH r2 Er) as [IHh IHm], (eq_inter_children p1 IHp p2 Ep) as [IHph _]. split.
      + intros K. apply orb_false_iff in K as [Kr Kp]. rewrite En, Ea, (IHh Kr). apply IHph, Kp.
      + intros PA K. apply orb_false_iff in K as [Kr _]. apply atoms_alike_app in PA as [PAr _].
        apply eqb_prop in En. apply lstr_eqb_eq in Ea. subst. apply same_matches_cond, IHm; assumption.
    - (* RAtom: the hash key is the original text *) split.
      + intros K. apply negb_false_iff in K. exact K.
      + intros PA _ rx s. unfold rmatch. cbn [rmatch_core]. unfold atom_match.
        rewrite (atom_eq_restrictions x1 x2); [reflexivity|apply PA; left; reflexivity|exact E].
    - (* RDepSet: membership in the compared sets already requires equal hashes; match is refused for both *)
      split; [|intros _ _ rx s; reflexivity]. intros _. apply andb_prop in E. apply andb_true_iff.
      split; [apply proj1 in E|apply proj2 in E]; revert E; apply forallb_impl; intros x _;
        apply existsb_impl; intros y H; apply andb_prop in H; apply H.
  Qed.
End Interchangeable.

Lemma any2_false_Forall {A} (f : A -> A -> bool) l1 :
  Forall (fun x => forall y, f x y = false) l1 -> forall l2, any2 f l1 l2 = false.
Proof.
  induction 1 as [|x l1 Hx _ IH]; intros [|y l2]; cbn; try reflexivity.
  rewrite Hx. apply IH.
Qed.
Lemma existsb2_false_Forall {A B} (f : A -> B -> bool) l1 :
  Forall (fun x => forall y, f x y = false) l1 -> forall l2, existsb (fun x => existsb (f x) l2) l1 = false.
Proof.
  induction 1 as [|x l1 Hx _ IH]; intro l2; cbn; [reflexivity|].
  rewrite IH, orb_false_r. induction l2 as [|y l2 IHl]; cbn; [reflexivity|]. rewrite Hx. exact IHl.
Qed.

Lemma lookup_Some c V k m v : lookup c V k m = Some v -> exists k', In (k', v) m /\ r_eq c k' k = true.
Proof.
  induction m as [|[k' v'] m IH]; cbn; [discriminate|].
  destruct (r_eq c k' k) eqn:E.
  - intros [= <-]. exists k'. auto.
  - intros L. destruct (IH L) as (k0 & Hin & E0). exists k0. auto.
Qed.

Definition sx : str := [120%N].
Definition sy : str := [121%N].

(* the atom a/b as a blocker, with its original text and strength *)
Definition mk_atom (text : str) (strong : bool) (use : option (list str)) : atomrec :=
  {| a_text := text; a_cpvstr := [97;47;98]%N; a_op := []; a_blocks := strong || true; a_strong := strong;
     a_negate_vers := false; a_use := use; a_slot := None; a_subslot := None; a_slotop := None; a_repo := None;
     a_cat := [97%N]; a_pkg := [98%N]; a_fullver := None; a_ver := None; a_rev := None |}.

Definition pk1 : pk := {| pattrs := []; pver := Some [49%N]; prev := None |}.      (* a package of version 1 *)
Definition at1 := RAtom (mk_atom [97;47;98]%N false None).              (* text a/b *)
Definition at2 := RAtom (mk_atom [33;33;97;47;98]%N true None).         (* !!a/b *)

(* equal pairs built by different constructor calls, outside the known classes *)
Example ex_equal_pairs :
  let c := cfg_fixed in
  let p1 := (mk_exact [65;98]%N false false true, mk_exact [97;66]%N false false true) in          (* "Ab" / "aB", case-insensitive *)
  let p2 := (RCont [sx; sy] false false, RCont [sy; sx; sy] false false) in
  let p3 := (RVer false [49;46;48]%N None true [(-1)%Z], RVer false [49;46;48]%N None false [0%Z; 1%Z]) in   (* not < 1.0 / >= 1.0 *)
  let p4 := (RNode KOr 2 false [mk_categorydep [97%N] true false; RAttr 0 true [s_use] (fst p2)],
             RNode KOr 2 false [RAttr 4 false [s_category] (mk_exact [97%N] true true false);
                                RAttr 0 true [s_use] (snd p2)]) in
  let p5 := (RUdc true [sx; sy] true, RUdc true [sy; sx] true) in
  forallb (fun p => r_eq c (fst p) (snd p) && negb (known c true (fst p) (snd p))
                    && negb (known c false (fst p) (snd p))) [p1; p2; p3; p4; p5] = true
  /\ fst p2 <> snd p2 /\ fst p3 <> snd p3 /\ fst p4 <> snd p4.
Proof. vm_compute. repeat split; discriminate. Qed.

(* ... and look-alikes that are NOT equal (so the hypothesis r_eq is not trivially true either) *)
Example ex_unequal_lookalikes :
  let c := cfg_fixed in
  r_eq c (RVer true [49%N] None false [0%Z]) (RVer true [49%N] None true [0%Z]) = false          (* ~1 / not ~1 *)
  /\ r_eq c (RUdc true [sx] false) (RUdc false [sx] false) = false                                   (* x(+) / x(-) *)
  /\ r_eq c (mk_categorydep [97%N] true false) (RAttr 0 true [s_category] (mk_exact [97%N] true false false)) = false
  /\ r_eq c (RExact [97%N] true false true) (RExact [97%N] true false false) = false.                 (* hashed / not yet hashed *)
Proof. vm_compute. repeat split. Qed.

(* the cache corollary is about a non-empty situation: a hit through an equal, differently built key *)
Example ex_cache_hit :
  lookup cfg_fixed nat (RCont [sy; sx; sy] false false) [(RCont [sx; sy] false false, 7%nat)] = Some 7%nat.
Proof. reflexivity. Qed.
