(* Prop_C33.v — the property theorems of C33, each followed by the audit of its assumptions. *)
From Coq Require Import List NArith Bool.
From Coq Require String.
Import String.StringSyntax.
Import ListNotations.
From Verif Require Import Base.Val C33.Path C33.PathProofs gen.Tables_C33 C33.Model_C33 C33.Spec_C33 C33.Proofs_C33.

(* dosym -r: for EVERY absolute target t and EVERY link name l (the initial slash of l may be
   omitted), the relative link content, resolved lexically from the directory the link lives in,
   is the requested target *)
Theorem dosym_r_resolves : forall cwd t l, isabs t = true ->
  resolve (join2 (absdir l) (relative_target cwd t l)) = resolve t.
Proof. exact dosym_r_resolves_proof. Qed.
Print Assumptions dosym_r_resolves.

(* the same for an absolute link name: the directory the link lives in is dirname l *)
Theorem dosym_r_resolves_abs : forall cwd t l, isabs t = true -> isabs l = true ->
  resolve (join2 (dirname l) (relative_target cwd t l)) = resolve t.
Proof. intros cwd t l Ht Hl. rewrite <- (absdir_of_abs l Hl). now apply dosym_r_resolves_proof. Qed.
Print Assumptions dosym_r_resolves_abs.

(* in terms of Python's normpath: equal whenever target and link directory agree on the POSIX
   "exactly two leading slashes" special case; false in general (refuted below) *)
Theorem dosym_r_normpath_partial : forall cwd t l, isabs t = true ->
  lead_slashes (absdir l) = lead_slashes t ->
  normpath (join2 (absdir l) (relative_target cwd t l)) = normpath t.
Proof. intros cwd t l Ht Hlead. apply rel_normpath; [assumption|apply absdir_isabs|assumption]. Qed.
Print Assumptions dosym_r_normpath_partial.

Theorem dosym_r_normpath_refuted : ~ dosym_r_normpath_statement.
Proof.
  intro H. specialize (H [] [47;47;97]%N [47;98;47;99]%N eq_refl eq_refl). vm_compute in H. discriminate.
Qed.
Print Assumptions dosym_r_normpath_refuted.

(* the regenerated EAPI gate table and banned-wrapper table are the PMS tables:
   dodoc -r from 4, doman language directories from 2, -i18n precedence from 4, dosym -r from 8;
   dohard banned from 4, dohtml and dolib from 7 — for EAPIs 0..8 *)
Theorem gates_are_pms : forallb gates_agree numbered_eapis = true.
Proof. vm_compute. reflexivity. Qed.
Print Assumptions gates_are_pms.

(* the directory each wrapper passes as --dest (and the forced modes of dolib.so/.a) *)
Theorem wrapper_dests_are_pms : forall g v,
  dest_of g "dobin" v = Some (v_desttree v ++ lit "/bin")
  /\ dest_of g "dosbin" v = Some (v_desttree v ++ lit "/sbin")
  /\ dest_of g "dolib" v = Some (v_desttree v ++ lit "/" ++ v_libdir v)
  /\ dest_of g "dolib.so" v = Some (v_desttree v ++ lit "/" ++ v_libdir v)
  /\ dest_of g "dolib.a" v = Some (v_desttree v ++ lit "/" ++ v_libdir v)
  /\ dest_of g "doins" v = Some (v_insdesttree v)
  /\ dest_of g "doexe" v = Some (v_exedesttree v)
  /\ dest_of g "dodoc" v = Some (lit "/usr/share/doc/" ++ v_pf v ++ lit "/" ++ v_docdesttree v)
  /\ dest_of g "dohtml" v = Some (lit "/usr/share/doc/" ++ v_pf v ++ lit "/"
                                  ++ match v_docdesttree v with [] => lit "html" | d => d end)
  /\ dest_of g "doinfo" v = Some (lit "/usr/share/info")
  /\ dest_of g "doman" v = Some (lit "/usr/share/man")
  /\ insopts_of g "dolib.so" v = Some (lit "-m0755")
  /\ insopts_of g "dolib.a" v = Some (lit "-m0644")
  /\ insopts_of g "doins" v = Some (v_insoptions v)
  /\ insopts_of g "doexe" v = Some (v_exeoptions v).
Proof.
  (* evaluated in place: rewriting with one lemma per wrapper is dearer, each failed match compares two names *)
  intros g v. unfold dest_of, insopts_of.
  repeat split; cbv -[app]; rewrite ?app_nil_r; reflexivity.
Qed.
Print Assumptions wrapper_dests_are_pms.

(* doexe dobin dosbin dolib* doinfo, and the file arguments of doins/dodoc: every file is
   installed at <dest>/<basename> with the requested mode (symlinks as symlinks) — the list of
   installed entries IS the reference list, for every argument list *)
Theorem placement_is_pms_files : forall c mode pos l,
  c_insmode c = Some mode ->
  flat_files (comps (c_dest c)) mode pos = Some l ->
  plan_base c pos = inl (base_action (c_dest c) :: install_basenames c pos)
  /\ map action_entry (install_basenames c pos) = map Some l.
Proof. intros c mode pos l Hm H. split; [reflexivity|exact (base_placement c mode pos l Hm H)]. Qed.
Print Assumptions placement_is_pms_files.

(* doman: section directory from the suffix, language directory in EAPI 2+, -i18n= precedence in
   EAPI 4+, language suffix stripped — wherever PMS defines the placement *)
Theorem placement_is_pms_doman : forall e g i18n b d name,
  gates_of e = Some g -> gates_match g (decimal e) ->
  pms_doman (decimal e) i18n b = Some (Some (d, name)) ->
  doman_dest g i18n b = Some (join_sl d, name).
Proof.
  intros e g i18n b d name Hg. apply doman_placement. intros c. now apply (section_not_archive e).
Qed.
Print Assumptions placement_is_pms_doman.

(* a man page without a section suffix is refused *)
Theorem doman_rejects_no_section : forall e g i18n x,
  gates_of e = Some g -> nodot (basename x) -> noslash (basename x) -> doman_dest g i18n x = None.
Proof. intros e g i18n x Hg. apply doman_dest_no_section, (no_empty_archive_ext e g Hg). Qed.
Print Assumptions doman_rejects_no_section.

(* keepdir: the directory as for dodir, and .keep_CAT_PN-SLOT inside it *)
Theorem placement_is_pms_keepdir : forall i dest dirm pos acts,
  goodb (keep_name i) -> plan_dirs (Some (keep_name i)) dest dirm pos = inl acts ->
  keep_name i = lit ".keep_" ++ cat i ++ lit "_" ++ pn i ++ lit "-" ++ slot i
  /\ forall a, In a pos ->
       In (AMkdirs (under dest (fst a)) dirm) acts
       /\ exists p, In (ATouch p) acts /\ key p = comps (fst a) ++ [keep_name i].
Proof. intros i dest dirm pos acts G H. split; [reflexivity|]. intros a. now apply keepdir_placement. Qed.
Print Assumptions placement_is_pms_keepdir.

(* dosym: trailing-slash / existing-directory link names are refused; -r is gated and needs an
   absolute target; the created link is verbatim, or with -r resolves to the requested target *)
Theorem placement_is_pms_dosym : forall g dirm pre r s t,
  (endswith_sl t = true -> plan_dosym g dirm pre r s t = inr (E "nolinkname"))
  /\ (forall m, lookup (key (lstrip_sl t)) pre = Some (NDir m) -> plan_dosym g dirm pre r s t = inr (E "nolinkname"))
  /\ (forall acts, plan_dosym g dirm pre r s t = inl acts ->
        (r = true -> g_dosym_rel g = true /\ isabs s = true)
        /\ exists c, In (ASymlink c (lstrip_sl t)) acts
                     /\ (r = false -> c = s)
                     /\ (r = true -> resolve (join2 (absdir t) c) = resolve s)).
Proof.
  intros g dirm pre r s t. unfold plan_dosym at 1 2. split; [intros ->; reflexivity|].
  split; [intros m ->; now rewrite orb_true_r|].
  intros acts H. destruct (plan_dosym_inl g dirm pre r s t acts H) as [Hr Hin]. split; [exact Hr|].
  eexists. split; [exact Hin|]. split; intros ->; [reflexivity|].
  apply dosym_r_resolves_proof, (Hr eq_refl).
Qed.
Print Assumptions placement_is_pms_dosym.

(* rejections: a missing link name (dosym, dohard), a directory given to dodoc without an
   allowed -r, a directory given to dohtml without -r, dodir/keepdir without arguments *)
Theorem rejections_are_pms :
  (forall g h dirm pre r pos, (length pos < 2)%nat -> plan_link g h dirm pre r pos = inr (E "missing"))
  /\ (forall g c r pos, dirs_of pos <> [] -> r && g_dodoc_r g = false -> plan_dodoc g c r pos = inr (E "isdir"))
  /\ (forall dest insm dirm o pos, dirs_of pos <> [] -> h_r o = false -> plan_dohtml dest insm dirm o pos = inr (E "isdir"))
  /\ (forall keep dest dirm, plan_dirs keep dest dirm [] = inr (E "missing")).
Proof.
  split; [|split; [|split]].
  - exact plan_link_needs_two.
  - intros g c r pos H1 H2. now rewrite plan_dodoc_dirs, H2.
  - intros dest insm dirm o pos H1 H2. unfold plan_dohtml. destruct (dirs_of pos); [congruence|]. now rewrite H2.
  - reflexivity.
Qed.
Print Assumptions rejections_are_pms.

(* doins -r / dodoc -r: below <dest> the image is exactly the source trees of the directory
   arguments (induction over the os.walk listing: every directory, every symlink kept as a
   link, every file with the requested mode) followed by the file arguments; dodoc needs the
   EAPI gate.  [recursive_entries] is the PMS reference of Spec_C33. *)
Theorem placement_is_pms_recursive : forall sl g c mode pos l,
  c_insmode c = Some mode ->
  recursive_entries sl (comps (c_dest c)) (c_dirmode c) mode pos = Some l ->
  let acts := base_action (c_dest c) :: from_dirs c (dirs_of pos) ++ install_basenames c (files_of pos) in
  map action_entry acts = Some (comps (c_dest c), PDir None) :: map Some l
  /\ plan_doins c true pos = inl acts
  /\ (forall r, dirs_of pos <> [] -> r && g_dodoc_r g = true -> plan_dodoc g c r pos = inl acts).
Proof.
  intros sl g c mode pos l Hm H acts. split; [|split].
  - unfold acts. cbn [map]. rewrite base_action_entry. f_equal. eapply recursive_placement; eassumption.
  - reflexivity.
  - intros r Hd Hr. now rewrite plan_dodoc_dirs, Hr.
Qed.
Print Assumptions placement_is_pms_recursive.

(* domo: <lang>.mo goes to <dest>/<lang>/LC_MESSAGES/<PN>.mo (directory created) *)
Theorem placement_is_pms_domo : forall c pn x f lang mode,
  c_insmode c = Some mode -> goodb (pn ++ lit ".mo") ->
  pms_domo_lang (basename x) = Some lang ->
  map action_entry (domo_plan c pn [(x, SFile f)])
  = [Some (comps (c_dest c) ++ [lang; lit "LC_MESSAGES"], PDir (c_dirmode c));
     action_entry (AInstall f (under (c_dest c) (join_sl [lang; lit "LC_MESSAGES"; pn ++ lit ".mo"])) (Some mode))]
  /\ key (under (c_dest c) (join_sl [lang; lit "LC_MESSAGES"; pn ++ lit ".mo"]))
     = comps (c_dest c) ++ [lang; lit "LC_MESSAGES"; pn ++ lit ".mo"].
Proof. intros c pn x f lang mode Hm. rewrite <- Hm. apply domo_placement. Qed.
Print Assumptions placement_is_pms_domo.

(* ... where <dest> is DESTTREE/share/locale while DESTTREE exists and /usr/share/locale from
   EAPI 7 on (table obligation over the regenerated wrapper and gate tables) *)
Theorem domo_dest_is_pms :
  (forall g v, dest_of g "domo" v = Some (if g_has_desttree g then v_desttree v ++ lit "/share/locale"
                                          else lit "/usr/share/locale"))
  /\ forallb (fun e => match gates_of e with
                       | Some g => Bool.eqb (negb (g_has_desttree g)) (pms_domo_ignores_into (decimal e))
                       | None => false end) numbered_eapis = true.
Proof.
  split; [|vm_compute; reflexivity]. intros g v. unfold dest_of. now rewrite wrapper_opts_domo.
Qed.
Print Assumptions domo_dest_is_pms.

(* dohtml without directory arguments (outside the known class dohtml-recursive-unfiltered):
   exactly the arguments allowed by extension (defaults or -a, plus -A) or by -f are installed,
   below <dest>/<-p prefix> *)
Theorem placement_is_pms_dohtml : forall dest mode dirm o pos l,
  dirs_of pos = [] ->
  (forall a, In a pos -> pms_html_ok o (basename (fst a)) <> None) ->
  flat_files (comps (dest ++ SL :: h_p o)) mode
    (filter (fun a => match pms_html_ok o (basename (fst a)) with Some true => true | _ => false end) pos) = Some l ->
  exists acts, plan_dohtml dest (Some mode) dirm o pos = inl (base_action (join2 dest (lstrip_sl (h_p o))) :: acts)
               /\ map action_entry acts = map Some l.
Proof.
  intros dest mode dirm o pos l Hd Hdef H. unfold plan_dohtml. rewrite Hd. eexists. split; [reflexivity|].
  rewrite (html_filter_is_pms o pos Hdef). apply (base_placement _ mode); [reflexivity|].
  cbn [c_dest]. now rewrite comps_join_lstrip.
Qed.
Print Assumptions placement_is_pms_dohtml.

(* modes: the fixed modes of PMS, and insopts/exeopts/libopts/diropts for the others *)
Theorem modes_are_pms : forall g v,
  (fst_mode (modes_of g "dobin" v) = Some (Some 493%N) /\ fst_mode (modes_of g "dosbin" v) = Some (Some 493%N)
   /\ fst_mode (modes_of g "dolib.so" v) = Some (Some 493%N) /\ fst_mode (modes_of g "dolib.a" v) = Some (Some 420%N)
   /\ fst_mode (modes_of g "dodoc" v) = Some (Some 420%N) /\ fst_mode (modes_of g "doinfo" v) = Some (Some 420%N)
   /\ fst_mode (modes_of g "doman" v) = Some (Some 420%N) /\ fst_mode (modes_of g "dohtml" v) = Some (Some 420%N)
   /\ fst_mode (modes_of g "domo" v) = Some (Some 420%N))
  /\ (forall m1 m2, install_mode (Some (v_insoptions v)) = Some (Some m1) ->
                    install_mode (Some (v_diroptions v)) = Some (Some m2) ->
                    modes_of g "doins" v = inl (Some m1, Some m2))
  /\ (forall m, install_mode (Some (v_exeoptions v)) = Some (Some m) -> modes_of g "doexe" v = inl (Some m, None))
  /\ (forall m, install_mode (Some (v_liboptions v)) = Some (Some m) -> modes_of g "dolib" v = inl (Some m, None))
  /\ (forall m, install_mode (Some (v_diroptions v)) = Some (Some m) ->
        modes_of g "dodir" v = inl (None, Some m) /\ modes_of g "keepdir" v = inl (None, Some m)).
Proof.
  intros g v. unfold modes_of. rewrite wrapper_opts_domo.
  split; [repeat split; vm_compute; reflexivity|]. split; [|split; [|split]].
  - intros m1 m2 H1 H2. cbv -[install_mode app] in *. now rewrite !app_nil_r, H1, H2.
  - intros m H. cbv -[install_mode app] in *. now rewrite !app_nil_r, H.
  - intros m H. cbv -[install_mode app] in *. now rewrite !app_nil_r, H.
  - intros m H. cbv -[install_mode app] in *. now rewrite !app_nil_r, H.
Qed.
Print Assumptions modes_are_pms.

(* an option string "-m<octal digits>" asks for exactly that mode *)
Theorem install_mode_dash_m : forall ds m,
  ds <> [] -> nosep 32 ds -> octal ds = Some m -> install_mode (Some (lit "-m" ++ ds)) = Some (Some m).
Proof.
  intros ds m Hn Hs Ho. unfold install_mode, words.
  rewrite (split_on_nosep_single 32 (lit "-m" ++ ds)) by exact Hs.
  destruct ds as [|d ds']; [congruence|]. cbn -[octal]. now rewrite Ho.
Qed.
Print Assumptions install_mode_dash_m.

(* the installed file has exactly the requested mode, all twelve bits (ownership is applied
   before the mode, so -o/-g cannot strip set-uid/set-gid/sticky bits requested with -m) *)
Theorem installed_mode_is_requested : forall um s cid p m s',
  exec1 um s (AInstall (FReg cid) p (Some m)) = inl s' ->
  lookup (key p) (s_img s') = Some (NFile m cid (s_ino s)).
Proof.
  intros um s cid p m s' H. exact (exec1_install um s (FReg cid) p (Some m) s' H).
Qed.
Print Assumptions installed_mode_is_requested.

(* and the requested mode is independent of owner/group options in the option string *)
Theorem owner_options_keep_mode : forall v i ws mode f,
  owner_id v = Some i ->
  install_mode_words (lit "-o" :: v :: ws) mode (S f) = install_mode_words ws mode f
  /\ install_mode_words (lit "-g" :: v :: ws) mode (S f) = install_mode_words ws mode f
  /\ install_mode_words (lit "--owner" :: v :: ws) mode (S f) = install_mode_words ws mode f
  /\ install_mode_words (lit "--group" :: v :: ws) mode (S f) = install_mode_words ws mode f.
Proof.
  intros v i ws mode f H. repeat split; apply (owner_flag_skipped _ v i); cbn [In]; auto 6.
Qed.
Print Assumptions owner_options_keep_mode.

(* the rule on the spelling of a directory argument of doins -r / dodoc -r, which
   [recursive_entries] (and so placement_is_pms_recursive) applies: trailing slashes are dropped
   and the last component names the directory created below <dest>; when that component is "."
   ("dir/.", "dir/sub/.", "./dir/./", ".") the contents go directly into <dest> *)
Theorem recursive_name_rule : forall sl dest dm m d w,
  (basename (rstrip_sl d) = dot -> tree_entries sl dest dm m d w = tree_walk sl dest dm m w)
  /\ (good_name (basename (rstrip_sl d)) = true ->
      tree_entries sl dest dm m d w = tree_walk sl (dest ++ [basename (rstrip_sl d)]) dm m w).
Proof.
  intros. unfold tree_entries. split; [intros ->; reflexivity|]. intro G. rewrite G.
  destruct (str_eqb (basename (rstrip_sl d)) dot) eqn:E; [|reflexivity].
  apply str_eqb_eq in E. rewrite E in G. discriminate.
Qed.
Print Assumptions recursive_name_rule.
