From Coq Require Import List ZArith Permutation.
Import ListNotations.
From Verif Require Import C16.Model_C16 C16.Spec_C16 C16.Proofs_C16 C16.ChoicePoint_C16 C16.ChoicePointProofs_C16.

(* upgrade strategy: the first candidate handed to the resolver is an offered package that no
   offered package exceeds in version order, and an installed instance of an equal version is
   preferred (all repositories, any number of them, any packages with valid versions) *)
Theorem highest_first :
  forall dbs h tl, Forall repo_ok dbs -> prefer_highest dbs = h :: tl ->
    In h (offered dbs) /\
    forall x, In x (offered dbs) ->
      (ccmp x h <= 0)%Z /\ (ccmp x h = 0%Z -> clive x = true -> clive h = true).
Proof.
  intros dbs h tl OK E. destruct (prefer_highest_sorted_proof dbs OK) as [P S].
  exact (desc_head_max _ _ h tl P (offered_cdom dbs OK) S E).
Qed.
Print Assumptions highest_first.

(* ... and the whole stream is the offered candidates in descending highest-first order *)
Theorem prefer_highest_sorted : forall dbs, Forall repo_ok dbs ->
  Permutation (prefer_highest dbs) (offered dbs) /\ desc lt_highest (prefer_highest dbs).
Proof. exact prefer_highest_sorted_proof. Qed.
Print Assumptions prefer_highest_sorted.

(* minimal-install strategy: every installed candidate precedes every other one; the head is
   installed whenever an installed package matches *)
Theorem reuse_first :
  forall dbs, Forall repo_ok dbs ->
    exists L N, prefer_reuse dbs = L ++ N
      /\ Forall (fun c => clive c = true) L /\ Forall (fun c => clive c = false) N
      /\ Permutation (L ++ N) (offered dbs)
      /\ desc lt_highest L /\ desc lt_highest N
      /\ ((exists x, In x (offered dbs) /\ clive x = true) ->
          exists h tl, prefer_reuse dbs = h :: tl /\ clive h = true).
Proof.
  intros dbs OK. destruct (reuse_split dbs OK) as (Fl & Fn & P & Sl & Sn).
  eexists _, _. split; [reflexivity|]. repeat split; try assumption.
  intros (x & Ix & Lx). eapply live_head; eauto. eapply Permutation_in; [symmetry; exact P | exact Ix].
Qed.
Print Assumptions reuse_first.

(* the k-way merge is determined by its inputs: any two stable sorting algorithms (list.sort is
   one, the model's insertion sort another) drive iter_sort to the same stream *)
Theorem merge_deterministic :
  forall (s1 s2 : list (cand * list cand) -> list (cand * list cand)) streams,
    stable_sorter (ltE lt_highest) (domE cdom) s1 -> stable_sorter (ltE lt_highest) (domE cdom) s2 ->
    Forall (fun s => Forall cdom s /\ desc lt_highest s) streams ->
    iter_sort_gen s1 streams = iter_sort_gen s2 streams.
Proof.
  intros s1 s2 streams G1 G2 H. exact (iter_sort_det lt_highest cdom PO_highest s1 G1 s2 G2 streams H).
Qed.
Print Assumptions merge_deterministic.

(* the model's sorter is such an algorithm; the comparison of highest_iter_sort is a total preorder
   on packages with valid versions (by C01's cpv_cmp_total_preorder) *)
Theorem highest_iter_sort_is_stable : stable_sorter (ltE lt_highest) (domE cdom) highest_iter_sort.
Proof. exact highest_iter_sort_stable. Qed.
Print Assumptions highest_iter_sort_is_stable.

Theorem highest_order_is_preorder : preorder_on lt_highest cdom.
Proof. exact PO_highest. Qed.
Print Assumptions highest_order_is_preorder.

(* ---- choice_point as a long-lived object (ChoicePoint_C16.v): over ANY sequence of reduce_atoms /
   force_next_pkg / current_pkg / bool calls, the current candidate of the model is the one the
   declarative run names: the first not yet discarded candidate every requirement group of which
   keeps an alternative under the filters accumulated so far *)
Theorem choice_point_refines_spec : forall ps ops,
  ChoicePointProofs_C16.run_ids (ChoicePoint_C16.init ps) ops
  = ChoicePoint_C16.srun (ChoicePoint_C16.mksst ps false true []) ops.
Proof. intros ps ops. apply run_refines. cbn. repeat split. Qed.
Print Assumptions choice_point_refines_spec.

(* the step the resolver relies on: reduce_atoms keeps or advances to the first viable candidate and
   leaves it with exactly its original groups minus the filtered atoms *)
Theorem reduce_selects_first_viable : forall r c o f a,
  ChoicePointProofs_C16.shadow f c o ->
  match ChoicePoint_C16.drop_unviable (f ++ a) (o :: r) with
  | [] => ChoicePoint_C16.cur (fst (ChoicePoint_C16.reduce (ChoicePoint_C16.mkst r (Some c) true f) a)) = None
          /\ ChoicePoint_C16.alive (fst (ChoicePoint_C16.reduce (ChoicePoint_C16.mkst r (Some c) true f) a)) = false
  | o' :: r' => exists q,
        ChoicePoint_C16.cur (fst (ChoicePoint_C16.reduce (ChoicePoint_C16.mkst r (Some c) true f) a)) = Some q
        /\ ChoicePoint_C16.rest (fst (ChoicePoint_C16.reduce (ChoicePoint_C16.mkst r (Some c) true f) a)) = r'
        /\ ChoicePoint_C16.pid q = ChoicePoint_C16.pid o'
        /\ ChoicePoint_C16.pdeps q = ChoicePoint_C16.prune (f ++ a) (ChoicePoint_C16.pdeps o')
  end.
Proof.
  intros r c o f a Sh. unfold reduce. cbn [alive negb cur rest flt].
  pose proof (scan_head (f ++ a) c o r (shadow_grow _ a _ _ Sh)) as H.
  destruct (scan (f ++ a) (c :: r)) as [[[k q] r']|].
  - destruct H as [o' [D [P E]]]. rewrite D. cbn. exists q. auto.
  - rewrite H. cbn. auto.
Qed.
Print Assumptions reduce_selects_first_viable.
