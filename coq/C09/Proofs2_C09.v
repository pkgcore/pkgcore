(* Proofs2_C09.v — the parser on strings (str.split / " ".join, the premises by attribute kind)
   and the shape of every accepted token list on its structural positions. *)
From Coq Require Import List NArith Bool Lia.
Import ListNotations.
From Verif Require Import Base.Val Base.Lists C09.Model_C09 C09.Spec_C09 C09.Proofs_C09.

Lemma split_word w : forallb (fun x => negb (is_ws x)) w = true ->
  forall rest acc, split_aux (w ++ rest) acc = split_aux rest (rev w ++ acc).
Proof.
  induction w as [|x w IH]; intros H rest acc; [reflexivity|].
  cbn in H. apply andb_true_iff in H as [Hx Hw]. apply negb_true_iff in Hx.
  cbn [app split_aux]. rewrite Hx, (IH Hw). cbn [rev]. rewrite <- app_assoc. reflexivity.
Qed.

Lemma rev_nonnil {A} (l : list A) : l <> [] -> is_nil (rev l) = false.
Proof.
  intro H. destruct (rev l) eqn:E; [|reflexivity].
  apply (f_equal (@rev A)) in E. rewrite rev_involutive in E. contradiction.
Qed.

Theorem split_join_proof toks : forallb tok_ok toks = true -> split_ws (join_sp toks) = toks.
Proof.
  unfold split_ws. induction toks as [|t ts IH]; [reflexivity|]. cbn [forallb]. intro H.
  apply andb_true_iff in H as [Ht Hts]. unfold tok_ok in Ht. apply andb_true_iff in Ht as [NE WS].
  assert (R : is_nil (rev t) = false) by (apply rev_nonnil; destruct t; discriminate).
  destruct ts as [|t2 ts'].
  - cbn [join_sp]. rewrite <- (app_nil_r t) at 1. rewrite (split_word t WS). cbn [split_aux].
    rewrite app_nil_r, R, rev_involutive. reflexivity.
  - cbn [join_sp]. rewrite (split_word t WS). cbn [app split_aux]. rewrite app_nil_r.
    change (is_ws 32) with true. cbn [negb]. rewrite R, rev_involutive.
    f_equal. apply IH. exact Hts.
Qed.

Lemma split_aux_ok s : forall acc, forallb (fun x => negb (is_ws x)) acc = true ->
  forallb tok_ok (split_aux s acc) = true.
Proof.
  assert (W : forall acc, acc <> [] -> forallb (fun x => negb (is_ws x)) acc = true -> tok_ok (rev acc) = true).
  { intros acc NE H. unfold tok_ok. rewrite (rev_nonnil acc NE). cbn [negb andb].
    rewrite forallb_forall in *. intros y Hy. apply H, in_rev, Hy. }
  induction s as [|x r IH]; intros acc H; cbn [split_aux].
  - destruct acc; [reflexivity|]. cbn [is_nil forallb]. rewrite W by (discriminate || exact H). reflexivity.
  - destruct (is_ws x) eqn:X; [|apply IH; cbn [forallb]; rewrite X, H; reflexivity].
    destruct acc; cbn [is_nil forallb]; [apply IH; reflexivity|].
    rewrite W by (discriminate || exact H). apply IH. reflexivity.
Qed.
Lemma split_ws_ok s : forallb tok_ok (split_ws s) = true.
Proof. apply split_aux_ok. reflexivity. Qed.

Lemma tok_ok_group (a ts ts' z : list str) : forallb tok_ok (a ++ ts ++ z) = true ->
  (forallb tok_ok ts = true -> forallb tok_ok ts' = true) -> forallb tok_ok (a ++ ts' ++ z) = true.
Proof.
  rewrite !forallb_app. intros H IH. apply andb_true_iff in H as [Ha H]. apply andb_true_iff in H as [Ht Hz].
  rewrite Ha, (IH Ht), Hz. reflexivity.
Qed.

Section PrintTokens.
  Variable c : cfg.
  Variable lf : str -> option str -> option leaf.
  Hypothesis LG : lf_good c lf.
  Hypothesis LT : lf_tok lf.

  Lemma print_tokens :
    (forall ts ns, items c lf ts ns -> forallb tok_ok ts = true -> forallb tok_ok (print ns) = true) /\
    (forall t n, item c lf t n -> forallb tok_ok t = true -> forallb tok_ok (pr_node n) = true).
  Proof.
    apply gram_mind.
    - intros k l P A E H. destruct (LG k None l P A E) as (_ & _ & R & _).
      cbn [pr_node]. unfold pr_leaf. rewrite R. cbn [forallb] in *. rewrite andb_true_r in *.
      exact (LT k None l E H).
    - intros k r l RN P A E H. destruct (LG k (Some r) l P A E) as (_ & _ & R & _).
      cbn [pr_node]. unfold pr_leaf. rewrite R. cbn [forallb] in *.
      apply andb_true_iff in H as [Hk H]. rewrite (LT k (Some r) l E Hk). exact H.
    - intros key ts n O M B _ IH H. rewrite <- (app_nil_r (pr_node n)).
      rewrite !forallb_app, !andb_true_iff in H. apply IH, H.
    - intros key ts ns O M B Hl _ IH H. exact (tok_ok_group _ _ _ _ H IH).
    - intros ng f ts ns A M B NE _ IH H. rewrite pr_cond. exact (tok_ok_group _ _ _ _ H IH).
    - reflexivity.
    - intros t1 n t2 ns _ IH1 _ IH2 H. unfold print in *. cbn [flat_map].
      rewrite forallb_app, andb_true_iff in *. split; [apply IH1 | apply IH2]; apply H.
  Qed.

  Hypothesis AR : arrow_reserved c lf.

  Lemma print_str_split s d : parse_str c lf s = Some d -> split_ws (print_str d) = print d.
  Proof.
    intro H. apply split_join_proof. apply (accepted_grammatical_proof c lf AR) in H.
    exact (proj1 print_tokens _ _ H (split_ws_ok s)).
  Qed.
End PrintTokens.

Lemma lf_id_tok : lf_tok lf_id.
Proof. intros k r l E H. unfold lf_id in E. injection E as <-. exact H. Qed.
Lemma lf_uri_tok : lf_tok lf_uri.
Proof.
  intros k r l E H. unfold lf_uri in E. destruct (str_eqb k s_arrow); [discriminate|].
  exact (lf_id_tok k r l E H).
Qed.

(* cfg_of tells the kinds 0..5 apart and treats all later ones alike: three binary digits decide *)
Lemma renames_of_kind kd : renames (cfg_of kd) = (kd =? 4)%N.
Proof. destruct kd as [|p]; [reflexivity|]. do 3 (destruct p as [p|p|]; try reflexivity). Qed.

Lemma kind_premises kd : (2 <= kd)%N ->
  arrow_reserved (cfg_of kd) (lf_of kd []) /\ lf_good (cfg_of kd) (lf_of kd []) /\ lf_tok (lf_of kd []).
Proof.
  intro K. unfold lf_of. rewrite (proj2 (N.leb_gt kd 1)) by lia.
  destruct (kd =? 4)%N eqn:E4.
  - apply N.eqb_eq in E4. subst kd. split; [apply lf_uri_reserved; reflexivity|].
    split; [apply lf_uri_good | apply lf_uri_tok].
  - split; [apply no_renames_reserved; rewrite renames_of_kind; exact E4|].
    split; [apply lf_id_good | apply lf_id_tok].
Qed.

Example ex_split : split_ws [32; 97; 32; 32; 9; 98; 99; 10] = [[97]; [98; 99]].
Proof. reflexivity. Qed.
Example ex_str_roundtrip :       (* "  ^^ (  a\tb )" -> "^^ ( a b )" -> the same tree *)
  option_map print_str (parse_str (cfg_of 5) lf_id [32;32;94;94;32;40;32;32;97;9;98;32;41])
  = Some [94;94;32;40;32;97;32;98;32;41].
Proof. reflexivity. Qed.

Section Shape.
  Variable c : cfg.
  Variable lf : str -> option str -> option leaf.
  Notation runs := (runs c lf).

  Lemma bal_tok depth k rest : is_word k -> balance depth (k :: rest) = balance depth rest.
  Proof. intros (_ & H1 & H2). cbn. rewrite H1, H2. reflexivity. Qed.
  Lemma eg_skip k r : str_eqb k s_open = false -> empty_group (k :: r) = empty_group r.
  Proof. intro H. destruct r; cbn; rewrite ?H; reflexivity. Qed.

  Lemma skel_nonplain k rest : classify c k <> TPlain -> skel c (k :: rest) = k :: skel c rest.
  Proof.
    intro H. destruct rest as [|a [|b r]]; cbn [skel]; try reflexivity.
    destruct (classify c k); try congruence; rewrite andb_false_r; reflexivity.
  Qed.
  Lemma skel_leaf k rest : arrow_ok c rest -> skel c (k :: rest) = k :: skel c rest.
  Proof.
    intro A. destruct rest as [|a [|b r]]; cbn [skel]; try reflexivity.
    destruct (renames c) eqn:RN; [|reflexivity]. rewrite (A RN). reflexivity.
  Qed.
  Lemma skel_rename k r rest : renames c = true -> plain c k ->
    skel c (k :: s_arrow :: r :: rest) = k :: skel c rest.
  Proof. intros H1 H2. cbn [skel]. rewrite H1, H2, str_eqb_refl. reflexivity. Qed.
  Lemma skel_id toks : renames c = false -> skel c toks = toks.
  Proof.
    intro H. induction toks as [|k r IH]; [reflexivity|].
    rewrite skel_leaf, IH by (intro; congruence). reflexivity.
  Qed.

  (* right after an opening parenthesis the next structural token is not ")" *)
  Lemma fresh_no_close toks key stk d : runs toks [] (key :: stk) d -> forall r, skel c toks <> s_close :: r.
  Proof.
    intros H r E.
    inversion H as [|? ? ? ? ? ? ? NE|? ? ? ? ?|k ? ? ? ? G|k ? ? ? ? ? P ? A|k ? ? ? ? ? ? RN P]; subst.
    - exact (NE eq_refl).
    - rewrite skel_nonplain in E by discriminate. discriminate.
    - rewrite skel_nonplain in E by congruence. injection E as -> _. discriminate.
    - rewrite skel_leaf in E by exact A. injection E as -> _. discriminate.
    - rewrite skel_rename in E by assumption. injection E as -> _. discriminate.
  Qed.

  Lemma eg_open X : (forall r, X <> s_close :: r) -> empty_group (s_open :: X) = empty_group X.
  Proof.
    intro H. destruct X as [|k2 X']; [reflexivity|]. cbn [empty_group]. rewrite str_eqb_refl.
    destruct (str_eqb_spec k2 s_close) as [->|_]; [destruct (H X' eq_refl) | reflexivity].
  Qed.

  Definition shape_ok (depth : nat) (toks : list str) : Prop :=
    balance depth toks = true /\ dangling c toks = false /\ empty_group toks = false.

  Lemma shape_plain depth k X : plain c k -> shape_ok depth X -> shape_ok depth (k :: X).
  Proof.
    intros P (B & D & E). pose proof (plain_word c k P) as W. repeat split.
    - rewrite bal_tok by exact W. exact B.
    - cbn [dangling]. rewrite P. exact D.
    - rewrite eg_skip by apply W. exact E.
  Qed.

  Lemma run_shape toks cur stk d : runs toks cur stk d -> shape_ok (length stk) (skel c toks).
  Proof.
    induction 1 as [d|key parent stk cur n rest d _ _ _ (B & D & E)|rest cur stk d H (B & D & E)
                   |k rest cur stk d G H (B & D & E)|k l rest cur stk d P _ A _ IH
                   |k r l rest cur stk d RN P _ _ IH].
    - repeat split.
    - rewrite skel_nonplain by discriminate. repeat split; [exact B | exact D|].
      rewrite eg_skip by reflexivity. exact E.
    - rewrite skel_nonplain by discriminate. repeat split; [exact B | exact D|].
      rewrite (eg_open _ (fresh_no_close _ _ _ _ H)). exact E.
    - pose proof (group_word c k G) as W.
      rewrite skel_nonplain by congruence. rewrite skel_nonplain by discriminate.
      repeat split.
      + rewrite bal_tok by exact W. exact B.
      + cbn [dangling]. rewrite G, classify_open. exact D.
      + rewrite (eg_skip k) by apply W. rewrite (eg_open _ (fresh_no_close _ _ _ _ H)). exact E.
    - rewrite skel_leaf by exact A. apply shape_plain; assumption.
    - rewrite skel_rename by assumption. apply shape_plain; assumption.
  Qed.

  Theorem unbalanced_rejected_all_proof toks :
    balance 0 (skel c toks) = false \/ dangling c (skel c toks) = true \/ empty_group (skel c toks) = true ->
    parse c lf toks = None.
  Proof.
    intro H. destruct (parse c lf toks) as [d|] eqn:E; [|reflexivity]. exfalso.
    destruct (run_shape _ _ _ _ (run_runs c lf _ _ _ _ E)) as (B & D & G). cbn [length] in B.
    destruct H as [H|[H|H]]; congruence.
  Qed.

  Lemma dangling_end pre k : classify c k = TGroup -> dangling c (pre ++ [k]) = true.
  Proof.
    intro G. induction pre as [|x pre IH]; [cbn; rewrite G; reflexivity|].
    cbn [app]. remember (pre ++ [k]) as Y eqn:EY. cbn [dangling].
    destruct (classify c x); try exact IH.
    destruct Y as [|s l]; [reflexivity|]. rewrite IH. apply orb_true_r.
  Qed.

  Lemma empty_group_mid t1 t2 : empty_group (t1 ++ s_open :: s_close :: t2) = true.
  Proof.
    induction t1 as [|x t1 IH]; [reflexivity|].
    cbn [app]. remember (t1 ++ s_open :: s_close :: t2) as Y eqn:EY.
    destruct Y as [|s l]; [destruct t1; discriminate|].
    change (empty_group (x :: s :: l)) with ((str_eqb x s_open && str_eqb s s_close) || empty_group (s :: l)).
    rewrite IH. apply orb_true_r.
  Qed.
End Shape.

Example ex_skel : skel (cfg_of 4) [[117]; s_arrow; s_open; s_close] = [[117]; s_close].
Proof. reflexivity. Qed.
Example ex_rename_paren_target :    (* "x? ( u -> ( )" is accepted: the "(" is a rename target *)
  parse (cfg_of 4) lf_uri [[120;63]; s_open; [117]; s_arrow; s_open; s_close] <> None
  /\ empty_group (skel (cfg_of 4) [[120;63]; s_open; [117]; s_arrow; s_open; s_close]) = false.
Proof. split; [discriminate | reflexivity]. Qed.
Example ex_dangling_end_uri : parse (cfg_of 4) lf_uri [[117]; [120;63]] = None.
Proof. reflexivity. Qed.
