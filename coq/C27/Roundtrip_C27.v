(* Roundtrip_C27.v — parse (serialize e) returns the stored entry (eclass data, plain keys, validation value). *)
From Coq Require Import List ZArith Bool Lia Permutation.
Import ListNotations.
From Verif Require Import Base.Val Base.Lists C27.Model_C27 C27.Spec_C27 C27.Lemmas_C27.
Local Open Scope N_scope.

Lemma drop_nonslash_in c s : In c (drop_nonslash s) -> In c s.
Proof. induction s as [|x s IH]; cbn; [tauto|]. destruct (x =? c_sl); cbn; tauto. Qed.
Lemma drop_slash_in c s : In c (drop_slash s) -> In c s.
Proof. induction s as [|x s IH]; cbn; [tauto|]. destruct (x =? c_sl); cbn; tauto. Qed.
Lemma dirname_in c p : In c (dirname p) -> In c p.
Proof.
  unfold dirname. destruct (forallb _ _); intro H; apply in_rev in H.
  - apply drop_nonslash_in in H. now apply in_rev.
  - apply drop_slash_in, drop_nonslash_in in H. now apply in_rev.
Qed.
Lemma forallb_sub (f : N -> bool) a b : (forall c, In c a -> In c b) -> forallb f b = true -> forallb f a = true.
Proof. intros Hs H. apply forallb_forall. intros c Hc. rewrite forallb_forall in H. auto. Qed.

(* what makes an eclass entry serialisable: a name that is one non-blank-initial token free of
   tabs and line ends, a path free of tabs and line ends *)
Definition wf_name (n : str) : bool := starts_nonspace n && no_tab n && no_nl n.
Definition wf_path (p : str) : bool := no_tab p && no_nl p.
Definition wf_ecl (nd : str * edata) : bool := wf_name (fst nd) && wf_path (e_path (snd nd)).

Definition block_items (lay : layout) (nd : str * edata) : list str := fst nd :: eclass_fields lay (snd nd).

Lemma fields_ok lay d : wf_path (e_path d) = true ->
  Forall (fun s => no_tab s = true /\ no_nl s = true) (eclass_fields lay d).
Proof.
  intro H. unfold wf_path in H. apply andb_true_iff in H as [Ht Hn].
  destruct lay; cbn [eclass_fields]; repeat constructor.
  - eapply forallb_sub; [intros c; apply dirname_in|exact Ht].
  - eapply forallb_sub; [intros c; apply dirname_in|exact Hn].
  - apply no_space_no_tab, dec_no_space.
  - apply no_space_no_nl, dec_no_space.
  - apply no_space_no_tab, hex32_no_space.
  - apply no_space_no_nl, hex32_no_space.
Qed.

Lemma wf_ecl_facts nd : wf_ecl nd = true ->
  starts_nonspace (fst nd) = true /\ no_tab (fst nd) = true /\ no_nl (fst nd) = true /\
  wf_path (e_path (snd nd)) = true.
Proof. unfold wf_ecl, wf_name. rewrite !andb_true_iff. tauto. Qed.

Lemma items_ok lay m : forallb wf_ecl m = true ->
  Forall (fun s => no_tab s = true /\ no_nl s = true) (flat_map (block_items lay) m).
Proof.
  induction m as [|nd m IH]; cbn [forallb flat_map]; intro H; [constructor|].
  apply andb_true_iff in H as [Hx Hm]. destruct (wf_ecl_facts _ Hx) as (Hn1 & Hn2 & Hn3 & Hp).
  apply Forall_app. split; [|auto]. unfold block_items. constructor; [split; assumption|].
  apply fields_ok. exact Hp.
Qed.

Lemma fields_last lay d : exists fs x, eclass_fields lay d = fs ++ [x] /\ no_space x = true /\ x <> [].
Proof.
  destruct lay; cbn [eclass_fields].
  - exists [dirname (e_path d)], (dec (e_mtime d)). repeat split; [apply dec_no_space|apply dec_not_nil].
  - exists [], (hex32 (e_md5 d)). repeat split; [apply hex32_no_space|apply hex32_not_nil].
Qed.

Lemma join_starts sep x r : starts_nonspace x = true -> starts_nonspace (join_on sep (x :: r)) = true.
Proof. destruct x as [|c x]; [discriminate|]. intro H. destruct r; cbn; exact H. Qed.

(* the serialised eclass string survives both strip() calls *)
Lemma deconstruct_strip lay m : forallb wf_ecl m = true ->
  strip (rstrip (deconstruct lay m)) = deconstruct lay m.
Proof.
  intro H. unfold deconstruct. fold (block_items lay).
  destruct m as [|nd0 m0] eqn:Em; [reflexivity|]. rewrite <- Em in *.
  assert (Hne : m <> []) by (rewrite Em; discriminate).
  destruct (exists_last Hne) as [m' [nd El]].
  destruct (fields_last lay (snd nd)) as [fs [x [Ef [Hx Hxn]]]].
  assert (Ei : flat_map (block_items lay) m = (flat_map (block_items lay) m' ++ fst nd :: fs) ++ [x]).
  { rewrite El, flat_map_app. cbn [flat_map]. rewrite app_nil_r. unfold block_items at 2. rewrite Ef.
    rewrite <- app_assoc. reflexivity. }
  assert (Hr : rstrip (join_on c_tab (flat_map (block_items lay) m)) = join_on c_tab (flat_map (block_items lay) m)).
  { rewrite Ei, join_on_snoc by (destruct (flat_map (block_items lay) m'); discriminate).
    assert (Hrx : rstrip (c_tab :: x) = c_tab :: x).
    { change (c_tab :: x) with ([c_tab] ++ x). rewrite rstrip_app; rewrite (rstrip_no_space x Hx); [reflexivity|exact Hxn]. }
    rewrite rstrip_app; rewrite Hrx; [reflexivity|discriminate]. }
  rewrite Hr. unfold strip. rewrite lstrip_starts; [exact Hr|].
  rewrite Em. cbn [flat_map]. unfold block_items at 1. cbn [app].
  rewrite Em in H. cbn [forallb] in H. apply andb_true_iff in H as [H0 _].
  apply join_starts, (wf_ecl_facts _ H0).
Qed.

Lemma items_len lay m : length (flat_map (block_items lay) m) = (length m * tuple_len lay)%nat.
Proof.
  induction m as [|nd m IH]; cbn [flat_map length]; [reflexivity|].
  rewrite app_length, IH. destruct lay; cbn; lia.
Qed.

(* each layout writes a fixed number of items per eclass: cutting into blocks gives them back *)
Lemma blocks_items lay m : forall fuel, (length m <= fuel)%nat ->
  blocks (tuple_len lay) fuel (flat_map (block_items lay) m) = map (block_items lay) m.
Proof.
  induction m as [|nd m IH]; intros [|fuel] Hf; try reflexivity; [cbn in Hf; lia|].
  specialize (IH fuel ltac:(cbn in Hf; lia)).
  destruct lay; cbn [tuple_len] in *; cbn [flat_map block_items eclass_fields app blocks firstn skipn map];
    now rewrite IH.
Qed.

Lemma block_view lay nd : eclass_block lay (block_items lay nd) = Some (ecl_view lay nd).
Proof.
  destruct lay; unfold block_items, ecl_view; cbn [eclass_fields eclass_block].
  - rewrite parse_num_dec. reflexivity.
  - rewrite parse_hex_hex32. reflexivity.
Qed.

Lemma all_some_map {A B} (f : A -> option B) (g : A -> B) l :
  (forall x, f x = Some (g x)) -> all_some (map f l) = Some (map g l).
Proof. intro H. induction l as [|x l IH]; cbn; [reflexivity|]. rewrite H, IH. reflexivity. Qed.

Lemma reconstruct_deconstruct lay m : forallb wf_ecl m = true ->
  reconstruct lay (rstrip (deconstruct lay m)) = Some (map (ecl_view lay) m).
Proof.
  intro H. unfold reconstruct. rewrite deconstruct_strip by exact H.
  destruct m as [|nd0 m0] eqn:Em; [reflexivity|]. rewrite <- Em in *.
  unfold deconstruct. fold (block_items lay).
  assert (Hne : flat_map (block_items lay) m <> [])
    by (rewrite Em; cbn [flat_map]; unfold block_items at 1; discriminate).
  rewrite split_join; [|exact Hne|].
  2:{ eapply Forall_impl; [|apply items_ok; exact H]. intros s [Ht _]. exact Ht. }
  (* reconstruct matches the parts against the pattern [[]]; stated for any branches to rewrite under the match *)
  assert (Hnot : forall T (a b : T), match flat_map (block_items lay) m with [[]] => a | _ => b end = b).
  { intros T a b. rewrite Em. cbn [flat_map]. unfold block_items at 1. destruct (fst nd0), lay; reflexivity. }
  rewrite Hnot. rewrite items_len.
  rewrite Nat.mod_mul by (destruct lay; discriminate). cbn [Nat.eqb].
  rewrite blocks_items by (destruct lay; cbn; lia).
  rewrite map_map. apply all_some_map. intro nd. apply block_view.
Qed.

(* the entries the statement quantifies over: a mapping (distinct keys) whose keys are
   "="-free single-line tokens that do not start with a blank, whose values are single
   lines, with the eclass map under its own key *)
Definition wf_key (k : str) : bool := starts_nonspace k && no_eq k && no_nl k.
Definition wf_kv (kv : str * str) : bool :=
  wf_key (fst kv) && no_nl (snd kv) && negb (str_eqb (fst kv) k_eclasses).
Definition wf_entry (e : entry) : Prop :=
  NoDup (map fst (kvs e)) /\ forallb wf_kv (kvs e) = true /\
  match ecl e with Some m => forallb wf_ecl m = true | None => True end.

Lemma no_nl_join items : Forall (fun s => no_nl s = true) items -> no_nl (join_on c_tab items) = true.
Proof.
  induction 1 as [|x r Hx Hr IH]; [reflexivity|]. destruct r as [|y r]; [exact Hx|].
  change (join_on c_tab (x :: y :: r)) with (x ++ c_tab :: join_on c_tab (y :: r)).
  rewrite no_nl_app, Hx. cbn. exact IH.
Qed.

Lemma no_nl_deconstruct lay m : forallb wf_ecl m = true -> no_nl (deconstruct lay m) = true.
Proof.
  intro H. apply no_nl_join. eapply Forall_impl; [|apply (items_ok lay m H)]. intros s [_ Hs]. exact Hs.
Qed.

Lemma chf_key_wf lay : wf_key (chf_key lay) = true.
Proof. destruct lay; reflexivity. Qed.
Lemma chf_key_known lay : known lay (chf_key lay) = true.
Proof. destruct lay; reflexivity. Qed.
Lemma ecl_key_known lay : known lay k_eclasses = true.
Proof. destruct lay; reflexivity. Qed.
Lemma ecl_not_chf lay : str_eqb k_eclasses (chf_key lay) = false.
Proof. destruct lay; reflexivity. Qed.
Lemma chf_ser_plain lay c : no_space (chf_ser lay c) = true.
Proof. destruct lay; [apply dec_no_space|apply hex32_no_space]. Qed.
Lemma chf_deser_ser lay c : chf_deser lay (chf_ser lay c) = Some (chf_num lay c).
Proof. destruct lay; [apply parse_num_dec|apply parse_hex_hex32]. Qed.

Definition good_kv (kv : str * str) : Prop := wf_key (fst kv) = true /\ no_nl (snd kv) = true.

Lemma wf_kvs l : forallb wf_kv l = true -> Forall good_kv l /\ dget k_eclasses l = None.
Proof.
  induction l as [|[k v] l IH]; cbn [forallb dget]; [now split|]. intro H.
  apply andb_true_iff in H as [H Hl]. unfold wf_kv in H. cbn [fst snd] in H.
  apply andb_true_iff in H as [H Hne]. apply andb_true_iff in H as [Hk Hv].
  destruct (IH Hl) as [IH1 IH2]. rewrite str_eqb_sym. apply negb_true_iff in Hne. rewrite Hne.
  split; [constructor; [split|]|]; assumption.
Qed.

Lemma to_store_spec lay e c : wf_entry e -> chf e = Some c ->
  exists d, to_store lay e = Some d /\ Forall good_kv d /\ NoDup (map fst d) /\
    forall k, dget k d = if str_eqb k (chf_key lay) then Some (chf_ser lay c)
                         else if str_eqb k k_eclasses then option_map (deconstruct lay) (ecl e)
                         else dget k (kvs e).
Proof.
  intros (Hnd & Hkv & Hecl) Hc. destruct (wf_kvs _ Hkv) as [Gk Necl].
  unfold to_store. rewrite Hc. eexists. split; [reflexivity|].
  assert (Gchf : good_kv (chf_key lay, chf_ser lay c))
    by (split; [apply chf_key_wf|apply no_space_no_nl, chf_ser_plain]).
  destruct (ecl e) as [m|]; cbn [option_map].
  - split; [|split].
    + apply forall_dset; [exact Gchf|]. apply forall_dset; [|exact Gk].
      split; [reflexivity|]. apply no_nl_deconstruct, Hecl.
    + now apply nodup_dset, nodup_dset.
    + intro k. rewrite !dget_dset. now destruct (str_eqb k (chf_key lay)), (str_eqb k k_eclasses).
  - split; [|split].
    + now apply forall_dset.
    + now apply nodup_dset.
    + intro k. rewrite dget_dset. destruct (str_eqb k (chf_key lay)); [reflexivity|].
      destruct (str_eqb k k_eclasses) eqn:E; [|reflexivity]. apply str_eqb_eq in E. now subst k.
Qed.

(* _parse_data on the lines written for such a mapping, in any order l: the known keys come back
   with their values rstripped *)
Lemma read_back lay d l : Forall good_kv d -> NoDup (map fst d) -> Permutation l d ->
  exists acc, parse_lines lay (map strip (split_lines (flat_map line l))) [] = Some acc /\
    forall k, dget k acc = if known lay k then option_map rstrip (dget k d) else None.
Proof.
  intros G N Hperm.
  assert (Nl : NoDup (map fst l)) by (eapply Permutation_NoDup; [symmetry; apply Permutation_map, Hperm|exact N]).
  assert (Gk : forall kv, In kv l -> starts_nonspace (fst kv) = true /\ no_eq (fst kv) = true /\
                                    no_nl (fst kv) = true /\ no_nl (snd kv) = true).
  { intros kv Hin. rewrite Forall_forall in G. destruct (G kv (Permutation_in _ Hperm Hin)) as [Hk Hv].
    unfold wf_key in Hk. apply andb_true_iff in Hk as [Hk H3]. apply andb_true_iff in Hk as [H1 H2]. auto. }
  set (l' := map (fun kv => (fst kv, rstrip (snd kv))) l).
  assert (Hlines : map strip (split_lines (flat_map line l)) = map enc_line l').
  { rewrite split_lines_content by (apply Forall_forall; intros kv Hin; apply (Gk kv Hin)).
    unfold l'. rewrite !map_map. apply map_ext_in. intros kv Hin. apply strip_line, (Gk kv Hin). }
  destruct (parse_lines_spec lay l' []) as (acc & Hp & Hacc).
  - unfold l'. apply Forall_map, Forall_forall. intros kv Hin. apply (Gk kv Hin).
  - unfold l'. now rewrite map_map.
  - exists acc. split; [now rewrite Hlines|]. intro k.
    rewrite Hacc, (dget_perm k d l N (Permutation_sym Hperm)). unfold l'. rewrite dget_map_snd.
    now destruct (dget k l), (known lay k).
Qed.

Lemma parse_serialize lay e c content :
  wf_entry e -> chf e = Some c -> serialize lay e = Some content ->
  exists d, parse lay content = inl d /\ forall k, dget k d = expected_value lay e k.
Proof.
  intros Hwf Hc Hs. destruct (to_store_spec lay e c Hwf Hc) as (d & Hd & G & N & Hget).
  unfold serialize in Hs. rewrite Hd in Hs. injection Hs as <-.
  destruct (read_back lay d _ G N (sort_items_perm d)) as (acc & Hp & Hacc).
  unfold parse. rewrite Hp, !Hacc, chf_key_known, ecl_key_known, !Hget, str_eqb_refl, ecl_not_chf, str_eqb_refl.
  cbn [option_map]. rewrite (rstrip_no_space _ (chf_ser_plain lay c)), chf_deser_ser.
  assert (Hplain : forall k, str_eqb k (chf_key lay) = false -> str_eqb k k_eclasses = false ->
            dget k (lift acc) = if known lay k then option_map (fun v => PStr (rstrip v)) (dget k (kvs e)) else None).
  { intros k E1 E2. unfold lift. rewrite dget_map_snd, Hacc, Hget, E1, E2.
    now destruct (known lay k), (dget k (kvs e)). }
  destruct Hwf as (_ & _ & Hecl). unfold expected_value. rewrite Hc.
  destruct (ecl e) as [m|]; cbn [option_map].
  - rewrite (reconstruct_deconstruct lay m Hecl). eexists. split; [reflexivity|].
    intro k. rewrite !dget_dset.
    destruct (str_eqb k (chf_key lay)) eqn:E1.
    + apply str_eqb_eq in E1. subst k. now rewrite str_eqb_sym, ecl_not_chf.
    + destruct (str_eqb k k_eclasses) eqn:E2; [reflexivity|now apply Hplain].
  - eexists. split; [reflexivity|]. intro k. rewrite dget_dset.
    destruct (str_eqb k (chf_key lay)) eqn:E1; [reflexivity|].
    destruct (str_eqb k k_eclasses) eqn:E2; [|now apply Hplain].
    apply str_eqb_eq in E2. subst k. unfold lift. now rewrite dget_map_snd, Hacc, Hget, E1, str_eqb_refl, ecl_key_known.
Qed.

Lemma serialize_none_proof lay e : serialize lay e = None <-> chf e = None.
Proof. unfold serialize, to_store. destruct (chf e); split; intro H; congruence. Qed.

(* values without trailing blanks come back unchanged *)
Lemma rstrip_ends_nonspace a c : is_space c = false -> rstrip (a ++ [c]) = a ++ [c].
Proof. intro H. rewrite rstrip_app; cbn; rewrite H; [reflexivity|discriminate]. Qed.

(* dirname of dir/base: the recorded eclass location is the directory holding the eclass *)
Definition no_sl (s : str) : bool := forallb (fun c => negb (c =? c_sl)) s.
Lemma drop_nonslash_app b rest : no_sl b = true -> drop_nonslash (b ++ c_sl :: rest) = c_sl :: rest.
Proof.
  unfold no_sl. induction b as [|x b IH]; cbn [app drop_nonslash forallb]; intro H.
  - rewrite N.eqb_refl. reflexivity.
  - apply andb_true_iff in H as [Hx Hb]. apply negb_true_iff in Hx. rewrite Hx. auto.
Qed.
Lemma dirname_join_proof d c b : (c =? c_sl) = false -> no_sl b = true ->
  dirname ((d ++ [c]) ++ c_sl :: b) = d ++ [c].
Proof.
  intros Hc Hb. unfold dirname. rewrite rev_app_distr. cbn [rev]. rewrite <- app_assoc. cbn [app].
  rewrite drop_nonslash_app by (unfold no_sl in *; rewrite forallb_forall in *; intros x Hx; apply Hb, in_rev, Hx).
  rewrite rev_app_distr. cbn [rev app forallb drop_slash]. rewrite N.eqb_refl. cbn [andb].
  rewrite (N.eqb_sym c_sl c), Hc. cbn [andb rev]. rewrite rev_involutive. reflexivity.
Qed.
