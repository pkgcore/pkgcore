(* Proofs_C43.v — the worklist is level order; first hit is nearest definition; the fuel suffices. *)
From Coq Require Import List ZArith Lia.
Import ListNotations.
From Verif Require Import Base.Lists C42.Model_C42 C43.Model_C43 C43.Spec_C43.

Lemma memN_In x l : memN x l = true <-> In x l.
Proof. apply existsb_N_In. Qed.

Lemma child_of_fst e nd i y : In y (child_of e nd i) -> fst y = i.
Proof.
  unfold child_of. destruct (N.eqb i (fst nd)).
  - destruct (tl (snd nd)); cbn; [tauto | intros [<-|[]]; reflexivity].
  - destruct (stack_of e i); cbn; [tauto | intros [<-|[]]; reflexivity].
Qed.

Lemma children_fst e z y : In y (children e z) -> In (fst y) (inherits (snd z)).
Proof.
  unfold children. rewrite in_flat_map. intros [i [Hi Hy]].
  apply child_of_fst in Hy. subst. exact Hi.
Qed.

Lemma scan_ok e cur st : forall inh names acc names' new,
  scan_inh e cur st inh names acc = inr (names', new) ->
  new = acc ++ flat_map (child_of e (cur, st)) inh
  /\ (forall x, In x names -> In x names')
  /\ (forall i, In i inh -> i <> cur -> ~ In i names /\ stack_of e i <> [] /\ In i names')
  /\ (forall i, In i inh -> i = cur -> tl st <> []).
Proof.
  induction inh as [|i0 r IH]; intros names acc names' new H; cbn [scan_inh] in H.
  - injection H as <- <-. cbn. rewrite app_nil_r. split; [reflexivity|]. split; [auto|]. split; intros i [].
  - cbn [flat_map]. unfold child_of at 1. cbn [fst snd].
    destruct (N.eqb i0 cur) eqn:E.
    + apply N.eqb_eq in E. subst i0. destruct (tl st) as [|s' st'] eqn:T; [discriminate|].
      apply IH in H as [-> [M [A B]]]. rewrite <- app_assoc.
      split; [reflexivity|]. split; [exact M|]. split.
      * intros i [<-|Hi] Ne; [congruence | apply A; assumption].
      * intros i [<-|Hi] Ei; [congruence | apply (B i); assumption].
    + apply N.eqb_neq in E. destruct (memN i0 names) eqn:Mm; [discriminate|].
      destruct (stack_of e i0) as [|t0 t] eqn:T; [discriminate|].
      apply IH in H as [-> [M [A B]]]. rewrite <- app_assoc.
      split; [reflexivity|]. split; [intros x Hx; apply M; right; exact Hx|]. split.
      * intros i [<-|Hi] Ne.
        -- split; [|split].
           ++ intro Hn. apply memN_In in Hn. congruence.
           ++ congruence.
           ++ apply M. left. reflexivity.
        -- destruct (A _ Hi Ne) as [Hn [Hs Hin]]. split; [|split; assumption].
           intro Hx. apply Hn. right. exact Hx.
      * intros j [<-|Hj] Ej; [congruence | apply (B j); assumption].
Qed.

Lemma scan_children e cur st names names' new :
  scan_inh e cur st (inherits st) names [] = inr (names', new) -> new = children e (cur, st).
Proof. intro H. apply scan_ok in H as [-> _]. reflexivity. Qed.

Inductive Qrel (e : env) : list node -> list node -> Prop :=
| Q_nil : Qrel e [] []
| Q_cons x q o : Qrel e (q ++ children e x) o -> Qrel e (x :: q) (x :: o).

Lemma bfs_Qrel e : forall fuel q names out order,
  bfs fuel e q names out = inr order -> exists o, order = out ++ o /\ Qrel e q o.
Proof.
  induction fuel as [|f IH]; intros q names out order H.
  - destruct q as [|[cur st] q]; cbn in H; [|discriminate].
    injection H as <-. exists []. split; [rewrite app_nil_r; reflexivity | constructor].
  - destruct q as [|[cur st] q]; cbn [bfs] in H.
    + injection H as <-. exists []. split; [rewrite app_nil_r; reflexivity | constructor].
    + destruct (scan_inh e cur st (inherits st) names []) as [x|[names' new]] eqn:S; [discriminate|].
      apply scan_children in S. subst new.
      apply IH in H as [o [-> Q]]. exists ((cur, st) :: o). split.
      * rewrite <- app_assoc. reflexivity.
      * constructor. exact Q.
Qed.

Lemma flat_map_snoc {A B} (f : A -> list B) l x : flat_map f (l ++ [x]) = flat_map f l ++ f x.
Proof. rewrite flat_map_app. cbn. rewrite app_nil_r. reflexivity. Qed.

Lemma Qrel_levels e q o : Qrel e q o -> forall a b, q = a ++ flat_map (children e) b ->
  exists o2, o = a ++ o2 /\ LevelOrder e (flat_map (children e) (b ++ a)) o2.
Proof.
  induction 1 as [|x q o Q IH]; intros a b E.
  - symmetry in E. apply app_eq_nil in E as [-> E]. exists []. split; [reflexivity|].
    rewrite app_nil_r, E. constructor.
  - destruct a as [|x' a'].
    + cbn in E. destruct (IH q [x]) as [o2 [-> L]]; [cbn; rewrite app_nil_r; reflexivity|].
      exists (x :: q ++ o2). split; [reflexivity|].
      rewrite app_nil_r, <- E. apply (LO_level e (x :: q) o2); [discriminate | exact L].
    + cbn in E. injection E as <- ->.
      destruct (IH a' (b ++ [x])) as [o2 [-> L]].
      { rewrite flat_map_snoc, <- app_assoc. reflexivity. }
      exists o2. split; [reflexivity|]. rewrite <- app_assoc in L. exact L.
Qed.

Lemma bfs_level_order e fuel name st order :
  bfs fuel e [(name, st)] [name] [] = inr order -> LevelOrder e [(name, st)] order.
Proof.
  intro H. apply bfs_Qrel in H as [o [-> Q]]. cbn.
  destruct (Qrel_levels _ _ _ Q [(name, st)] []) as [o2 [-> L]]; [reflexivity|].
  apply (LO_level e [(name, st)] o2); [discriminate | exact L].
Qed.

Lemma first_some_nearest {B} (f : section -> option B) order :
  nearest f order (first_some (fun nd => f (head_sec nd)) order).
Proof.
  induction order as [|x order IH]; cbn.
  - intros y [].
  - destruct (f (head_sec x)) as [v|] eqn:E.
    + exists [], x, order. repeat split; [exact E | intros y []].
    + destruct (first_some (fun nd => f (head_sec nd)) order) as [v|]; cbn in *.
      * destruct IH as [before [x0 [after [-> [Hx Hb]]]]].
        exists (x :: before), x0, after. repeat split; [exact Hx|].
        intros y [<-|Hy]; [exact E | apply Hb; exact Hy].
      * intros y [<-|Hy]; [exact E | apply IH; exact Hy].
Qed.

Lemma collapse_inv e name c cfg :
  collapse e name = inr (c, cfg) ->
  exists order, bfs (fuel_of e) e [root e name] [name] [] = inr order
    /\ first_some (fun nd => s_class (head_sec nd)) order = Some c
    /\ cfg = (fun k => first_some (fun nd => assoc k (s_keys (head_sec nd))) order).
Proof.
  unfold collapse, root. destruct (stack_of e name) as [|s0 st] eqn:S; [discriminate|]. cbv zeta.
  destruct (s_ionly s0) as [[|]|];
    try discriminate;
    (match goal with |- context [bfs ?a ?b ?q ?n ?o] => destruct (bfs a b q n o) as [x|order] eqn:B end;
     [discriminate|];
     destruct (first_some (fun nd => s_class (head_sec nd)) order) as [c'|] eqn:C; [|discriminate];
     intro H; injection H as <- <-; exists order; auto).
Qed.

Definition resolves (e : env) (z : node) : Prop :=
  forall i, In i (inherits (snd z)) ->
    (i <> fst z -> stack_of e i <> []) /\ (i = fst z -> tl (snd z) <> []).

(* a successful run saw a tree: every section x reachable from the queue resolves its inherits, and
   no section below x inherits (non-self) a name already in the set of inherited names, nor the name
   of x.  [names] holds the names of the queue, and grows with every entry appended to it. *)
Lemma bfs_tree e : forall fuel q names out order,
  bfs fuel e q names out = inr order -> (forall w, In w q -> In (fst w) names) ->
  forall x0, In x0 q -> forall x, Reach e x0 x ->
    resolves e x /\
    forall z, Reach e x z -> forall y, In y (children e z) -> fst y <> fst z ->
      ~ In (fst y) names /\ fst y <> fst x.
Proof.
  induction fuel as [|f IH]; intros q names out order H I x0 Hx0 x Rx.
  - destruct q as [|[cur st] q]; [destruct Hx0 | discriminate].
  - destruct q as [|[cur st] q]; [destruct Hx0|]. cbn [bfs] in H.
    destruct (scan_inh e cur st (inherits st) names []) as [x1|[names' new]] eqn:S; [discriminate|].
    pose proof (scan_children _ _ _ _ _ _ S) as ->. apply scan_ok in S as [_ [M [A B]]].
    assert (I' : forall w, In w (q ++ children e (cur, st)) -> In (fst w) names').
    { intros w Hw. apply in_app_or in Hw as [Hw|Hw]; [apply M, I; now right|].
      apply children_fst in Hw. cbn [snd] in Hw. destruct (N.eq_dec (fst w) cur) as [->|Nw].
      - apply M, (I (cur, st)). now left.
      - now apply A. }
    assert (Next : forall c, In c (q ++ children e (cur, st)) -> forall x, Reach e c x ->
              resolves e x /\ forall z, Reach e x z -> forall y, In y (children e z) -> fst y <> fst z ->
                ~ In (fst y) names /\ fst y <> fst x).
    { intros c Hc x' R'. destruct (IH _ _ _ _ H I' c Hc x' R') as [Rs T]. split; [exact Rs|].
      intros z Rz y Hy Ny. destruct (T z Rz y Hy Ny) as [Nn Ne].
      split; [intro Hin; apply Nn, M, Hin | exact Ne]. }
    destruct Hx0 as [<-|Hx0]; [|apply (Next x0); [apply in_or_app; now left | exact Rx]].
    inversion Rx as [a|a c b Hc R']; subst; [|apply (Next c); [apply in_or_app; now right | exact R']].
    split.
    + intros i Hi. cbn [fst snd] in *. split; intro Hne; [apply (A i) | apply (B i)]; assumption.
    + intros z Rz y Hy Ny. assert (Nn : ~ In (fst y) names).
      { inversion Rz as [a|a c b Hc R']; subst.
        - apply children_fst in Hy. cbn [fst snd] in *. now apply (A (fst y)).
        - apply (proj2 (Next c (in_or_app _ _ _ (or_intror Hc)) c (R_refl e c)) z R' y Hy Ny). }
      split; [exact Nn|]. intro Ey. apply Nn. rewrite Ey. apply (I (cur, st)). now left.
Qed.

Definition push_sec (n : N) (acc : list section) (src : source) : list section :=
  match assoc n src with Some s => s :: acc | None => acc end.

Lemma stack_of_fold e n : stack_of e n = fold_left (push_sec n) e [].
Proof. reflexivity. Qed.

Lemma fold_push_acc n (e : env) : forall acc, fold_left (push_sec n) e acc = fold_left (push_sec n) e [] ++ acc.
Proof.
  induction e as [|src e IH]; intro acc; cbn [fold_left].
  - reflexivity.
  - unfold push_sec at 2 4. destruct (assoc n src) as [s|].
    + rewrite (IH (s :: acc)), (IH [s]). rewrite <- app_assoc. reflexivity.
    + apply IH.
Qed.

(* the sections of later config sources come first *)
Lemma stack_of_app e1 e2 n : stack_of (e1 ++ e2) n = stack_of e2 n ++ stack_of e1 n.
Proof. rewrite !stack_of_fold, fold_left_app. apply fold_push_acc. Qed.

(* The measure that the fuel bounds: [unv e names * Wq e + qsum e q].  [unv] counts the names of the
   environment not yet inherited; a queue entry weighs [Bq ^ (length of its stack)], at most [Wq];
   [Bq] exceeds the length of every inherit list.  Visiting an entry removes its weight and adds, per
   inherit, either an entry with a shorter stack (self-inherit) or an entry paid for by a used-up name. *)
Definition Bq (e : env) : nat := S (max_inh e).
Definition Wq (e : env) : nat := Nat.pow (Bq e) (length e).
Definition wt (e : env) (nd : node) : nat := Nat.pow (Bq e) (length (snd nd)).
Definition univ (e : env) : list N := flat_map (map fst) e.
Definition unv (e : env) (names : list N) : nat :=
  length (filter (fun n => negb (memN n names)) (univ e)).
Definition qsum (e : env) (q : list node) : nat := list_sum (map (wt e) q).
Definition in_env (e : env) (s : section) : Prop := exists src n, In src e /\ In (n, s) src.
Definition wf_node (e : env) (nd : node) : Prop :=
  snd nd <> [] /\ length (snd nd) <= length e /\ Forall (in_env e) (snd nd).

Lemma Bq_pos e : 1 <= Bq e. Proof. unfold Bq. lia. Qed.
Lemma pow_pos b n : 1 <= b -> 1 <= Nat.pow b n.
Proof. intro H. induction n; cbn; nia. Qed.

Lemma assoc_In {A} n (l : list (N * A)) v : assoc n l = Some v -> In (n, v) l.
Proof.
  induction l as [|[k x] l IH]; cbn; [discriminate|].
  destruct (N.eqb n k) eqn:E; intro H.
  - apply N.eqb_eq in E. injection H as ->. subst. left. reflexivity.
  - right. apply IH. exact H.
Qed.

Lemma fold_push_inv n (e : env) : forall acc s,
  In s (fold_left (push_sec n) e acc) -> In s acc \/ exists src, In src e /\ In (n, s) src.
Proof.
  induction e as [|src e IH]; intros acc s H; cbn [fold_left] in H.
  - left. exact H.
  - apply IH in H as [H|[src' [H1 H2]]].
    + unfold push_sec in H. destruct (assoc n src) as [s'|] eqn:A.
      * destruct H as [<-|H]; [|left; exact H]. right. exists src. split; [left; reflexivity|].
        apply assoc_In. exact A.
      * left. exact H.
    + right. exists src'. split; [right; exact H1 | exact H2].
Qed.

Lemma fold_push_len n (e : env) : forall acc,
  length (fold_left (push_sec n) e acc) <= length e + length acc.
Proof.
  induction e as [|src e IH]; intro acc; cbn [fold_left length].
  - lia.
  - specialize (IH (push_sec n acc src)). unfold push_sec in *. destruct (assoc n src); cbn in *; lia.
Qed.

Lemma stack_of_wf e i : stack_of e i <> [] -> wf_node e (i, stack_of e i) /\ In i (univ e).
Proof.
  intro H. rewrite stack_of_fold in *.
  split; [split; [exact H|split]|].
  - cbn [snd]. pose proof (fold_push_len i e []) as L. cbn [length] in L. rewrite Nat.add_0_r in L. exact L.
  - cbn [snd]. apply Forall_forall. intros s Hs. apply fold_push_inv in Hs as [[]|[src [H1 H2]]].
    exists src, i. auto.
  - destruct (fold_left (push_sec i) e []) as [|s l] eqn:E; [now elim H|].
    assert (Hs : In s (fold_left (push_sec i) e [])) by (rewrite E; left; reflexivity).
    apply fold_push_inv in Hs as [[]|[src [H1 H2]]].
    unfold univ. apply in_flat_map. exists src. split; [exact H1|].
    apply in_map_iff. exists (i, s). auto.
Qed.

Lemma max_inh_bound e s : in_env e s -> length (inherits [s]) <= max_inh e.
Proof.
  intros [src [n [H1 H2]]]. unfold max_inh.
  set (g := fun (m' : nat) (ns : N * section) => Nat.max m' (length (inherits [snd ns]))).
  assert (G1 : forall l m, m <= fold_left g l m).
  { induction l as [|x l IH]; intro m; cbn [fold_left]; [lia|]. specialize (IH (g m x)).
    assert (m <= g m x) by (unfold g; lia). lia. }
  assert (G2 : forall l m, In (n, s) l -> length (inherits [s]) <= fold_left g l m).
  { induction l as [|x l IH]; intros m []; cbn [fold_left].
    - subst x. pose proof (G1 l (g m (n, s))) as G.
      assert (length (inherits [s]) <= g m (n, s)) by (unfold g; cbn [snd]; lia). lia.
    - apply IH. assumption. }
  assert (F1 : forall l m, m <= fold_left (fun m0 src0 => fold_left g src0 m0) l m).
  { induction l as [|x l IH]; intro m; cbn [fold_left]; [lia|]. specialize (IH (fold_left g x m)).
    pose proof (G1 x m). lia. }
  revert H1. generalize 0. induction e as [|x e IH]; intros m []; cbn [fold_left].
  - subst x. pose proof (F1 e (fold_left g src m)). pose proof (G2 src m H2). lia.
  - apply IH. assumption.
Qed.

Lemma filter_len_le {A} (p q : A -> bool) l :
  (forall x, p x = true -> q x = true) -> length (filter p l) <= length (filter q l).
Proof.
  intro H. induction l as [|x l IH]; cbn [filter]; [lia|].
  destruct (p x) eqn:P.
  - rewrite (H x P). cbn [length]. lia.
  - destruct (q x); cbn [length]; lia.
Qed.

Lemma filter_len_lt {A} (p q : A -> bool) l a :
  (forall x, p x = true -> q x = true) -> In a l -> p a = false -> q a = true ->
  length (filter p l) < length (filter q l).
Proof.
  intros H Ha Pa Qa. induction l as [|x l IH]; [destruct Ha|]. cbn [filter].
  destruct Ha as [->|Ha].
  - rewrite Pa, Qa. cbn [length]. pose proof (filter_len_le p q l H). lia.
  - specialize (IH Ha). destruct (p x) eqn:P.
    + rewrite (H x P). cbn [length]. lia.
    + destruct (q x); cbn [length]; lia.
Qed.

Lemma filter_len_all {A} (p : A -> bool) l : length (filter p l) <= length l.
Proof. induction l as [|x l IH]; cbn [filter length]; [lia|]. destruct (p x); cbn [length]; lia. Qed.

Lemma unv_sub i names x :
  negb (memN x (i :: names)) = true -> negb (memN x names) = true.
Proof. cbn [memN existsb]. fold (memN x names). now destruct (N.eqb x i), (memN x names). Qed.

Lemma unv_mono e i names : unv e (i :: names) <= unv e names.
Proof. unfold unv. apply filter_len_le. intro x. apply unv_sub. Qed.

Lemma unv_dec e i names : In i (univ e) -> ~ In i names -> unv e (i :: names) < unv e names.
Proof.
  intros H Hn. unfold unv. apply (filter_len_lt _ _ _ i); [intro x; apply unv_sub | exact H | |].
  - cbn [memN existsb]. now rewrite N.eqb_refl.
  - destruct (memN i names) eqn:Mi; [apply memN_In in Mi; contradiction | reflexivity].
Qed.

Lemma qsum_app e a b : qsum e (a ++ b) = qsum e a + qsum e b.
Proof. unfold qsum. rewrite map_app, list_sum_app. reflexivity. Qed.

Lemma qsum_snoc e a nd : qsum e (a ++ [nd]) = qsum e a + wt e nd.
Proof. rewrite qsum_app. unfold qsum, list_sum. cbn [map fold_right]. lia. Qed.

Lemma wt_le_W e nd : length (snd nd) <= length e -> wt e nd <= Wq e.
Proof. intro H. unfold wt, Wq. apply Nat.pow_le_mono_r; [pose proof (Bq_pos e); lia | exact H]. Qed.

(* accounting for one slist entry: a non-self inherit pays for its new entry with the name it
   uses up; a self-inherit costs one entry with a shorter stack *)
Lemma scan_measure e cur st : wf_node e (cur, st) -> forall inh names acc names' new,
  scan_inh e cur st inh names acc = inr (names', new) ->
  Forall (wf_node e) acc ->
  Forall (wf_node e) new /\
  unv e names' * Wq e + qsum e new
    <= unv e names * Wq e + qsum e acc + length inh * Nat.pow (Bq e) (pred (length st)).
Proof.
  intros [Hne [Hlen Hall]]. cbn [snd] in *.
  induction inh as [|i r IH]; intros names acc names' new H Facc; cbn [scan_inh] in H.
  - injection H as <- <-. split; [exact Facc | cbn; lia].
  - destruct (N.eqb i cur) eqn:E.
    + destruct (tl st) as [|s' st'] eqn:T; [discriminate|].
      assert (Wn : wf_node e (i, s' :: st')).
      { destruct st as [|s0 st0]; [congruence|]. cbn in T. subst st0.
        split; [discriminate|]. cbn [snd length] in *. split; [lia|]. inversion Hall; assumption. }
      apply IH in H as [Fn Le].
      * split; [exact Fn|]. rewrite qsum_snoc in Le.
        assert (Hw : wt e (i, s' :: st') = Nat.pow (Bq e) (pred (length st))).
        { unfold wt. cbn [snd]. destruct st as [|s0 st0]; [congruence|]. cbn in T. subst st0. reflexivity. }
        rewrite Hw in Le. cbn [length]. nia.
      * apply Forall_app. split; [exact Facc | constructor; [exact Wn | constructor]].
    + destruct (memN i names) eqn:Mm; [discriminate|].
      destruct (stack_of e i) as [|t0 t] eqn:T; [discriminate|].
      assert (Hs : stack_of e i <> []) by congruence.
      destruct (stack_of_wf e i Hs) as [Wn Iu]. rewrite T in Wn.
      assert (Ni : ~ In i names) by (intro X; apply memN_In in X; congruence).
      pose proof (unv_dec e i names Iu Ni) as Dec.
      apply IH in H as [Fn Le].
      * split; [exact Fn|]. rewrite qsum_snoc in Le.
        pose proof (wt_le_W e (i, t0 :: t) (proj1 (proj2 Wn))) as Lw.
        cbn [length]. nia.
      * apply Forall_app. split; [exact Facc | constructor; [exact Wn | constructor]].
Qed.

Lemma scan_not_fuel e cur st : forall inh names acc, scan_inh e cur st inh names acc <> inl EFuel.
Proof.
  induction inh as [|i r IH]; intros names acc; cbn [scan_inh]; [discriminate|].
  destruct (N.eqb i cur).
  - destruct (tl st); [discriminate | apply IH].
  - destruct (memN i names); [discriminate|]. destruct (stack_of e i); [discriminate | apply IH].
Qed.

Lemma bfs_fuel_enough e : forall fuel q names out,
  Forall (wf_node e) q -> unv e names * Wq e + qsum e q <= fuel ->
  bfs fuel e q names out <> inl EFuel.
Proof.
  induction fuel as [|f IH]; intros q names out Fq Hm.
  - destruct q as [|[cur st] q]; cbn [bfs]; [discriminate|]. exfalso.
    change (qsum e ((cur, st) :: q)) with (wt e (cur, st) + qsum e q) in Hm.
    pose proof (pow_pos (Bq e) (length st) (Bq_pos e)). unfold wt in Hm. cbn [snd] in Hm. lia.
  - destruct q as [|[cur st] q]; cbn [bfs]; [discriminate|].
    destruct (scan_inh e cur st (inherits st) names []) as [x|[names' new]] eqn:S.
    + intro X. injection X as ->. exact (scan_not_fuel _ _ _ _ _ _ S).
    + inversion Fq as [|a b Wn Fq']; subst.
      destruct (scan_measure e cur st Wn _ _ _ _ _ S (Forall_nil _)) as [Fn Le].
      apply IH; [apply Forall_app; split; assumption|].
      rewrite qsum_app.
      change (qsum e []) with 0 in Le.
      change (qsum e ((cur, st) :: q)) with (wt e (cur, st) + qsum e q) in Hm.
      destruct Wn as [Hne [Hlen Hall]]. cbn [snd] in *.
      destruct st as [|s0 st0]; [congruence|].
      assert (Li : length (inherits (s0 :: st0)) <= max_inh e).
      { inversion Hall; subst. apply (max_inh_bound e s0). assumption. }
      change (wt e (cur, s0 :: st0)) with (Bq e * Nat.pow (Bq e) (length st0)) in Hm. cbn [length pred] in Le.
      pose proof (pow_pos (Bq e) (length st0) (Bq_pos e)) as Pp.
      unfold Bq in *. nia.
Qed.

Lemma collapse_fuel e name :
  collapse e name = inl EFuel -> bfs (fuel_of e) e [root e name] [name] [] = inl EFuel.
Proof.
  unfold collapse, root. destruct (stack_of e name) as [|s0 rest]; [discriminate|]. cbv zeta.
  destruct (s_ionly s0) as [[|]|]; try discriminate;
    (destruct (bfs _ _ _ _ _) as [x|order]; [congruence|]; now destruct (first_some _ order)).
Qed.

Lemma root_fuel_enough e name : stack_of e name <> [] ->
  bfs (fuel_of e) e [root e name] [name] [] <> inl EFuel.
Proof.
  intro Hs. destruct (stack_of_wf e name Hs) as [Wn _]. fold (root e name) in Wn.
  apply bfs_fuel_enough; [constructor; [exact Wn | constructor]|].
  change (qsum e [root e name]) with (wt e (root e name) + 0).
  pose proof (wt_le_W e _ (proj1 (proj2 Wn))) as Lw.
  assert (U : unv e [name] <= n_names e).
  { unfold unv. etransitivity; [apply filter_len_all|]. unfold univ, n_names.
    assert (G : forall l m, fold_left (fun m0 (src : source) => m0 + length src) l m
                            = m + length (flat_map (map fst) l)).
    { induction l as [|x l IH]; intro m; cbn; [lia|]. rewrite IH, app_length, map_length. lia. }
    rewrite G. lia. }
  unfold fuel_of. fold (Bq e). cbn [Nat.pow]. fold (Wq e).
  pose proof (Bq_pos e). pose proof (pow_pos (Bq e) (length e) (Bq_pos e)). unfold Wq in *. nia.
Qed.

Local Open Scope bs_scope.
(* two sources; a <- [b; c], b <- d; later source overrides b and self-inherits the earlier b *)
Example ex_tree :
  run_collapse "a,bc,0-,w01;b,d,--,x02y03;c,,--,x04z05;d,,--,y06z07|b,b,--,y08@abcd"
  = VT "c001040805|Ec|Ec|Ec".
Proof. vm_compute. reflexivity. Qed.
(* value code 00 (the falsy value of the key's type) set nearer shadows truthy values set farther:
   a's own w00 and z00, and b's later-source x00 before the earlier b's x02 *)
Example ex_falsy_nearest :
  run_collapse "a,b,0-,w00z00;b,,--,w07x02y01z08|b,b,--,x00@a" = VT "c000000100".
Proof. vm_compute. reflexivity. Qed.
(* one name per error: recursive (a, b), missing target, self-inherit without an earlier section,
   inherit-only, no class, no such section *)
Example ex_errors :
  run_collapse "a,b,0-,;b,a,--,;c,x,0-,;d,d,0-,;e,,0t,;f,,--,@abcdefg"
  = VT "Era|Erb|Emx|Esd|Ei|Ec|En".
Proof. vm_compute. reflexivity. Qed.
Example ex_cycle : has_cycle (fst (dec_case "a,b,0-,;b,a,--,@a")) 97.
Proof.
  set (e := fst (dec_case "a,b,0-,;b,a,--,@a")).
  exists (root e 97), (98%N, stack_of e 98), (97%N, stack_of e 97).
  split; [apply R_refl|]. split.
  - eapply R_step; [|apply R_refl]. vm_compute. left. reflexivity.
  - split; [vm_compute; left; reflexivity|]. split; [vm_compute; discriminate | reflexivity].
Qed.
Example ex_missing : has_missing (fst (dec_case "c,x,0-,@c")) 99.
Proof.
  exists (root (fst (dec_case "c,x,0-,@c")) 99), 120%N. split; [apply R_refl|].
  split; [vm_compute; left; reflexivity|]. left. split; [vm_compute; discriminate | reflexivity].
Qed.
