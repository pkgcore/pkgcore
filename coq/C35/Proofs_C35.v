(* Proofs_C35.v — proofs about the protocol LTS of Model_C35.

   The facts about the literal tables ([see_id], [tok_id], [reply_def], ...) are
   re-proved by computation against gen/Tables_protocol.v, i.e. against the literals of today's
   processor.py / ebd.py / ebuild-daemon*.bash: if the two sides stop agreeing this file stops
   compiling. *)
From Coq Require Import List Bool.
Import ListNotations.
From Verif Require Import C41.Lts C35.Model_C35 C35.Spec_C35.

Lemma see_id c : see c = c.
Proof. destruct c; vm_compute; reflexivity. Qed.
Lemma tok_id r : tok r = r.
Proof. destruct r; vm_compute; reflexivity. Qed.
Lemma reply_def c f : expects_reply c = true -> reply c f = if f then RAck c else RNak c.
Proof. destruct c; try discriminate; destruct f; intros _; vm_compute; reflexivity. Qed.

Lemma expected_replies_can_be_sent c : expects_reply c = true -> ack_ok c = true.
Proof. destruct c; try discriminate; intros _; vm_compute; reflexivity. Qed.
Lemma written_commands_are_dispatched c : c <> COther -> cmd_ok c = true.
Proof. destruct c; try congruence; intros _; vm_compute; reflexivity. Qed.
Lemma requests_are_handled r : req_ok r = true.
Proof. destruct r; vm_compute; reflexivity. Qed.

(* the case analyses have nothing but eq_refl and I at their leaves *)
Lemma cmd_eqb_eq a b : cmd_eqb a b = true <-> a = b.
Proof.
  split; [|intros <-; destruct a; reflexivity].
  assert (S : if cmd_eqb a b then a = b else True) by (destruct a, b; (exact I || reflexivity)).
  intro H. rewrite H in S. exact S.
Qed.
Lemma rep_eqb_eq a b : rep_eqb a b = true <-> a = b.
Proof.
  split; [|intros <-; destruct a; try reflexivity; apply cmd_eqb_eq; reflexivity].
  assert (S : if rep_eqb a b then a = b else True).
  { destruct a, b; try exact I; try reflexivity; cbn [rep_eqb];
      destruct (cmd_eqb c c0) eqn:E; try exact I; apply cmd_eqb_eq in E; subst; reflexivity. }
  intro H. rewrite H in S. exact S.
Qed.

(* [sreact] and [semit] with [see], [tok], [reply] replaced by what the tables make them.  The typing
   [okp] below computes on the reactions (its facts about concrete programs are by [reflexivity]), which
   must not evaluate the literal tables each time; and the per-state facts below are case analyses
   whose leaves stay small this way. *)
Definition die_out (sub : bool) : option (sstate * list rep) :=
  if sub then Some (SMain, [RDying; RDead; RPhasesFail]) else Some (SDead, [RDying; RDead]).
Definition sreact' (s : sstate) (c : cmd) (fate : bool) : option (sstate * list rep) :=
  match s with
  | SInit0 => match c with CEbdQ => Some (SInit1, [RAck CEbdQ]) | _ => Some (SDead, []) end
  | SInit1 => match c with
              | CNoSandbox => Some (SMain, [RLine])
              | CSandboxLogQ => Some (SMain, [RLine; RLine])
              | _ => die_out false
              end
  | SMain => match c with
             | CProcess => Some (SSetup, [])
             | CShutdown => Some (SDead, [])
             | CPreload => Some (SMain, [if fate then RAck CPreload else RNak CPreload])
             | CClear => Some (SMain, [RAck CClear])
             | CSetMeta => Some (SMain, [RAck CSetMeta])
             | CGenMeta => Some (SRun KMeta, [])
             | CGenEnv => Some (SRun KEnv, [])
             | CAlive => Some (SMain, [RAck CAlive])
             | _ => die_out false
             end
  | SSetup => match c with
              | CStartEnv => if fate then Some (SSetup, [RAck CStartEnv])
                             else Some (SMain, [RNak CStartEnv; RPhasesFail])
              | CLogging => Some (SSetup, [RAck CLogging])
              | CSetSandbox => Some (SSetup, [])
              | CStartProc => Some (SRun KPhase, [])
              | CShutdown => Some (SMain, [RPhasesOk])
              | CAlive => Some (SSetup, [RAck CAlive])
              | _ => die_out true
              end
  | SInh1 k => match c with CPath | CTransfer => Some (SInh2 k, []) | _ => die_out true end
  | SInh2 k => Some (SRun k, [])
  | SRc1 => match c with
            | CEndRequest => Some (SRun KPhase, [])
            | CPath | CTransfer => Some (SRc2, [])
            | _ => Some (SMain, [RFailed; RDying; RDead; RPhasesFail])
            end
  | SRc2 => Some (SRc1, [RNext])
  | SIpcW => Some (SRun KPhase, [])
  | SSbx k => match c with CEndSbx => Some (SRun k, []) | _ => Some (SSbx k, []) end
  | SRun _ | SDead => None
  end.
Lemma sreact_eq s c f : sreact s c f = sreact' s c f.
Proof.
  destruct s; cbv beta iota zeta delta [sreact]; rewrite ?see_id, ?tok_id, ?reply_def by reflexivity;
    reflexivity.
Qed.

Definition semit' (s : sstate) (e : emit) : option (sstate * list rep) :=
  match s, e with
  | SRun KMeta, EKey => Some (s, [RKey])
  | SRun KEnv, ERecvEnv => Some (s, [RRecvEnv])
  | SRun k, EInherit => Some (SInh1 k, [RReqInherit])
  | SRun KPhase, EBashrc => Some (SRc1, [RReqBashrcs])
  | SRun KPhase, EIpc => Some (SIpcW, [RIpc; RLine; RLine; RLine; RLine; RLine])
  | SRun k, ESbx => Some (SSbx k, [RReqSbx])
  | SRun _, EFinish ok => Some (SMain, [if ok then RPhasesOk else RPhasesFail])
  | SRun _, EDie => Some (SMain, [RDying; RDead; RPhasesFail])
  | _, _ => None
  end.
Lemma semit_eq s e : semit s e = semit' s e.
Proof. unfold semit. destruct e as [| | | | | |[]|]; rewrite ?tok_id; reflexivity. Qed.

Lemma unlisted_is_error s c f :
  listed s c = false ->
  match sreact s c f with Some (s', out) => error_reaction s' out | None => true end = true.
Proof.
  intro L. rewrite sreact_eq. unfold error_reaction. rewrite !tok_id.
  destruct s; destruct c; try discriminate L; reflexivity.
Qed.

Lemma handle_unlisted h kt r ch : handled h r = false -> handle h kt r ch = (PExec Err, false).
Proof. destruct r, h; intro H; try discriminate H; reflexivity. Qed.

Lemma sreact_none s c f : sh_reads s = false -> sreact s c f = None.
Proof. rewrite sreact_eq. destruct s; intro H; try discriminate H; reflexivity. Qed.

Lemma drain_stuck s q : sh_reads s = false -> drain s q = (s, [], q).
Proof.
  intro H. destruct q as [|[[c i] f] q]; [reflexivity|]. cbn [drain]. rewrite (sreact_none s c f H). reflexivity.
Qed.

Lemma drain_cons s c i f q s' out :
  sreact s c f = Some (s', out) ->
  drain s ((c, i, f) :: q) =
  (fst (fst (drain s' q)), tag i out ++ snd (fst (drain s' q)), snd (drain s' q)).
Proof. intro H. cbn [drain]. rewrite H. destruct (drain s' q) as [[a b] r]. reflexivity. Qed.

Lemma drain_snoc q : forall s x,
  drain s (q ++ [x]) =
  match snd (drain s q) with
  | [] => let '(c, i, f) := x in
          match sreact (fst (fst (drain s q))) c f with
          | Some (s2, out) => (s2, snd (fst (drain s q)) ++ tag i out, [])
          | None => (fst (fst (drain s q)), snd (fst (drain s q)), [x])
          end
  | r => (fst (fst (drain s q)), snd (fst (drain s q)), r ++ [x])
  end.
Proof.
  induction q as [|[[c i] f] q IH]; intros s [[cx ix] fx].
  - cbn [app drain fst snd]. destruct (sreact s cx fx) as [[s2 out]|]; [rewrite app_nil_r|]; reflexivity.
  - cbn [app drain]. destruct (sreact s c f) as [[s' out]|] eqn:E; [|reflexivity].
    rewrite (IH s' (cx, ix, fx)). destruct (drain s' q) as [[a b] r]. cbn [fst snd].
    destruct r as [|r0 r]; [|reflexivity].
    destruct (sreact a cx fx) as [[s2 out2]|]; [rewrite app_assoc|]; reflexivity.
Qed.

Lemma view_shread c c' :
  stepf c LShRead = Some c' ->
  pipe c' = pipe c /\ drained c' = drained c /\ undrained c' = undrained c
  /\ py c' = py c /\ outs c' = outs c /\ nxt c' = nxt c.
Proof.
  unfold stepf. destruct (p2d c) as [|[[cm i] f] rest] eqn:Ep; [discriminate|].
  destruct (sreact (sh c) cm f) as [[s' out]|] eqn:E; [|discriminate].
  intro H. injection H as <-. unfold pipe, drained, undrained. cbn [sh p2d d2p py outs nxt].
  rewrite Ep. rewrite (drain_cons _ _ _ _ _ _ _ E). cbn [fst snd].
  rewrite app_assoc. repeat split; reflexivity.
Qed.

(* [py_read] looks at python's state only, replaces it, and at most kills the daemon: [pnext] gives
   the new state and whether the daemon is killed. *)
Definition pplain (p : pstate) (r : option rep) (ch : nat) : option (pstate * bool) :=
  let is w := match r with Some x => rep_eqb x w | None => false end in
  match p with
  | PRead1 (_, w) kok kbad => Some (PExec (if is w then kok else kbad), false)
  | PCons [] _ _ _ => None
  | PCons [(_, w)] ok kok kbad => Some (PExec (if ok && is w then kok else kbad), false)
  | PCons ((_, w) :: rem) ok kok kbad => Some (PCons rem (ok && is w) kok kbad, false)
  | PRd k => Some (PExec k, false)
  | PHand h kt => match r with Some x => Some (handle h kt x ch) | None => Some (PExec Err, false) end
  | PDie => match r with Some RDead => Some (PExec GoneExc, true) | _ => Some (PDie, false) end
  | _ => None
  end.
Definition pnotice (r : rep) : pstate * bool :=
  match r with RSigint => (PExec GoneExc, true) | RSigterm => (PErr, false) | _ => (PDie, false) end.
Definition reading (p : pstate) : bool :=
  match p with PRead1 _ _ _ | PCons _ _ _ _ | PRd _ | PHand _ _ | PDie => true | _ => false end.
Definition pnext (p : pstate) (r : option rep) (ch : nat) : option (pstate * bool) :=
  match r with
  | Some x => if isnotice x then (if reading p then Some (pnotice x) else None) else pplain p r ch
  | None => pplain p r ch
  end.
Definition after (c : conf) (pk : pstate * bool) : conf :=
  mk (fst pk) (outs c) (if snd pk then SDead else sh c) (p2d c) (d2p c) (nxt c).

Lemma py_read_eq c r ch : py_read c r ch = option_map (after c) (pnext (py c) r ch).
Proof.
  unfold py_read, pnext, pplain.
  destruct r as [[]|]; cbn [isnotice]; destruct (py c) as [| | | |[]|[|[] []]| | |]; try reflexivity;
    destruct (handle h kt _ ch); reflexivity.
Qed.

Lemma pnext_reading p r ch pk : pnext p r ch = Some pk -> reading p = true.
Proof.
  unfold pnext. destruct r as [x|]; [destruct (isnotice x)|];
    destruct p; intro H; try discriminate H; reflexivity.
Qed.
Lemma pnext_notice p r ch pk : isnotice r = true -> pnext p (Some r) ch = Some pk -> py_over (fst pk) = true.
Proof.
  unfold pnext. intros ->. destruct (reading p); [|discriminate]. intro H. injection H as <-.
  destruct r; reflexivity.
Qed.
(* of the states in which the session is over only PDie still reads *)
Lemma pnext_over p r ch pk : py_over p = true -> pnext p r ch = Some pk -> py_over (fst pk) = true.
Proof.
  intros O H. pose proof (pnext_reading _ _ _ _ H) as R.
  destruct p as [| | |[]| | | | |]; try discriminate O; try discriminate R.
  destruct r as [[]|]; injection H as <-; reflexivity.
Qed.

Definition pop (c : conf) (rest : list (rep * option nat)) : conf :=
  mk (py c) (outs c) (sh c) (p2d c) rest (nxt c).

Lemma step_read c r ch c' :
  stepf c (LR r ch) = Some c' ->
  exists g rest, d2p c = (r, g) :: rest /\
    ((py c = PErr /\ c' = pop c rest) \/
     exists pk, pnext (py c) (Some r) ch = Some pk /\ c' = after (pop c rest) pk).
Proof.
  cbn [stepf]. destruct (d2p c) as [|[r' g] rest]; [discriminate|].
  destruct (rep_eqb r r') eqn:E; [|discriminate]. apply rep_eqb_eq in E. subst r'.
  intro H. exists g, rest. split; [reflexivity|].
  destruct (py c) eqn:Ep; [| left; injection H as <-; unfold pop; rewrite Ep; auto | ..];
    right; rewrite py_read_eq in H; cbn [py] in H;
    (destruct (pnext _ (Some r) ch) as [pk|]; [|discriminate H]); injection H as <-;
    exists pk; unfold pop; rewrite Ep; auto.
Qed.

Lemma step_eof c c' :
  stepf c LEof = Some c' ->
  d2p c = [] /\ sh c = SDead /\
  ((py c = PErr /\ c' = c) \/ exists pk, pplain (py c) None 0 = Some pk /\ c' = after c pk).
Proof.
  cbn [stepf]. destruct (d2p c); [|discriminate]. destruct (sh c); try discriminate.
  intro H. split; [reflexivity|]. split; [reflexivity|].
  destruct (py c) eqn:Ep; [| left; injection H as <-; auto | ..];
    right; rewrite py_read_eq, Ep in H; cbn [pnext] in H;
    (destruct (pplain _ None 0) as [pk|]; [|discriminate H]); injection H as <-; eauto.
Qed.

(* [okp p s u e]: program p can run when the daemon, once it has read everything in flight, is in
   state s and the not-yet-consumed part of the reply stream (beyond the answers to the
   outstanding expects) is u; e: _outstanding_expects is known to be empty.  A write is typed for
   both fates of the command; a reaction that carries a die notice or leaves the daemon dead needs no
   further typing (the session is disturbed from there). *)
Definition is_main (s : sstate) : bool := match s with SMain => true | _ => false end.
Definition is_dead (s : sstate) : bool := match s with SDead => true | _ => false end.
Definition null {A} (l : list A) : bool := match l with [] => true | _ => false end.
Lemma map_fst_untag out : map fst (untag out) = out.
Proof. unfold untag. rewrite map_map. cbn [fst]. apply map_id. Qed.
Lemma map_fst_tag i out : map fst (tag i out) = out.
Proof. unfold tag. rewrite map_map. cbn [fst]. apply map_id. Qed.

Definition reply_for (w r : rep) : bool :=
  match w with RAck k => rep_eqb r (RAck k) || rep_eqb r (RNak k) | _ => rep_eqb r w end.
(* the expects the code issues only with _outstanding_expects empty (start_receiving_env, logging, the
   handshake, the bashrc loop): [okp] demands the flag e there instead of typing both continuations *)
Definition sync_only (w : rep) : bool :=
  match w with RAck CStartEnv | RAck CLogging | RAck CEbdQ | RNext => true | _ => false end.
Definition kmatch (h : hk) (k : rk) : bool :=
  match h, k with HPhase, KPhase | HMeta, KMeta | HEnv, KEnv => true | _, _ => false end.
Definition tagged (g : option nat) : bool := match g with Some _ => true | None => false end.

(* the handler loop facing stream u of a daemon that is (after reading everything) in state s *)
Fixpoint okh (h : hk) (s : sstate) (u : list rep) : bool :=
  match u with
  | [] => match s with SRun k => kmatch h k | _ => false end
  | r :: u' =>
      match r with
      | RKey => match h with HMeta => okh h s u' | _ => false end
      | RRecvEnv => match h with HEnv => okh h s u' | _ => false end
      | RPhasesOk => null u' && is_main s
      | RPhasesFail => null u' && is_main s
      | RReqInherit => null u' && match s with SInh1 k => kmatch h k | _ => false end
      | RReqBashrcs => null u' && match s, h with SRc1, HPhase => true | _, _ => false end
      | RIpc => match s, h with
                | SIpcW, HPhase => Nat.eqb (List.length u') 5   (* the five header lines; python reads them blindly *)
                | _, _ => false
                end
      | RReqSbx => null u' && match s with SSbx k => kmatch h k | _ => false end
      | _ => false
      end
  end.

Fixpoint okp (p : prog) (s : sstate) (u : list (rep * option nat)) (e : bool) : bool :=
  match p with
  | Ret _ true | Fail => is_main s && null u
  | Ret _ false | Err | GoneExc => true
  | Wr c k =>
      null u &&
      forallb (fun f => match sreact' s c f with
                        | Some (s', out) => existsb isnotice out || is_dead s' || okp k s' (tag 0 out) e
                        | None => false
                        end) [true; false]
  | Exp w async kok kbad =>
      match u with
      | (r, g) :: u' =>
          reply_for w r && tagged g &&
          (if async then okp kok s u' false
           else okp (if rep_eqb r w then kok else kbad) s u' true
                && (if sync_only w then e else okp kok s u' true && okp kbad s u' true))
      | [] => false
      end
  | Rd k => e && match u with _ :: u' => okp k s u' e | [] => false end
  | Cons kok kbad => okp kok s u true && okp kbad s u true
  | Handle h kt => okp kt SMain [] true && okh h s (map fst u)
  end.

Lemma both_fates f : In f [true; false].
Proof. destruct f; cbn; auto. Qed.

(* okp looks at the tags of u only to see whether there is one *)
Definition same_shape (u v : list (rep * option nat)) : Prop :=
  Forall2 (fun x y => fst x = fst y /\ tagged (snd x) = tagged (snd y)) u v.
Lemma same_shape_refl u : same_shape u u.
Proof. induction u; constructor; auto. Qed.
Lemma same_shape_map_fst u v : same_shape u v -> map fst u = map fst v.
Proof. induction 1 as [|x y u v [H1 _] _ IH]; cbn; [reflexivity|]. rewrite H1, IH. reflexivity. Qed.
Lemma okp_shape p : forall s u v e, same_shape u v -> okp p s u e = okp p s v e.
Proof.
  induction p as [b a| | | |c k IH|w a kok IHok kbad IHbad|kok IHok kbad IHbad|k IH|h kt IH];
    intros s u v e H; cbn [okp].
  - destruct a; [|reflexivity]. destruct H; reflexivity.
  - destruct H; reflexivity.
  - reflexivity.
  - reflexivity.
  - destruct H; [reflexivity|]. reflexivity.
  - destruct H as [|[r g] [r' g'] u v [H1 H2] H]; [reflexivity|]. cbn in H1, H2. subst r'. rewrite H2.
    destruct a.
    + rewrite (IHok s u v false H). reflexivity.
    + destruct (rep_eqb r w); rewrite ?(IHok s u v true H), ?(IHbad s u v true H); reflexivity.
  - rewrite (IHok s u v true H), (IHbad s u v true H). reflexivity.
  - destruct H as [|x y u v _ H]; [reflexivity|]. rewrite (IH s u v e H). reflexivity.
  - rewrite (same_shape_map_fst u v H). reflexivity.
Qed.
Lemma tag_shape i j out : same_shape (tag i out) (tag j out).
Proof. induction out; constructor; cbn; auto. Qed.

Lemma okp_e_mono p : forall s u, okp p s u false = true -> okp p s u true = true.
Proof.
  induction p as [b a| | | |c k IH|w a kok IHok kbad IHbad|kok IHok kbad IHbad|k IH|h kt IH];
    intros s u H; cbn [okp] in *; try exact H.
  - apply andb_true_iff in H as [H1 H2]. rewrite H1. cbn [andb].
    rewrite forallb_forall in *. intros f Hf. specialize (H2 f Hf).
    destruct (sreact' s c f) as [[s' out]|]; [|discriminate].
    apply orb_true_iff in H2 as [H2|H2]; [rewrite H2; reflexivity|]. rewrite (IH _ _ H2). apply orb_true_r.
  - destruct u as [|[r g] u']; [discriminate|]. destruct a; [exact H|].
    destruct (sync_only w); [|exact H].
    rewrite andb_false_r in H. rewrite andb_false_r in H. discriminate.
  - discriminate H.
Qed.
Lemma okp_e p s u e : okp p s u false = true -> okp p s u e = true.
Proof. destruct e; [apply okp_e_mono | trivial]. Qed.

Lemma preload_ok n k : okp k SMain [] false = true -> okp (preload n k) SMain [] false = true.
Proof.
  intro H. induction n as [|n IH]; [exact H|].
  cbn. rewrite IH. reflexivity.
Qed.
Lemma depend_ok c h sm n e :
  (c = CGenMeta /\ h = HMeta) \/ (c = CGenEnv /\ h = HEnv) ->
  okp (depend_prog c h sm n) SMain [] e = true.
Proof.
  assert (P : okp (preload n (Done true)) SMain [] true = true)
    by (apply okp_e_mono, preload_ok; reflexivity).
  intros [[-> ->]|[-> ->]]; unfold depend_prog; destruct sm; cbn; rewrite P; reflexivity.
Qed.
Lemma prog_of_ok o e : okp (prog_of o) SMain [] e = true.
Proof.
  destruct o as [| | |n sync|sm n|sm n|lg|].
  - destruct e; reflexivity.
  - destruct e; reflexivity.
  - destruct e; reflexivity.
  - apply okp_e. cbn [prog_of]. apply preload_ok. destruct sync; reflexivity.
  - apply depend_ok; auto.
  - apply depend_ok; auto.
  - destruct lg, e; reflexivity.
  - destruct e; reflexivity.
Qed.
Lemma init_ok b : okp (init_prog b) SInit0 [] true = true.
Proof. destruct b; reflexivity. Qed.

Lemma rc_ok m h kt : h = HPhase -> okp kt SMain [] true = true -> okp (rc_prog m (Handle h kt)) SRc1 [] true = true.
Proof. intros -> H. induction m as [|m IH]; cbn; rewrite ?H, ?IH; reflexivity. Qed.
Lemma sbx_ok m h kt k : kmatch h k = true -> okp kt SMain [] true = true ->
  okp (sbx_prog m (Handle h kt)) (SSbx k) [] true = true.
Proof. intros K H. induction m as [|m IH]; cbn; rewrite ?H, ?K, ?IH; reflexivity. Qed.

Lemma okh_emit h k em s' out : forall U,
  okh h (SRun k) U = true -> semit' (SRun k) em = Some (s', out) ->
  existsb isnotice out = false -> okh h s' (U ++ out) = true.
Proof.
  induction U as [|r U IH]; intros H E N.
  - cbn in H. destruct h, k; try discriminate H; destruct em as [| | | | | |ok|]; cbn in E; try discriminate E;
      injection E as <- <-; try destruct ok; try reflexivity; discriminate N.
  - cbn [okh] in H. cbn [app okh].
    destruct r; try discriminate H;
      try (destruct h; try discriminate H; apply IH; assumption);
      try (rewrite andb_false_r in H; discriminate H);
      try (apply andb_true_iff in H as [_ H]; discriminate H).
Qed.

Lemma okp_emit p k em s' out : forall u e,
  okp p (SRun k) u e = true -> semit' (SRun k) em = Some (s', out) ->
  existsb isnotice out = false -> okp p s' (u ++ untag out) e = true.
Proof.
  induction p as [b a| | | |c q IH|w a kok IHok kbad IHbad|kok IHok kbad IHbad|q IH|h kt IH];
    intros u e H E N; cbn [okp] in *.
  - destruct a; [discriminate H|reflexivity].
  - discriminate H.
  - reflexivity.
  - reflexivity.
  - cbn in H. rewrite andb_false_r in H. discriminate H.
  - destruct u as [|[r g] u']; [discriminate|]. cbn [app].
    apply andb_true_iff in H as [H1 H2]. rewrite H1. cbn [andb].
    destruct a.
    + apply IHok; assumption.
    + apply andb_true_iff in H2 as [H2 H3]. apply andb_true_iff; split.
      * destruct (rep_eqb r w); [apply IHok | apply IHbad]; assumption.
      * destruct (sync_only w); [exact H3|].
        apply andb_true_iff in H3 as [H3 H4]. rewrite (IHok _ _ H3 E N), (IHbad _ _ H4 E N). reflexivity.
  - apply andb_true_iff in H as [H1 H2]. rewrite (IHok _ _ H1 E N), (IHbad _ _ H2 E N). reflexivity.
  - apply andb_true_iff in H as [H0 H]. subst e. cbn [andb].
    destruct u as [|x u']; [discriminate|]. cbn [app]. apply IH; assumption.
  - apply andb_true_iff in H as [H1 H2]. rewrite H1. cbn [andb].
    rewrite map_app, map_fst_untag.
    eapply okh_emit; eassumption.
Qed.

(* the unconsumed stream holds answers to the command written last only (tag pred n) and daemon-initiated
   lines (no tag): so the tagged line an expect meets answers its own command ([healthy_tau]) *)
Definition utags (n : nat) (u : list (rep * option nat)) : Prop :=
  Forall (fun x => snd x = None \/ snd x = Some (pred n)) u.

Definition okst (p : pstate) (o : list (nat * rep)) (R : list (rep * option nat)) (s : sstate)
           (u : list (rep * option nat)) : Prop :=
  match p with
  | PIdle => s = SMain /\ u = []
  | PExec q => exists e, okp q s u e = true /\ (e = true -> o = [])
  | PRead1 (i, w) kok kbad =>
      o = [] /\ exists x, R = [x] /\ okp (if rep_eqb (fst x) w then kok else kbad) s u true = true
  | PCons rem ok kok kbad => o = [] /\ rem <> [] /\ okp kok s u true = true /\ okp kbad s u true = true
  | PRd k => o = [] /\ okp (Rd k) s u true = true
  | PHand h kt => o = [] /\ okp kt SMain [] true = true /\ okh h s (map fst u) = true
  | PDie | PErr | PGone => False
  end.

Definition healthy (c : conf) : Prop :=
  undrained c = [] /\
  exists R u, pipe c = R ++ u /\ Forall2 answers (pend c) R /\ utags (nxt c) u
              /\ okst (py c) (outs c) R (drained c) u.

Definition Inv (c : conf) : Prop := disturbed c \/ healthy c.

(* die blocks are well bracketed in the channel, and python is in PDie exactly inside one *)
Fixpoint wbk (inside : bool) (l : list rep) : bool :=
  match l with
  | [] => negb inside
  | RDying :: l' => wbk true l'
  | RDead :: l' => inside && wbk false l'
  | _ :: l' => wbk inside l'
  end.
Definition is_pdie (p : pstate) : bool := match p with PDie => true | _ => false end.
Definition py_ended (p : pstate) : bool :=
  match p with PErr | PGone | PExec GoneExc | PExec Err => true | _ => false end.
Definition Wb (c : conf) : Prop :=
  py_ended (py c) = true \/ wbk (is_pdie (py c)) (map fst (d2p c)) = true.

Lemma view_write c x p o n :
  let c' := mk p o (sh c) (p2d c ++ [x]) (d2p c) n in
  exists ext, pipe c' = pipe c ++ ext /\ (drained c = SDead -> drained c' = SDead).
Proof.
  cbn zeta. unfold pipe, drained. cbn [sh p2d d2p]. rewrite drain_snoc.
  destruct (drain (sh c) (p2d c)) as [[s o1] r] eqn:E. cbn [fst snd].
  destruct r as [|r0 r].
  - destruct x as [[cx ix] fx]. destruct (sreact s cx fx) as [[s2 out]|] eqn:E2; cbn [fst snd].
    + exists (tag ix out). split; [rewrite app_assoc; reflexivity|].
      intros ->. rewrite (sreact_none SDead cx fx eq_refl) in E2. discriminate.
    + exists []. rewrite app_nil_r. auto.
  - exists []. rewrite app_nil_r. auto.
Qed.

Lemma has_notice_app a b :
  existsb isnotice (map fst (a ++ b)) = existsb isnotice (map fst a) || existsb isnotice (map fst (b : list (rep * option nat))).
Proof. rewrite map_app, existsb_app. reflexivity. Qed.

Lemma drained_dead c : sh c = SDead -> drained c = SDead.
Proof. intro H. unfold drained. rewrite H, drain_stuck; reflexivity. Qed.

Lemma disturbed_step c l c' : disturbed c -> stepf c l = Some c' -> disturbed c'.
Proof.
  intros D H. unfold disturbed in *. destruct l as [o|cm f|r ch| |e| | | |em|term]; cbn [stepf] in H.
  - destruct (py c) eqn:Ep; try discriminate H. injection H as <-.
    destruct D as [D|[D|D]]; [left; exact D | discriminate D | right; right; exact D].
  - destruct (py c) as [| | |p| | | | |] eqn:Ep; try discriminate H.
    + injection H as <-. right; left; reflexivity.
    + destruct p as [| | | |c0 k| | | |]; try discriminate H.
      destruct (cmd_eqb cm c0); [|discriminate H]. injection H as <-.
      destruct (view_write c (cm, nxt c, f) (PExec k) (outs c) (S (nxt c))) as (ext & A & B).
      destruct D as [D|[D|D]]; [left|discriminate D|right; right; auto].
      rewrite A, has_notice_app, D. reflexivity.
  - destruct (step_read _ _ _ _ H) as (g & rest & Ed & [[Ep ->]|([p k] & E & ->)]).
    { right; left. cbn [py pop]. rewrite Ep. reflexivity. }
    destruct (isnotice r) eqn:N; [right; left; exact (pnext_notice _ _ _ _ N E)|].
    destruct D as [D|[D|D]].
    + unfold pipe in D. rewrite Ed in D. cbn [app map existsb fst] in D. rewrite N in D.
      destruct k; [right; right; apply drained_dead; reflexivity | left; exact D].
    + right; left. exact (pnext_over _ _ _ _ D E).
    + right; right. destruct k; [apply drained_dead; reflexivity | exact D].
  - right; right. apply drained_dead.
    destruct (step_eof _ _ H) as (_ & Es & [[_ ->]|([p k] & _ & ->)]); [exact Es|].
    cbn. rewrite Es. destruct k; reflexivity.
  - destruct (py c) as [| | |p| | | | |] eqn:Ep; try discriminate H.
    + injection H as <-. right; left. rewrite Ep. reflexivity.
    + destruct p; try discriminate H.
      * destruct e as [b'|]; [|discriminate H]. destruct (Bool.eqb b b'); [|discriminate H]. injection H as <-.
        destruct alive.
        -- destruct D as [D|[D|D]]; [left|discriminate D|right; right]; exact D.
        -- right; left; reflexivity.
      * destruct e; [discriminate H|]. injection H as <-.
        destruct D as [D|[D|D]]; [left|discriminate D|right; right]; exact D.
      * destruct e; [discriminate H|]. injection H as <-. right; left; reflexivity.
      * destruct e; [discriminate H|]. injection H as <-. right; left; reflexivity.
  - destruct (py c) as [| | |p| | | | |] eqn:Ep; try discriminate H.
    destruct D as [D|[D|D]].
    + left. destruct p; try discriminate H; try destruct async; try destruct (outs c); injection H as <-; exact D.
    + destruct p; try discriminate H; discriminate D.
    + right; right. destruct p; try discriminate H; try destruct async; try destruct (outs c); injection H as <-; exact D.
  - destruct (py c); try discriminate H. injection H as <-. right; left; reflexivity.
  - destruct (view_shread c c' H) as (A & B & _ & P & _). rewrite A, B, P. exact D.
  - destruct (semit (sh c) em) as [[s' out]|] eqn:E; [|discriminate H]. injection H as <-.
    assert (Hs : sh_reads (sh c) = false)
      by (rewrite semit_eq in E; destruct (sh c); try discriminate E; reflexivity).
    destruct D as [D|[D|D]].
    + left. unfold pipe in *. cbn [sh p2d d2p]. rewrite (drain_stuck _ _ Hs) in D. cbn [fst snd] in D.
      rewrite app_nil_r in D. rewrite <- app_assoc, has_notice_app, D. reflexivity.
    + right; left; exact D.
    + unfold drained in D. rewrite (drain_stuck _ _ Hs) in D. cbn in D. rewrite D in Hs.
      rewrite semit_eq in E. rewrite D in E. discriminate E.
  - destruct (signalable (sh c)); [|discriminate H]. injection H as <-.
    right; right. apply drained_dead. reflexivity.
Qed.

Lemma view_write_healthy c cm f p o n s' out :
  undrained c = [] -> sreact (drained c) cm f = Some (s', out) ->
  let c' := mk p o (sh c) (p2d c ++ [(cm, nxt c, f)]) (d2p c) n in
  pipe c' = pipe c ++ tag (nxt c) out /\ drained c' = s' /\ undrained c' = [].
Proof.
  unfold undrained, drained, pipe. cbn [sh p2d d2p]. intros U E. rewrite drain_snoc.
  destruct (drain (sh c) (p2d c)) as [[s o1] r]. cbn [fst snd] in *. subst r. rewrite E. cbn [fst snd].
  rewrite app_assoc. auto.
Qed.

Lemma reply_for_answers w r i : reply_for w r = true -> answers (i, w) (r, Some i).
Proof.
  intro H. split; [reflexivity|]. cbn [fst snd].
  destruct w; cbn [reply_for] in H; try (apply rep_eqb_eq in H; exact H).
  apply orb_true_iff in H as [H|H]; apply rep_eqb_eq in H; auto.
Qed.

Lemma utags_tag n out : utags (S n) (tag n out).
Proof. induction out; constructor; cbn; auto. Qed.
Lemma utags_untag n out : utags n (untag out).
Proof. induction out; constructor; cbn; auto. Qed.

(* python's own steps change py and outs only *)
Lemma healthy_py c p o R u :
  undrained c = [] -> pipe c = R ++ u -> utags (nxt c) u ->
  Forall2 answers (o ++ match p with PRead1 w _ _ => [w] | PCons rem _ _ _ => rem | _ => [] end) R ->
  okst p o R (drained c) u ->
  healthy (mk p o (sh c) (p2d c) (d2p c) (nxt c)).
Proof. intros U P T F O. split; [exact U|]. exists R, u. exact (conj P (conj F (conj T O))). Qed.

Lemma healthy_call c o c' : healthy c -> stepf c (LCall o) = Some c' -> healthy c'.
Proof.
  intros (U & R & u & P & F & T & O) H. cbn [stepf] in H.
  destruct (py c) eqn:Ep; try discriminate H. injection H as <-.
  destruct O as [Hs ->]. unfold pend in F. rewrite Ep in F.
  apply (healthy_py c _ _ R []); try assumption.
  exists false. split; [|discriminate]. rewrite Hs. apply prog_of_ok.
Qed.

Lemma healthy_write c cm f c' : healthy c -> stepf c (LW cm f) = Some c' -> Inv c'.
Proof.
  intros (U & R & u & P & F & T & O) H. cbn [stepf] in H.
  destruct (py c) as [| | |p| | | | |] eqn:Ep; try discriminate H; [destruct O|].
  destruct p as [| | | |c0 k| | | |]; try discriminate H.
  destruct (cmd_eqb cm c0) eqn:Ec; [|discriminate H]. apply cmd_eqb_eq in Ec. subst c0. injection H as <-.
  cbn [okst] in O. destruct O as (e & O & He). cbn [okp] in O.
  apply andb_true_iff in O as [Hu O3].
  destruct u; [|discriminate Hu]. rewrite app_nil_r in P.
  rewrite forallb_forall in O3. specialize (O3 f (both_fates f)). rewrite <- sreact_eq in O3.
  destruct (sreact (drained c) cm f) as [[s' out]|] eqn:E; [|discriminate O3].
  destruct (view_write_healthy c cm f (PExec k) (outs c) (S (nxt c)) s' out U E) as (A & B & C).
  apply orb_true_iff in O3 as [O3|O3]; [apply orb_true_iff in O3 as [O3|O3]|].
  - left. left. rewrite A, has_notice_app, map_fst_tag, O3.
    apply orb_true_r.
  - left. right. right. rewrite B. destruct s'; try discriminate O3; reflexivity.
  - right. split; [exact C|]. exists R, (tag (nxt c) out). rewrite A, P.
    unfold pend in *. rewrite Ep in F. cbn [py outs nxt]. repeat split; try assumption.
    + apply utags_tag.
    + cbn [okst]. exists e. split; [|exact He]. rewrite B.
      rewrite (okp_shape k s' _ _ e (tag_shape (nxt c) 0 out)). exact O3.
Qed.

Lemma healthy_tau c c' : healthy c -> stepf c LTau = Some c' -> healthy c'.
Proof.
  intros (U & R & u & P & F & T & O) H. cbn [stepf] in H.
  destruct (py c) as [| | |p| | | | |] eqn:Ep; try discriminate H.
  cbn [okst] in O. destruct O as (e & O & He). unfold pend in F. rewrite Ep, app_nil_r in F.
  destruct p as [| | | | |w a kok kbad|kok kbad|k|h kt]; try discriminate H; cbn [okp] in O.
  - (* Exp: the expect takes the next line of u as the answer to the command written last *)
    destruct u as [|[r g] u']; [discriminate O|].
    apply andb_true_iff in O as [O1 O2]. apply andb_true_iff in O1 as [Hr Hg].
    assert (G : g = Some (pred (nxt c))).
    { inversion T as [|? ? [G|G] _]; subst; cbn in G; [rewrite G in Hg; discriminate Hg | exact G]. }
    assert (T' : utags (nxt c) u') by (inversion T; assumption).
    assert (P' : pipe c = (R ++ [(r, g)]) ++ u') by (rewrite P, <- app_assoc; reflexivity).
    assert (F' : Forall2 answers (outs c ++ [(pred (nxt c), w)]) (R ++ [(r, g)])).
    { apply Forall2_app; [exact F|]. constructor; [|constructor]. rewrite G. apply reply_for_answers, Hr. }
    destruct a.
    + injection H as <-. apply (healthy_py c _ _ (R ++ [(r, g)]) u'); try assumption; [rewrite app_nil_r; exact F'|].
      exists false. split; [exact O2 | discriminate].
    + apply andb_true_iff in O2 as [O2 O3]. destruct (outs c) as [|o0 ol] eqn:Eo; injection H as <-.
      * inversion F. subst R. apply (healthy_py c _ _ [(r, g)] u'); try assumption; rewrite Eo; [exact F'|].
        split; [reflexivity|]. exists (r, g). split; [reflexivity | exact O2].
      * apply (healthy_py c _ _ (R ++ [(r, g)]) u'); try assumption; [rewrite app_nil_r; exact F'|].
        exists false. split; [|discriminate]. cbn [okp].
        destruct (sync_only w); [subst e; discriminate (He eq_refl) | exact O3].
  - apply andb_true_iff in O as [O1 O2]. destruct (outs c) as [|o0 ol] eqn:Eo; injection H as <-.
    + apply (healthy_py c _ _ R u); try assumption; rewrite Eo; [exact F|].
      exists true. split; [exact O1 | reflexivity].
    + apply (healthy_py c _ _ R u); try assumption. cbn [okst]. repeat split; try assumption. discriminate.
  - injection H as <-. apply (healthy_py c _ _ R u); try assumption; [rewrite app_nil_r; exact F|].
    destruct e; [|discriminate O]. split; [exact (He eq_refl) | exact O].
  - destruct (outs c) as [|o0 ol] eqn:Eo; injection H as <-;
      (apply (healthy_py c _ _ R u); try assumption; rewrite Eo; [rewrite ?app_nil_r; exact F|]).
    + apply andb_true_iff in O as [O1 O2]. cbn [okst]. auto.
    + exists false. split; [|discriminate]. cbn [okp]. rewrite andb_true_r. exact O.
Qed.

Lemma healthy_end c e c' : healthy c -> stepf c (LEnd e) = Some c' -> Inv c'.
Proof.
  intros (U & R & u & P & F & T & O) H. cbn [stepf] in H.
  destruct (py c) as [| | |p| | | | |] eqn:Ep; try discriminate H; [destruct O|].
  cbn [okst] in O. destruct O as (e0 & O & He). unfold pend in F. rewrite Ep in F.
  (* an operation that ends with the daemon in its main loop leaves a healthy idle session *)
  assert (Idle : okp (Ret true true) (drained c) u e0 = true -> Inv (set_py c PIdle)).
  { cbn [okp]. intro O'. apply andb_true_iff in O' as [O1 O2]. right.
    apply (healthy_py c _ _ R u); try assumption.
    destruct (drained c); try discriminate O1. destruct u; [split; reflexivity | discriminate O2]. }
  destruct p; try discriminate H; destruct e as [b'|]; try discriminate H.
  - destruct (Bool.eqb b b'); [|discriminate H]. injection H as <-.
    destruct alive; [exact (Idle O) | left; right; left; reflexivity].
  - injection H as <-. exact (Idle O).
  - injection H as <-. left. right. left. reflexivity.
  - injection H as <-. left. right. left. reflexivity.
Qed.

Lemma okst_emit p o R k em s' out u :
  okst p o R (SRun k) u -> semit' (SRun k) em = Some (s', out) -> existsb isnotice out = false ->
  okst p o R s' (u ++ untag out).
Proof.
  intros O E N. destruct p as [| | |q|[i w] kok kbad|rem ok kok kbad|q|h kt|]; cbn [okst] in *; try contradiction.
  - destruct O as [O _]. discriminate O.
  - destruct O as (e & O & He). exists e. split; [|exact He]. eapply okp_emit; eassumption.
  - destruct O as (Ho & x & -> & O). split; [exact Ho|]. exists x. split; [reflexivity|].
    eapply okp_emit; eassumption.
  - destruct O as (Ho & Hr & O1 & O2). repeat split; try assumption; eapply okp_emit; eassumption.
  - destruct O as (Ho & O). split; [exact Ho|]. eapply (okp_emit (Rd q)); eassumption.
  - destruct O as (Ho & O1 & O2). repeat split; try assumption.
    rewrite map_app, map_fst_untag. eapply okh_emit; eassumption.
Qed.

Lemma healthy_emit c em c' : healthy c -> stepf c (LShEmit em) = Some c' -> Inv c'.
Proof.
  intros (U & R & u & P & F & T & O) H. cbn [stepf] in H.
  destruct (semit (sh c) em) as [[s' out]|] eqn:E; [|discriminate H]. injection H as <-.
  rewrite semit_eq in E.
  assert (Hk : exists k, sh c = SRun k) by (destruct (sh c); try discriminate E; eauto).
  destruct Hk as [k Hk].
  assert (Hq : p2d c = []).
  { unfold undrained in U. rewrite Hk, drain_stuck in U by reflexivity. exact U. }
  assert (Hd : drained c = SRun k) by (unfold drained; rewrite Hk, Hq; reflexivity).
  assert (Hp : pipe c = d2p c) by (unfold pipe; rewrite Hq; cbn; apply app_nil_r).
  set (c' := mk (py c) (outs c) s' (p2d c) (d2p c ++ untag out) (nxt c)).
  assert (Hp' : pipe c' = pipe c ++ untag out).
  { unfold pipe at 1. cbn [c' sh p2d d2p]. rewrite Hq. cbn [drain fst snd]. rewrite app_nil_r, Hp. reflexivity. }
  assert (Hd' : drained c' = s') by (unfold drained; cbn [c' sh p2d]; rewrite Hq; reflexivity).
  assert (Hu' : undrained c' = []) by (unfold undrained; cbn [c' sh p2d]; rewrite Hq; reflexivity).
  destruct (existsb isnotice out) eqn:N.
  - left. left. rewrite Hp', has_notice_app, map_fst_untag, N. apply orb_true_r.
  - right. split; [exact Hu'|]. exists R, (u ++ untag out). rewrite Hp', P, app_assoc.
    refine (conj eq_refl (conj F (conj _ _))).
    + apply Forall_app. split; [exact T | apply utags_untag].
    + rewrite Hd'. rewrite Hd, Hk in *. cbn [c' py outs]. eapply okst_emit; eassumption.
Qed.

Lemma healthy_shread c c' : healthy c -> stepf c LShRead = Some c' -> healthy c'.
Proof.
  intros (U & R & u & P & F & T & O) H.
  destruct (view_shread c c' H) as (A & B & C & Py & Ou & Nx).
  split; [rewrite C; exact U|]. exists R, u. unfold pend in *. rewrite A, B, Py, Ou, Nx. auto.
Qed.

Lemma null_map_fst {A B} (l : list (A * B)) : null (map fst l) = true -> l = [].
Proof. destruct l; [reflexivity | discriminate]. Qed.

(* the handler loop takes a line it is typed for: python goes on with a typed program, or stays in
   the loop, or (unknown eclass) kills the daemon *)
Lemma okh_handle h kt s r u ch p kill :
  okh h s (r :: map fst u) = true -> okp kt SMain [] true = true ->
  handle h kt r ch = (p, kill) ->
  (kill = true /\ p = PExec GoneExc) \/
  (kill = false /\ ((exists q, p = PExec q /\ okp q s u true = true)
                    \/ (p = PHand h kt /\ okh h s (map fst u) = true))).
Proof.
  intros H K E. destruct r; cbn [okh] in H; try discriminate H; cbn [handle] in E.
  - apply andb_true_iff in H as [H1 H2]. apply null_map_fst in H1. subst u.
    injection E as <- <-. right. split; [reflexivity|]. left. exists kt.
    destruct s; try discriminate H2. auto.
  - apply andb_true_iff in H as [H1 H2]. apply null_map_fst in H1. subst u.
    injection E as <- <-. right. split; [reflexivity|]. left. exists Fail. cbn. rewrite H2. auto.
  - apply andb_true_iff in H as [H1 H2]. apply null_map_fst in H1. subst u.
    destruct s; try discriminate H2.
    destruct ch as [|[|ch]]; injection E as <- <-; [left; auto | right | right];
      (split; [reflexivity|]); left; eexists; (split; [reflexivity|]); cbn; rewrite K, H2; reflexivity.
  - apply andb_true_iff in H as [H1 H2]. apply null_map_fst in H1. subst u.
    destruct s; try discriminate H2. destruct h; try discriminate H2.
    injection E as <- <-. right. split; [reflexivity|]. left. eexists. split; [reflexivity|].
    apply rc_ok; auto.
  - apply andb_true_iff in H as [H1 H2]. apply null_map_fst in H1. subst u.
    destruct s; try discriminate H2.
    injection E as <- <-. right. split; [reflexivity|]. left. eexists. split; [reflexivity|].
    apply sbx_ok; auto.
  - destruct h; try discriminate H. injection E as <- <-. auto.
  - destruct h; try discriminate H. injection E as <- <-. auto.
  - destruct s; try discriminate H. destruct h; try discriminate H.
    injection E as <- <-. right. split; [reflexivity|]. left. eexists. split; [reflexivity|].
    destruct u as [|x1 [|x2 [|x3 [|x4 [|x5 [|x6 u]]]]]]; try discriminate H.
    destruct ch; cbn; rewrite ?K; reflexivity.
Qed.

Lemma healthy_read c r ch c' : healthy c -> stepf c (LR r ch) = Some c' -> Inv c'.
Proof.
  intros (U & R & u & P & F & T & O) H.
  destruct (step_read _ _ _ _ H) as (g & rest & Ed & [[Ep _]|(pk & E & ->)]).
  { rewrite Ep in O. destruct O. }
  destruct (isnotice r) eqn:N; [left; right; left; exact (pnext_notice _ _ _ _ N E)|].
  unfold pnext in E. rewrite N in E.
  assert (P0 : (r, g) :: pipe (pop c rest) = R ++ u).
  { rewrite <- P. unfold pipe. rewrite Ed. reflexivity. }
  unfold pend in F.
  destruct (py c) as [| | |q|[i w] kok kbad|rem ok kok kbad|q|h kt|] eqn:Ep; try discriminate E;
    cbn [okst] in O; cbn [pplain] in E.
  - destruct O as (Ho & x & -> & O). rewrite Ho in F. cbn [app] in F, P0.
    injection P0 as <- Pu. injection E as <-. right.
    unfold after; cbn [fst snd]; apply (healthy_py (pop c rest) _ _ [] u); try assumption; [cbn [outs pop]; rewrite Ho; constructor|].
    exists true. split; [exact O | intros _; exact Ho].
  - destruct O as (Ho & Hr & O1 & O2). rewrite Ho in F. cbn [app] in F.
    destruct rem as [|[i w] rem']; [contradiction|].
    inversion F as [|? x ? R' An F']. subst. cbn [app] in P0. injection P0 as <- Pu.
    destruct rem' as [|e2 rem'']; injection E as <-; right.
    + inversion F'. subst.
      unfold after; cbn [fst snd]; apply (healthy_py (pop c rest) _ _ [] u); try assumption; [cbn [outs pop]; rewrite Ho; constructor|].
      exists true. split; [|intros _; exact Ho]. destruct (ok && rep_eqb r w); assumption.
    + unfold after; cbn [fst snd]; apply (healthy_py (pop c rest) _ _ R' u); try assumption; [cbn [outs pop]; rewrite Ho; exact F'|].
      refine (conj Ho (conj _ (conj O1 O2))). discriminate.
  - destruct O as (Ho & O). rewrite Ho, app_nil_r in F. inversion F. subst R. cbn [app] in P0.
    destruct u as [|x u']; [discriminate P0|]. injection P0 as <- Pu. injection E as <-. right.
    unfold after; cbn [fst snd]; apply (healthy_py (pop c rest) _ _ [] u'); try assumption;
      [inversion T; assumption | cbn [outs pop]; rewrite Ho; constructor|].
    exists true. split; [exact O | intros _; exact Ho].
  - destruct O as (Ho & K & O). rewrite Ho, app_nil_r in F. inversion F. subst R. cbn [app] in P0.
    destruct u as [|x u']; [discriminate P0|]. injection P0 as <- Pu. cbn [map fst] in O.
    destruct (handle h kt r ch) as [p kill] eqn:Eh. injection E as <-.
    destruct (okh_handle h kt (drained c) r u' ch p kill O K Eh)
      as [[-> ->]|[-> [(q & -> & Oq)|[-> Oh]]]]; [left; right; left; reflexivity | right ..];
      (unfold after; cbn [fst snd]; apply (healthy_py (pop c rest) _ _ [] u'); try assumption;
       [inversion T; assumption | cbn [outs pop]; rewrite Ho; constructor|]).
    + exists true. split; [exact Oq | intros _; exact Ho].
    + cbn [okst]. auto.
  - destruct O.
Qed.

Lemma Inv_step c l c' : Inv c -> stepf c l = Some c' -> Inv c'.
Proof.
  intros [D|Hh] H; [left; eapply disturbed_step; eassumption|].
  destruct l as [o|cm f|r ch| |e| | | |em|term].
  - right. eapply healthy_call; eassumption.
  - eapply healthy_write; eassumption.
  - eapply healthy_read; eassumption.
  - (* LEof: the daemon is gone, so the session was disturbed already *)
    left. eapply disturbed_step; [|exact H]. right. right.
    apply drained_dead. apply (step_eof _ _ H).
  - eapply healthy_end; eassumption.
  - right. eapply healthy_tau; eassumption.
  - destruct Hh as (_ & R & u & _ & _ & _ & O). cbn [stepf] in H.
    destruct (py c); try discriminate H. destruct O.
  - right. eapply healthy_shread; eassumption.
  - eapply healthy_emit; eassumption.
  - (* a signal kills the daemon: disturbed from here on *)
    left. cbn [stepf] in H. destruct (signalable (sh c)); [|discriminate H]. injection H as <-.
    right. right. apply drained_dead. reflexivity.
Qed.

Lemma Inv_init c : init c -> Inv c.
Proof.
  intros [b ->]. right. split; [reflexivity|]. exists [], []. unfold pend. cbn.
  refine (conj eq_refl (conj (Forall2_nil _) (conj (Forall_nil _) _))).
  exists true. split; [apply init_ok | reflexivity].
Qed.

Lemma Inv_reach c : reach c -> Inv c.
Proof.
  apply (invariant_by_induction conf label protocol_step init Inv).
  - exact Inv_init.
  - intros s l s' HI Hs. eapply Inv_step; eassumption.
Qed.

Lemma wbk_app l : forall i out, wbk i l = true -> wbk false out = true -> wbk i (l ++ out) = true.
Proof.
  induction l as [|r l IH]; intros i out H B; cbn [app].
  - destruct i; [discriminate H | exact B].
  - destruct r; cbn [wbk] in *; try (apply IH; assumption).
    apply andb_true_iff in H as [-> H]. cbn [andb]. apply IH; assumption.
Qed.
(* what a daemon step writes holds whole die blocks *)
Definition balanced (r : option (sstate * list rep)) : bool :=
  match r with Some (_, out) => wbk false out | None => true end.
Lemma sreact_balanced s c f : balanced (sreact s c f) = true.
Proof. rewrite sreact_eq. destruct s; try reflexivity; destruct c; try reflexivity; destruct f; reflexivity. Qed.
Lemma semit_balanced s e : balanced (semit s e) = true.
Proof. rewrite semit_eq. destruct s; try reflexivity; destruct k; destruct e as [| | | | | |[]|]; reflexivity. Qed.

(* python enters PDie by the dying notice only, and leaves it by "dead" (or a signal notice) only *)
Lemma handle_not_pdie h kt r ch : is_pdie (fst (handle h kt r ch)) = false.
Proof. destruct r; try reflexivity; destruct h; try reflexivity; destruct ch as [|[|?]]; reflexivity. Qed.
Lemma pplain_not_pdie p r ch pk : pplain p r ch = Some pk -> is_pdie p = false -> is_pdie (fst pk) = false.
Proof.
  destruct p as [| | | |[]|[|[] []]| | |]; intros H P; try discriminate H; try discriminate P;
    try (injection H as <-; reflexivity).
  destruct r; injection H as <-; [apply handle_not_pdie | reflexivity].
Qed.
Lemma pnext_wbk p r ch pk l :
  pnext p (Some r) ch = Some pk -> wbk (is_pdie p) (r :: l) = true ->
  py_ended (fst pk) = true \/ wbk (is_pdie (fst pk)) l = true.
Proof.
  unfold pnext. destruct (isnotice r) eqn:N; intros E W.
  - destruct (reading p); [|discriminate E]. injection E as <-.
    destruct r; try discriminate N; [right; exact W | left; reflexivity | left; reflexivity].
  - destruct (is_pdie p) eqn:P.
    + destruct p; try discriminate P.
      destruct r; try discriminate N; injection E as <-; (left; reflexivity) || (right; exact W).
    + right. rewrite (pplain_not_pdie _ _ _ _ E P).
      destruct r; try discriminate N; try discriminate W; exact W.
Qed.

Lemma Wb_step c l c' : Wb c -> stepf c l = Some c' -> Wb c'.
Proof.
  unfold Wb. intros W H. destruct l as [o|cm f|r ch| |e| | | |em|term].
  - cbn [stepf] in H. destruct (py c) eqn:Ep; try discriminate H. injection H as <-.
    destruct W as [W|W]; [discriminate W | right; exact W].
  - cbn [stepf] in H. destruct (py c) as [| | |p| | | | |] eqn:Ep; try discriminate H.
    + injection H as <-. left; reflexivity.
    + destruct p as [| | | |c0 k| | | |]; try discriminate H.
      destruct (cmd_eqb cm c0); [|discriminate H]. injection H as <-.
      destruct W as [W|W]; [discriminate W | right; exact W].
  - destruct (step_read _ _ _ _ H) as (g & rest & Ed & [[Ep ->]|(pk & E & ->)]).
    { left. cbn [py pop]. rewrite Ep. reflexivity. }
    rewrite Ed in W. destruct W as [W|W]; [|exact (pnext_wbk _ _ _ _ _ E W)].
    apply pnext_reading in E. destruct (py c) as [| | |[]| | | | |]; discriminate.
  - destruct (step_eof _ _ H) as (Ed & _ & [[Ep ->]|(pk & E & ->)]).
    { left. rewrite Ep. reflexivity. }
    rewrite Ed in W. cbn [py d2p after]. rewrite Ed. right.
    destruct (is_pdie (py c)) eqn:P.
    + destruct W as [W|W]; [|discriminate W]. destruct (py c); discriminate.
    + rewrite (pplain_not_pdie _ _ _ _ E P). reflexivity.
  - cbn [stepf] in H. destruct (py c) as [| | |p| | | | |] eqn:Ep; try discriminate H.
    + injection H as <-. left. rewrite Ep. reflexivity.
    + destruct W as [W|W].
      * left. destruct p; try discriminate W; destruct e; try discriminate H; injection H as <-; reflexivity.
      * destruct p; try discriminate H; destruct e as [b'|]; try discriminate H.
        -- destruct (Bool.eqb b b'); [|discriminate H]. injection H as <-.
           destruct alive; [right; exact W | left; reflexivity].
        -- injection H as <-. right; exact W.
        -- injection H as <-. left; reflexivity.
        -- injection H as <-. left; reflexivity.
  - cbn [stepf] in H. destruct (py c) as [| | |p| | | | |] eqn:Ep; try discriminate H.
    destruct W as [W|W]; [destruct p; try discriminate H; discriminate W|].
    right. destruct p; try discriminate H; try destruct async; try destruct (outs c); injection H as <-; exact W.
  - cbn [stepf] in H. destruct (py c); try discriminate H. injection H as <-. left; reflexivity.
  - cbn [stepf] in H. destruct (p2d c) as [|[[cm i] f] rest]; [discriminate H|].
    pose proof (sreact_balanced (sh c) cm f) as B.
    destruct (sreact (sh c) cm f) as [[s' out]|]; [|discriminate H]. injection H as <-.
    destruct W as [W|W]; [left; exact W | right].
    cbn [py d2p]. rewrite map_app, map_fst_tag. apply wbk_app; assumption.
  - cbn [stepf] in H. pose proof (semit_balanced (sh c) em) as B.
    destruct (semit (sh c) em) as [[s' out]|]; [|discriminate H]. injection H as <-.
    destruct W as [W|W]; [left; exact W | right].
    cbn [py d2p]. rewrite map_app, map_fst_untag. apply wbk_app; assumption.
  - cbn [stepf] in H. destruct (signalable (sh c)); [|discriminate H]. injection H as <-.
    destruct W as [W|W]; [left; exact W | right].
    cbn [py d2p]. rewrite map_app. apply wbk_app; [exact W|].
    unfold untag. cbn [map fst]. rewrite tok_id. destruct term; reflexivity.
Qed.

Lemma Wb_reach c : reach c -> Wb c.
Proof.
  apply (invariant_by_induction conf label protocol_step init Wb).
  - intros s [b ->]. right. reflexivity.
  - intros s l s' HI Hs. eapply Wb_step; eassumption.
Qed.

(* both sides waiting on empty channels: the typing leaves python no read without a line to come,
   and a session disturbed by a die notice has its "dead" still in the channel *)
Lemma inv_not_deadlocked c : Inv c -> Wb c -> ~ deadlocked c.
Proof.
  intros I W (Hp & Hs & He). unfold chans_empty in He.
  destruct (p2d c) eqn:Hq; [|discriminate He]. destruct (d2p c) eqn:Hd; [|discriminate He].
  assert (Pe : pipe c = []) by (unfold pipe; rewrite Hq, Hd; reflexivity).
  assert (De : drained c = sh c) by (unfold drained; rewrite Hq; reflexivity).
  unfold sh_waits in Hs. unfold py_waits in Hp.
  destruct I as [[D|[D|D]]|(U & R & u & P & F & T & O)].
  - rewrite Pe in D. discriminate D.
  - unfold Wb in W. rewrite Hd in W.
    destruct (py c) as [| | |p| | | | |]; try discriminate Hp; try discriminate D.
    destruct W; discriminate.
  - rewrite De in D. rewrite D in Hs. discriminate Hs.
  - rewrite Pe in P. symmetry in P. apply app_eq_nil in P as [-> ->].
    unfold pend in F. rewrite De in O.
    destruct (py c) as [| | |p|[i w] kok kbad|rem ok kok kbad|k|h kt|]; try discriminate Hp; cbn [okst] in O.
    + destruct O as (_ & x & Hx & _). discriminate Hx.
    + destruct O as (Ho & Hn & _). rewrite Ho in F. cbn [app] in F. inversion F. subst. contradiction.
    + destruct O as (_ & O). discriminate O.
    + destruct O as (_ & _ & O). destruct (sh c); try discriminate O; discriminate Hs.
    + exact O.
Qed.

Lemma healthy_matched c : healthy c -> matched c.
Proof. intros (_ & R & u & P & F & _). exists R, u. auto. Qed.

(* a synchronous expect consumes the answer to its own command *)
Lemma healthy_own_reply c i w kok kbad r g rest :
  healthy c -> py c = PRead1 (i, w) kok kbad -> d2p c = (r, g) :: rest -> answers (i, w) (r, g).
Proof.
  intros (_ & R & u & P & F & _ & O) Hp Hd.
  rewrite Hp in O. destruct O as (Ho & x & -> & _).
  unfold pend in F. rewrite Hp, Ho in F. inversion F as [|? ? ? ? An _]. subst.
  unfold pipe in P. rewrite Hd in P. injection P as <- _. exact An.
Qed.

(* a deadlocked configuration exists (it is just not reachable) *)
Example deadlocked_is_satisfiable : deadlocked (mk (PHand HMeta (Done true)) [] SMain [] [] 3).
Proof. repeat split. Qed.

(* a reachable configuration with three outstanding expects, all matched, after a metadata request
   with an inherit round trip *)
Definition ex_labels : list label :=
  [LW CEbdQ true; LTau; LShRead; LR (RAck CEbdQ) 0; LW CNoSandbox true; LTau; LShRead; LR RLine 0;
   LEnd (ERet true);
   LCall (OKeys true 3); LW CSetMeta true; LTau; LShRead; LR (RAck CSetMeta) 0; LW CGenMeta true; LTau;
   LShRead; LShEmit EInherit; LR RReqInherit 1; LW CPath true; LW COther true; LTau; LShRead; LShRead;
   LShEmit EKey; LR RKey 0; LShEmit (EFinish true); LR RPhasesOk 0;
   LW CPreload true; LTau; LW CPreload false; LTau; LW CPreload true; LTau; LEnd (ERet true);
   LShRead].
Example ex_reachable :
  match run conf label stepf (conf0 false) ex_labels with
  | Some c => List.length (pend c) = 3 /\ py c = PIdle /\ List.length (d2p c) = 1 /\ List.length (p2d c) = 2
  | None => False
  end.
Proof. vm_compute. auto. Qed.

(* an unknown command: the daemon dies, python's next request ends with an error *)
Example ex_unknown_command :
  accepts_obs false
    [OW CEbdQ; OR (RAck CEbdQ); OW CNoSandbox; OR RLine; OE (ERet true);
     OC ORaw; OW COther; OE (ERet true);
     OC OAlive; OW CAlive; OR RDying; OR RDead; OE EExc] = true.
Proof. vm_compute. reflexivity. Qed.
(* ... and a trace in which the reply to that request arrives although the daemon must be dead is no behaviour *)
Example ex_unknown_command_not_misread :
  accepts_obs false
    [OW CEbdQ; OR (RAck CEbdQ); OW CNoSandbox; OR RLine; OE (ERet true);
     OC ORaw; OW COther; OE (ERet true);
     OC OAlive; OW CAlive; OR (RAck CAlive); OE (ERet true)] = false.
Proof. vm_compute. reflexivity. Qed.
