From Coq Require Import List.
Import ListNotations.
From Verif Require Import C06.Restr C06.Model_C06 C06.Spec_C06 C06.Proofs_C06.

(* any composition of leaves under all-of / any-of / exactly-one-of / at-most-one-of nodes with
   negate flags and Negate wrappers matches exactly when its propositional formula is true *)
Theorem match_is_propositional : forall e r, eval e r = prop_eval e r.
Proof. exact eval_prop_eval. Qed.
Print Assumptions match_is_propositional.

(* every DNF pkgcore derives denotes the tree, for every environment — outside the known class
   (the expansion reaches an any-of without alternatives); PARTIAL: the unrestricted statement
   [dnf_equiv_full] is false of the code, see dnf_equiv_refuted *)
Theorem dnf_equiv_partial : forall fse r s,
  dnf_class fse r = false -> dnf fse r = inl s -> forall e, eval_dnf e s = eval e r.
Proof. intros fse r s Hc Hs e. rewrite (dnf_val_correct fse e r s Hs). now apply dnf_val_eval. Qed.
Print Assumptions dnf_equiv_partial.

Theorem cnf_equiv_partial : forall fse r s,
  cnf_class fse r = false -> cnf fse r = inl s -> forall e, eval_cnf e s = eval e r.
Proof. intros fse r s Hc Hs e. rewrite (cnf_val_correct fse e r s Hs). now apply cnf_val_eval. Qed.
Print Assumptions cnf_equiv_partial.

(* the same against the declarative reading of both sides *)
Theorem dnf_denotes_formula : forall fse r s,
  dnf_class fse r = false -> dnf fse r = inl s -> forall e, sem_dnf e s = prop_eval e r.
Proof. intros. rewrite sem_dnf_eval, <- eval_prop_eval. now apply (dnf_equiv_partial fse). Qed.
Print Assumptions dnf_denotes_formula.

Theorem cnf_denotes_formula : forall fse r s,
  cnf_class fse r = false -> cnf fse r = inl s -> forall e, sem_cnf e s = prop_eval e r.
Proof. intros. rewrite sem_cnf_eval, <- eval_prop_eval. now apply (cnf_equiv_partial fse). Qed.
Print Assumptions cnf_denotes_formula.

(* refusals: dnf_solutions never refuses (and never returns no clause, so its `assert` is dead);
   cnf_solutions refuses only with NotImplementedError *)
Theorem dnf_never_refuses : forall fse r, exists s, dnf fse r = inl s /\ s <> [].
Proof. exact dnf_total. Qed.
Print Assumptions dnf_never_refuses.

Theorem cnf_refusal_kind : forall fse r e, cnf fse r = inr e -> e = ENotImpl.
Proof. exact cnf_refusal. Qed.
Print Assumptions cnf_refusal_kind.

(* the unrestricted statements are false of the faithful model (known finding: empty any-of) *)
Theorem dnf_equiv_refuted : ~ dnf_equiv_full.
Proof. intros H. discriminate (H false (Node KOr false []) [[]] eq_refl (fun _ => false)). Qed.
Print Assumptions dnf_equiv_refuted.

Theorem cnf_equiv_refuted : ~ cnf_equiv_full.
Proof. intros H. discriminate (H false (Node KOr false []) [] eq_refl (fun _ => false)). Qed.
Print Assumptions cnf_equiv_refuted.
