(* Proofs_C30.v — the world set as a duplicate-free list (membership, add, remove), the recorded
   text of an entry, and the sorting done by flush(). *)
From Coq Require Import List NArith Bool Permutation.
Import ListNotations.
From Verif Require Import Base.Val.
From Verif Require Import C30.Model_C30 C30.Spec_C30.

Lemma opt_str_eqb_eq a b : opt_str_eqb a b = true <-> a = b.
Proof.
  destruct a, b; cbn; split; intro H; try discriminate; try reflexivity.
  - apply str_eqb_eq in H. now subst.
  - injection H as ->. apply str_eqb_refl.
Qed.
Lemma went_eqb_eq a b : went_eqb a b = true <-> a = b.
Proof.
  unfold went_eqb. rewrite !andb_true_iff, !str_eqb_eq, opt_str_eqb_eq.
  destruct a, b; cbn. split; [intros [[-> ->] ->]; reflexivity|intro H; injection H as -> -> ->; auto].
Qed.
Lemma wmem_In e W : wmem e W = true <-> In e W.
Proof.
  unfold wmem. rewrite existsb_exists. split.
  - intros (x & Hx & E). apply went_eqb_eq in E. now subst.
  - intro H. exists e. split; [exact H|now apply went_eqb_eq].
Qed.

Lemma set_add_spec e W : NoDup W ->
  NoDup (set_add e W) /\ forall x, In x (set_add e W) <-> (x = e \/ In x W).
Proof.
  intro Hn. unfold set_add. destruct (wmem e W) eqn:E.
  - apply wmem_In in E. split; [exact Hn|]. intro x. split; [now right|]. intros [->|H]; assumption.
  - assert (~ In e W) by (intro H; apply wmem_In in H; congruence).
    split.
    + apply (Permutation_NoDup (Permutation_cons_append _ _)). now constructor.
    + intro x. rewrite in_app_iff. cbn. intuition.
Qed.

Lemma set_remove_spec e W : NoDup W ->
  match set_remove e W with
  | Some W' => In e W /\ NoDup W' /\ forall x, In x W' <-> (In x W /\ x <> e)
  | None => ~ In e W
  end.
Proof.
  intro Hn. unfold set_remove. destruct (wmem e W) eqn:E.
  - apply wmem_In in E. split; [exact E|]. split; [now apply NoDup_filter|].
    intro x. rewrite filter_In, negb_true_iff. split.
    + intros [H1 H2]. split; [exact H1|]. intros ->.
      assert (went_eqb e e = true) by now apply went_eqb_eq. congruence.
    + intros [H1 H2]. split; [exact H1|]. destruct (went_eqb e x) eqn:E2; [|reflexivity].
      apply went_eqb_eq in E2. congruence.
  - intro H. apply wmem_In in H. congruence.
Qed.

(* the recorded entry prints as name or name:slot, for ANY slot string *)
Lemma target_text c p s : went_text (target c p s) = recorded_text c p s.
Proof.
  unfold went_text, target, recorded_text, nonzero_slot. cbn [wcat wpkg wslot].
  destruct s as [[|x r]|]; cbn [is_nil orb]; reflexivity.
Qed.

Lemma wins_perm e l : Permutation (wins e l) (e :: l).
Proof.
  induction l as [|x l IH]; [reflexivity|]. cbn [wins].
  destruct (went_ltb e x); [reflexivity|]. rewrite IH. apply perm_swap.
Qed.
Lemma wsort_perm l : Permutation (wsort l) l.
Proof.
  induction l as [|x l IH]; [reflexivity|]. cbn [wsort fold_right]. fold (wsort l).
  rewrite wins_perm. now constructor.
Qed.
Lemma wtmp_ne : P_WTMP <> P_WORLD.
Proof. discriminate. Qed.

(* non-vacuity: slots of every shape are recorded as name:slot, "0" and the empty slot as name *)
Example target_examples :
  went_text (target [97%N] [98%N] (Some [49;46;50]%N)) = [97;47;98;58;49;46;50]%N /\      (* a/b:1.2 *)
  went_text (target [97%N] [98%N] (Some [49;48]%N)) = [97;47;98;58;49;48]%N /\            (* a/b:10  *)
  went_text (target [97%N] [98%N] (Some zero)) = [97;47;98]%N /\
  went_text (target [97%N] [98%N] None) = [97;47;98]%N /\
  world_add [97%N] [98%N] (Some [49;46;50]%N) [target [99%N] [100%N] None]
    = [target [99%N] [100%N] None; target [97%N] [98%N] (Some [49;46;50]%N)].
Proof. repeat split. Qed.
