(* Whole_C19.v — crash atomicity of the whole merge on the NoAlias domain: the crash lemmas for
   one block (C18/Shapes_C18) composed over both passes, with the merge invariant of C18/Exact_C18
   holding at every boundary between steps. *)
From Coq Require Import List ZArith.
Import ListNotations.
From Verif Require Import C18.Fs C18.FsLemmas C18.Model_C18 C18.Spec_C18 C18.Exact_C18 C18.Shapes_C18
  C19.Proofs_C19.

(* a state reached after whole steps, with the block of the next step *)
Definition boundary (i : minput) (sb : fs) (blk : list op) : Prop :=
  exists P, Inv (cset_of i) (i_fs i) P sb /\ step_block i sb blk.

Section Boundaries.
Variable i : minput.
Hypothesis HD : Dom (cset_of i) (i_fs i).

Lemma dirs_phase_boundaries ds P s ops sf :
  pending (cset_of i) true P ds -> Inv (cset_of i) (i_fs i) P s ->
  dirs_phase (i_umask i) s ds = (ops, sf, None) ->
  forall s', run_opt ops s = Some s' -> Loc (boundary i) ops s.
Proof.
  apply (dirs_phase_ind _ _ _ HD (fun _ s _ ops _ => Loc (boundary i) ops s)).
  - intros P0 s1 HI. apply Loc_single. exists P0. split; [exact HI|apply SB_nil].
  - cbv beta. intros P0 s1 x r ops1 s2 ops2 s' Hpe HI Hst Hr1 _ IH.
    destruct (pending_cons _ _ _ _ _ Hpe) as (HxC & Hxk & _).
    apply Loc_app.
    + apply Loc_single. exists P0. split; [exact HI|].
      replace ops1 with (fst (dir_step (i_umask i) s1 x)) by now rewrite Hst. now apply SB_dir.
    + intros s'' E. rewrite Hr1 in E. injection E as <-. exact IH.
Qed.

Lemma nondirs_phase_boundaries xs P s merged ops sf :
  pending (cset_of i) false P xs -> Inv (cset_of i) (i_fs i) P s ->
  (forall d, In d (cset_of i) -> is_kdir d = true -> In d P) -> files_in merged P ->
  nondirs_phase (i_umask i) s merged xs = (ops, sf, None) ->
  forall s', run_opt ops s = Some s' -> Loc (boundary i) ops s.
Proof.
  apply (nondirs_phase_ind _ _ _ HD (fun _ s _ _ ops _ => Loc (boundary i) ops s)).
  - intros P0 s1 m HI. apply Loc_single. exists P0. split; [exact HI|apply SB_nil].
  - cbv beta. intros P0 s1 m x r ops1 m' s2 ops2 s' Hpe HI _ _ Hst Hr1 _ IH.
    destruct (pending_cons _ _ _ _ _ Hpe) as (HxC & Hxk & _).
    apply Loc_app.
    + apply Loc_single. exists P0. split; [exact HI|].
      replace ops1 with (fst (fst (nondir_step (i_umask i) s1 m x))) by now rewrite Hst. now apply SB_nondir.
    + intros s'' E. rewrite Hr1 in E. injection E as <-. exact IH.
Qed.

End Boundaries.

Lemma merge_boundaries i sf :
  noalias i = true -> merge_err i = None -> run_opt (merge_ops i) (i_fs i) = Some sf ->
  Loc (boundary i) (merge_ops i) (i_fs i).
Proof.
  intros Hna Herr Hrun.
  destruct (merge_passes i sf Hna Herr Hrun) as (HD & ops1 & s1 & ops2 & s2 & -> & E1 & Hr1 & E2 & Hr2 & Hp1 & Hp2 & Hdirs).
  pose proof (dirs_phase_inv _ _ _ HD _ _ _ _ _ Hp1 (inv_start _ _) E1 _ Hr1) as HI1. rewrite app_nil_r in HI1.
  apply Loc_app.
  - exact (dirs_phase_boundaries i HD _ _ _ _ _ Hp1 (inv_start _ _) E1 _ Hr1).
  - intros s' E. rewrite Hr1 in E. injection E as <-.
    assert (Hm0 : files_in [] (rev (dirs_of (cset_of i)))) by (intros c []).
    exact (nondirs_phase_boundaries i HD _ _ _ _ _ _ Hp2 HI1 Hdirs Hm0 E2 _ Hr2).
Qed.

Section CrashWhole.
Variable um : N.
Variable C : list entry.
Variable s0 : fs.
Hypothesis HD : Dom C s0.

Definition TwoStepAt (q : path) (st : fs) : Prop :=
  exists m u g t u' g', lookup s0 q = Some (Dir m u g t) /\ lookup st q = Some (Dir m u' g' t).
Definition CrashOK (s sf : fs) (ops : list op) : Prop :=
  forall k q, lookup s0 q <> None ->
    lookup (run (firstn k ops) s) q = lookup s q \/ lookup (run (firstn k ops) s) q = lookup sf q \/
    TwoStepAt q (run (firstn k ops) s).
(* the remaining steps xs never come back to a bound path that is not one of their locations: this
   is what lets "the node after this step" stand for "the final node" in CrashOK *)
Definition Stab (s sf : fs) (xs : list entry) : Prop :=
  forall q, lookup s q <> None -> (forall x, In x xs -> e_loc x <> q) -> lookup sf q = lookup s q.

Lemma crash_nil s : CrashOK s s [] /\ Stab s s [].
Proof. split; [intros k q _; left; now destruct k|intros q _ _; reflexivity]. Qed.

Lemma compose_step P s x ops1 s1 ops2 sf r :
  Inv C s0 P s -> Inv C s0 (x :: P) s1 -> In x C ->
  (forall y, In y P -> e_loc y <> e_loc x) -> (forall y, In y r -> e_loc y <> e_loc x) ->
  run_opt ops1 s = Some s1 -> BlockCrash s ops1 (e_loc x) ->
  CrashOK s1 sf ops2 /\ Stab s1 sf r ->
  CrashOK s sf (ops1 ++ ops2) /\ Stab s sf (x :: r).
Proof.
  intros HI HI1 Hx Hfr Hnr Hr1 BC [Hck Hst].
  assert (Hs1 : run ops1 s = s1) by now apply run_opt_run.
  assert (Hstep : forall q, lookup s q <> None -> q <> e_loc x -> lookup s1 q = lookup s q)
    by (intros q; now apply (bc_final _ _ _ _ q BC Hr1)).
  assert (Hxb : lookup s1 (e_loc x) <> None).
  { destruct (inv_good _ _ _ _ HI1 x (or_introl eq_refl)) as (n & L & _). congruence. }
  assert (Hxf : lookup sf (e_loc x) = lookup s1 (e_loc x)).
  { apply Hst; [exact Hxb|]. intros y Hy. now apply Hnr. }
  assert (Hun : lookup s (e_loc x) = lookup s0 (e_loc x)) by (eapply L_unproc; eauto).
  split.
  - intros k q H0. assert (Hq : lookup s q <> None) by (eapply bound_inv; eauto).
    destruct (run_firstn_app ops1 ops2 k s) as [[_ ->]|[_ ->]].
    + destruct (BC k q Hq) as [A B].
      destruct (path_eq_dec q (e_loc x)) as [->|Hne]; [|left; now apply A].
      destruct (B eq_refl) as [E|[E|(m & u & g & t & u' & g' & E1 & E2)]].
      * now left.
      * right; left. rewrite E, Hs1. now rewrite Hxf.
      * right; right. exists m, u, g, t, u', g'. split; [now rewrite <- Hun|exact E2].
    + rewrite Hr1.
      destruct (Hck (k - length ops1) q H0) as [E|[E|E]]; [|right; now left|right; now right].
      destruct (path_eq_dec q (e_loc x)) as [->|Hne].
      * right; left. now rewrite E, Hxf.
      * left. rewrite E. now apply Hstep.
  - intros q Hq Hn. assert (Hne : q <> e_loc x) by (intro E; apply (Hn x); [now left|now rewrite E]).
    rewrite <- (Hstep q Hq Hne). apply Hst; [rewrite (Hstep q Hq Hne); exact Hq|].
    intros y Hy. apply Hn. now right.
Qed.

Lemma nondirs_phase_crash xs P s merged ops sf :
  pending C false P xs -> Inv C s0 P s -> (forall d, In d C -> is_kdir d = true -> In d P) ->
  files_in merged P -> nondirs_phase um s merged xs = (ops, sf, None) ->
  forall s', run_opt ops s = Some s' -> CrashOK s s' ops /\ Stab s s' xs.
Proof.
  apply (nondirs_phase_ind um C s0 HD (fun _ s _ xs ops s' => CrashOK s s' ops /\ Stab s s' xs)).
  - intros. apply crash_nil.
  - cbv beta. intros P0 s1 m x r ops1 m' s2 ops2 s' Hpe HI Hdirs Hm Hst Hr1 HI1 IH.
    destruct (pending_cons _ _ _ _ _ Hpe) as (HxC & Hxk & Hfrx & Hr & _).
    eapply compose_step; eauto. eapply nondir_step_crash; eauto.
Qed.

Lemma dirs_phase_crash ds P s ops sf :
  pending C true P ds -> Inv C s0 P s -> dirs_phase um s ds = (ops, sf, None) ->
  forall s', run_opt ops s = Some s' -> CrashOK s s' ops /\ Stab s s' ds.
Proof.
  apply (dirs_phase_ind um C s0 HD (fun _ s ds ops s' => CrashOK s s' ops /\ Stab s s' ds)).
  - intros. apply crash_nil.
  - cbv beta. intros P0 s1 x r ops1 s2 ops2 s' Hpe HI Hst Hr1 HI1 IH.
    destruct (pending_cons _ _ _ _ _ Hpe) as (HxC & Hxk & Hfrx & Hr & _).
    eapply compose_step; eauto. eapply dir_step_crash; eauto.
Qed.

End CrashWhole.

Lemma merge_crash i sf :
  noalias i = true -> merge_err i = None -> run_opt (merge_ops i) (i_fs i) = Some sf ->
  CrashOK (i_fs i) (i_fs i) sf (merge_ops i).
Proof.
  intros Hna Herr Hrun.
  destruct (merge_passes i sf Hna Herr Hrun) as (HD & ops1 & s1 & ops2 & s2 & -> & E1 & Hr1 & E2 & Hr2 & Hp1 & Hp2 & Hdirs).
  set (C := cset_of i) in *. set (s0 := i_fs i) in *.
  pose proof (dirs_phase_inv _ _ _ HD _ _ _ _ _ Hp1 (inv_start _ _) E1 _ Hr1) as HI1. rewrite app_nil_r in HI1.
  destruct (dirs_phase_crash _ _ _ HD _ _ _ _ _ Hp1 (inv_start _ _) E1 _ Hr1) as [Hck1 Hst1].
  assert (Hm0 : files_in [] (rev (dirs_of C))) by (intros c []).
  destruct (nondirs_phase_crash _ _ _ HD _ _ _ _ _ _ Hp2 HI1 Hdirs Hm0 E2 _ Hr2) as [Hck2 Hst2].
  intros k p Hp.
  assert (Hb2 : lookup s1 p <> None) by (eapply bound_inv; eauto).
  (* each pass leaves the locations of the other pass alone *)
  assert (Hcase : lookup s1 p = lookup s0 p \/ lookup sf p = lookup s1 p).
  { destruct (loc_dec (nondirs_of C) p) as [(x & Hx & Ex)|Hnn]; [left|right; now apply Hst2].
    apply Hst1; [exact Hp|]. intros d Hd E. destruct Hp2 as (_ & _ & Hfr). apply (Hfr x d Hx); [|congruence].
    apply -> in_rev. exact Hd. }
  destruct (run_firstn_app ops1 ops2 k s0) as [[_ ->]|[_ ->]].
  - destruct (Hck1 k p Hp) as [E|[E|E]]; [now left| |right; now right].
    destruct Hcase as [E'|E']; [left|right; left]; congruence.
  - rewrite Hr1.
    destruct (Hck2 (k - length ops1) p Hp) as [E|[E|E]]; [|right; now left|right; now right].
    destruct Hcase as [E'|E']; [left|right; left]; congruence.
Qed.
