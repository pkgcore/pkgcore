From Coq Require Import List NArith Lia.
Import ListNotations.
From Verif Require Import Base.Val C18.Fs C18.FsLemmas C29.Model_C29 C29.Spec_C29 C29.Proofs_C29.
From Verif Require Import C29.Complete_C29 C29.ViewExec_C29 C29.Aside_C29 C29.Upgrade_C29.

(* the generic theorem: an update whose ops before and after a middle section name invisible
   paths only is old-or-new at every crash point outside that section *)
Theorem window_consistent :
  forall cat_ok skip as_dir loc pre mid post s,
    nolinks s -> Forall (outside cat_ok skip loc) pre -> Forall plain mid ->
    Forall (outside cat_ok skip loc) post ->
    crash_consistent_outside cat_ok skip as_dir loc (length pre) (length pre + length mid)
                             (pre ++ mid ++ post) s.
Proof. exact window. Qed.
Print Assumptions window_consistent.

Theorem vdb_install_consistent :
  forall loc s cat pf items,
    nolinks s -> vdb_consistent loc (vdb_install_ops s loc cat pf items) s.
Proof.
  intros loc s cat pf items Hn. unfold vdb_install_ops, vdb_commit.
  apply (single_commit vdb_cat_ok vdb_skip true loc _ _ _ s Hn).
  - apply stage_out.
  - exact I.
  - repeat constructor. apply utime_loc_out.
Qed.
Print Assumptions vdb_install_consistent.

Theorem bin_install_consistent :
  forall base s cat pid pf chunks cache,
    nolinks s -> bin_consistent base (bin_install_ops s base cat pid pf chunks cache) s.
Proof.
  intros base s cat pid pf chunks cache Hn. unfold bin_install_ops.
  apply (single_commit bin_cat_ok bin_skip false base _ _ _ s Hn).
  - apply bin_stage_out.
  - exact I.
  - apply bin_cache_out.
Qed.
Print Assumptions bin_install_consistent.

Theorem bin_uninstall_consistent :
  forall base s cat old,
    nolinks s -> bin_consistent base (bin_uninstall_ops s base cat old) s.
Proof.
  intros base s cat old Hn. unfold bin_uninstall_ops.
  apply (single_commit bin_cat_ok bin_skip false base [] _ _ s Hn).
  - constructor.
  - exact I.
  - apply rmdir_if_empty_avoids, invisible_cat.
Qed.
Print Assumptions bin_uninstall_consistent.

(* vdb replace: false in general (two witnesses), true outside the window
   (end of staging + utime, rename of the new directory) *)
Theorem vdb_replace_refuted : ~ vdb_replace_full.
Proof.
  intro H. exact (replace_k14_neither (H [Ex.v] Ex.s0 Ex.c Ex.p1 Ex.p2 Ex.tree Ex.items Ex.s0_nolinks)).
Qed.
Print Assumptions vdb_replace_refuted.

Theorem vdb_replace_refuted_inside_rmtree :
  exists loc s cat old pf tree items k,
    nolinks s
    /\ ~ vdb_view_eq loc (run (firstn k (vdb_replace_ops s loc cat old pf tree items)) s) s
    /\ ~ vdb_view_eq loc (run (firstn k (vdb_replace_ops s loc cat old pf tree items)) s)
                         (run (vdb_replace_ops s loc cat old pf tree items) s)
    /\ listed vdb_cat_ok vdb_skip true loc (run (firstn k (vdb_replace_ops s loc cat old pf tree items)) s) cat old = true.
Proof.
  exists [Ex.v], Ex.s0, Ex.c, Ex.p1, Ex.p2, Ex.tree, Ex.items, 11.
  split; [exact Ex.s0_nolinks|]. split; [exact replace_k11_not_old|]. split; [exact replace_k11_not_new|].
  vm_compute. reflexivity.
Qed.
Print Assumptions vdb_replace_refuted_inside_rmtree.

Theorem vdb_replace_partial :
  forall loc s cat old pf tree items,
    nolinks s ->
    vdb_consistent_outside loc (replace_lo loc s cat pf items) (replace_hi loc s cat old pf tree items)
                           (vdb_replace_ops s loc cat old pf tree items) s.
Proof.
  intros loc s cat old pf tree items Hn k Hk. unfold replace_hi, replace_lo in Hk.
  rewrite vdb_replace_ops_split. apply (window vdb_cat_ok vdb_skip true loc _ _ _ s Hn).
  - apply Forall_app. split; [apply stage_out|repeat constructor; apply utime_loc_out].
  - apply Forall_app. split; [apply rmtree_plain|repeat constructor].
  - repeat constructor. apply utime_loc_out.
  - rewrite !app_length. cbn [length]. lia.
Qed.
Print Assumptions vdb_replace_partial.

(* vdb uninstall: false inside rmtree, true before it starts and after it has finished *)
Theorem vdb_uninstall_refuted : ~ vdb_uninstall_full.
Proof.
  intro H. exact (uninstall_k2_neither (H [Ex.v] Ex.s0 Ex.c Ex.p1 Ex.tree Ex.s0_nolinks)).
Qed.
Print Assumptions vdb_uninstall_refuted.

Theorem vdb_uninstall_partial :
  forall loc s cat old tree,
    nolinks s ->
    vdb_consistent_outside loc 1 (uninstall_hi loc cat old tree)
                           (vdb_uninstall_ops s loc cat old tree) s.
Proof.
  intros loc s cat old tree Hn. unfold vdb_uninstall_ops, vdb_unmerge, uninstall_hi. cbv zeta.
  rewrite <- !app_assoc. apply (window vdb_cat_ok vdb_skip true loc [Utime loc NOW] _ _ s Hn).
  - repeat constructor. apply utime_loc_out.
  - apply rmtree_plain.
  - constructor; [apply utime_loc_out|apply rmdir_if_empty_out].
Qed.
Print Assumptions vdb_uninstall_partial.

(* after the whole vdb install op list has run without a failing call, the package is listed and
   every staged file reads back in full *)
Theorem vdb_install_complete :
  forall loc s cat pf items s',
    nolinks s ->
    vdb_cat_ok cat = true -> vdb_skip pf = false ->
    NoDup (map item_name items) -> ~ In UPD (map item_name items) ->
    (forall r, lookup s (pkgdir loc cat pf ++ r) = None) ->
    match lookup s (tmpdir loc cat pf) with Some n => is_dir_node n = true | None => True end ->
    run_opt (vdb_install_ops s loc cat pf items) s = Some s' ->
    vdb_complete s' loc cat pf items.
Proof. exact vdb_install_complete_proof. Qed.
Print Assumptions vdb_install_complete.

(* ... so each of the 13 keys the check reads is present with the staged data *)
Theorem vdb_install_keys :
  forall loc s cat pf items s',
    nolinks s ->
    vdb_cat_ok cat = true -> vdb_skip pf = false ->
    NoDup (map item_name items) -> ~ In UPD (map item_name items) ->
    (forall r, lookup s (pkgdir loc cat pf ++ r) = None) ->
    match lookup s (tmpdir loc cat pf) with Some n => is_dir_node n = true | None => True end ->
    (forall k, In k (vdb_keys pf) -> exists it, In it items /\ item_name it = fst k) ->
    run_opt (vdb_install_ops s loc cat pf items) s = Some s' ->
    length (vdb_keys pf) = 13
    /\ forall k, In k (vdb_keys pf) ->
         exists it, In it items /\ item_name it = fst k
                    /\ read_key s' (pkgdir loc cat pf) k
                       = VS (if snd k then rstrip_nl (item_data it) else item_data it).
Proof.
  intros loc s cat pf items s' Hn Hc Hs Hnd Hu Habs Hstale Hcov H. split; [reflexivity|].
  intros k Hk. destruct (Hcov k Hk) as [it [Hin E]]. exists it. repeat split; auto.
  eapply complete_key; eauto using vdb_install_complete.
Qed.
Print Assumptions vdb_install_keys.

(* the same for a harness scenario whose hypotheses the check evaluated (Spec_C29.install_hyps_ok) *)
Theorem vdb_install_complete_checked :
  forall c s',
    sc_kind c = KVInstall -> install_hyps_ok c = true -> nolinks (sc_fs c) ->
    run_opt (sc_ops c) (sc_fs c) = Some s' ->
    vdb_complete s' (sc_loc c) (sc_cat c) (sc_pf c) (sc_items c)
    /\ forall k, In k (vdb_keys (sc_pf c)) -> read_key s' (pkgdir (sc_loc c) (sc_cat c) (sc_pf c)) k <> VNone.
Proof.
  intros c s' Hk Hh Hn Hr. unfold sc_ops in Hr. rewrite Hk in Hr.
  destruct (install_hyps_ok_spec c Hh) as (H1 & H2 & H3 & H4 & H5 & H6 & H7).
  split; [now apply vdb_install_complete with (s := sc_fs c)|].
  intros k Hin. destruct (vdb_install_keys _ _ _ _ _ _ Hn H1 H2 H3 H4 H5 H6 H7 Hr) as [_ K].
  destruct (K k Hin) as [it [_ [_ ->]]]. discriminate.
Qed.
Print Assumptions vdb_install_complete_checked.

(* binpkg install: the tarball is listed and holds every written byte *)
Theorem bin_install_complete :
  forall base s cat pid pf chunks cache s',
    nolinks s -> bin_cat_ok cat = true -> bin_skip (pf ++ TBZ2) = false ->
    run_opt (bin_install_ops s base cat pid pf chunks cache) s = Some s' ->
    listed bin_cat_ok bin_skip false base s' cat (pf ++ TBZ2) = true
    /\ content base s' cat (pf ++ TBZ2) [] = Some (concat chunks).
Proof.
  intros base s cat pid pf chunks cache s' Hn Hc Hs H. apply bin_read_listed; auto.
  apply (bin_committed base s cat pid pf chunks (bin_cache s base cache)); auto using bin_cache_avoids_final.
Qed.
Print Assumptions bin_install_complete.

(* binpkg install: no crash prefix changes any other listed tarball *)
Theorem bin_install_others_untouched :
  forall base s cat pid pf chunks cache,
    nolinks s ->
    forall k q, visible bin_cat_ok bin_skip base q -> is_prefix (bin_final base cat pf) q = false ->
      lookup (run (firstn k (bin_install_ops s base cat pid pf chunks cache)) s) q = lookup s q.
Proof.
  intros base s cat pid pf chunks cache Hn k q Hq Hf.
  apply (avoids_run _ _ (Forall_firstn _ k _ (bin_install_others base s cat pid pf chunks cache))); auto.
Qed.
Print Assumptions bin_install_others_untouched.

(* binpkg replace (repaired code:
   rename the new tarball in, then unlink the old one when its file name differs) *)
(* old-or-new at every crash prefix but the one between the rename and the unlink *)
Theorem bin_replace_partial :
  forall base s cat pid old pf chunks cache,
    nolinks s ->
    crash_consistent_outside bin_cat_ok bin_skip false base
      (bin_replace_lo s base cat pid pf chunks) (bin_replace_hi s base cat pid old pf chunks)
      (bin_replace_ops s base cat pid old pf chunks cache) s.
Proof.
  intros base s cat pid old pf chunks cache Hn k Hk. unfold bin_replace_hi, bin_replace_lo in Hk.
  apply (window bin_cat_ok bin_skip false base _ _ _ s Hn).
  - apply bin_stage_out.
  - constructor; [exact I|]. eapply Forall_impl; [apply (avoids_plain (fun _ => False))|].
    apply unlink_old_avoids. auto.
  - apply bin_cache_out.
  - cbn [length]. lia.
Qed.
Print Assumptions bin_replace_partial.

(* same file name (re-install of the same version): every crash prefix *)
Theorem bin_replace_same_name_consistent :
  forall base s cat pid old pf chunks cache,
    nolinks s -> bin_final base cat old = bin_final base cat pf ->
    bin_consistent base (bin_replace_ops s base cat pid old pf chunks cache) s.
Proof.
  intros base s cat pid old pf chunks cache Hn E k. apply (bin_replace_partial base s cat pid old pf chunks cache Hn k).
  unfold bin_replace_hi, bin_unlink_old. destruct (path_eq_dec _ _); [|contradiction]. cbn. lia.
Qed.
Print Assumptions bin_replace_same_name_consistent.

(* the full statement is false for another file name: at the remaining point both are listed *)
Theorem bin_replace_refuted : ~ bin_replace_full.
Proof.
  intro H.
  exact (bin_replace_k5_neither (H [BEx.b] BEx.s0 BEx.c BEx.pid BEx.p1 BEx.p2 [[3]%N; [4; 5]%N] [[6]%N] BEx.s0_nolinks)).
Qed.
Print Assumptions bin_replace_refuted.

(* ... but never neither and never partial: the old tarball is untouched up to and including that
   point, the new one is as after completion from that point on *)
Theorem bin_replace_never_neither :
  forall base s cat pid old pf chunks cache,
    nolinks s -> bin_cat_ok cat = true -> bin_skip (old ++ TBZ2) = false -> bin_skip (pf ++ TBZ2) = false ->
    old ++ TBZ2 <> pf ++ TBZ2 ->
    let ops := bin_replace_ops s base cat pid old pf chunks cache in
    let p := bin_replace_lo s base cat pid pf chunks + 1 in
    forall k,
      (k <= p -> lookup (run (firstn k ops) s) (bin_final base cat old) = lookup s (bin_final base cat old))
      /\ (p <= k -> lookup (run (firstn k ops) s) (bin_final base cat pf) = lookup (run ops s) (bin_final base cat pf)).
Proof.
  intros base s cat pid old pf chunks cache Hn Hc Hso Hsn Hne ops p k. unfold ops, p, bin_replace_lo.
  rewrite bin_replace_ops_split. split; intro Hk.
  - apply (before_kept _ _ _ s k _ Hn (bin_commit_others base s cat pid pf chunks)).
    + rewrite app_length. exact Hk.
    + now apply old_is_other.
  - apply (after_final (eq (bin_final base cat pf))); auto using bin_replace_rest_avoids.
    + eapply Forall_impl; [apply avoids_plain|apply bin_commit_others].
    + rewrite app_length. exact Hk.
Qed.
Print Assumptions bin_replace_never_neither.

(* after completion: the new tarball is listed in full and the old one is not listed *)
Theorem bin_replace_complete :
  forall base s cat pid old pf chunks cache s',
    nolinks s -> bin_cat_ok cat = true -> bin_skip (old ++ TBZ2) = false -> bin_skip (pf ++ TBZ2) = false ->
    old ++ TBZ2 <> pf ++ TBZ2 ->
    run_opt (bin_replace_ops s base cat pid old pf chunks cache) s = Some s' ->
    listed bin_cat_ok bin_skip false base s' cat (pf ++ TBZ2) = true
    /\ content base s' cat (pf ++ TBZ2) [] = Some (concat chunks)
    /\ listed bin_cat_ok bin_skip false base s' cat (old ++ TBZ2) = false.
Proof.
  intros base s cat pid old pf chunks cache s' Hn Hc Hso Hsn Hne H.
  rewrite <- and_assoc. split.
  - apply bin_read_listed; auto.
    apply (bin_committed base s cat pid pf chunks (bin_unlink_old s base cat old pf ++ bin_cache s base cache)); auto.
    now apply bin_replace_rest_avoids.
  - now apply (bin_replace_old_unlisted base s cat pid old pf chunks cache).
Qed.
Print Assumptions bin_replace_complete.

(* on a repository-shaped filesystem the executable view is an error exactly when a listed entry
   has an unparsable name, and otherwise lists exactly the entries of the listed packages *)
Theorem view_exec_is_view_vdb :
  forall s loc, vdb_shaped loc s ->
    exec_is_view vdb_cat_ok vdb_skip true loc simple_pf (vdb_entry loc) s (vdb_view s loc).
Proof. intros s loc H. rewrite vdb_view_gen. now apply gen_view_is_view. Qed.
Print Assumptions view_exec_is_view_vdb.

Theorem view_exec_is_view_bin :
  forall s base, bin_shaped base s ->
    exec_is_view bin_cat_ok bin_skip false base bin_okname (bin_entry base) s (bin_view s base).
Proof. intros s base H. rewrite bin_view_gen. now apply gen_view_is_view. Qed.
Print Assumptions view_exec_is_view_bin.

(* equal declarative views give equal executable views (same error status, same entries) *)
Theorem view_exec_respects_vdb :
  forall a b loc, vdb_shaped loc a -> vdb_shaped loc b -> vdb_view_eq loc a b ->
    (vdb_view a loc = VErr INVALIDCPV /\ vdb_view b loc = VErr INVALIDCPV)
    \/ exists la lb, vdb_view a loc = VL la /\ vdb_view b loc = VL lb /\ forall e, In e la <-> In e lb.
Proof.
  intros a b loc Ha Hb Hv. rewrite !vdb_view_gen.
  apply (gen_view_respects vdb_cat_ok vdb_cat_ok vdb_skip true); auto.
  intros s t c x _. apply vdb_entry_ext.
Qed.
Print Assumptions view_exec_respects_vdb.

Theorem view_exec_respects_bin :
  forall a b base, bin_shaped base a -> bin_shaped base b -> bin_view_eq base a b ->
    (bin_view a base = VErr INVALIDCPV /\ bin_view b base = VErr INVALIDCPV)
    \/ exists la lb, bin_view a base = VL la /\ bin_view b base = VL lb /\ forall e, In e la <-> In e lb.
Proof.
  intros a b base Ha Hb Hv. rewrite !bin_view_gen.
  apply (gen_view_respects bin_catf bin_cat_ok bin_skip false); auto.
  intros s t c x _. apply bin_entry_ext.
Qed.
Print Assumptions view_exec_respects_bin.

(* ANALYSIS of the rename-aside repair
   (a model of code that does not exist: rename old -> .tmp.remove-PF; rename new -> PF; rmtree) *)
Theorem aside_uninstall_consistent :
  forall loc s cat old tree,
    nolinks s -> vdb_consistent loc (aside_uninstall_ops s loc cat old tree) s.
Proof.
  intros loc s cat old tree Hn. unfold aside_uninstall_ops. cbv zeta. cbn [app]. rewrite <- !app_assoc.
  apply (single_commit vdb_cat_ok vdb_skip true loc [Utime loc NOW] _ _ s Hn).
  - repeat constructor. apply utime_loc_out.
  - exact I.
  - apply Forall_app. split; [apply rmtree_aside_out|].
    constructor; [apply utime_loc_out|apply rmdir_if_empty_out].
Qed.
Print Assumptions aside_uninstall_consistent.

Theorem aside_replace_partial :
  forall loc s cat old pf tree items,
    nolinks s ->
    forall k, k <> aside_replace_point s loc cat pf items ->
      vdb_view_eq loc (run (firstn k (aside_replace_ops s loc cat old pf tree items)) s) s
      \/ vdb_view_eq loc (run (firstn k (aside_replace_ops s loc cat old pf tree items)) s)
                         (run (aside_replace_ops s loc cat old pf tree items) s).
Proof.
  intros loc s cat old pf tree items Hn k Hk. unfold aside_replace_point in Hk.
  apply (window vdb_cat_ok vdb_skip true loc _ _ _ s Hn).
  - apply Forall_app. split; [apply stage_out|repeat constructor; apply utime_loc_out].
  - repeat constructor.
  - apply Forall_app. split; [apply rmtree_aside_out|repeat constructor; apply utime_loc_out].
  - rewrite app_length. cbn [length]. lia.
Qed.
Print Assumptions aside_replace_partial.

Theorem aside_replace_refuted : ~ aside_replace_full.
Proof.
  intro H. exact (aside_k11_neither (H [Ex.v] Ex.s0 Ex.c Ex.p1 Ex.p2 Ex.tree Ex.items Ex.s0_nolinks)).
Qed.
Print Assumptions aside_replace_refuted.

Theorem aside_replace_same_version_absent :
  listed vdb_cat_ok vdb_skip true [Ex.v] Ex.s0 Ex.c Ex.p1 = true
  /\ listed vdb_cat_ok vdb_skip true [Ex.v] (run AEx.ops_same Ex.s0) Ex.c Ex.p1 = true
  /\ listed vdb_cat_ok vdb_skip true [Ex.v] (run (firstn 11 AEx.ops_same) Ex.s0) Ex.c Ex.p1 = false.
Proof. vm_compute. repeat split; reflexivity. Qed.
Print Assumptions aside_replace_same_version_absent.

Theorem aside_replace_newfirst_refuted : ~ aside_replace_newfirst_full.
Proof.
  intro H. exact (newfirst_k11_neither (H [Ex.v] Ex.s0 Ex.c Ex.p1 Ex.p2 Ex.tree Ex.items Ex.s0_nolinks)).
Qed.
Print Assumptions aside_replace_newfirst_refuted.
