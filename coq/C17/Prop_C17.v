From Coq Require Import List.
From Verif Require Import C17.Model_C17 C17.Spec_C17 C17.Proofs_C17.

(* revert ∘ apply ≈ id, for every API call (add_op incl. forced and refused, add_hardref_op,
   add_backref_op, remove_op and replace_op with their nested decref_forward_block_ops,
   add_blocker, a bare decref): in a state satisfying the invariant, a well-formed call does not
   raise, only appends to the plan, and rolling back to where it started succeeds and restores
   the state up to order inside a key, with the same plan. *)
Theorem revert_inverts_apply : forall E s a,
  Inv E s -> wf_api_b E s a = true ->
  exists s1 r seg, call E a s = (s1, Ok r) /\ plan s1 = plan s ++ seg /\
    exists s2, backtrack E (length (plan s)) s1 = (s2, Ok tt) /\ equiv s2 s.
Proof. intros E s a HI Hwf. apply (call_ok E s a HI Hwf). Qed.
Print Assumptions revert_inverts_apply.

(* the invariant is not a hypothesis about histories: every well-formed history reaches only
   states that satisfy it *)
Theorem inv_reachable : forall E h, WF E h -> Inv E (run E h init).
Proof. intros E h Hwf. exact (good_inv E _ _ (wf_good E h Hwf)). Qed.
Print Assumptions inv_reachable.

(* rollback restores the exact earlier state, for ALL well-formed histories with arbitrarily
   interleaved rollbacks (induction over the log): if k is the plan position reached after h1 and
   no rollback of h2 went below k, then after h1 ++ h2 backtrack(k) succeeds and gives the state
   after h1 (per-key lists as multisets, identical plan). *)
Theorem rollback_restores_earlier : forall E h1 h2 k,
  WF E (h1 ++ h2) -> k = length (plan (run E h1 init)) ->
  (forall k', In (R k') h2 -> k <= k') ->
  exists s', backtrack E k (run E (h1 ++ h2) init) = (s', Ok tt) /\ equiv s' (run E h1 init).
Proof. intros E h1 h2 k Hwf -> Hge. apply back_iff, rollback_restores; assumption. Qed.
Print Assumptions rollback_restores_earlier.

(* replay form, full: for every well-formed history, with rollbacks nested arbitrarily (the
   surviving prefix may itself contain rollbacks), the state is ≈w the state obtained by applying
   only the operations that remain ([surviving]) to the empty planner state.  ≈w = all observable
   components equal as per-key multisets and the same plan position; the plan entries themselves
   may differ in the logging order of the nested decrefs of a remove/replace. *)
Theorem backtrack_is_replay : forall E h,
  WF E h -> equivw (run E h init) (replay E (surviving E h) init).
Proof. intros E h Hwf. rewrite surviving_apis. exact (good_replay E _ _ (wf_good E h Hwf)). Qed.
Print Assumptions backtrack_is_replay.

(* the lemma behind it: well-formed API calls respect ≈w (and well-formedness itself does) *)
Theorem call_respects_equivw : forall E s1 s2 a,
  Inv E s1 -> equivw s1 s2 -> wf_api_b E s1 a = true ->
  wf_api_b E s2 a = true /\ equivw (call_s E a s1) (call_s E a s2).
Proof.
  intros E s1 s2 a HI He W. split; [exact (wf_obs E s1 s2 a HI (proj1 He) W) | apply call_cong; assumption].
Qed.
Print Assumptions call_respects_equivw.

(* backtrack respects ≈ — every operation, failing reverts and their partial states included *)
Theorem backtrack_respects_equiv : forall E k s1 s2, equiv s1 s2 ->
  equiv (backtrack_s E k s1) (backtrack_s E k s2) /\ snd (backtrack E k s1) = snd (backtrack E k s2).
Proof. intros E k s1 s2. apply backtrack_cong. Qed.
Print Assumptions backtrack_respects_equiv.

(* rolling back in two stages = rolling back at once *)
Theorem backtrack_composes : forall E s n n' t t2,
  n' <= n -> n <= length (plan s) ->
  backtrack E n s = (t, Ok tt) -> backtrack E n' t = (t2, Ok tt) ->
  exists t3, backtrack E n' s = (t3, Ok tt) /\ equiv t3 t2.
Proof.
  intros E s n n' t t2 Hn' _ H1 H2.
  apply back_iff, (back_stages E s n n' t t2 Hn'); apply back_iff; eauto using equiv_refl.
Qed.
Print Assumptions backtrack_composes.
