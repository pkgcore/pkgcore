(* Proofs_C33.v — placement lemmas of the helper model against the PMS reference (Spec_C33). *)
From Coq Require Import List NArith Bool Lia.
From Coq Require String.
Import String.StringSyntax.
Import ListNotations.
From Verif Require Import Base.Val Base.Lists C33.Path C33.PathProofs gen.Tables_C33 C33.Model_C33 C33.Spec_C33.

Lemma takewhile_all {A} (f : A -> bool) l : forallb f l = true -> takewhile f l = l /\ dropwhile f l = [].
Proof.
  induction l as [|x l IH]; cbn; [now split|]. intro H. apply andb_true_iff in H as [H1 H2].
  rewrite H1. destruct (IH H2) as [-> ->]. now split.
Qed.

Lemma takewhile_app_stop {A} (f : A -> bool) l x r :
  forallb f l = true -> f x = false -> takewhile f (l ++ x :: r) = l /\ dropwhile f (l ++ x :: r) = x :: r.
Proof.
  induction l as [|y l IH]; cbn; intros H Hx; [now rewrite Hx|].
  apply andb_true_iff in H as [H1 H2]. rewrite H1. destruct (IH H2 Hx) as [-> ->]. now split.
Qed.

Lemma assoc_in {A} k (l : list (str * A)) v : assoc k l = Some v -> exists k', In (k', v) l.
Proof.
  induction l as [|[k' v'] l IH]; cbn; [discriminate|]. destruct (str_eqb k k').
  - intro H. injection H as <-. exists k'. now left.
  - intro H. destruct (IH H) as [k2 H2]. exists k2. now right.
Qed.

Lemma key_run p : key p = rev (run [] (split_sl p)).
Proof. reflexivity. Qed.

Lemma run_lstrip S p : run S (split_sl (lstrip_sl p)) = run S (split_sl p).
Proof.
  unfold lstrip_sl. induction p as [|c p IH]; [reflexivity|]. cbn [dropwhile]. destruct (is_sl c) eqn:E; [|reflexivity].
  rewrite IH. cbn [split_sl]. rewrite E. now rewrite run_cons.
Qed.

Lemma key_lstrip d : key (lstrip_sl d) = key d.
Proof. rewrite !key_run. now rewrite run_lstrip. Qed.

Lemma lstrip_nonabs x : isabs x = false -> lstrip_sl x = x.
Proof. destruct x as [|c x]; [reflexivity|]. cbn. intro H. unfold lstrip_sl. cbn. now rewrite H. Qed.

Definition goodb (b : str) : Prop := plain b /\ noslash b.

Lemma good_name_goodb b : good_name b = true -> goodb b.
Proof.
  unfold good_name. intro H. repeat (apply andb_true_iff in H as [H ?]).
  split; [repeat split; intro; subst; cbn in *; congruence|exact H0].
Qed.
Lemma forallb_good cs : forallb good_name cs = true -> Forall goodb cs.
Proof. rewrite forallb_forall, Forall_forall. intros H x Hx. apply good_name_goodb, H, Hx. Qed.

Lemma noslash_nonabs m : noslash m -> isabs m = false.
Proof. destruct m; [reflexivity|]. intro N. rewrite <- (app_nil_r (n :: m)). now apply isabs_noslash. Qed.

Lemma goodb_plain cs : Forall goodb cs -> Forall plain cs.
Proof. intro H. eapply Forall_impl; [|exact H]. now intros a [P _]. Qed.
Lemma goodb_noslash cs : Forall goodb cs -> Forall noslash cs.
Proof. intro H. eapply Forall_impl; [|exact H]. now intros a [_ N]. Qed.
Lemma goodb_ne cs : Forall goodb cs -> Forall (fun c => c <> [] /\ noslash c) cs.
Proof. intro H. apply plain_nonempty_noslash; [now apply goodb_plain|now apply goodb_noslash]. Qed.

Lemma spells_good cs : cs <> [] -> Forall goodb cs -> spells (join_sl cs) cs.
Proof. intros Hn G. now apply spells_join_sl, goodb_ne. Qed.

Lemma spells_join2 x cs n : x <> [] -> spells x cs -> goodb n -> spells (join2 x n) (cs ++ [n]).
Proof.
  intros Hx [A R] G. pose proof (noslash_nonabs n (proj2 G)) as An. split.
  - destruct x as [|y x']; [congruence|]. unfold join2. rewrite An.
    destruct (rev (y :: x')) as [|c l]; [exact An|destruct (is_sl c); exact A].
  - intro S. rewrite run_split_join2, R, (split_noslash_single n), run_app by (assumption || apply G). reflexivity.
Qed.

Lemma key_join a x cs : spells x cs -> Forall plain cs -> key (join2 a x) = key a ++ cs.
Proof.
  intros [A R] P. rewrite !key_run. destruct a as [|y a].
  - unfold join2. rewrite A. cbn [rev]. rewrite R, (run_plain cs), app_nil_r, rev_involutive by assumption. reflexivity.
  - rewrite run_split_join2, R, (run_plain cs), rev_app_distr, rev_involutive by (assumption || discriminate).
    reflexivity.
Qed.

Lemma key_under dest x cs : spells x cs -> Forall plain cs -> key (under dest x) = comps dest ++ cs.
Proof.
  intros Sp P. unfold under, edjoin. rewrite (lstrip_nonabs x (proj1 Sp)), (key_join _ x cs Sp P).
  now rewrite key_lstrip.
Qed.

Lemma key_under_good dest cs : cs <> [] -> Forall goodb cs -> key (under dest (join_sl cs)) = comps dest ++ cs.
Proof. intros Hn G. apply key_under; [now apply spells_good|now apply goodb_plain]. Qed.

Lemma key_under_name dest b : goodb b -> key (under dest b) = comps dest ++ [b].
Proof. intro G. apply (key_under_good dest [b]); [discriminate|now constructor]. Qed.

Definition action_entry (a : action) : option (list str * pnode) :=
  match a with
  | AInstall (FReg cid) p (Some m) => Some (key p, PFile m cid)
  | AInstall (FLink t _) p _ => Some (key p, PLink t)
  | AMkdirs p m => Some (key p, PDir m)
  | ASymlinkNew t p => Some (key p, PLink t)
  | _ => None
  end.

(* doexe dobin dosbin dolib dolib.so dolib.a doinfo (and the file arguments of doins/dodoc):
   each file goes to <dest>/<basename> with the requested mode — exactly the reference list *)
Lemma base_placement c mode pos : forall l,
  c_insmode c = Some mode ->
  flat_files (comps (c_dest c)) mode pos = Some l ->
  map action_entry (install_basenames c pos) = map Some l.
Proof.
  induction pos as [|a r IH]; intros l Hm H; cbn [flat_files] in H.
  - injection H as <-. reflexivity.
  - destruct (flat_one (comps (c_dest c)) mode a) as [x|] eqn:E1; [|discriminate].
    destruct (flat_files (comps (c_dest c)) mode r) as [xs|] eqn:E2; [|discriminate].
    injection H as <-. unfold install_basenames in *. cbn [map concat]. rewrite map_app, (IH xs Hm eq_refl).
    cbn [map]. f_equal. unfold flat_one in E1. unfold install_one. destruct (snd a) as [f| |]; try discriminate.
    destruct (good_name (basename (fst a))) eqn:G; [|discriminate]. apply good_name_goodb in G.
    destruct f as [cid|t [|]]; cbn in E1; try discriminate; injection E1 as <-;
      cbn [map action_entry]; rewrite ?Hm, key_under_name by assumption; reflexivity.
Qed.

Lemma keepdir_placement name dest dirm pos acts a :
  goodb name -> plan_dirs (Some name) dest dirm pos = inl acts -> In a pos ->
  In (AMkdirs (under dest (fst a)) dirm) acts
  /\ exists p, In (ATouch p) acts /\ key p = comps (fst a) ++ [name].
Proof.
  intros G H Ha. unfold plan_dirs in H. destruct pos as [|a0 r]; [destruct Ha|].
  remember (a0 :: r) as pos. injection H as <-. split.
  - apply in_or_app. left. apply (in_map (fun a => AMkdirs (under dest (fst a)) dirm)), Ha.
  - exists (edjoin (lstrip_sl (fst a)) name). split.
    + apply in_or_app. right. apply (in_map (fun a => ATouch (edjoin (lstrip_sl (fst a)) name))), Ha.
    + unfold edjoin. rewrite (key_join _ name [name]), key_lstrip; [reflexivity| |now repeat constructor; apply G].
      apply (spells_good [name]); [discriminate|now constructor].
Qed.

(* dodoc given a directory: the tree with an allowed -r, refusal otherwise *)
Lemma plan_dodoc_dirs g c r pos : dirs_of pos <> [] ->
  plan_dodoc g c r pos
  = if r && g_dodoc_r g
    then inl (base_action (c_dest c) :: from_dirs c (dirs_of pos) ++ install_basenames c (files_of pos))
    else inr (E "isdir").
Proof. intro H. unfold plan_dodoc. now destruct (dirs_of pos). Qed.

Lemma plan_link_needs_two g h dirm pre r pos :
  (length pos < 2)%nat -> plan_link g h dirm pre r pos = inr (E "missing").
Proof. destruct pos as [|a [|b l]]; cbn; intro H; try reflexivity; lia. Qed.

Lemma plan_dosym_inl g dirm pre r s t acts : plan_dosym g dirm pre r s t = inl acts ->
  (r = true -> g_dosym_rel g = true /\ isabs s = true)
  /\ In (ASymlink (if r then relative_target [] s t else s) (lstrip_sl t)) acts.
Proof.
  unfold plan_dosym. destruct (endswith_sl t || _); [discriminate|].
  assert (L : forall c, In (ASymlink c (lstrip_sl t)) (link_actions (lit "dosym") dirm c t))
    by (intro c; apply in_or_app; right; now left).
  destruct r.
  - destruct (g_dosym_rel g); [|discriminate]. destruct (isabs s); [|discriminate].
    intro H. injection H as <-. now split.
  - intro H. injection H as <-. split; [discriminate|apply L].
Qed.

Definition nodot (b : str) : Prop := forallb (fun c => negb (is_dot c)) b = true.

Lemma basename_noslash b : noslash b -> basename b = b.
Proof.
  intro N. unfold basename. destruct (takewhile_all (fun c => negb (is_sl c)) (rev b)) as [-> _];
    [now rewrite forallb_rev|apply rev_involutive].
Qed.

Lemma basename_is_noslash x : noslash (basename x).
Proof.
  unfold basename, noslash. rewrite forallb_rev. induction (rev x) as [|c r IH]; [reflexivity|].
  cbn [takewhile]. destruct (negb (is_sl c)) eqn:E; [|reflexivity]. cbn. now rewrite E.
Qed.

Lemma splitext_nodot b : noslash b -> nodot b -> splitext b = (b, []).
Proof.
  intros N D. unfold splitext. rewrite (basename_noslash b N).
  destruct (takewhile_all (fun c => negb (is_dot c)) (rev b)) as [_ ->]; [now rewrite forallb_rev|].
  reflexivity.
Qed.

Lemma splitext_root_sec root sec :
  noslash (root ++ DOT :: sec) -> nodot sec -> forallb is_dot root = false ->
  splitext (root ++ DOT :: sec) = (root, DOT :: sec).
Proof.
  intros N D R. unfold splitext. rewrite (basename_noslash _ N).
  rewrite rev_app_distr. cbn [rev]. rewrite <- app_assoc. cbn [app].
  destruct (takewhile_app_stop (fun c => negb (is_dot c)) (rev sec) DOT (rev root)) as [-> ->];
    [now rewrite forallb_rev|reflexivity|].
  rewrite forallb_rev, R, rev_length, rev_involutive.
  rewrite app_length. cbn [length]. replace (_ - _) with (length root) by lia.
  now rewrite firstn_app_exact.
Qed.

Definition nosep (s : N) (c : str) : Prop := forallb (fun x => negb (N.eqb x s)) c = true.

Lemma nosep_nodot c : nosep 46 c -> nodot c.
Proof. exact (fun H => H). Qed.

Lemma split_on_nosep_single s b : nosep s b -> split_on s b = [b].
Proof.
  unfold nosep. induction b as [|x b IH]; cbn; intro H; [reflexivity|].
  apply andb_true_iff in H as [H1 H2]. apply negb_true_iff in H1. rewrite H1, (IH H2). reflexivity.
Qed.

Lemma split_on_nonnil s b : split_on s b <> [].
Proof. destruct b as [|c r]; cbn; [discriminate|]. destruct (N.eqb c s); [discriminate|]. destruct (split_on s r); discriminate. Qed.

Lemma join_split_on s b : join_on s (split_on s b) = b.
Proof.
  induction b as [|c r IH]; [reflexivity|]. cbn [split_on]. pose proof (split_on_nonnil s r) as NN.
  destruct (split_on s r) as [|h t] eqn:E2; [congruence|]. destruct (N.eqb c s) eqn:E.
  - apply N.eqb_eq in E. subst c. change (join_on s ([] :: h :: t)) with (s :: join_on s (h :: t)). now rewrite IH.
  - destruct t as [|h2 t]; cbn in *; now rewrite IH.
Qed.

Lemma split_on_nosep s b : Forall (nosep s) (split_on s b).
Proof.
  induction b as [|c r IH]; cbn; [repeat constructor|]. destruct (N.eqb c s) eqn:E.
  - constructor; [reflexivity|exact IH].
  - destruct (split_on s r) as [|h t]; [repeat constructor; unfold nosep; cbn; now rewrite E|].
    inversion IH; subst. constructor; [|assumption]. unfold nosep in *. cbn. now rewrite E.
Qed.

Lemma simple_stem_facts s : simple_stem s = true ->
  s <> [] /\ nodot s /\ noslash s /\ forallb is_dot s = false.
Proof.
  unfold simple_stem. intro H. apply andb_true_iff in H as [H1 H2].
  destruct s as [|c s]; [discriminate|]. repeat split; try discriminate.
  - unfold nodot. rewrite forallb_forall in *. intros x Hx. specialize (H2 x Hx). now apply andb_true_iff in H2 as [H2 _].
  - unfold noslash. rewrite forallb_forall in *. intros x Hx. specialize (H2 x Hx). now apply andb_true_iff in H2 as [_ H2].
  - cbn in *. apply andb_true_iff in H2 as [H2 _]. apply andb_true_iff in H2 as [H2 _]. apply negb_true_iff in H2. now rewrite H2.
Qed.

Lemma join2_good_tail a b : a <> [] -> noslash a -> isabs b = false -> join2 a b = a ++ SL :: b.
Proof.
  intros Ha Na Hb. unfold join2. rewrite Hb. destruct (last_noslash a Ha Na) as (x & l & E & Ex). now rewrite E, Ex.
Qed.

Lemma basename_join2 l m : noslash m -> basename (join2 l m) = m.
Proof.
  intro N.
  assert (B : forall p, basename (p ++ SL :: m) = m).
  { intro p. unfold basename. rewrite rev_app_distr. cbn [rev]. rewrite <- app_assoc. cbn [app].
    destruct (takewhile_app_stop (fun c => negb (is_sl c)) (rev m) SL (rev p)) as [-> _];
      [now rewrite forallb_rev|reflexivity|apply rev_involutive]. }
  unfold join2. rewrite (noslash_nonabs m N). destruct (rev l) as [|c r] eqn:E; [now apply basename_noslash|].
  destruct (is_sl c) eqn:Ec; [|apply B].
  apply is_sl_eq in Ec. subst c. replace l with (rev r ++ [SL]) by (rewrite <- (rev_involutive l), E; reflexivity).
  rewrite <- app_assoc. apply B.
Qed.

Theorem doman_dest_no_section g i18n x :
  is_archive_ext g [] = false -> nodot (basename x) -> noslash (basename x) -> doman_dest g i18n x = None.
Proof.
  intros Ha D N. unfold doman_dest.
  rewrite (splitext_nodot _ N D). cbn [snd]. rewrite Ha. cbn [tl]. rewrite app_nil_r.
  replace (lang_match (basename x)) with (@None (str * str * str))
    by (unfold lang_match; now rewrite (split_on_nosep_single _ _ D)).
  destruct (if g_doman_override g then i18n else None) as [l|].
  - now rewrite basename_join2.
  - destruct (g_doman_detect g); reflexivity.
Qed.

(* a fact checked on every row of eapi_table holds of the row of any EAPI *)
Lemma eapi_rows (p : eapi_row -> bool) e g :
  forallb (fun kv => p (snd kv)) eapi_table = true -> gates_of e = Some g -> p g = true.
Proof.
  intros F H. destruct (assoc_in _ _ _ H) as [k Hk]. rewrite forallb_forall in F. exact (F _ Hk).
Qed.

Lemma no_empty_archive_ext e g : gates_of e = Some g -> is_archive_ext g [] = false.
Proof.
  intro H. apply negb_true_iff, (eapi_rows (fun g => negb (is_archive_ext g [])) e g); [|exact H].
  vm_compute. reflexivity.
Qed.

Definition sec_char (c : N) : Prop := (is_digit c || N.eqb c 110) = true.

Lemma is_section_facts sec : is_section sec = true -> exists c, sec = [c] /\ sec_char c.
Proof. destruct sec as [|c [|d r]]; cbn; try discriminate. intro H. now exists c. Qed.

Lemma sec_char_cases c : sec_char c -> In c [48;49;50;51;52;53;54;55;56;57;110]%N.
Proof.
  unfold sec_char, is_digit. intro H. apply orb_true_iff in H as [H|H].
  - apply andb_true_iff in H as [H1 H2]. apply N.leb_le in H1, H2.
    assert (c = 48 \/ c = 49 \/ c = 50 \/ c = 51 \/ c = 52 \/ c = 53 \/ c = 54 \/ c = 55 \/ c = 56 \/ c = 57)%N by lia.
    cbn. intuition.
  - apply N.eqb_eq in H. subst. cbn. intuition.
Qed.

Lemma section_char_facts c : sec_char c ->
  is_dot c = false /\ is_sl c = false /\ is_word c = true /\ valid_mandir (lit "man" ++ [c]) = true.
Proof.
  intro H. apply sec_char_cases in H. cbn in H.
  repeat (destruct H as [<-|H]; [repeat split|]). destruct H.
Qed.

Lemma section_not_archive e g c : gates_of e = Some g -> sec_char c -> is_archive_ext g [DOT; c] = false.
Proof.
  intros H Hc.
  assert (F : forallb (fun c => negb (is_archive_ext g [DOT; c])) [48;49;50;51;52;53;54;55;56;57;110]%N = true).
  { apply (eapi_rows (fun g => forallb (fun c => negb (is_archive_ext g [DOT; c])) _) e g); [|exact H].
    vm_compute. reflexivity. }
  rewrite forallb_forall in F. apply negb_true_iff, F, sec_char_cases, Hc.
Qed.

Lemma range_not_sl lo hi c : (47 < lo)%N -> (N.leb lo c && N.leb c hi) = true -> is_sl c = false.
Proof. intros L H. apply andb_true_iff in H as [H1 _]. apply N.leb_le in H1. apply N.eqb_neq. lia. Qed.

Lemma pms_is_lang_noslash l : pms_is_lang l = true -> noslash l /\ l <> [].
Proof.
  assert (Lo : forall c, is_lower c = true -> is_sl c = false) by (intro c; apply (range_not_sl 97 122); lia).
  assert (Up : forall c, is_upper c = true -> is_sl c = false) by (intro c; apply (range_not_sl 65 90); lia).
  unfold pms_is_lang, noslash. destruct l as [|a1 [|a2 [|a3 [|a4 [|a5 [|? ?]]]]]]; try discriminate; intro H; (split; [|discriminate]).
  - apply andb_true_iff in H as [H1 H2]. cbn. now rewrite (Lo _ H1), (Lo _ H2).
  - apply andb_true_iff in H as [H H5]. apply andb_true_iff in H as [H H4]. apply andb_true_iff in H as [H H3].
    apply andb_true_iff in H as [H1 H2]. cbn.
    rewrite (Lo _ H1), (Lo _ H2), (Up _ H4), (Up _ H5).
    apply N.eqb_eq in H3. subst a3. reflexivity.
Qed.

(* the directory man<c> below a language directory l (l empty: no language level) *)
Lemma mandir_in l c : sec_char c -> noslash l ->
  valid_mandir (basename (join2 l (lit "man" ++ [c]))) = true
  /\ join2 l (lit "man" ++ [c]) = join_sl (if is_nil l then [lit "man" ++ [c]] else [l; lit "man" ++ [c]]).
Proof.
  intros Hc Nl. destruct (section_char_facts c Hc) as (_ & Cs & _ & V).
  assert (Nm : noslash (lit "man" ++ [c])) by (unfold noslash; cbn; now rewrite Cs).
  rewrite basename_join2 by assumption. split; [exact V|].
  destruct l; [reflexivity|]. now apply join2_good_tail.
Qed.

(* the -i18n branch of the reference, shared by both name shapes *)
Lemma i18n_dir c l (b : str) d name : sec_char c ->
  (if is_nil l then Some (Some ([lit "man" ++ [c]], b))
   else if simple_stem l then Some (Some ([l; lit "man" ++ [c]], b)) else None) = Some (Some (d, name)) ->
  valid_mandir (basename (join2 l (lit "man" ++ [c]))) = true /\ join2 l (lit "man" ++ [c]) = join_sl d /\ b = name.
Proof.
  intros Hc H.
  assert (Nl : noslash l).
  { destruct l; [reflexivity|]. cbn [is_nil] in H. destruct (simple_stem (n :: l)) eqn:S; [|discriminate].
    apply (simple_stem_facts _ S). }
  destruct (mandir_in l c Hc Nl) as [V E]. rewrite V, E.
  destruct (is_nil l); [|destruct (simple_stem l); [|discriminate]]; injection H as <- <-; auto.
Qed.

Lemma doman_dest_sec g i18n root c :
  is_archive_ext g [DOT; c] = false -> sec_char c -> noslash root -> forallb is_dot root = false ->
  let b := root ++ [DOT; c] in
  let man := lit "man" ++ [c] in
  doman_dest g i18n b =
  let '(name, mandir) :=
    match (if g_doman_override g then i18n else None) with
    | Some l => (b, join2 l man)
    | None => if g_doman_detect g then
                match lang_match b with
                | Some (stem, lang, sec) => (stem ++ DOT :: sec, join2 lang man)
                | None => (b, man)
                end
              else (b, man)
    end in
  if valid_mandir (basename mandir) then Some (mandir, name) else None.
Proof.
  intros Ha Hc Nr Ar b man. destruct (section_char_facts c Hc) as (Cd & Cs & _).
  assert (NB : noslash b) by (unfold noslash, b in *; rewrite forallb_app; cbn; now rewrite Nr, Cs).
  unfold doman_dest. rewrite (basename_noslash b NB). unfold b.
  rewrite (splitext_root_sec root [c] NB) by (assumption || (unfold nodot; cbn; now rewrite Cd)).
  cbn [snd]. rewrite Ha. reflexivity.
Qed.

Definition gates_match (g : eapi_row) (n : N) : Prop :=
  g_doman_detect g = pms_doman_lang n /\ g_doman_override g = pms_doman_i18n_wins n.

(* the placement of a man page is the PMS one wherever PMS defines it: section directory from
   the suffix, language directory from the name in EAPI 2+, -i18n=<lang> taking precedence in
   EAPI 4+ (empty <lang>: no language level), the language suffix removed from the name — for
   any gate row whose archive extensions leave one-character sections alone *)
Theorem doman_placement g n i18n b d name :
  (forall c, sec_char c -> is_archive_ext g [DOT; c] = false) -> gates_match g n ->
  pms_doman n i18n b = Some (Some (d, name)) ->
  doman_dest g i18n b = Some (join_sl d, name).
Proof.
  intros Ha [Gd Go] H. unfold pms_doman, dot_parts in H.
  pose proof (join_split_on 46 b) as J. pose proof (split_on_nosep 46 b) as NS.
  destruct (split_on 46 b) as [|p1 [|p2 [|p3 [|p4 rest]]]] eqn:ES; try discriminate.
  - (* stem.sec *)
    destruct (simple_stem p1) eqn:S1; [|discriminate]. destruct (is_section p2) eqn:S2; [|discriminate]. cbn [andb] in H.
    destruct (simple_stem_facts _ S1) as (_ & _ & L1 & A1). destruct (is_section_facts _ S2) as (c & -> & Hc).
    change (p1 ++ [DOT; c] = b) in J. subst b. rewrite (doman_dest_sec g i18n p1 c) by auto.
    replace (lang_match _) with (@None (str * str * str))
      by (unfold lang_match; rewrite ES; cbn [rev app join_on is_nil andb negb]; now rewrite !andb_false_r).
    rewrite Go. destruct (if pms_doman_i18n_wins n then i18n else None) as [l|].
    + destruct (i18n_dir c l _ d name Hc H) as (V & <- & <-). cbv iota. now rewrite V.
    + injection H as <- <-. destruct (mandir_in [] c Hc eq_refl) as [V _]. change (valid_mandir (basename (lit "man" ++ [c])) = true) in V.
      destruct (g_doman_detect g); cbv iota; now rewrite V.
  - (* stem.lang.sec *)
    destruct (simple_stem p1) eqn:S1; [|discriminate]. destruct (is_section p3) eqn:S3; [|discriminate].
    destruct (pms_is_lang p2) eqn:S2; [|discriminate]. cbn [andb] in H.
    destruct (simple_stem_facts _ S1) as (N1 & _ & L1 & A1). destruct (is_section_facts _ S3) as (c & -> & Hc).
    destruct (pms_is_lang_noslash _ S2) as [L2 Np2]. destruct (section_char_facts c Hc) as (_ & _ & Cw & _).
    change (p1 ++ DOT :: p2 ++ [DOT; c] = b) in J. rewrite app_comm_cons, app_assoc in J. subst b.
    rewrite (doman_dest_sec g i18n (p1 ++ DOT :: p2) c);
      [|auto|auto|unfold noslash in *; rewrite forallb_app; cbn; now rewrite L1, L2|now rewrite forallb_app, A1].
    replace (lang_match _) with (Some (p1, p2, [c])).
    2:{ unfold lang_match. rewrite ES. cbn [rev app join_on is_nil negb forallb]. rewrite Cw.
        change (is_lang p2) with (pms_is_lang p2). rewrite S2. destruct p1; [congruence|reflexivity]. }
    rewrite Go, Gd. destruct (if pms_doman_i18n_wins n then i18n else None) as [l|].
    + destruct (i18n_dir c l _ d name Hc H) as (V & <- & <-). cbv iota. now rewrite V.
    + destruct (pms_doman_lang n); injection H as <- <-; cbv iota.
      * destruct (mandir_in p2 c Hc L2) as [V E]. rewrite V, E. now destruct p2.
      * destruct (mandir_in [] c Hc eq_refl) as [V _]. change (valid_mandir (basename (lit "man" ++ [c])) = true) in V. now rewrite V.
Qed.

Lemma opt_all_map_entries {A} (spec : A -> option (list str * pnode)) (act : A -> action) l :
  (forall a x, spec a = Some x -> action_entry (act a) = Some x) ->
  forall xs, opt_all (map spec l) = Some xs -> map action_entry (map act l) = map Some xs.
Proof.
  intro H. induction l as [|a r IH]; intros xs E; cbn in E.
  - injection E as <-. reflexivity.
  - destruct (spec a) as [x|] eqn:Ea; [|discriminate]. destruct (opt_all (map spec r)) as [ys|]; [|discriminate].
    injection E as <-. cbn [map]. rewrite (H a x Ea), (IH ys eq_refl). reflexivity.
Qed.

(* the relative directory os.walk reports: "." for the top, else the components joined *)
Lemma fold_rel_string ab rel S : Forall goodb rel ->
  isabs (rel_string rel) = false /\ fold_left (norm_step ab) (split_sl (rel_string rel)) S = rev rel ++ S.
Proof.
  intro G. destruct rel as [|r1 rel']; [split; reflexivity|]. cbn [rel_string]. split.
  - inversion G as [|? ? [(P & _) N] _]. now apply isabs_join_sl.
  - rewrite split_join by (apply goodb_noslash, G || discriminate). apply fold_plain, goodb_plain, G.
Qed.

(* the last component [base] of a directory argument names the components [bl] below <dest>:
   none for ".", itself for an ordinary name *)
Definition dir_base (base : str) (bl : list str) : Prop :=
  base <> [] /\ noslash base /\ norm_step false [] base = rev bl /\ Forall goodb bl.

Lemma dir_string base bl rel : dir_base base bl -> Forall goodb rel ->
  let dd := normpath (join2 base (rel_string rel)) in dd <> [] /\ spells dd (bl ++ rel).
Proof.
  intros (Hb & Nb & Hstep & Gl) G dd. destruct (fold_rel_string false rel (rev bl) G) as [A F].
  assert (Gd : Forall goodb (bl ++ rel)) by (apply Forall_app; now split).
  assert (E : dd = match bl ++ rel with [] => dot | cs => join_sl cs end).
  { unfold dd. rewrite join2_good_tail by assumption. destruct base as [|x t] eqn:Eb; [congruence|].
    rewrite <- Eb in *. assert (Ex : isabs (base ++ SL :: rel_string rel) = false) by now apply isabs_noslash.
    rewrite Eb in Ex |- * at 1. cbn [app isabs] in Ex. unfold normpath. cbn [app lead_slashes]. rewrite Ex.
    cbn [Nat.eqb negb repeat app]. change (x :: t ++ SL :: rel_string rel) with ((x :: t) ++ SL :: rel_string rel).
    rewrite <- Eb. unfold norm_comps. rewrite split_app, (split_noslash_single base Nb). cbn [app fold_left].
    rewrite Hstep, F, <- rev_app_distr, rev_involutive.
    destruct (bl ++ rel) as [|c r]; [reflexivity|]. inversion Gd as [|? ? [(Pc & _) _] _].
    destruct c; [congruence|]. destruct r; reflexivity. }
  rewrite E. destruct (bl ++ rel) as [|c r] eqn:Ec; [repeat split; discriminate|].
  split; [|apply spells_good; [discriminate|assumption]].
  inversion Gd as [|? ? [(Pc & _) _] _]. destruct c; [congruence|]. destruct r; discriminate.
Qed.

Lemma walk_entry sl c mode base bl w l :
  c_insmode c = Some mode -> dir_base base bl ->
  tree_one sl (comps (c_dest c) ++ bl) (c_dirmode c) mode w = Some l ->
  let dd := normpath (join2 base (rel_string (w_rel w))) in
  map action_entry
    (AMkdirs (under (c_dest c) dd) (c_dirmode c)
     :: map (fun nt => ASymlinkNew (snd nt) (under (c_dest c) (join2 dd (fst nt)))) (w_dlinks w)
     ++ map (fun nf => AInstall (snd nf) (under (c_dest c) (join2 dd (fst nf))) (c_insmode c)) (w_files w))
  = map Some l.
Proof.
  intros Hm Hb H dd. unfold tree_one in H.
  destruct (forallb good_name (w_rel w)) eqn:Gr; [|discriminate]. cbn [negb] in H. apply forallb_good in Gr.
  destruct (dir_string base bl (w_rel w) Hb Gr) as [Hdd Sp]. fold dd in Hdd, Sp.
  assert (Gd : Forall goodb (bl ++ w_rel w)) by (apply Forall_app; split; [apply Hb|exact Gr]).
  rewrite <- app_assoc in H. set (k := comps (c_dest c) ++ bl ++ w_rel w) in *.
  assert (K0 : key (under (c_dest c) dd) = k) by (apply key_under; [assumption|now apply goodb_plain]).
  assert (Kn : forall n, goodb n -> key (under (c_dest c) (join2 dd n)) = k ++ [n]).
  { intros n Gn. unfold k. rewrite (key_under _ _ ((bl ++ w_rel w) ++ [n])); [now rewrite !app_assoc| |].
    - now apply spells_join2.
    - apply goodb_plain, Forall_app. split; [assumption|now constructor]. }
  destruct (opt_all (map (tree_dlink sl k) (w_dlinks w))) as [ls|] eqn:E1; [|discriminate].
  destruct (opt_all (map (tree_file sl k mode) (w_files w))) as [fs|] eqn:E2; [|discriminate].
  injection H as <-. cbn [map action_entry]. rewrite map_app, K0. f_equal. rewrite map_app. f_equal.
  - apply (opt_all_map_entries (tree_dlink sl k)); [|exact E1].
    intros [n t] x Hx. unfold tree_dlink in Hx. cbn [fst snd] in *.
    destruct (good_name n) eqn:Gn; [|discriminate]. destruct sl; [|discriminate]. injection Hx as <-.
    apply good_name_goodb in Gn. cbn [action_entry]. now rewrite Kn.
  - apply (opt_all_map_entries (tree_file sl k mode)); [|exact E2].
    intros [n f] x Hx. unfold tree_file in Hx. cbn [fst snd] in *.
    destruct (good_name n) eqn:Gn; [|discriminate]. cbn [negb] in Hx. apply good_name_goodb in Gn.
    destruct f as [cid|t ok].
    + destruct (negb sl && false); [discriminate|]. cbn in Hx. injection Hx as <-. rewrite Hm. cbn [action_entry]. now rewrite Kn.
    + destruct sl; cbn in Hx; [|discriminate]. destruct ok; injection Hx as <-; cbn [action_entry]; now rewrite Kn.
Qed.

Lemma from_dir_entries sl c mode d walk l :
  c_insmode c = Some mode ->
  tree_entries sl (comps (c_dest c)) (c_dirmode c) mode d walk = Some l ->
  map action_entry (from_dir c d walk) = map Some l.
Proof.
  intros Hm H. unfold tree_entries in H. unfold from_dir. set (base := basename (rstrip_sl d)) in *.
  assert (exists bl, dir_base base bl /\ tree_walk sl (comps (c_dest c) ++ bl) (c_dirmode c) mode walk = Some l)
    as (bl & Hb & Hw).
  { destruct (str_eqb base dot) eqn:Ed.
    - apply str_eqb_eq in Ed. exists []. rewrite Ed, app_nil_r. repeat split; (discriminate || assumption || constructor).
    - destruct (good_name base) eqn:Gb; [|discriminate]. apply good_name_goodb in Gb. exists [base].
      split; [|exact H]. repeat split; [apply Gb|apply Gb|apply step_plain, Gb|now constructor]. }
  clear H. revert l Hw. induction walk as [|w r IH]; intros l Hw; cbn [tree_walk] in Hw.
  - injection Hw as <-. reflexivity.
  - destruct (tree_one sl (comps (c_dest c) ++ bl) (c_dirmode c) mode w) as [a|] eqn:E1; [|discriminate].
    destruct (tree_walk sl (comps (c_dest c) ++ bl) (c_dirmode c) mode r) as [b|] eqn:E2; [|discriminate].
    injection Hw as <-. cbn [map concat]. rewrite !map_app, (IH b eq_refl). f_equal.
    exact (walk_entry sl c mode base bl w a Hm Hb E1).
Qed.

Lemma from_dirs_entries sl c mode pos : forall l,
  c_insmode c = Some mode ->
  dirs_entries sl (comps (c_dest c)) (c_dirmode c) mode pos = Some l ->
  map action_entry (from_dirs c pos) = map Some l.
Proof.
  unfold from_dirs. induction pos as [|a r IH]; intros l Hm H; cbn [dirs_entries] in H.
  - injection H as <-. reflexivity.
  - destruct (match snd a with SDir _ w => tree_entries _ _ _ _ (fst a) w | _ => Some [] end) as [x|] eqn:E1; [|discriminate].
    destruct (dirs_entries sl (comps (c_dest c)) (c_dirmode c) mode r) as [y|]; [|discriminate].
    injection H as <-. cbn [map concat]. rewrite !map_app, (IH y Hm eq_refl). f_equal.
    destruct (snd a); try (injection E1 as <-; reflexivity). eapply from_dir_entries; eassumption.
Qed.

Lemma base_action_entry dest : action_entry (base_action dest) = Some (comps dest, PDir None).
Proof. unfold base_action. cbn [action_entry]. now rewrite key_lstrip. Qed.

Lemma recursive_placement sl c mode pos l :
  c_insmode c = Some mode ->
  recursive_entries sl (comps (c_dest c)) (c_dirmode c) mode pos = Some l ->
  map action_entry (from_dirs c (dirs_of pos) ++ install_basenames c (files_of pos)) = map Some l.
Proof.
  intros Hm H. unfold recursive_entries in H.
  destruct (dirs_entries sl (comps (c_dest c)) (c_dirmode c) mode (dirs_of pos)) as [ds|] eqn:E1; [|discriminate].
  destruct (flat_files (comps (c_dest c)) mode (files_of pos)) as [fl|] eqn:E2; [|discriminate].
  injection H as <-. rewrite !map_app. f_equal; [eapply from_dirs_entries|eapply base_placement]; eassumption.
Qed.

Definition dest_of (g : eapi_row) (h : String.string) (v : shvars) : option str :=
  match wrapper_opts g (lit h) v with Some w => o_dest w | None => None end.
Definition insopts_of (g : eapi_row) (h : String.string) (v : shvars) : option str :=
  match wrapper_opts g (lit h) v with Some w => o_ins w | None => None end.
Arguments dest_of g h%string v.
Arguments insopts_of g h%string v.

(* the one wrapper with a guarded alternative: the guard only chooses the destination *)
Lemma wrapper_opts_domo g v : wrapper_opts g (lit "domo") v
  = Some {| o_dest := Some (if g_has_desttree g then v_desttree v ++ lit "/share/locale" else lit "/usr/share/locale");
            o_ins := None; o_dir := None |}.
Proof.
  (* on a row given by its fields the guard computes; under a stuck test evaluation is very slow *)
  destruct g as [? ? ? ? ? [|] ? ?]; cbv -[app]; rewrite ?app_nil_r; reflexivity.
Qed.

Lemma domo_lang_splitext b lang : noslash b -> pms_domo_lang b = Some lang ->
  fst (splitext b) = lang /\ goodb lang.
Proof.
  intros Nb H. unfold pms_domo_lang, dot_parts in H.
  pose proof (join_split_on 46 b) as J. pose proof (split_on_nosep 46 b) as NS.
  destruct (split_on 46 b) as [|p1 [|p2 [|p3 rest]]]; try discriminate.
  destruct (simple_stem p1) eqn:S1; [|discriminate]. injection H as <-.
  destruct (simple_stem_facts _ S1) as (N1 & D1 & L1 & A1).
  change (p1 ++ DOT :: p2 = b) in J. subst b.
  inversion NS as [|? ? _ NS2]; subst. inversion NS2 as [|? ? D2 _]; subst.
  rewrite (splitext_root_sec p1 p2 Nb) by assumption. split; [reflexivity|].
  split; [|exact L1]. repeat split; [assumption| |]; intro Q; subst; cbn in *; discriminate.
Qed.

Theorem domo_placement c pn x f lang :
  goodb (pn ++ lit ".mo") -> pms_domo_lang (basename x) = Some lang ->
  let p := under (c_dest c) (join_sl [lang; lit "LC_MESSAGES"; pn ++ lit ".mo"]) in
  map action_entry (domo_plan c pn [(x, SFile f)])
  = [Some (comps (c_dest c) ++ [lang; lit "LC_MESSAGES"], PDir (c_dirmode c)); action_entry (AInstall f p (c_insmode c))]
  /\ key p = comps (c_dest c) ++ [lang; lit "LC_MESSAGES"; pn ++ lit ".mo"].
Proof.
  intros Gn H p.
  destruct (domo_lang_splitext _ lang (basename_is_noslash x) H) as [E Gl].
  assert (GL : goodb (lit "LC_MESSAGES")) by (split; [repeat split; discriminate|reflexivity]).
  split; [|apply key_under_good; [discriminate|repeat (constructor; try assumption)]].
  unfold domo_plan. cbn [map concat fst snd app install_one].
  rewrite E.
  assert (Ed : join2 lang (lit "LC_MESSAGES") = join_sl [lang; lit "LC_MESSAGES"])
    by (apply join2_good_tail; [apply Gl|apply Gl|reflexivity]).
  assert (En : join2 (join_sl [lang; lit "LC_MESSAGES"]) (pn ++ lit ".mo") = join_sl [lang; lit "LC_MESSAGES"; pn ++ lit ".mo"]).
  { unfold join2. rewrite (noslash_nonabs _ (proj2 Gn)). cbn [join_sl]. rewrite rev_app_distr. cbn. now rewrite <- app_assoc. }
  rewrite Ed, En. cbn [action_entry map]. rewrite key_under_good; [reflexivity|discriminate|].
  repeat (constructor; try assumption).
Qed.

Lemma html_allowed_is_pms o x v : pms_html_ok o (basename x) = Some v -> html_allowed o x = v.
Proof.
  unfold pms_html_ok, html_allowed, dot_parts. intro H.
  pose proof (basename_is_noslash x) as Nb.
  pose proof (join_split_on 46 (basename x)) as J. pose proof (split_on_nosep 46 (basename x)) as NS.
  destruct (split_on 46 (basename x)) as [|p1 [|p2 [|p3 rest]]] eqn:ES; try discriminate.
  - injection H as <-. cbn in J. subst p1. inversion NS as [|? ? D _]. rewrite (splitext_nodot _ Nb D). reflexivity.
  - destruct (simple_stem p1) eqn:S1; [|discriminate]. injection H as <-.
    destruct (simple_stem_facts _ S1) as (N1 & D1 & L1 & A1).
    change (p1 ++ DOT :: p2 = basename x) in J.
    inversion NS as [|? ? _ NS2]; subst. inversion NS2 as [|? ? D2 _]; subst.
    rewrite <- J in *. rewrite (splitext_root_sec p1 p2 Nb) by assumption. reflexivity.
Qed.

Lemma html_filter_is_pms o (pos : list (str * skind)) : (forall a, In a pos -> pms_html_ok o (basename (fst a)) <> None) ->
  filter (fun a => html_allowed o (fst a)) pos
  = filter (fun a => match pms_html_ok o (basename (fst a)) with Some true => true | _ => false end) pos.
Proof.
  intro Hdef. apply filter_ext_in. intros a Ha. specialize (Hdef a Ha).
  destruct (pms_html_ok o (basename (fst a))) as [v|] eqn:E; [|congruence].
  rewrite (html_allowed_is_pms o (fst a) v E). now destruct v.
Qed.

Lemma isabs_lstrip p : isabs (lstrip_sl p) = false.
Proof.
  unfold lstrip_sl. induction p as [|c p IH]; [reflexivity|]. cbn [dropwhile]. destruct (is_sl c) eqn:E; [exact IH|].
  cbn. exact E.
Qed.

(* the -p prefix joined by the model and concatenated by the reference name the same directory *)
Lemma comps_join_lstrip dest p : comps (join2 dest (lstrip_sl p)) = comps (dest ++ SL :: p).
Proof.
  change (key (join2 dest (lstrip_sl p)) = key (dest ++ SL :: p)). rewrite !key_run. f_equal.
  destruct dest as [|y d].
  - unfold join2. rewrite isabs_lstrip. cbn [rev]. now rewrite run_lstrip.
  - rewrite run_split_join2 by (discriminate || apply isabs_lstrip). now rewrite run_lstrip, split_app, run_app.
Qed.

Definition modes_of (g : eapi_row) (h : String.string) (v : shvars) : res (option N * option N) :=
  match wrapper_opts g (lit h) v with Some w => helper_modes (lit h) w | None => inr [] end.
Arguments modes_of g h%string v.

Definition fst_mode (r : res (option N * option N)) : option (option N) :=
  match r with inl (a, _) => Some a | inr _ => None end.

Lemma key_cmp_refl k : key_cmp k k = Eq.
Proof.
  assert (R : forall a, str_cmp a a = Eq) by (induction a; [reflexivity|]; cbn; now rewrite N.compare_refl).
  induction k as [|x k IH]; [reflexivity|]. cbn. now rewrite R.
Qed.

Lemma lookup_put_same k n img : lookup k (put k n img) = Some n.
Proof.
  induction img as [|[k' n'] r IH]; cbn [put lookup].
  - now rewrite key_cmp_refl.
  - destruct (key_cmp k k') eqn:E; cbn [lookup]; rewrite ?key_cmp_refl, ?E; (reflexivity || exact IH).
Qed.

Lemma exec1_install um s src p mode s' : exec1 um s (AInstall src p mode) = inl s' ->
  lookup (key p) (s_img s')
  = Some match src with
         | FReg cid => NFile (match mode with Some m => m | None => fmode um end) cid (s_ino s)
         | FLink t _ => NLink t
         end.
Proof.
  unfold exec1. cbn [action_path]. destruct (parent_is_link (key p) (s_img s)); [discriminate|]. cbn [exec1_raw].
  destruct (negb (parent_ok (key p) (s_img s))); [discriminate|].
  destruct (key p) as [|k0 kr]; [discriminate|].
  destruct (lookup (k0 :: kr) (s_img s)) as [[?|? ? ?|?]|]; try discriminate;
    intro H; injection H as <-; apply lookup_put_same.
Qed.

Lemma owner_flag_skipped w v i ws mode f :
  In w [lit "-o"; lit "-g"; lit "--owner"; lit "--group"] -> owner_id v = Some i ->
  install_mode_words (w :: v :: ws) mode (S f) = install_mode_words ws mode f.
Proof.
  (* each of the four words fails the tests for -p, -m, --mode, --mode=, -m<octal> and reaches the owner branch *)
  intros [<-|[<-|[<-|[<-|[]]]]] H; cbn [install_mode_words]; cbv -[owner_id install_mode_words]; now rewrite H.
Qed.

Example keepdir_example :
  keep_name {| helper := lit "keepdir"; eapi := lit "7";
               sh := {| v_desttree := []; v_insdesttree := []; v_exedesttree := []; v_docdesttree := []; v_pf := [];
                        v_libdir := []; v_insoptions := []; v_exeoptions := []; v_liboptions := []; v_diroptions := [] |};
               args := []; cat := lit "dev-libs"; pn := lit "foo"; slot := lit "2"; umask := 18%N; pre := [] |}
  = lit ".keep_dev-libs_foo-2".
Proof. reflexivity. Qed.

Example doman_example :
  match gates_of (lit "7") with
  | Some g => doman_dest g None (lit "x/foo.pt_BR.1") = Some (lit "pt_BR/man1", lit "foo.1")
              /\ doman_dest g (Some (lit "fr")) (lit "foo.de.3") = Some (lit "fr/man3", lit "foo.de.3")
              /\ doman_dest g None (lit "README") = None
  | None => False
  end.
Proof. vm_compute. repeat split. Qed.

Example setid_with_owner_example :
  install_mode (Some (lit "-m4711 -o root -g 0")) = Some (Some 2505%N)                 (* 0o4711 *)
  /\ install_mode (Some (lit "-g 2 -m2755")) = Some (Some 1517%N)                      (* 0o2755 *)
  /\ install_full (lit "--owner=1 -m 6755 -p")
     = Some {| io_mode := 3565%N; io_owner := Some 1%N; io_group := None; io_preserve := true |}.
Proof. repeat split; vm_compute; reflexivity. Qed.

Example spelling_examples :
  basename (rstrip_sl (lit "dir/.")) = dot /\ basename (rstrip_sl (lit "dir/sub/.")) = dot
  /\ basename (rstrip_sl (lit "./dir/./")) = dot /\ basename (rstrip_sl (lit ".")) = dot
  /\ basename (rstrip_sl (lit "dir//")) = lit "dir" /\ basename (rstrip_sl (lit "./dir/")) = lit "dir"
  /\ basename (rstrip_sl (lit "a/dir")) = lit "dir".
Proof. repeat split. Qed.

(* "doins -r hd/." puts hd's contents directly into <dest>; "doins -r hd" below <dest>/hd *)
Example dot_spelling_example :
  let c := {| c_dest := lit "/usr/share/foo"; c_insmode := Some 420%N; c_dirmode := Some 493%N |} in
  let walk := [ {| w_rel := []; w_dlinks := []; w_files := [(lit "k.html", FReg 7%N)] |};
                {| w_rel := [lit "sub"]; w_dlinks := []; w_files := [(lit "z.txt", FReg 8%N)] |} ] in
  map action_entry (from_dir c (lit "hd/.") walk)
  = [Some ([lit "usr"; lit "share"; lit "foo"], PDir (Some 493%N));
     Some ([lit "usr"; lit "share"; lit "foo"; lit "k.html"], PFile 420%N 7%N);
     Some ([lit "usr"; lit "share"; lit "foo"; lit "sub"], PDir (Some 493%N));
     Some ([lit "usr"; lit "share"; lit "foo"; lit "sub"; lit "z.txt"], PFile 420%N 8%N)]
  /\ nth_error (map action_entry (from_dir c (lit "hd") walk)) 1
     = Some (Some ([lit "usr"; lit "share"; lit "foo"; lit "hd"; lit "k.html"], PFile 420%N 7%N)).
Proof. split; vm_compute; reflexivity. Qed.

Example recursive_example : exists l,
  tree_entries true [lit "usr"] (Some 493%N) 420%N (lit "d/")
    [ {| w_rel := []; w_dlinks := [(lit "dl", lit "sub")];
         w_files := [(lit "e.txt", FReg 7%N); (lit "lnk", FLink (lit "/x") false)] |};
      {| w_rel := [lit "sub"]; w_dlinks := []; w_files := [(lit "f.png", FReg 8%N)] |} ] = Some l
  /\ length l = 6%nat
  /\ In ([lit "usr"; lit "d"; lit "sub"; lit "f.png"], PFile 420%N 8%N) l
  /\ In ([lit "usr"; lit "d"; lit "lnk"], PLink (lit "/x")) l.
Proof. eexists. split; [vm_compute; reflexivity|]. split; [reflexivity|]. split; cbn; intuition. Qed.
