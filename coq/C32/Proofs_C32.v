(* C32: the wire format, one IPC call, the daemon loop and the install family: the lemmas behind Prop_C32.v. *)
From Coq Require Import List NArith ZArith Bool Lia String.
From Verif Require Import Base.Val Base.Lists C32.Model_C32 C32.Spec_C32.
Import ListNotations.
Local Open Scope N_scope.

Lemma last_app_ne {A} (pre ss : list A) dflt : ss <> [] -> last (pre ++ ss) dflt = last ss dflt.
Proof.
  intro H. induction pre as [|a pre IH]; [reflexivity|].
  cbn [app]. destruct (pre ++ ss) eqn:E.
  - destruct pre; [cbn in E; contradiction|discriminate].
  - cbn [last]. exact IH.
Qed.

Lemma take_line_app l r : ~ In NL l -> take_line (l ++ NL :: r) = (l, r).
Proof.
  induction l as [|c l IH]; cbn; intro H.
  - reflexivity.
  - destruct (N.eqb_spec c NL) as [->|_]; [exfalso; apply H; now left|].
    rewrite IH; [reflexivity|]. intro; apply H; now right.
Qed.

Lemma take_line_no_nl l : ~ In NL l -> take_line l = (l, []).
Proof.
  induction l as [|c l IH]; cbn; intro H; [reflexivity|].
  destruct (N.eqb_spec c NL) as [->|_]; [exfalso; apply H; now left|].
  rewrite IH; [reflexivity|]. intro; apply H; now right.
Qed.

Lemma mem_N_In c s : mem_N c s = true <-> In c s.
Proof.
  unfold mem_N. rewrite existsb_exists. split.
  - intros [x [Hx He]]. apply N.eqb_eq in He. now subst.
  - intro H. exists c. split; [assumption|apply N.eqb_refl].
Qed.

Lemma split_on_no_sep sep s : Forall (fun p => ~ In sep p) (split_on sep s) /\ split_on sep s <> [].
Proof.
  induction s as [|c s [IH1 IH2]]; cbn.
  - split; [repeat constructor; intros []|discriminate].
  - destruct (N.eqb_spec c sep) as [->|Hne].
    + split; [constructor; [intros []|assumption]|discriminate].
    + destruct (split_on sep s) as [|p ps]; [contradiction|].
      inversion IH1; subst. split; [|discriminate].
      constructor; [|assumption]. intros [->|H]; [now apply Hne|contradiction].
Qed.

Lemma join_no c (sep : str) l : ~ In c sep -> Forall (fun p => ~ In c p) l -> ~ In c (join_on sep l).
Proof.
  intros Hs. induction l as [|x l IH]; cbn; intro H; [intros []|].
  inversion H; subst. destruct l as [|y l]; [assumption|].
  rewrite !in_app_iff. intros [?|[?|?]]; [contradiction|contradiction|]. now apply IH.
Qed.

Lemma single_line_no_nl s : ~ In NL (single_line s).
Proof.
  unfold single_line. apply join_no.
  - cbn. intros [H|[]]. discriminate.
  - unfold nonempty. apply Forall_forall. intros p Hp. apply filter_In in Hp as [Hp _].
    destruct (split_on_no_sep NL s) as [H _]. rewrite Forall_forall in H. now apply H.
Qed.

Lemma split_on_app sep a b : split_on sep (a ++ sep :: b) = split_on sep a ++ split_on sep b.
Proof.
  induction a as [|c a IH]; cbn.
  - now rewrite N.eqb_refl.
  - destruct (N.eqb_spec c sep) as [->|Hne]; [now rewrite IH|].
    rewrite IH. destruct (split_on_no_sep sep a) as [_ Hn].
    destruct (split_on sep a); [contradiction|reflexivity].
Qed.

Lemma split_on_none sep s : ~ In sep s -> split_on sep s = [s].
Proof.
  induction s as [|c s IH]; cbn; intro H; [reflexivity|].
  destruct (N.eqb_spec c sep) as [->|_]; [exfalso; apply H; now left|].
  rewrite IH; [reflexivity|]. intro; apply H; now right.
Qed.

Lemma split_on_app_sep sep a b : ~ In sep a -> split_on sep (a ++ sep :: b) = a :: split_on sep b.
Proof. intro H. now rewrite split_on_app, split_on_none. Qed.

Lemma digits_fuel_chars f : forall n acc c,
  In c (digits_fuel f n acc) -> In c acc \/ (48 <= c /\ c <= 57).
Proof.
  induction f as [|f IH]; cbn [digits_fuel]; intros n acc c H; [now left|].
  assert (Hd : 48 <= 48 + n mod 10 /\ 48 + n mod 10 <= 57).
  { assert (Hm : n mod 10 < 10) by (apply N.mod_upper_bound; discriminate).
    generalize dependent (n mod 10). intros x _ Hx. lia. }
  destruct (n <? 10).
  - destruct H as [<-|H]; [now right|now left].
  - apply IH in H as [[<-|H]|H]; [now right|now left|now right].
Qed.

Lemma dec_N_chars n c : In c (dec_N n) -> 48 <= c /\ c <= 57.
Proof. unfold dec_N. intro H. apply digits_fuel_chars in H as [[]|H]; assumption. Qed.

Lemma dec_Z_chars z c : In c (dec_Z z) -> c = 45 \/ (48 <= c /\ c <= 57).
Proof.
  destruct z; cbn [dec_Z]; intro H; try (right; now apply dec_N_chars in H).
  destruct H as [<-|H]; [now left|right; now apply dec_N_chars in H].
Qed.

Lemma dec_Z_no c z : c < 45 -> ~ In c (dec_Z z).
Proof. intros Hc H. apply dec_Z_chars in H. lia. Qed.

Lemma num_snoc a c : num (a ++ [c]) = num a * 10 + (c - 48).
Proof. unfold num. now rewrite fold_left_app. Qed.

Lemma digits_fuel_value f : forall n acc,
  n < 10 ^ N.of_nat f -> (0 < f)%nat ->
  exists pre, digits_fuel f n acc = pre ++ acc /\ num pre = n.
Proof.
  induction f as [|f IH]; intros n acc Hn Hf; [lia|].
  cbn [digits_fuel].
  assert (Hm : n mod 10 < 10) by (apply N.mod_upper_bound; discriminate).
  destruct (N.ltb_spec n 10) as [Hlt|Hge].
  - exists [48 + n mod 10]. split; [reflexivity|].
    rewrite N.mod_small by assumption. unfold num. cbn [fold_left]. lia.
  - assert (Hf' : (0 < f)%nat).
    { destruct f; [|lia]. cbn in Hn. lia. }
    assert (Hd : n / 10 < 10 ^ N.of_nat f).
    { apply N.div_lt_upper_bound; [discriminate|].
      rewrite Nat2N.inj_succ, N.pow_succ_r' in Hn. exact Hn. }
    destruct (IH (n / 10) ((48 + n mod 10) :: acc) Hd Hf') as [pre [E Hp]].
    exists (pre ++ [48 + n mod 10]). split; [rewrite E; now rewrite <- app_assoc|].
    rewrite num_snoc, Hp.
    assert (Hdm : n = 10 * (n / 10) + n mod 10) by (apply N.div_mod; discriminate).
    generalize dependent (n / 10). generalize dependent (n mod 10). intros. lia.
Qed.

Lemma pos_lt_pow2 p : N.pos p < 2 ^ N.of_nat (Pos.size_nat p).
Proof.
  induction p as [p IH|p IH|]; cbn [Pos.size_nat]; [| |cbn; lia];
    rewrite Nat2N.inj_succ, N.pow_succ_r'; lia.
Qed.

Lemma N_lt_pow10 n : n < 10 ^ N.of_nat (S (N.size_nat n)).
Proof.
  destruct n as [|p]; [cbn; lia|]. cbn [N.size_nat].
  rewrite Nat2N.inj_succ, N.pow_succ_r'.
  pose proof (pos_lt_pow2 p).
  assert (2 ^ N.of_nat (Pos.size_nat p) <= 10 ^ N.of_nat (Pos.size_nat p)) by (apply N.pow_le_mono_l; lia).
  assert (0 < 10 ^ N.of_nat (Pos.size_nat p)) by (apply N.neq_0_lt_0, N.pow_nonzero; discriminate).
  lia.
Qed.

Lemma num_dec_N n : num (dec_N n) = n.
Proof.
  unfold dec_N. destruct (digits_fuel_value (S (N.size_nat n)) n [] (N_lt_pow10 n)) as [pre [E Hp]]; [lia|].
  rewrite E, app_nil_r. exact Hp.
Qed.

Lemma dec_N_zero n : dec_N n = [48] -> n = 0.
Proof. intro H. rewrite <- (num_dec_N n), H. reflexivity. Qed.

Lemma dec_Z_zero z : dec_Z z = [48] -> z = 0%Z.
Proof.
  destruct z; cbn [dec_Z]; intro H; [reflexivity| |discriminate].
  apply dec_N_zero in H. discriminate.
Qed.

Lemma dec_N_nonempty n : dec_N n <> [].
Proof. intro H. pose proof (num_dec_N n) as E. rewrite H in E. now subst n. Qed.
Lemma dec_Z_nonempty z : dec_Z z <> [].
Proof. destruct z; cbn [dec_Z]; try apply dec_N_nonempty. discriminate. Qed.

Lemma status_field_err code msg : status_field (encode_err code msg) = dec_Z code.
Proof.
  unfold status_field, encode_err. rewrite split_on_app_sep; [reflexivity|].
  apply dec_Z_no. reflexivity.
Qed.
Lemma status_field_val p : status_field (encode_val p) = [48].
Proof. unfold status_field, encode_val. cbn. destruct (split_on BEL (single_line p)); reflexivity. Qed.
Lemma status_field_none : status_field encode_none = [48].
Proof. reflexivity. Qed.

Lemma encode_err_no_nl code msg : ~ In NL (encode_err code msg).
Proof.
  unfold encode_err. rewrite in_app_iff. intros [H|[H|H]].
  - revert H. apply dec_Z_no. reflexivity.
  - discriminate.
  - revert H. apply single_line_no_nl.
Qed.
Lemma encode_val_no_nl p : ~ In NL (encode_val p).
Proof.
  unfold encode_val. intros [H|[H|H]]; [discriminate|discriminate|].
  revert H. apply single_line_no_nl.
Qed.
Lemma encode_none_no_nl : ~ In NL encode_none.
Proof. intros [H|[]]. discriminate. Qed.

(* an error text of two lines: the encoding BEFORE repair C32-single-line-reply put both on the wire *)
Definition tar_stderr : str :=
  lit "tar: This does not look like a tar archive" ++ [NL] ++ lit "tar: Exiting with failure status".

Section GenericProofs.
  Variable W : Type.
  Variable body : list str -> list str -> W -> hres * W.
  Variable cwd_ok : str -> bool.

  Definition wire_of (e : call_end) : str :=
    match e with CReplied d | CFatal d | CInternal d => d ++ [NL] | CCrash => [] end.

  Lemma ipc_call_no_newline rest w e rest' w' :
    ipc_call W body cwd_ok rest w = (e, rest', w') ->
    match e with CReplied d | CFatal d | CInternal d => ~ In NL d | CCrash => True end.
  Proof.
    unfold ipc_call.
    destruct (take_line rest) as [l1 r1]. destruct (take_line r1) as [l2 r2].
    destruct (take_line r2) as [l3 r3]. destruct (take_line r3) as [l4 r4].
    destruct (shlex_split (strip l4)) as [options|]; [|intro H; inversion H; exact I].
    destruct (take_line r4) as [l5 r5].
    destruct (cwd_ok (strip l2)); cbn [negb]; [|intro H; inversion H; exact I].
    destruct (body options (split_args l5) w) as [res w1].
    destruct res; try (destruct (str_eqb (strip l1) (lit "true"))); intro H; inversion H; subst;
      try exact I; try apply encode_err_no_nl; try apply encode_val_no_nl; try apply encode_none_no_nl.
  Qed.

  Definition framed (l1 l2 l3 l4 l5 tail : str) : str :=
    l1 ++ NL :: l2 ++ NL :: l3 ++ NL :: l4 ++ NL :: l5 ++ NL :: tail.

  Definition outcome (l1 : str) (res : hres) : call_end :=
    match res with
    | HNone => CReplied encode_none
    | HInt z => CReplied (encode_val (dec_Z z))
    | HStr s => CReplied (encode_val s)
    | HCmdErr code msg =>
        if str_eqb (strip l1) (lit "true") then CReplied (encode_err code msg) else CFatal (encode_err code msg)
    | HOther => CInternal (encode_err 1 (lit "internal failure"))
    | HUnmodelled => CCrash
    end.

  (* the complete input/output behaviour of one call on a framed request *)
  Lemma ipc_call_framed l1 l2 l3 l4 l5 tail w :
    ~ In NL l1 -> ~ In NL l2 -> ~ In NL l3 -> ~ In NL l4 -> ~ In NL l5 ->
    ipc_call W body cwd_ok (framed l1 l2 l3 l4 l5 tail) w =
    match shlex_split (strip l4) with
    | None => (CCrash, l5 ++ NL :: tail, w)
    | Some options =>
        if cwd_ok (strip l2)
        then let '(res, w') := body options (split_args l5) w in (outcome l1 res, tail, w')
        else (CCrash, tail, w)
    end.
  Proof.
    intros H1 H2 H3 H4 H5. unfold ipc_call, framed.
    rewrite (take_line_app l1) by assumption. rewrite (take_line_app l2) by assumption.
    rewrite (take_line_app l3) by assumption. rewrite (take_line_app l4) by assumption.
    destruct (shlex_split (strip l4)) as [options|]; [|reflexivity].
    rewrite (take_line_app l5) by assumption.
    destruct (cwd_ok (strip l2)); cbn [negb]; [|reflexivity].
    destruct (body options (split_args l5) w) as [res w1].
    destruct res; cbn [outcome]; try reflexivity.
    destruct (str_eqb (strip l1) (lit "true")); reflexivity.
  Qed.

  (* the status field of the line on the wire is "0" exactly when the helper body completed, provided
     failing bodies carry a non-zero code (for the install family: [body_install_ok]) *)
  Theorem truthful_proof l1 l2 l3 l4 l5 tail w options res w1 d :
    ~ In NL l1 -> ~ In NL l2 -> ~ In NL l3 -> ~ In NL l4 -> ~ In NL l5 ->
    shlex_split (strip l4) = Some options -> cwd_ok (strip l2) = true ->
    body options (split_args l5) w = (res, w1) ->
    (forall code msg, res = HCmdErr code msg -> code <> 0%Z) ->
    wire_of (fst (fst (ipc_call W body cwd_ok (framed l1 l2 l3 l4 l5 tail) w))) = d ++ [NL] ->
    (says_success d <-> completed res).
  Proof.
    intros H1 H2 H3 H4 H5 Hs Hc Hb Hcode. rewrite ipc_call_framed by assumption.
    rewrite Hs, Hc, Hb. cbn [fst]. unfold says_success.
    destruct res; cbn [outcome wire_of completed]; intro Hw.
    1-3: apply app_inj_tail in Hw as [<- _]; split; [trivial|intros _; reflexivity || apply status_field_val].
    - assert (Hd : d = encode_err code msg).
      { destruct (str_eqb (strip l1) (lit "true")); cbn [wire_of] in Hw; now apply app_inj_tail in Hw as [<- _]. }
      subst d. rewrite status_field_err. split; [|intros []].
      intro Hz. apply dec_Z_zero in Hz. exact (Hcode code msg eq_refl Hz).
    - apply app_inj_tail in Hw as [<- _]. rewrite status_field_err. split; [discriminate|intros []].
    - destruct d; discriminate.
  Qed.
End GenericProofs.

Section SessionProofs.
  Variable c : cfg.

  Definition call_alone (k : hkind) (r : req) (w : world) : call_end * world :=
    let '(e, _, w') := ipc_call world (body_of c (w_src w) k) (str_eqb (c_cwd c)) (req_body r) w in (e, w').

  (* the reference: requests handled one after the other, each seeing ONLY its own five lines, so
     that a request influences later ones through the world alone *)
  Fixpoint serve (rs : list req) (w : world) (wire : str) : str * send * world :=
    match rs with
    | [] => (wire, SFinished, w)
    | r :: rs' =>
        match assoc (r_cmd r) (c_helpers c) with
        | None => (wire, SUnhandled, w)
        | Some k =>
            match call_alone k r w with
            | (CReplied d, w') => serve rs' w' (wire ++ d ++ [NL])
            | (CFatal d, w') => (wire ++ d ++ [NL], SFatal, w')
            | (CInternal d, w') => (wire ++ d ++ [NL], SInternal, w')
            | (CCrash, w') => (wire, SCrash, w')
            end
        end
    end.

  Definition stream (rs : list req) : str := flat_map req_bytes rs ++ lit "phases succeeded" ++ [NL].

  (* a request line the daemon loop dispatches to a helper *)
  Definition cmd_ok (r : req) : Prop :=
    strip (r_cmd r) = r_cmd r /\ ~ In 32 (r_cmd r) /\ r_cmd r <> [] /\ r_cmd r <> lit "phases"
    /\ shlex_split (strip (r_opts r)) <> None.

  Lemma partition_sp_none s : ~ In 32 s -> partition_sp s = (s, []).
  Proof.
    induction s as [|x s IH]; cbn; intro H; [reflexivity|].
    destruct (N.eqb_spec x 32) as [->|_]; [exfalso; apply H; now left|].
    rewrite IH; [reflexivity|]. intro; apply H; now right.
  Qed.

  Lemma req_body_framed r tail :
    req_body r ++ tail = framed (r_nonfatal r) (r_cwd r) (r_phase r) (r_opts r) (r_args r) tail.
  Proof. unfold req_body, framed. repeat (rewrite <- app_assoc; cbn [app]). reflexivity. Qed.

  Lemma req_body_framed_nil r :
    req_body r = framed (r_nonfatal r) (r_cwd r) (r_phase r) (r_opts r) (r_args r) [].
  Proof. rewrite <- (app_nil_r (req_body r)). apply req_body_framed. Qed.

  Lemma call_alone_tail k r w tail :
    req_ok r -> shlex_split (strip (r_opts r)) <> None ->
    ipc_call world (body_of c (w_src w) k) (str_eqb (c_cwd c)) (req_body r ++ tail) w
    = (fst (call_alone k r w), tail, snd (call_alone k r w)).
  Proof.
    intros [Hc [Hn [Hw [Hp [Ho Ha]]]]] Hs. unfold call_alone.
    rewrite req_body_framed, req_body_framed_nil, !ipc_call_framed by assumption.
    destruct (shlex_split (strip (r_opts r))) as [o|]; [|contradiction].
    destruct (str_eqb (c_cwd c) (strip (r_cwd r))); [|reflexivity].
    now destruct (body_of c (w_src w) k o (split_args (r_args r)) w).
  Qed.

  Lemma session_serve rs : forall fuel w wire,
    Forall req_ok rs -> Forall cmd_ok rs -> (List.length rs < fuel)%nat ->
    exists rest,
      session fuel c (stream rs) w wire
      = (fst (fst (serve rs w wire)), rest, snd (fst (serve rs w wire)), snd (serve rs w wire))
      /\ (snd (fst (serve rs w wire)) = SFinished -> rest = []).
  Proof.
    unfold stream. induction rs as [|r rs IH]; intros fuel w wire Hok Hcmd Hf.
    - destruct fuel; [inversion Hf|]. exists []. split; [|reflexivity].
      cbn [flat_map app serve fst snd]. vm_compute (lit "phases succeeded" ++ [NL]).
      cbn. reflexivity.
    - destruct fuel; [inversion Hf|].
      inversion Hok as [|? ? Hr Hok']; subst.
      inversion Hcmd as [|? ? [Hst [Hsp [Hne [Hph Hsh]]]] Hcmd']; subst.
      assert (Hc : ~ In NL (r_cmd r)) by apply Hr.
      cbn [flat_map]. unfold req_bytes at 1.
      rewrite <- !app_assoc. cbn [session].
      change ([NL] ++ req_body r ++ flat_map req_bytes rs ++ lit "phases succeeded" ++ [NL])
        with (NL :: (req_body r ++ flat_map req_bytes rs ++ lit "phases succeeded" ++ [NL])).
      rewrite take_line_app by assumption. rewrite Hst. rewrite partition_sp_none by assumption.
      cbn [serve].
      destruct (r_cmd r) as [|c0 cmd] eqn:Ecmd; [contradiction|]. cbn [is_nil].
      destruct (str_eqb (c0 :: cmd) (lit "phases")) eqn:Eph.
      { apply str_eqb_eq in Eph. contradiction. }
      destruct (assoc (c0 :: cmd) (c_helpers c)) as [k|].
      2:{ eexists. split; [reflexivity|]. cbn. discriminate. }
      cbn [is_nil negb].
      rewrite call_alone_tail by assumption.
      destruct (call_alone k r w) as [e w']. cbn [fst snd].
      destruct e as [d|d|d|]; [apply IH; [assumption|assumption|cbn in Hf; lia]|..];
        eexists; (split; [reflexivity|cbn; discriminate]).
  Qed.

  Lemma stream_length rs : (List.length rs < S (List.length (stream rs)))%nat.
  Proof.
    unfold stream. rewrite app_length.
    assert (List.length rs <= List.length (flat_map req_bytes rs))%nat; [|lia].
    induction rs as [|r rs IH]; cbn [flat_map List.length]; [lia|].
    rewrite app_length.
    assert (1 <= List.length (req_bytes r))%nat; [|lia].
    unfold req_bytes. rewrite !app_length. cbn [List.length]. lia.
  Qed.

  Lemma serve_lines rs : forall w wire,
    exists ls, fst (fst (serve rs w wire)) = wire ++ flat_map (fun l => l ++ [NL]) ls
               /\ Forall (fun l => ~ In NL l) ls
               /\ (List.length ls <= List.length rs)%nat
               /\ (snd (fst (serve rs w wire)) = SFinished -> List.length ls = List.length rs).
  Proof.
    induction rs as [|r rs IH]; intros w wire.
    - exists []. cbn. rewrite app_nil_r. auto.
    - cbn [serve]. destruct (assoc (r_cmd r) (c_helpers c)) as [k|].
      2:{ exists []. cbn. rewrite app_nil_r. repeat split; auto; [lia|discriminate]. }
      unfold call_alone.
      destruct (ipc_call world (body_of c (w_src w) k) (str_eqb (c_cwd c)) (req_body r) w)
        as [[e rest0] w'] eqn:E.
      pose proof (ipc_call_no_newline _ _ _ _ _ _ _ _ E) as Hd.
      destruct e as [d|d|d|].
      + destruct (IH w' (wire ++ d ++ [NL])) as (ls & H1 & H2 & H3 & H4).
        exists (d :: ls). cbn. rewrite H1, <- !app_assoc.
        split; [reflexivity|]. split; [now constructor|]. split; [lia|]. intro F. now rewrite H4.
      + exists [d]. cbn. rewrite app_nil_r. repeat split; auto; [lia|discriminate].
      + exists [d]. cbn. rewrite app_nil_r. repeat split; auto; [lia|discriminate].
      + exists []. cbn. rewrite app_nil_r. repeat split; auto; [lia|discriminate].
  Qed.
End SessionProofs.

Theorem bash_reads_one_line d up :
  ~ In NL d -> bash_read_array (d ++ NL :: up) = Some (bash_fields d, up).
Proof.
  intro H. unfold bash_read_array.
  assert (Hm : mem_N NL (d ++ NL :: up) = true).
  { apply mem_N_In. apply in_or_app. right. now left. }
  rewrite Hm. now rewrite take_line_app.
Qed.

(* k reads of __ebd_read_array in a row: the fields of each line, and what is left on the channel *)
Fixpoint bash_reads (k : nat) (up : str) : option (list (list str) * str) :=
  match k with
  | O => Some ([], up)
  | S k' => match bash_read_array up with
            | None => None
            | Some (f, up') => match bash_reads k' up' with
                               | None => None
                               | Some (fs, r) => Some (f :: fs, r)
                               end
            end
  end.

Lemma hd_drop_last_empty (a : str) l : a <> [] -> hd [] (drop_last_empty (a :: l)) = a.
Proof.
  intro Ha. unfold drop_last_empty. cbn [rev].
  destruct (rev l) as [|x m] eqn:E; cbn [app].
  - destruct a; [contradiction|reflexivity].
  - destruct x; [|reflexivity]. rewrite rev_app_distr. reflexivity.
Qed.

Theorem bash_status code msg :
  hd [] (bash_fields (encode_err code msg)) = dec_Z code.
Proof.
  unfold bash_fields, encode_err. rewrite filter_app.
  rewrite (filter_all_true _ (dec_Z code)).
  2:{ intros x Hx. apply dec_Z_chars in Hx. destruct (N.eqb_spec x 0); [lia|reflexivity]. }
  cbn [filter]. change (negb (BEL =? 0)) with true. cbn iota.
  rewrite split_on_app_sep by (apply dec_Z_no; reflexivity).
  apply hd_drop_last_empty. apply dec_Z_nonempty.
Qed.

Theorem bash_exit_proof cmd nonfatal code msg :
  code <> 0%Z ->
  let '(st, _, died) := bash_ipc_exit cmd nonfatal (bash_fields (encode_err code msg)) in
  st = dec_Z code /\ died = negb nonfatal.
Proof.
  intro Hc. unfold bash_ipc_exit. rewrite bash_status.
  destruct (str_eqb (dec_Z code) [48]) eqn:E.
  - apply str_eqb_eq in E. apply dec_Z_zero in E. contradiction.
  - split; reflexivity.
Qed.

Section InstallProofs.
  Variable ed : str.
  Variable ext_effect : list str -> image -> image.

  Definition hcode_nonzero (r : hres) : Prop :=
    match r with HCmdErr code _ => code <> 0%Z | _ => True end.

  (* a step of the install family lets the work go on or raises an IpcCommandError with a non-zero
     code (1, or the exit status of install(1)); a whole body ends normally, with such an error, or
     outside the model *)
  Definition step_ok (r : option hres) : Prop :=
    match r with None => True | Some (HCmdErr code _) => code <> 0%Z | Some _ => False end.
  Definition body_ok (r : hres) : Prop :=
    match r with HNone | HUnmodelled => True | HCmdErr code _ => code <> 0%Z | _ => False end.

  Lemma install_dirs_int_ok rels dm : forall w, step_ok (fst (install_dirs_int ed rels dm w)).
  Proof.
    induction rels as [|d r IH]; intro w; cbn; [exact I|].
    destruct (makedirs w d); [|cbn; discriminate].
    destruct dm; try apply IH.
    destruct (chmod_dir w0 d mode); [apply IH|cbn; discriminate].
  Qed.
  Lemma install_dirs_ok rels dm w : step_ok (fst (install_dirs ed ext_effect rels dm w)).
  Proof.
    destruct dm; cbn [install_dirs]; try apply install_dirs_int_ok.
    unfold install_dirs_ext. destruct (ask w) as [[st out] w1].
    destruct (Z.eqb_spec st 0); cbn; [exact I|assumption].
  Qed.

  (* the helpers change the image only: sources and injected faults stay *)
  Definition same_env (w w' : world) : Prop := w_src w' = w_src w /\ w_faults w' = w_faults w.

  (* one round of the copy loop: it stops with an error, having changed nothing but the image, or
     it has put the file in place and goes on *)
  Lemma install_int_cons s d fs im w :
    (exists e w0, install_int ed ((s, d) :: fs) im w = (Some (err1 e), w0) /\ same_env w w0)
    \/ (exists cid m, assoc s (w_src w) = Some (SFile cid)
          /\ install_int ed ((s, d) :: fs) im w
             = install_int ed fs im (set_img w (img_set (comps d) (NFile cid m) (w_img w)))).
  Proof.
    (* the seven ways to stop leave a world that differs from w in its image only *)
    unfold same_env. cbn [install_int].
    destruct (fault_of K_STAT (basename s) (w_faults w)); [left; eauto 6|].
    destruct (assoc s (w_src w)) as [k|]; [|left; eauto 6].
    destruct (fault_of K_UNLINK (basename d) (w_faults w)); [left; eauto 6|].
    destruct (img_get (comps d) (w_img w)) as [[?|? ?]|]; [left; eauto 6| |];
      (destruct (fault_of K_COPY (basename d) (w_faults w)); [left; eauto 6|];
       destruct k as [c|]; [|left; eauto 6];
       destruct im; try solve [right; eauto];
       destruct (fault_of K_CHMOD (basename d) (w_faults w)); [left; eauto 6|right; eauto]).
  Qed.

  Lemma install_int_ok fs im : forall w, step_ok (fst (install_int ed fs im w)).
  Proof.
    induction fs as [|[s d] r IH]; intro w; [exact I|].
    destruct (install_int_cons s d r im w) as [(e & w0 & -> & _)|(cid & m & _ & ->)]; [cbn; discriminate|apply IH].
  Qed.
  Lemma install_ext_groups_ok gs ws : forall w, step_ok (fst (install_ext_groups ed ext_effect gs ws w)).
  Proof.
    induction gs as [|[d ss] r IH]; intro w; cbn [install_ext_groups]; [exact I|].
    destruct (ask w) as [[st out] w1].
    destruct (Z.eqb_spec st 0); [apply IH|cbn; assumption].
  Qed.
  Lemma install_files_ok fs im w : step_ok (fst (install_files ed ext_effect fs im w)).
  Proof.
    destruct im; cbn [install_files]; try apply install_int_ok. apply install_ext_groups_ok.
  Qed.

  Lemma then_ok a k : step_ok (fst a) -> (forall w, step_ok (fst (k w))) -> step_ok (fst (then_ a k)).
  Proof. destruct a as [[e|] w]; cbn; auto. Qed.
  Lemma finish_ok a : step_ok (fst a) -> body_ok (fst (finish a)).
  Proof. destruct a as [[[]|] w]; cbn; auto. Qed.

  Lemma install_tree_ok dest im dm d w : step_ok (fst (install_tree ed ext_effect dest im dm d w)).
  Proof.
    unfold install_tree. apply then_ok; [apply install_dirs_ok|].
    intro w1. destruct (kids_of w1 d); [exact I|apply install_files_ok].
  Qed.
  Lemma fold_dirs_ok dest im dm : forall (l : list str) a,
    step_ok (fst a) ->
    step_ok (fst (fold_left (fun acc d => then_ acc (install_tree ed ext_effect dest im dm d)) l a)).
  Proof.
    induction l as [|x l IH]; intros a Ha; cbn [fold_left]; [assumption|].
    apply IH. apply then_ok; [assumption|intro; apply install_tree_ok].
  Qed.

  Lemma install_run_ok has_r de recursive targets dest im dm w :
    body_ok (fst (install_run ed ext_effect has_r de recursive targets dest im dm w)).
  Proof.
    unfold install_run.
    destruct (existsb _ targets); [exact I|].
    destruct (makedirs w dest) as [w1|e]; [|cbn; discriminate].
    match goal with |- context [if ?b then _ else _] => destruct b end; [cbn; discriminate|].
    apply finish_ok. apply then_ok.
    - destruct recursive; [|exact I]. apply fold_dirs_ok. exact I.
    - intro. apply install_files_ok.
  Qed.

  (* how a body ends when it refuses its arguments: IpcCommandError with code 1, or outside the model *)
  Definition refused (r : hres) : Prop := match r with HUnmodelled | HCmdErr 1%Z _ => True | _ => False end.

  Lemma refused_ok r : refused r -> body_ok r /\ r <> HNone.
  Proof. destruct r as [| | |[|[]|] ?| |]; cbn; try contradiction; now split. Qed.

  (* body_install refuses its arguments without touching the world, or is install_run on what
     its two option strings ask for *)
  Lemma body_install_cases has_r de dflt options args w :
    let o := parse_options options {| o_dest := [47]; o_ins := None; o_dir := None; o_unknown := [] |} in
    let b := body_install ed ext_effect has_r de dflt options args w in
    (snd b = w /\ refused (fst b))
    \/ b = install_run ed ext_effect has_r de (fst (fst (split_targets has_r args))) (snd (fst (split_targets has_r args)))
             (lstrip_sl (o_dest o)) (install_mode (o_ins o) dflt) (install_mode (o_dir o) []) w.
  Proof.
    intros o b. unfold b, body_install. fold o.
    destruct (is_nil (o_unknown o)); cbn [negb]; [|left; now split].
    destruct (split_targets has_r args) as [[recursive targets] extras]. cbn [fst snd].
    destruct (is_nil targets); [left; now split|].
    destruct (find _ targets); [left; now split|].
    destruct (is_nil extras); cbn [negb]; [|left; now split].
    destruct (install_mode (o_ins o) dflt); destruct (install_mode (o_dir o) []); (now right) || (left; now split).
  Qed.

  Lemma body_install_ok has_r de dflt options args w :
    body_ok (fst (body_install ed ext_effect has_r de dflt options args w)).
  Proof.
    destruct (body_install_cases has_r de dflt options args w) as [[_ R]| ->];
      [now apply refused_ok|apply install_run_ok].
  Qed.

  Lemma body_ok_code r : body_ok r -> hcode_nonzero r.
  Proof. destruct r; cbn; auto. Qed.

  Lemma path_eqb_eq a : forall b, path_eqb a b = true <-> a = b.
  Proof.
    induction a as [|x a IH]; intros [|y b]; cbn; split; intro H; try reflexivity; try discriminate.
    - apply andb_true_iff in H as [H1 H2]. apply str_eqb_eq in H1. apply IH in H2. congruence.
    - injection H as -> ->. apply andb_true_iff. split; [apply str_eqb_refl|now apply IH].
  Qed.

  Lemma img_get_set_same k v i : img_get k (img_set k v i) = Some v.
  Proof.
    assert (R : path_eqb k k = true) by now apply path_eqb_eq.
    induction i as [|[k' v'] i IH]; cbn; [now rewrite R|].
    destruct (path_eqb k k') eqn:E; cbn; [now rewrite R|now rewrite E].
  Qed.

  Lemma img_get_set_other k k' v i : k <> k' -> img_get k (img_set k' v i) = img_get k i.
  Proof.
    intro Hne. assert (N : path_eqb k k' = false) by (destruct (path_eqb k k') eqn:E; [apply path_eqb_eq in E; contradiction|reflexivity]).
    induction i as [|[k2 v2] i IH]; cbn; [now rewrite N|].
    destruct (path_eqb k' k2) eqn:E2; cbn.
    - apply path_eqb_eq in E2. subst k2. now rewrite N.
    - destruct (path_eqb k k2); [reflexivity|exact IH].
  Qed.

  Definition file_at (w : world) (s d : str) : Prop :=
    forall cid, assoc s (w_src w) = Some (SFile cid) -> exists m, img_get (comps d) (w_img w) = Some (NFile cid m).

  Lemma install_int_src fs im : forall w r w',
    install_int ed fs im w = (r, w') -> same_env w w'.
  Proof.
    induction fs as [|[s d] fs IH]; intros w r w' H; [now inversion H|].
    destruct (install_int_cons s d fs im w) as [(e & w0 & E & Hs)|(cid & m & _ & E)]; rewrite E in H.
    - now inversion H; subst.
    - exact (IH _ _ _ H).
  Qed.

  Lemma install_int_frame k fs im : forall w w',
    install_int ed fs im w = (None, w') -> ~ In k (map (fun p => comps (snd p)) fs) ->
    img_get k (w_img w') = img_get k (w_img w).
  Proof.
    induction fs as [|[s d] fs IH]; intros w w' H Hn; [now inversion H|].
    destruct (install_int_cons s d fs im w) as [(e & w0 & E & _)|(cid & m & _ & E)]; rewrite E in H; [discriminate|].
    rewrite (IH _ _ H) by (intro; apply Hn; now right). cbn. apply img_get_set_other.
    intro Eq. apply Hn. left. now rewrite Eq.
  Qed.

  (* the internal copy loop, when it reports success, has put every regular file at its destination,
     provided two pairs aiming at the same destination carry the same source *)
  Theorem install_int_post_proof fs im : forall w w',
    (forall s1 d1 s2 d2, In (s1, d1) fs -> In (s2, d2) fs -> comps d1 = comps d2 -> s1 = s2) ->
    install_int ed fs im w = (None, w') ->
    forall s d, In (s, d) fs -> file_at w' s d.
  Proof.
    induction fs as [|[s0 d0] fs IH]; intros w w' Hinj Hrun s d Hin; [destruct Hin|].
    destruct (install_int_cons s0 d0 fs im w) as [(e & w0 & E & _)|(cid & m & Ek & E)]; rewrite E in Hrun; [discriminate|].
    assert (Hinj' : forall s1 d1 s2 d2, In (s1, d1) fs -> In (s2, d2) fs -> comps d1 = comps d2 -> s1 = s2)
      by (intros; eapply Hinj; try (right; eassumption); assumption).
    destruct Hin as [Heq|Hin]; [|exact (IH _ w' Hinj' Hrun s d Hin)].
    injection Heq as <- <-. intros cid' Hc'.
    (* either a later pair rewrites the same destination (then with the same source), or not *)
    destruct (in_dec (list_eq_dec str_eq_dec) (comps d0) (map (fun p => comps (snd p)) fs)) as [Hlater|Hnot].
    - apply in_map_iff in Hlater as [[s2 d2] [Hc Hin2]]. cbn in Hc.
      assert (s2 = s0) by (apply (Hinj s2 d2 s0 d0); [now right|now left|assumption]). subst s2.
      rewrite <- Hc. exact (IH _ w' Hinj' Hrun s0 d2 Hin2 cid' Hc').
    - destruct (install_int_src _ _ _ _ _ Hrun) as [Hsrc _]. rewrite Hsrc in Hc'. cbn in Hc'.
      rewrite Ek in Hc'. injection Hc' as <-. exists m.
      rewrite (install_int_frame _ _ _ _ _ Hrun Hnot). cbn. apply img_get_set_same.
  Qed.
End InstallProofs.

Section ExtPost.
  Variable ed : str.
  Variable src : list (str * skind).
  Variable ext_effect : list str -> image -> image.
  Definition not_dir (i : image) (k : path) : Prop := forall m, img_get k i <> Some (NDir m).
  Local Notation argv_of words ss d := ([E "install"] ++ words ++ ss ++ [abs_of ed d]).
  (* the assumption about install(1): when it exits 0 and DEST is not a directory, every SOURCE
     (here: copies of one file) is at DEST afterwards, DEST has not become a directory, and no
     other path of the image was touched *)
  Definition rel (d : str) : Prop := startswith [47] d = false.     (* a path below ED *)
  Hypothesis ext_installs : forall words ss d i s cid,
    rel d -> In s ss -> (forall s', In s' ss -> s' = s) -> assoc s src = Some (SFile cid) -> not_dir i (comps d) ->
    exists m, img_get (comps d) (ext_effect (argv_of words ss d) i) = Some (NFile cid m).
  Hypothesis ext_nodir : forall words ss d i,
    rel d -> not_dir i (comps d) -> not_dir (ext_effect (argv_of words ss d) i) (comps d).
  Hypothesis ext_frame : forall words ss d i k,
    rel d -> k <> comps d -> not_dir i (comps d) ->
    img_get k (ext_effect (argv_of words ss d) i) = img_get k i.

  Lemma ext_groups_cons d ss gs words w w' :
    install_ext_groups ed ext_effect ((d, ss) :: gs) words w = (None, w') ->
    exists w2, install_ext_groups ed ext_effect gs words w2 = (None, w')
               /\ w_src w2 = w_src w /\ w_img w2 = ext_effect (argv_of words ss d) (w_img w).
  Proof.
    cbn [install_ext_groups]. unfold ask.
    destruct (w_ans w) as [|[st out] ans]; [|destruct (Z.eqb st 0); [|discriminate]];
      intro H; eexists; (split; [exact H|split; reflexivity]).
  Qed.

  Lemma ext_keeps_nodir words ss d i k :
    rel d -> not_dir i (comps d) -> not_dir i k -> not_dir (ext_effect (argv_of words ss d) i) k.
  Proof.
    intros Hr Hd Hk. destruct (list_eq_dec str_eq_dec k (comps d)) as [->|Hne]; [now apply ext_nodir|].
    intro m. now rewrite ext_frame.
  Qed.

  Lemma ext_groups_frame gs words : forall w w' k,
    install_ext_groups ed ext_effect gs words w = (None, w') ->
    (forall d ss, In (d, ss) gs -> rel d) ->
    (forall d ss, In (d, ss) gs -> not_dir (w_img w) (comps d)) ->
    (forall d ss, In (d, ss) gs -> k <> comps d) ->
    img_get k (w_img w') = img_get k (w_img w).
  Proof.
    induction gs as [|[d ss] gs IH]; intros w w' k Hrun Hrel Hnd Hk; [now inversion Hrun|].
    apply ext_groups_cons in Hrun as (w2 & Hrun & _ & Hi).
    assert (Hr0 : rel d) by (eapply Hrel; now left).
    assert (Hd0 : not_dir (w_img w) (comps d)) by (eapply Hnd; now left).
    rewrite (IH _ _ k Hrun), Hi.
    - apply ext_frame; [assumption|eapply Hk; now left|assumption].
    - intros; eapply Hrel; right; eassumption.
    - intros d' ss' Hin. rewrite Hi. apply ext_keeps_nodir; try assumption. eapply Hnd; right; eassumption.
    - intros; eapply Hk; right; eassumption.
  Qed.

  Theorem install_ext_post_proof gs words : forall w w',
    w_src w = src ->
    (forall d ss, In (d, ss) gs -> rel d) ->
    (forall d ss, In (d, ss) gs -> not_dir (w_img w) (comps d)) ->
    (forall d ss, In (d, ss) gs -> ss <> []) ->
    (forall d1 ss1 d2 ss2 s1 s2, In (d1, ss1) gs -> In (d2, ss2) gs -> In s1 ss1 -> In s2 ss2 ->
                                  comps d1 = comps d2 -> s1 = s2) ->
    install_ext_groups ed ext_effect gs words w = (None, w') ->
    forall d ss s cid, In (d, ss) gs -> In s ss -> assoc s src = Some (SFile cid) ->
                       exists m, img_get (comps d) (w_img w') = Some (NFile cid m).
  Proof.
    induction gs as [|[d0 ss0] gs IH]; intros w w' Hsrc Hrel Hnd Hne Huni Hrun d ss s cid Hin Hs Hc; [destruct Hin|].
    apply ext_groups_cons in Hrun as (w2 & Hrun & Hs2 & Hi).
    assert (Hnd0 : not_dir (w_img w) (comps d0)) by (eapply Hnd; now left).
    assert (Hr0 : rel d0) by (eapply Hrel; now left).
    assert (Hrel2 : forall d' ss', In (d', ss') gs -> rel d') by (intros; eapply Hrel; right; eassumption).
    assert (Hnd2 : forall d' ss', In (d', ss') gs -> not_dir (w_img w2) (comps d')).
    { intros d' ss' Hin'. rewrite Hi. apply ext_keeps_nodir; try assumption. eapply Hnd; right; eassumption. }
    assert (Huni2 : forall d1 ss1 d2 ss2 s1 s2, In (d1, ss1) gs -> In (d2, ss2) gs -> In s1 ss1 -> In s2 ss2 ->
                                  comps d1 = comps d2 -> s1 = s2)
      by (intros d1 ss1 d2 ss2 s1 s2 H1 H2; apply (Huni d1 ss1 d2 ss2); now right).
    assert (Hne2 : forall d' ss', In (d', ss') gs -> ss' <> []) by (intros; eapply Hne; right; eassumption).
    assert (Hsrc2 : w_src w2 = src) by congruence.
    destruct Hin as [Heq|Hin]; [|eapply (IH w2 w'); eassumption].
    injection Heq as <- <-.
    (* either a later group rewrites the same destination (then with the same source), or not *)
    destruct (in_dec (list_eq_dec str_eq_dec) (comps d0) (map (fun g => comps (fst g)) gs)) as [Hlater|Hnot].
    - apply in_map_iff in Hlater as [[d2 ss2] [Hc2 Hin2]]. cbn in Hc2.
      destruct ss2 as [|s2 ss2]; [now destruct (Hne2 _ _ Hin2)|].
      assert (s2 = s) by (apply (Huni d2 (s2 :: ss2) d0 ss0); auto using in_eq, in_cons).
      subst s2. rewrite <- Hc2. eapply (IH w2 w'); try eassumption. now left.
    - rewrite (ext_groups_frame gs words w2 w' (comps d0) Hrun Hrel2 Hnd2), Hi.
      + apply (ext_installs words ss0 d0 (w_img w) s cid); try assumption.
        intros s' Hs'. apply (Huni d0 ss0 d0 ss0); auto using in_eq.
      + intros d' ss' Hin' E. apply Hnot, in_map_iff. now exists (d', ss').
  Qed.

  Lemma in_insert_by x y l : In x (insert_by y l) <-> x = y \/ In x l.
  Proof.
    induction l as [|z l IH]; cbn; [intuition congruence|].
    destruct (str_leb (snd z) (snd y)); cbn; rewrite ?IH; intuition congruence.
  Qed.
  Lemma in_sort_by_dest x l : In x (sort_by_dest l) <-> In x l.
  Proof.
    unfold sort_by_dest. rewrite (in_rev l). generalize (rev l) as m.
    induction m as [|y m IH]; cbn [fold_right]; [reflexivity|].
    rewrite in_insert_by, IH. cbn. intuition congruence.
  Qed.
  (* a group is not empty and holds only sources that the list pairs with its destination *)
  Lemma group_sound l : forall d ss, In (d, ss) (group_by_dest l) -> ss <> [] /\ forall s, In s ss -> In (s, d) l.
  Proof.
    induction l as [|[s0 d0] l IH]; intros d ss; cbn [group_by_dest]; [intros []|].
    assert (One : ss = [s0] -> d = d0 -> ss <> [] /\ forall s, In s ss -> In (s, d) ((s0, d0) :: l))
      by (intros -> ->; split; [discriminate|]; intros s [->|[]]; now left).
    assert (Old : In (d, ss) (group_by_dest l) -> ss <> [] /\ forall s, In s ss -> In (s, d) ((s0, d0) :: l))
      by (intro H; destruct (IH _ _ H) as [N A]; split; [exact N|]; intros s Hs; right; now apply A).
    destruct (group_by_dest l) as [|[d' ss'] gs] eqn:E.
    - intros [H|[]]. injection H as <- <-. now apply One.
    - destruct (str_eqb d0 d') eqn:Ed; intros [H|H]; try (injection H as <- <-); try now apply One.
      + apply str_eqb_eq in Ed. subst d'. destruct (IH d0 ss' (or_introl eq_refl)) as [_ A].
        split; [discriminate|]. intros s [->|Hs]; [now left|right; now apply A].
      + apply Old. now right.
      + now apply Old.
  Qed.
  Lemma group_complete l : forall s d, In (s, d) l -> exists ss, In (d, ss) (group_by_dest l) /\ In s ss.
  Proof.
    induction l as [|[s0 d0] l IH]; intros s d; cbn [group_by_dest]; [intros []|].
    intros [H|H].
    - injection H as -> ->. destruct (group_by_dest l) as [|[d' ss'] gs].
      + exists [s]. split; now left.
      + destruct (str_eqb d d') eqn:Ed.
        * exists (s :: ss'). split; now left.
        * exists [s]. split; now left.
    - destruct (IH s d H) as [ss [Hg Hs]].
      destruct (group_by_dest l) as [|[d' ss'] gs]; [destruct Hg|].
      destruct (str_eqb d0 d') eqn:Ed.
      + apply str_eqb_eq in Ed. subst d'. destruct Hg as [Hg|Hg].
        * injection Hg as <- <-. exists (s0 :: ss'). split; [now left|now right].
        * exists ss. split; [now right|assumption].
      + exists ss. split; [now right|assumption].
  Qed.
  (* the install(1) fallback: reported success => every regular file is at
     its destination, with the behaviour of install(1) as the only assumption *)
  Theorem install_fallback_post_proof fs words w w' :
    w_src w = src ->
    (forall s d, In (s, d) fs -> rel d) ->
    (forall s d, In (s, d) fs -> not_dir (w_img w) (comps d)) ->
    (forall s1 d1 s2 d2, In (s1, d1) fs -> In (s2, d2) fs -> comps d1 = comps d2 -> s1 = s2) ->
    install_files ed ext_effect fs (IFallback words) w = (None, w') ->
    forall s d cid, In (s, d) fs -> assoc s src = Some (SFile cid) ->
                    exists m, img_get (comps d) (w_img w') = Some (NFile cid m).
  Proof.
    intros Hsrc Hrel Hnd Hinj Hrun s d cid Hin Hc. cbn [install_files] in Hrun.
    assert (Hin' : In (s, d) (sort_by_dest fs)) by now apply in_sort_by_dest.
    destruct (group_complete _ _ _ Hin') as [ss [Hg Hs]].
    assert (Hfs : forall d1 ss1 s1, In (d1, ss1) (group_by_dest (sort_by_dest fs)) -> In s1 ss1 -> In (s1, d1) fs)
      by (intros d1 ss1 s1 Hg1 H1; now apply in_sort_by_dest, (group_sound _ _ _ Hg1)).
    assert (Hhead : forall d1 ss1, In (d1, ss1) (group_by_dest (sort_by_dest fs)) -> exists s1, In (s1, d1) fs).
    { intros d1 ss1 Hg1. destruct ss1 as [|s1 ss1]; [now destruct (proj1 (group_sound _ _ _ Hg1))|].
      exists s1. apply (Hfs _ _ _ Hg1). now left. }
    eapply (install_ext_post_proof _ words w w' Hsrc); try eassumption.
    - intros d1 ss1 Hg1. destruct (Hhead _ _ Hg1) as [s1 H1]. now apply (Hrel s1).
    - intros d1 ss1 Hg1. destruct (Hhead _ _ Hg1) as [s1 H1]. now apply (Hnd s1).
    - intros d1 ss1 Hg1. apply (group_sound _ _ _ Hg1).
    - intros d1 ss1 d2 ss2 s1 s2 H1 H2 Hs1 Hs2 E. eapply Hinj; [| |exact E]; eapply Hfs; eassumption.
  Qed.
End ExtPost.

(* the assumptions are satisfiable: an install(1) that refuses directories as DEST *)
Section Ideal.
  Variable ed : str.
  Variable src : list (str * skind).
  Definition ideal_effect (argv : list str) (i : image) : image :=
    let d := rel_of ed (last argv []) in
    match assoc (last (removelast argv) []) src, img_get d i with
    | Some (SFile cid), Some (NDir _) => i
    | Some (SFile cid), _ => img_set d (NFile cid 493) i
    | _, _ => i
    end.

  Lemma rel_of_abs d : rel d -> rel_of ed (abs_of ed d) = comps d.
  Proof.
    unfold rel, rel_of, abs_of, pjoin, drop. intros ->.
    destruct (is_nil ed || (last ed 0 =? 47)).
    - now rewrite skipn_app_exact.
    - now rewrite skipn_app_exact.
  Qed.
  Lemma argv_last words ss d :
    last ([E "install"] ++ words ++ ss ++ [abs_of ed d]) [] = abs_of ed d.
  Proof. rewrite !app_assoc. apply last_last. Qed.
  Lemma argv_source words ss d s :
    In s ss -> (forall s', In s' ss -> s' = s) ->
    last (removelast ([E "install"] ++ words ++ ss ++ [abs_of ed d])) [] = s.
  Proof.
    intros Hin Hall. assert (Hne : ss <> []) by (destruct ss; [destruct Hin|discriminate]).
    rewrite !app_assoc, removelast_last, last_app_ne by assumption. apply Hall. now apply last_in.
  Qed.

  Lemma ideal_installs : forall words ss d i s cid,
    rel d -> In s ss -> (forall s', In s' ss -> s' = s) -> assoc s src = Some (SFile cid) -> not_dir i (comps d) ->
    exists m, img_get (comps d) (ideal_effect ([E "install"] ++ words ++ ss ++ [abs_of ed d]) i) = Some (NFile cid m).
  Proof.
    intros words ss d i s cid Hr Hin Hall Hc Hnd. unfold ideal_effect.
    rewrite argv_last, (argv_source words ss d s Hin Hall), rel_of_abs, Hc by assumption.
    destruct (img_get (comps d) i) as [[m|c m]|] eqn:E.
    - exfalso. now apply (Hnd m).
    - exists 493. apply img_get_set_same.
    - exists 493. apply img_get_set_same.
  Qed.
  Lemma ideal_nodir : forall words ss d i,
    rel d -> not_dir i (comps d) -> not_dir (ideal_effect ([E "install"] ++ words ++ ss ++ [abs_of ed d]) i) (comps d).
  Proof.
    intros words ss d i Hr Hnd. unfold ideal_effect. rewrite argv_last, rel_of_abs by assumption.
    destruct (assoc _ src) as [[cid|]|]; try assumption.
    destruct (img_get (comps d) i) as [[m|c m]|] eqn:E; try assumption;
      intros m'; rewrite img_get_set_same; discriminate.
  Qed.
  Lemma ideal_frame : forall words ss d i k,
    rel d -> k <> comps d -> not_dir i (comps d) ->
    img_get k (ideal_effect ([E "install"] ++ words ++ ss ++ [abs_of ed d]) i) = img_get k i.
  Proof.
    intros words ss d i k Hr Hk Hnd. unfold ideal_effect. rewrite argv_last, rel_of_abs by assumption.
    destruct (assoc _ src) as [[cid|]|]; try reflexivity.
    destruct (img_get (comps d) i) as [[m|c m]|]; try reflexivity; now apply img_get_set_other.
  Qed.
End Ideal.

Definition ex_cfg : cfg :=
  {| c_ed := lit "/ED"; c_cwd := lit "/S"; c_helpers := [(lit "doins", KInstall true false [])] |}.
Definition ex_world : world :=
  {| w_src := [(lit "a", SFile 1); (lit "b", SFile 2)]; w_img := [(comps (lit "usr/b"), NDir 493)];
     w_ans := [(1%Z, [lit "install: invalid mode"; lit "Try --help"])]; w_faults := []; w_atoms := [] |}.
Definition ex_req (nf : bool) (opts args : str) : req :=
  {| r_cmd := lit "doins"; r_nonfatal := if nf then lit "true" else lit "false"; r_cwd := lit "/S";
     r_phase := lit "install"; r_opts := opts; r_args := args |}.
(* three requests: a plain success, a nonfatal failure (destination occupied by a directory), a
   fallback whose install(1) fails with two stderr lines: three single lines, all bytes consumed *)
Example session_example :
  run_daemon ex_cfg
    (stream [ex_req true (lit "--dest=/usr") (lit "a" ++ [0]);
             ex_req true (lit "--dest=/usr") (lit "b" ++ [0]);
             ex_req true (lit "--dest=/usr '--insoptions=-m u=zzz'") (lit "a" ++ [0])]) ex_world
  = (lit "0" ++ [NL]
     ++ lit "1" ++ [BEL] ++ lit "failed removing file: '/ED/usr/b': Is a directory" ++ [NL]
     ++ lit "1" ++ [BEL] ++ lit "install: invalid mode Try --help" ++ [NL],
     [], SFinished,
     {| w_src := w_src ex_world;
        w_img := [(comps (lit "usr/b"), NDir 493); (comps (lit "usr"), NDir 493);
                  (comps (lit "usr/a"), NFile 1 420)];
        w_ans := []; w_faults := []; w_atoms := [] |}).
Proof. vm_compute. reflexivity. Qed.

(* the same failing fallback under a fatal request: one line, then the build fails *)
Example fatal_example :
  fst (run_daemon ex_cfg (stream [ex_req false (lit "'--insoptions=-m u=zzz'") (lit "a" ++ [0])]) ex_world)
  = (lit "1" ++ [BEL] ++ lit "install: invalid mode Try --help" ++ [NL], lit "phases succeeded" ++ [NL], SFatal).
Proof. vm_compute. reflexivity. Qed.

Example cmd_ok_example : cmd_ok (ex_req true (lit "--dest=/usr") (lit "a" ++ [0])).
Proof. unfold cmd_ok. cbn. repeat split; try discriminate. intros [H|[H|[H|[H|[H|[]]]]]]; discriminate. Qed.

(* __ebd_write_array writes the arguments NUL-separated on ONE line; an argument containing a
   newline makes the request seven lines long: the python side reads five, the rest is taken for
   the next command.  Witness: dodoc $'a\nb'  ->  reply to a request for "a", then "b\0" is an
   unknown command (the daemon is torn down).  Not repaired (protocol change). *)
Definition newline_in_request (r : req) : Prop := ~ req_ok r.
Example channel_in_sync_refuted_proof :
  let r := ex_req true (lit "--dest=/usr") (lit "a" ++ [NL] ++ lit "b" ++ [0]) in
  newline_in_request r /\
  snd (fst (run_daemon ex_cfg (stream [r]) ex_world)) = SUnhandled.
Proof.
  split.
  - unfold newline_in_request, req_ok, line_ok. cbn. intro H.
    destruct H as [_ [_ [_ [_ [_ H]]]]]. apply H. right. now left.
  - vm_compute. reflexivity.
Qed.

(* the premise of the fallback post-condition is satisfiable with a non-empty file list *)
Example fallback_example :
  let src := [(lit "a", SFile 1)] in
  let w := {| w_src := src; w_img := [(comps (lit "usr"), NDir 493)]; w_ans := [(0%Z, [])];
              w_faults := []; w_atoms := [] |} in
  exists w', install_files (lit "/ED") (ideal_effect (lit "/ED") src) [(lit "a", lit "usr/a")]
                           (IFallback [lit "-m"; lit "u=rwx,go=rx"]) w = (None, w')
             /\ img_get (comps (lit "usr/a")) (w_img w') = Some (NFile 1 493).
Proof. eexists. split; vm_compute; reflexivity. Qed.

