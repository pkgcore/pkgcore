(* Prop_C19.v — the property theorems of C19. *)
From Coq Require Import List.
Import ListNotations.
From Verif Require Import C18.Fs C18.FsLemmas C18.Model_C18 C18.Spec_C18 C18.Proofs_C18.
From Verif Require Import C18.Exact_C18.
From Verif Require Import C19.Model_C19 C19.Spec_C19 C19.Proofs_C19 C19.Whole_C19.

(* crash_frame: at EVERY crash point of the merge, a path the merge never names (and whose
   inode it never writes) holds its old node *)
Theorem crash_frame : forall i k q,
  untouched (merge_ops i) (i_fs i) q ->
  lookup (crash_state (merge_ops i) (i_fs i) k) q = lookup (i_fs i) q.
Proof. intros i k q H. unfold crash_state. apply run_frame. now apply untouched_firstn. Qed.
Print Assumptions crash_frame.

(* every crash state of the whole merge is a crash state of ONE step block (offset mkdir, one
   directory entry, one non-directory entry) started from a boundary state that is itself a
   crash state of the merge *)
Theorem crash_localised : forall i k,
  exists sb blk k' j,
    step_block i sb blk /\
    crash_state (merge_ops i) (i_fs i) k = crash_state blk sb k' /\
    sb = crash_state (merge_ops i) (i_fs i) j.
Proof. intro i. exact (merge_loc i). Qed.
Print Assumptions crash_localised.

(* crash_atomic for copyfile over an existing path, for every chunking of the write and EVERY
   crash point: the path holds its old node or the complete staged node (all data, mode,
   owner, mtime); only the path and its '#new' sibling change *)
Theorem copy_crash_atomic : forall um x chunks cp s k,
  let tmp := sibling_new cp in
  let ops := staged_file_ops_chunked um x chunks cp in
  let st := crash_state ops s k in
  (forall q, q <> cp -> q <> tmp -> lookup st q = lookup s q) /\
  (lookup st cp = lookup s cp \/
   exists s2, run_opt (removelast ops) s = Some s2 /\
     lookup s2 tmp = Some (staged_node (file_create_mode um) chunks (perms_new x tmp) (fresh_ino s)) /\
     lookup st cp = lookup s2 tmp /\ lookup st tmp = None).
Proof.
  intros um x chunks cp s k tmp ops st. pose proof (perms_new_on x tmp) as Hp.
  destruct (atomic_replace s tmp cp (file_create_mode um) chunks _ k (sibling_new_neq cp) Hp) as [Hfr Hcp].
  split; [exact Hfr|]. destruct Hcp as [Hcp|(s2 & H2 & H3 & H4 & _)]; [now left|right].
  exists s2. unfold ops, staged_file_ops_chunked. rewrite replace_ops_removelast.
  repeat split; auto. now apply staged_complete.
Qed.
Print Assumptions copy_crash_atomic.

(* crash_atomic for do_link's '#new' + rename *)
Theorem link_crash_atomic : forall pre a b s k na,
  let tmp := sibling_new b in
  (pre = [] \/ pre = [Unlink tmp]) ->
  lookup s a = Some na -> a <> tmp ->
  let st := crash_state (link_ops pre a b) s k in
  (forall q, q <> b -> q <> tmp -> lookup st q = lookup s q) /\
  (lookup st b = lookup s b \/ lookup st b = Some na).
Proof.
  intros pre a b s k na tmp. subst tmp. intros Hpre Ha Hat. apply link_rename_crash; auto using sibling_new_neq.
  intros j q Hq. apply run_frame, untouched_firstn.
  destruct Hpre as [->| ->]; cbn [untouched]; [exact I|].
  split; [cbn; intros [E|[]]; congruence|now destruct (apply_op s _)].
Qed.
Print Assumptions link_crash_atomic.

(* the one allowed intermediate: an existing directory gets its owner, then its mtime; its
   mode never changes and nothing else is touched *)
Theorem dir_metadata_two_step : forall x cp n2 s k m u g t,
  lookup s cp = Some (Dir m u g t) ->
  let st := crash_state (perms_existing x cp cp n2) s k in
  (forall q, q <> cp -> lookup st q = lookup s q) /\
  exists u' g' t', lookup st cp = Some (Dir m u' g' t') /\
    (t' = t \/ (Some t' = e_mtime x /\ u' = (match e_uid x with Some v => v | None => u end)
                                    /\ g' = (match e_gid x with Some v => v | None => g end))
            \/ (Some t' = e_mtime x /\ u' = u /\ g' = g)).
Proof.
  intros x cp n2 s k m u g t Hd. unfold crash_state.
  destruct (perms_existing_shape x cp cp n2) as (ch & ot & -> & Hot).
  destruct (owner_then_mtime_crash cp s k m u g t ch (e_uid x) (e_gid x) ot Hd) as [F (u' & g' & t' & L & H)].
  split; [exact F|]. exists u', g', t'. split; [exact L|]. intuition.
Qed.
Print Assumptions dir_metadata_two_step.

(* crash_atomic for the WHOLE merge on the NoAlias domain of C18.merged_exact, composed from
   crash_localised and the merge invariant: at EVERY crash point k the state is a crash state of
   ONE step block [blk] started from a boundary state [sb] in which
   (a) every path that is not the location of an already processed entry (and not a created
       missing parent) holds its complete PRE-MERGE node, and
   (b) every already processed entry is COMPLETELY installed (type, data/target, mode, owner,
       mtime; an existing directory keeps its mode).
   What the single unfinished block may do to its own location is stated above for a file staged
   over a bound name (copy_crash_atomic), do_link's rename (link_crash_atomic) and an existing
   directory (dir_metadata_two_step); for every block kind, as used by crash_atomic_whole, by
   C18/Shapes_C18.BlockCrash. *)
Theorem crash_atomic_steps : forall i sf k,
  noalias i = true -> merge_err i = None -> run_opt (merge_ops i) (i_fs i) = Some sf ->
  exists P sb blk k',
    incl P (cset_of i) /\ step_block i sb blk /\
    crash_state (merge_ops i) (i_fs i) k = crash_state blk sb k' /\
    (forall q, (forall y, In y P -> e_loc y <> q) ->
       ~ (lookup (i_fs i) q = None /\ exists x, In x (cset_of i) /\ pprefix q (e_loc x)) ->
       lookup sb q = lookup (i_fs i) q) /\
    (forall y, In y P -> exists n, lookup sb (e_loc y) = Some n /\ installed (i_fs i) y n).
Proof.
  intros i sf k Hna Herr Hrun.
  destruct (merge_boundaries i sf Hna Herr Hrun k) as (sb & blk & k' & _ & (P & HI & Hsb) & Hk & _).
  exists P, sb, blk, k'. split; [exact (inv_incl _ _ _ _ HI)|]. split; [exact Hsb|]. split; [exact Hk|]. split.
  - intros q Hq Hn. apply (inv_frame _ _ _ _ HI); [exact Hq|]. intros (A & B & _). now apply Hn.
  - exact (inv_good _ _ _ _ HI).
Qed.
Print Assumptions crash_atomic_steps.

(* crash_atomic for the WHOLE merge (closed statement): on the NoAlias domain, at EVERY crash
   prefix k every path that existed before the merge holds its complete pre-merge node or its
   complete final node.  The one allowed exception, stated explicitly, is dir_metadata_two_step:
   a directory that existed before, caught between lchown and utime - still a directory with
   its old mode and old mtime, owner possibly already the new one. *)
Theorem crash_atomic_whole : forall i sf k p,
  noalias i = true -> merge_err i = None -> run_opt (merge_ops i) (i_fs i) = Some sf ->
  lookup (i_fs i) p <> None ->
  let st := crash_state (merge_ops i) (i_fs i) k in
  lookup st p = lookup (i_fs i) p \/ lookup st p = lookup sf p \/
  (exists m u g t u' g', lookup (i_fs i) p = Some (Dir m u g t) /\ lookup st p = Some (Dir m u' g' t)).
Proof. intros i sf k p Hna Herr Hrun Hp. exact (merge_crash i sf Hna Herr Hrun k p Hp). Qed.
Print Assumptions crash_atomic_whole.
