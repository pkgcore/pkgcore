From Coq Require Import List NArith.
From Verif Require Import C39.Model_C39 C39.Spec_C39 C39.Proofs_C39.

(* combining two list changes = applying the first, then the second — or it is refused *)
Theorem or_is_sequential : forall a b c,
  valid a = true -> valid b = true -> or_ a b = Some c ->
  forall l, same_set (apply c l) (apply b (apply a l)).
Proof.
  intros a b c Va Vb Hor l x. unfold or_ in Hor.
  destruct (replace b) as [sb|] eqn:Rb; [injection Hor as <-; rewrite !apply_In, Rb; reflexivity|].
  destruct (replace a) as [sa|] eqn:Ra; [|exact (change_then_change_In a b c l x Va Vb Ra Rb Hor)].
  apply mk_Some in Hor as [-> _]. rewrite (apply_set a sa l Ra). exact (set_then_change_In b sa x Vb Rb).
Qed.
Print Assumptions or_is_sequential.

(* when is a combination refused?  exactly on an add/remove conflict between the two sides *)
Theorem or_refused_iff : forall a b,
  valid a = true -> valid b = true ->
  (or_ a b = None <->
   replace a = None /\ replace b = None /\
   exists x, (In x (add a) \/ In x (add b)) /\ (In x (remove a) \/ In x (remove b))).
Proof.
  intros a b Va Vb. unfold or_.
  destruct (replace b) as [sb|]; [split; [discriminate | intros [_ [H _]]; discriminate]|].
  destruct (replace a) as [sa|]; [split; [discriminate | intros [H _]; discriminate]|].
  rewrite mk_None.
  split; [intros [x H]; repeat split | intros [_ [_ [x H]]]]; exists x; rewrite !In_app_keep in *; exact H.
Qed.
Print Assumptions or_refused_iff.

(* the wire object of one list field means, to Bugzilla, exactly the change *)
Theorem change_wire_exact : forall c l,
  valid c = true -> apply_wire (change_wire c) l = apply c l.
Proof. intros c l _. apply apply_change_wire. Qed.
Print Assumptions change_wire_exact.

(* BugUpdate.to_wire: key k is among the wire keys exactly when the field with that index was set *)
Theorem update_wire_exact : forall u k,
  length (scalars u) = 7%nat -> length (changes u) = 6%nat ->
  (In k (update_wire_keys u) <->
   k = 0%N
   \/ (exists i, nth_error (scalars u) i = Some true /\ k = (1 + N.of_nat i)%N)
   \/ (exists i c, nth_error (changes u) i = Some c /\ change_bool c = true /\ k = (8 + N.of_nat i)%N)
   \/ (k = 14%N /\ nflags u <> O) \/ (k = 15%N /\ has_comment u = true)
   \/ (k = 16%N /\ has_pkglist u = true) \/ (k = 17%N /\ has_rtr u = true)).
Proof. intros u k _ _. apply update_wire_keys_In. Qed.
Print Assumptions update_wire_exact.
