(* Proofs_C06.v — `match` is the propositional reading of the tree; what the clause lists of dnf /
   cnf denote for every tree ([dnf_val], [cnf_val]); the refusals; which literals occur in a DNF. *)
From Coq Require Import List NArith Bool Arith.
Import ListNotations.
From Verif Require Import Base.Lists C06.Restr C06.RestrInd C06.Model_C06 C06.Spec_C06.

Lemma and_loop_sem n bs : and_loop n bs = xorb n (forallb (fun b => b) bs).
Proof. induction bs as [|[] r IH]; cbn; auto; destruct n; reflexivity. Qed.

Lemma or_loop_sem n bs : or_loop n bs = xorb n (existsb (fun b => b) bs).
Proof. induction bs as [|[] r IH]; cbn; auto; destruct n; reflexivity. Qed.

Lemma and_loop_map {A} n (f : A -> bool) l : and_loop n (map f l) = xorb n (forallb f l).
Proof. now rewrite and_loop_sem, forallb_map. Qed.
Lemma or_loop_map {A} n (f : A -> bool) l : or_loop n (map f l) = xorb n (existsb f l).
Proof. now rewrite or_loop_sem, existsb_map. Qed.

Lemma one_loop_sem n armed bs :
  one_loop n armed bs = xorb n (Nat.eqb ((if armed then 1 else 0) + count_true bs) 1).
Proof. revert armed; induction bs as [|[] r IH]; intros [|]; cbn; rewrite ?IH; now destruct n. Qed.

Lemma atmost_loop_sem n armed bs :
  atmost_loop n armed bs = xorb n (Nat.leb ((if armed then 1 else 0) + count_true bs) 1).
Proof. revert armed; induction bs as [|[] r IH]; intros [|]; cbn; rewrite ?IH; now destruct n. Qed.

Lemma node_match_sem k n bs : node_match k n bs = node_sem k n bs.
Proof.
  destruct k; cbn [node_match node_sem].
  - apply and_loop_sem.
  - apply or_loop_sem.
  - destruct bs; [now destruct n|]. apply one_loop_sem.
  - apply atmost_loop_sem.
  - apply and_loop_sem.
Qed.

Lemma eval_prop_eval e r : eval e r = prop_eval e r.
Proof.
  induction r as [| |r IH|k n cs IH] using restr_ind'; cbn [eval prop_eval]; try congruence.
  rewrite node_match_sem. f_equal. now apply map_ext_Forall.
Qed.

Lemma count_true_map_filter {A} (f : A -> bool) l : count_true (map f l) = length (filter f l).
Proof. induction l as [|a l IH]; cbn; [reflexivity|]. rewrite IH. now destruct (f a). Qed.

(* the Prop-level reading of [prop_eval] at the four node kinds (so the spec is visibly the textbook one) *)

Lemma prop_eval_negate e k n cs :
  prop_eval e (Node k (negb n) cs) = negb (prop_eval e (Node k n cs)).
Proof. symmetry. apply negb_xorb_l. Qed.

Lemma prop_eval_and e cs :
  prop_eval e (Node KAnd false cs) = true <-> (forall c, In c cs -> prop_eval e c = true).
Proof. cbn [prop_eval]. unfold node_sem. now rewrite xorb_false_l, forallb_map, forallb_forall. Qed.

Lemma prop_eval_or e cs :
  prop_eval e (Node KOr false cs) = true <-> (exists c, In c cs /\ prop_eval e c = true).
Proof. cbn [prop_eval]. unfold node_sem. now rewrite xorb_false_l, existsb_map, existsb_exists. Qed.

Lemma prop_eval_justone e n cs : cs <> [] ->
  prop_eval e (Node KJustOne n cs) = xorb n (Nat.eqb (length (filter (prop_eval e) cs)) 1).
Proof.
  intros H. cbn [prop_eval]. unfold node_sem. rewrite count_true_map_filter.
  destruct cs; [congruence|reflexivity].
Qed.

Lemma prop_eval_atmostone e n cs :
  prop_eval e (Node KAtMostOne n cs) = xorb n (Nat.leb (length (filter (prop_eval e) cs)) 1).
Proof. cbn [prop_eval]. unfold node_sem. now rewrite count_true_map_filter. Qed.

Section Clauses.
  Variable e : env.

  Lemma eval_dnf_cons cl s : eval_dnf e (cl :: s) = forallb (eval e) cl || eval_dnf e s.
  Proof. reflexivity. Qed.
  Lemma eval_cnf_cons cl s : eval_cnf e (cl :: s) = existsb (eval e) cl && eval_cnf e s.
  Proof. reflexivity. Qed.

  Lemma eval_dnf_app a b : eval_dnf e (a ++ b) = eval_dnf e a || eval_dnf e b.
  Proof. apply existsb_app. Qed.
  Lemma eval_cnf_app a b : eval_cnf e (a ++ b) = eval_cnf e a && eval_cnf e b.
  Proof. apply forallb_app. Qed.

  Lemma eval_dnf_single cl : eval_dnf e [cl] = forallb (eval e) cl.
  Proof. apply orb_false_r. Qed.
  Lemma eval_cnf_single cl : eval_cnf e [cl] = existsb (eval e) cl.
  Proof. apply andb_true_r. Qed.

  Lemma eval_dnf_lit r : eval_dnf e [[r]] = eval e r.
  Proof. cbn. now rewrite andb_true_r, orb_false_r. Qed.
  Lemma eval_cnf_lit r : eval_cnf e [[r]] = eval e r.
  Proof. cbn. now rewrite orb_false_r, andb_true_r. Qed.

  (* the clause lists the negate branches build from Negate wrappers *)
  Lemma eval_dnf_negs cs : eval_dnf e (map (fun c => [Neg c]) cs) = negb (forallb (eval e) cs).
  Proof. induction cs as [|c cs IH]; [reflexivity|]. rewrite map_cons, eval_dnf_cons, IH. cbn. now destruct (eval e c). Qed.
  Lemma forallb_negs cs : forallb (eval e) (map Neg cs) = negb (existsb (eval e) cs).
  Proof. induction cs as [|c cs IH]; cbn; [reflexivity|]. rewrite IH. now destruct (eval e c). Qed.

  Lemma eval_dnf_prefix n b : eval_dnf e (map (fun n2 => n ++ n2) b) = forallb (eval e) n && eval_dnf e b.
  Proof.
    induction b as [|x b IH]; [now rewrite andb_false_r|].
    rewrite map_cons, !eval_dnf_cons, IH, forallb_app. now destruct (forallb (eval e) n).
  Qed.

  Lemma eval_dnf_cross a b : eval_dnf e (cross a b) = eval_dnf e a && eval_dnf e b.
  Proof.
    unfold cross. induction a as [|n a IH]; [reflexivity|].
    cbn [flat_map]. rewrite eval_dnf_app, eval_dnf_prefix, IH, eval_dnf_cons.
    now destruct (forallb (eval e) n), (eval_dnf e a), (eval_dnf e b).
  Qed.

  Lemma eval_dnf_product a others :
    eval_dnf e (product a others) = eval_dnf e a && forallb (eval_dnf e) others.
  Proof.
    revert a; induction others as [|o os IH]; intros a; cbn [product forallb].
    - now rewrite andb_true_r.
    - now rewrite eval_dnf_cross, IH.
  Qed.

  Lemma eval_cnf_suffix acc x :
    eval_cnf e (map (fun y => y ++ [x]) acc) = eval_cnf e acc || eval e x.
  Proof.
    induction acc as [|y acc IH]; [reflexivity|].
    rewrite map_cons, !eval_cnf_cons, IH, existsb_app. cbn [existsb].
    now destruct (existsb (eval e) y), (eval e x), (eval_cnf e acc).
  Qed.

  Lemma eval_cnf_distribute acc andreq :
    eval_cnf e (distribute acc andreq) = eval_cnf e acc || forallb (eval e) andreq.
  Proof.
    unfold distribute. induction andreq as [|x r IH]; cbn [flat_map forallb].
    - now rewrite orb_true_r.
    - rewrite eval_cnf_app, eval_cnf_suffix, IH.
      now destruct (eval_cnf e acc), (eval e x), (forallb (eval e) r).
  Qed.

  Lemma eval_cnf_fold cn : forall acc,
    eval_cnf e (fold_left distribute cn acc) = eval_cnf e acc || eval_dnf e cn.
  Proof.
    induction cn as [|a cn IH]; intros acc; cbn [fold_left].
    - now rewrite orb_false_r.
    - now rewrite IH, eval_cnf_distribute, eval_dnf_cons, orb_assoc.
  Qed.

  (* What a parent knows of a child paired with its recorded normal form.  [sem] reads a clause
     list, [v c] is what the normal form of a grouping child denotes; any other child stands for
     itself. *)
  Definition child_ok (sem : list clause -> bool) (v : restr -> bool) (cd : restr * nf) : Prop :=
    if has_nf (fst cd) then forall s, snd cd = inl s -> sem s = v (fst cd)
    else v (fst cd) = eval e (fst cd).

  Lemma child_ok_nf sem v c s : has_nf c = true -> child_ok sem v (c, inl s) -> sem s = v c.
  Proof. unfold child_ok. cbn [fst snd]. intros -> H. now apply H. Qed.
  Lemma child_ok_lit sem v c d : has_nf c = false -> child_ok sem v (c, d) -> v c = eval e c.
  Proof. unfold child_ok. cbn [fst snd]. now intros ->. Qed.

  Lemma children_ok sem v (f : restr -> nf) cs :
    (forall c, has_nf c = false -> v c = eval e c) ->
    Forall (fun c => forall s, f c = inl s -> sem s = v c) cs ->
    Forall (child_ok sem v) (map (fun c => (c, f c)) cs).
  Proof.
    intros Hv H. apply Forall_map. eapply Forall_impl; [|exact H].
    intros c Hc. unfold child_ok. cbn [fst snd]. destruct (has_nf c) eqn:E; auto.
  Qed.

  Section Loops.
    Variable v : restr -> bool.

    (* AndRestriction.iter_dnf_solutions *)
    Lemma and_dnf_loop_ok l : Forall (child_ok (eval_dnf e) v) l -> forall hard opts s,
      and_dnf_loop hard opts l = inl s ->
      eval_dnf e s = forallb (eval e) hard && forallb (eval_dnf e) opts && forallb (fun cd => v (fst cd)) l.
    Proof.
      induction 1 as [|[c d] l Hc _ IH]; intros hard opts s Hs; cbn [and_dnf_loop] in Hs.
      - injection Hs as <-. rewrite eval_dnf_product, eval_dnf_single. cbn. now rewrite andb_true_r.
      - cbn [forallb fst]. destruct (has_nf c) eqn:Hn.
        + destruct d as [[|cl [|cl2 s2]]|err]; try discriminate;
            rewrite (IH _ _ _ Hs), forallb_app, <- (child_ok_nf _ _ _ _ Hn Hc).
          * rewrite eval_dnf_single.
            now destruct (forallb (eval e) hard), (forallb (eval e) cl), (forallb (eval_dnf e) opts).
          * cbn [forallb]. now rewrite andb_true_r, <- !andb_assoc.
        + rewrite (IH _ _ _ Hs), forallb_app, (child_ok_lit _ _ _ _ Hn Hc). cbn [forallb].
          now destruct (forallb (eval e) hard), (eval e c), (forallb (eval_dnf e) opts).
    Qed.

    (* the `yield [x]` / `yield from x.iter_..._solutions()` loops, read as DNF and as CNF *)
    Lemma concat_nf_dnf_ok l : Forall (child_ok (eval_dnf e) v) l -> forall s,
      concat_nf l = inl s -> eval_dnf e s = existsb (fun cd => v (fst cd)) l.
    Proof.
      induction 1 as [|[c d] l Hc _ IH]; intros s Hs; cbn [concat_nf] in Hs.
      - now injection Hs as <-.
      - cbn [existsb fst]. destruct (has_nf c) eqn:Hn.
        + destruct d as [s1|]; [|discriminate]. destruct (concat_nf l) as [s'|]; [|discriminate].
          injection Hs as <-. now rewrite eval_dnf_app, (IH _ eq_refl), (child_ok_nf _ _ _ _ Hn Hc).
        + destruct (concat_nf l) as [s'|]; [|discriminate]. injection Hs as <-.
          cbn [app]. rewrite eval_dnf_cons, (IH _ eq_refl), (child_ok_lit _ _ _ _ Hn Hc). cbn. now rewrite andb_true_r.
    Qed.

    Lemma concat_nf_cnf_ok l : Forall (child_ok (eval_cnf e) v) l -> forall s,
      concat_nf l = inl s -> eval_cnf e s = forallb (fun cd => v (fst cd)) l.
    Proof.
      induction 1 as [|[c d] l Hc _ IH]; intros s Hs; cbn [concat_nf] in Hs.
      - now injection Hs as <-.
      - cbn [forallb fst]. destruct (has_nf c) eqn:Hn.
        + destruct d as [s1|]; [|discriminate]. destruct (concat_nf l) as [s'|]; [|discriminate].
          injection Hs as <-. now rewrite eval_cnf_app, (IH _ eq_refl), (child_ok_nf _ _ _ _ Hn Hc).
        + destruct (concat_nf l) as [s'|]; [|discriminate]. injection Hs as <-.
          cbn [app]. rewrite eval_cnf_cons, (IH _ eq_refl), (child_ok_lit _ _ _ _ Hn Hc). cbn. now rewrite orb_false_r.
    Qed.

    (* OrRestriction.cnf_solutions *)
    Lemma or_cnf_split_ok s2 : forall dc cn dc' cn',
      or_cnf_split dc cn s2 = (dc', cn') ->
      existsb (eval e) dc' || eval_dnf e cn' = existsb (eval e) dc || eval_dnf e cn || eval_dnf e s2.
    Proof.
      induction s2 as [|y r IH]; intros dc cn dc' cn' H; cbn [or_cnf_split] in H.
      - injection H as <- <-. now rewrite orb_false_r.
      - rewrite eval_dnf_cons. destruct y as [|x [|x2 y']]; rewrite (IH _ _ _ _ H).
        + rewrite eval_dnf_app, eval_dnf_single. now rewrite <- !orb_assoc.
        + rewrite existsb_app. cbn [existsb forallb]. rewrite orb_false_r, andb_true_r.
          now destruct (existsb (eval e) dc), (eval e x), (eval_dnf e cn).
        + rewrite eval_dnf_app, eval_dnf_single. now rewrite <- !orb_assoc.
    Qed.

    Lemma or_cnf_loop_ok l : Forall (child_ok (eval_dnf e) v) l -> forall dc cn s,
      or_cnf_loop dc cn l = inl s ->
      eval_cnf e s = existsb (eval e) dc || eval_dnf e cn || existsb (fun cd => v (fst cd)) l.
    Proof.
      induction 1 as [|[c d] l Hc _ IH]; intros dc cn s Hs; cbn [or_cnf_loop] in Hs.
      - injection Hs as <-. rewrite eval_cnf_fold, eval_cnf_single. cbn. now rewrite orb_false_r.
      - cbn [existsb fst]. destruct (has_nf c) eqn:Hn.
        + destruct d as [s2|err]; [|discriminate]. rewrite <- (child_ok_nf _ _ _ _ Hn Hc).
          (* a one-clause child joins [cn] whole; any other is split, which denotes the same *)
          assert (Hsplit : forall dc' cn', or_cnf_split dc cn s2 = (dc', cn') ->
                    or_cnf_loop dc' cn' l = inl s ->
                    eval_cnf e s = existsb (eval e) dc || eval_dnf e cn || (eval_dnf e s2 || existsb (fun cd => v (fst cd)) l)).
          { intros dc' cn' Hsp Hl. rewrite (IH _ _ _ Hl), (or_cnf_split_ok _ _ _ _ _ Hsp).
            now rewrite <- !orb_assoc. }
          destruct s2 as [|cl [|cl2 s2]].
          * exact (Hsplit dc cn eq_refl Hs).
          * rewrite (IH _ _ _ Hs), eval_dnf_app. now rewrite <- !orb_assoc.
          * destruct (or_cnf_split dc cn (cl :: cl2 :: s2)) as [dc' cn'] eqn:Hsp.
            exact (Hsplit dc' cn' eq_refl Hs).
        + rewrite (IH _ _ _ Hs), existsb_app, (child_ok_lit _ _ _ _ Hn Hc). cbn [existsb]. rewrite orb_false_r.
          now destruct (existsb (eval e) dc), (eval e c), (eval_dnf e cn).
    Qed.
  End Loops.
End Clauses.

(* The reading of dnf fse r under e, for every tree: the tree's own reading, except that an any-of
   without alternatives, and the negation of an all-of without members, read "true" (their normal
   form is [[]]).  Children of negated nodes and of JustOne/AtMostOne are literals. *)
Fixpoint dnf_val (fse : bool) (e : env) (r : restr) : bool :=
  match r with
  | Node k n cs =>
      let all := if n then is_nil cs || negb (forallb (eval e) cs) else forallb (dnf_val fse e) cs in
      match k with
      | KAnd => all
      | KAtom => if fse then all else eval e r
      | KOr => if n then negb (existsb (eval e) cs) else is_nil cs || existsb (dnf_val fse e) cs
      | _ => eval e r
      end
  | _ => eval e r
  end.

(* the same for cnf fse r, where it does not refuse *)
Fixpoint cnf_val (fse : bool) (e : env) (r : restr) : bool :=
  match r with
  | Node k false cs =>
      match k with
      | KAnd => forallb (cnf_val fse e) cs
      | KAtom => if fse then forallb (cnf_val fse e) cs else eval e r
      | KOr => is_nil cs || existsb (dnf_val fse e) cs
      | _ => eval e r
      end
  | _ => eval e r
  end.

Section Denote.
  Variable fse : bool.
  Variable e : env.

  Lemma dnf_val_lit r : has_nf r = false -> dnf_val fse e r = eval e r.
  Proof. now destruct r. Qed.
  Lemma cnf_val_lit r : has_nf r = false -> cnf_val fse e r = eval e r.
  Proof. now destruct r. Qed.

  Theorem dnf_val_correct r : forall s, dnf fse r = inl s -> eval_dnf e s = dnf_val fse e r.
  Proof.
    induction r as [| |r _|k n cs IH] using restr_ind'; intros s Hs;
      try (injection Hs as <-; apply eval_dnf_lit).
    pose proof (children_ok e _ _ (dnf fse) cs dnf_val_lit IH) as Hcs.
    assert (Hand : and_dnf n cs (map (fun c => (c, dnf fse c)) cs) = inl s ->
              eval_dnf e s = if n then is_nil cs || negb (forallb (eval e) cs)
                             else forallb (dnf_val fse e) cs).
    { unfold and_dnf. destruct n.
      - intros [= <-]. destruct cs; [reflexivity|]. apply eval_dnf_negs.
      - destruct cs as [|c cs]; [now intros [= <-]|]. intros H.
        now rewrite (and_dnf_loop_ok e _ _ Hcs _ _ _ H), forallb_map. }
    cbn [dnf] in Hs. cbn [dnf_val]. destruct k.
    - exact (Hand Hs).
    - unfold or_dnf in Hs. destruct n.
      + injection Hs as <-. rewrite eval_dnf_single. apply forallb_negs.
      + destruct cs as [|c cs]; [now injection Hs as <-|].
        now rewrite (concat_nf_dnf_ok e _ _ Hcs _ Hs), existsb_map.
    - injection Hs as <-. apply eval_dnf_lit.
    - injection Hs as <-. apply eval_dnf_lit.
    - destruct fse; [exact (Hand Hs)|]. injection Hs as <-. apply eval_dnf_lit.
  Qed.

  Theorem cnf_val_correct r : forall s, cnf fse r = inl s -> eval_cnf e s = cnf_val fse e r.
  Proof.
    induction r as [| |r _|k n cs IH] using restr_ind'; intros s Hs;
      try (injection Hs as <-; apply eval_cnf_lit).
    assert (Hand : and_cnf n (map (fun c => (c, cnf fse c)) cs) = inl s ->
              n = false /\ eval_cnf e s = forallb (cnf_val fse e) cs).
    { unfold and_cnf. destruct n; [discriminate|]. intros H. split; [reflexivity|].
      now rewrite (concat_nf_cnf_ok e _ _ (children_ok e _ _ _ cs cnf_val_lit IH) _ H), forallb_map. }
    cbn [cnf] in Hs. destruct k.
    - now destruct (Hand Hs) as [-> ->].
    - unfold or_cnf in Hs. destruct n; [discriminate|]. cbn [cnf_val].
      destruct cs as [|c cs]; [now injection Hs as <-|].
      assert (Hcs : Forall (child_ok e (eval_dnf e) (dnf_val fse e)) (map (fun c => (c, dnf fse c)) (c :: cs))).
      { apply children_ok; [exact dnf_val_lit|]. apply Forall_forall. intros c' _. apply dnf_val_correct. }
      now rewrite (or_cnf_loop_ok e _ _ Hcs _ _ _ Hs), existsb_map.
    - injection Hs as <-. rewrite eval_cnf_lit. now destruct n.
    - injection Hs as <-. rewrite eval_cnf_lit. now destruct n.
    - destruct fse.
      + now destruct (Hand Hs) as [-> ->].
      + injection Hs as <-. rewrite eval_cnf_lit. now destruct n.
  Qed.

  Lemma dnf_val_eval r : dnf_class fse r = false -> dnf_val fse e r = eval e r.
  Proof.
    induction r as [| |r _|k n cs IH] using restr_ind'; try reflexivity.
    rewrite Forall_forall in IH.
    assert (Hcs : existsb (dnf_class fse) cs = false -> forall c, In c cs -> dnf_val fse e c = eval e c).
    { intros H c Hc. apply (IH c Hc). exact (proj1 (existsb_false _ _) H c Hc). }
    assert (Hand : (if n then is_nil cs else existsb (dnf_class fse) cs) = false ->
              (if n then is_nil cs || negb (forallb (eval e) cs) else forallb (dnf_val fse e) cs)
              = and_loop n (map (eval e) cs)).
    { rewrite and_loop_map. destruct n; intros H; [now rewrite H|]. rewrite xorb_false_l. apply forallb_ext_in. auto. }
    destruct k; cbn [dnf_class dnf_val eval node_match]; try exact Hand; try easy.
    - rewrite or_loop_map. destruct n; [reflexivity|]. intros H. apply orb_false_iff in H as [-> H].
      rewrite xorb_false_l. apply existsb_ext_in. auto.
    - destruct fse; [exact Hand|easy].
  Qed.

  Lemma cnf_val_eval r : cnf_class fse r = false -> cnf_val fse e r = eval e r.
  Proof.
    induction r as [| |r _|k n cs IH] using restr_ind'; try reflexivity.
    destruct n; [now destruct k|]. rewrite Forall_forall in IH.
    assert (Hand : existsb (cnf_class fse) cs = false ->
              forallb (cnf_val fse e) cs = and_loop false (map (eval e) cs)).
    { rewrite and_loop_map, xorb_false_l. intros H. apply forallb_ext_in. intros c Hc.
      apply (IH c Hc). exact (proj1 (existsb_false _ _) H c Hc). }
    destruct k; cbn [cnf_class cnf_val eval node_match]; try exact Hand; try easy.
    - rewrite or_loop_map, xorb_false_l. intros H. apply orb_false_iff in H as [-> H]. apply existsb_ext_in.
      intros c Hc. apply dnf_val_eval. exact (proj1 (existsb_false _ _) H c Hc).
    - destruct fse; [exact Hand|easy].
  Qed.

  Lemma dnf_val_weaker r : eval e r = true -> dnf_val fse e r = true.
  Proof.
    induction r as [| |r _|k n cs IH] using restr_ind'; try easy.
    rewrite Forall_forall in IH.
    assert (Hand : and_loop n (map (eval e) cs) = true ->
              (if n then is_nil cs || negb (forallb (eval e) cs) else forallb (dnf_val fse e) cs) = true).
    { rewrite and_loop_map. destruct n; intros H.
      - rewrite xorb_true_l in H. rewrite H. apply orb_true_r.
      - rewrite xorb_false_l, forallb_forall in *. auto. }
    destruct k; cbn [dnf_val eval node_match]; try exact Hand; try easy.
    - rewrite or_loop_map. destruct n; [easy|]. rewrite xorb_false_l. intros H.
      apply existsb_exists in H as [c [Hc H]]. rewrite orb_true_iff, existsb_exists. eauto.
    - destruct fse; [exact Hand|easy].
  Qed.
End Denote.

Lemma dnf_complete e r s : dnf true r = inl s -> eval e r = true -> eval_dnf e s = true.
Proof. intros Hs H. rewrite (dnf_val_correct true e r s Hs). now apply dnf_val_weaker. Qed.

Lemma sem_dnf_eval e s : sem_dnf e s = eval_dnf e s.
Proof.
  apply existsb_ext_in. intros cl _. apply forallb_ext_in. intros r _. symmetry. apply eval_prop_eval.
Qed.
Lemma sem_cnf_eval e s : sem_cnf e s = eval_cnf e s.
Proof.
  apply forallb_ext_in. intros cl _. apply existsb_ext_in. intros r _. symmetry. apply eval_prop_eval.
Qed.

(* dnf_solutions never refuses and never returns the empty list (so `assert s2` is dead) *)
Definition nf_total (d : nf) : Prop := exists s, d = inl s /\ s <> [].
Definition child_total (cd : restr * nf) : Prop := nf_total (snd cd).

Lemma nf_total_inl s : s <> [] -> nf_total (inl s).
Proof. intros H. now exists s. Qed.

Lemma cross_nonempty a b : a <> [] -> b <> [] -> cross a b <> [].
Proof. destruct a as [|x a], b as [|y b]; cbn; congruence. Qed.
Lemma product_nonempty others : forall a, a <> [] -> Forall (fun o => o <> []) others -> product a others <> [].
Proof.
  induction others as [|o os IH]; intros a Ha Ho; cbn; [assumption|].
  inversion Ho; subst. apply cross_nonempty; auto.
Qed.

Lemma and_dnf_loop_total l : Forall child_total l -> forall hard opts,
  Forall (fun o => o <> []) opts -> nf_total (and_dnf_loop hard opts l).
Proof.
  induction 1 as [|[c d] l Hc _ IH]; intros hard opts Ho; cbn [and_dnf_loop].
  - apply nf_total_inl, product_nonempty; [congruence|assumption].
  - destruct Hc as [s2 [Hd Hne]]. cbn [snd] in Hd. subst d. destruct (has_nf c); [|now apply IH].
    destruct s2 as [|cl [|cl2 s2]]; [congruence|now apply IH|].
    apply IH, Forall_app. split; [assumption|]. constructor; [congruence|constructor].
Qed.

Lemma concat_nf_total l : l <> [] -> Forall child_total l -> nf_total (concat_nf l).
Proof.
  intros Hne H. induction H as [|[c d] l Hc _ IH]; [congruence|]. cbn [concat_nf].
  destruct Hc as [s2 [Hd Hne2]]. cbn [snd] in Hd. subst d.
  destruct l as [|x l].
  - cbn. destruct (has_nf c); apply nf_total_inl; rewrite app_nil_r; congruence.
  - destruct IH as [s' [-> _]]; [congruence|].
    destruct (has_nf c); apply nf_total_inl; intros H0; apply app_eq_nil in H0 as [H0 _]; congruence.
Qed.

Theorem dnf_total fse r : nf_total (dnf fse r).
Proof.
  induction r as [| |r _|k n cs IH] using restr_ind'; try (apply nf_total_inl; congruence).
  apply (Forall_map (fun c => (c, dnf fse c)) child_total) in IH.
  assert (Hand : nf_total (and_dnf n cs (map (fun c => (c, dnf fse c)) cs))).
  { unfold and_dnf. destruct n; [apply nf_total_inl; destruct cs; cbn; congruence|].
    destruct cs; [apply nf_total_inl; congruence|]. apply and_dnf_loop_total; auto. }
  cbn [dnf]. destruct k; try (apply nf_total_inl; congruence).
  - exact Hand.
  - unfold or_dnf. destruct n; [apply nf_total_inl; congruence|].
    destruct cs; [apply nf_total_inl; congruence|]. apply concat_nf_total; [cbn; congruence|assumption].
  - destruct fse; [exact Hand|apply nf_total_inl; congruence].
Qed.

(* cnf_solutions refuses only with NotImplementedError (the assert cannot fire either) *)
Lemma concat_nf_err l e : concat_nf l = inr e -> exists c, In (c, inr e) l.
Proof.
  induction l as [|[c d] l IH]; cbn [concat_nf]; [discriminate|]. intros H.
  destruct (has_nf c); [destruct d as [s|e']|].
  2: { injection H as ->. exists c. now left. }
  all: destruct (concat_nf l) as [s'|e'']; [discriminate|]; injection H as ->;
    destruct (IH eq_refl) as [c' Hin]; exists c'; now right.
Qed.

Lemma or_cnf_loop_total fse cs : forall dc cn,
  exists s, or_cnf_loop dc cn (map (fun c => (c, dnf fse c)) cs) = inl s.
Proof.
  induction cs as [|c cs IH]; intros dc cn; cbn [map or_cnf_loop]; [eexists; reflexivity|].
  destruct (has_nf c); [|apply IH].
  destruct (dnf_total fse c) as [s2 [-> Hne]].
  destruct s2 as [|cl [|cl2 s2]]; [congruence|apply IH|].
  destruct (or_cnf_split dc cn (cl :: cl2 :: s2)). apply IH.
Qed.

Theorem cnf_refusal fse r : forall e, cnf fse r = inr e -> e = ENotImpl.
Proof.
  induction r as [| |r _|k n cs IH] using restr_ind'; try discriminate. intros e.
  assert (Hand : and_cnf n (map (fun c => (c, cnf fse c)) cs) = inr e -> e = ENotImpl).
  { unfold and_cnf. destruct n; [congruence|]. intros H.
    apply concat_nf_err in H as [c Hin]. apply in_map_iff in Hin as [c' [[= -> Hd] Hin]].
    rewrite Forall_forall in IH. eauto. }
  cbn [cnf]. destruct k; try discriminate.
  - exact Hand.
  - unfold or_cnf. destruct n; [congruence|]. destruct cs as [|c cs]; [discriminate|].
    destruct (or_cnf_loop_total fse (c :: cs) [] []) as [s ->]. discriminate.
  - destruct fse; [exact Hand|discriminate].
Qed.

(* which restrictions occur in the clauses of dnf true r (fse = True is what the candidate search
   of repository queries asks for) *)
Fixpoint tree_lits (r : restr) : list restr :=
  match r with
  | Node (KAnd | KOr | KAtom) n cs => if n then map Neg cs else flat_map tree_lits cs
  | _ => [r]
  end.

Lemma cross_lits a b x : a <> [] -> b <> [] ->
  (In x (concat (cross a b)) <-> In x (concat a) \/ In x (concat b)).
Proof.
  intros Ha Hb. unfold cross. rewrite !in_concat. split.
  - intros [cl [Hcl Hx]]. apply in_flat_map in Hcl as [n [Hn Hcl]].
    apply in_map_iff in Hcl as [n2 [<- Hn2]]. apply in_app_iff in Hx as [Hx|Hx]; eauto.
  - destruct a as [|n a], b as [|n2 b]; try congruence.
    intros [[cl [Hcl Hx]]|[cl [Hcl Hx]]].
    + exists (cl ++ n2). rewrite in_flat_map, in_app_iff. split; [|now left].
      exists cl. split; [assumption|]. apply in_map. now left.
    + exists (n ++ cl). rewrite in_flat_map, in_app_iff. split; [|now right].
      exists n. split; [now left|]. now apply in_map.
Qed.

Lemma product_lits others : forall a x, a <> [] -> Forall (fun o => o <> []) others ->
  (In x (concat (product a others)) <-> In x (concat a) \/ In x (concat (concat others))).
Proof.
  induction others as [|o os IH]; intros a x Ha Ho; cbn [product].
  - cbn. tauto.
  - inversion Ho as [|? ? Hne Hos]; subst.
    rewrite cross_lits; [|assumption|now apply product_nonempty].
    rewrite (IH o x Hne Hos). cbn [concat]. rewrite concat_app, in_app_iff. tauto.
Qed.

Definition child_lits (cd : restr * nf) : list restr :=
  if has_nf (fst cd) then match snd cd with inl s => concat s | inr _ => [] end else [fst cd].

Lemma and_dnf_loop_lits l : Forall child_total l -> forall hard opts s,
  Forall (fun o => o <> []) opts -> and_dnf_loop hard opts l = inl s ->
  forall x, In x (concat s) <-> (In x hard \/ In x (concat (concat opts))) \/ In x (flat_map child_lits l).
Proof.
  induction 1 as [|[c d] l Hc _ IH]; intros hard opts s Ho Hs x; cbn [and_dnf_loop] in Hs.
  - injection Hs as <-. rewrite product_lits; [|congruence|assumption]. cbn. rewrite app_nil_r. tauto.
  - cbn [flat_map]. rewrite in_app_iff. unfold child_lits at 1. cbn [fst snd].
    destruct Hc as [s2 [Hd Hne]]. cbn [snd] in Hd. subst d.
    (* a literal joins the hard requirements, or a clause list the optionals: either way the
       accumulated literals grow by it *)
    assert (Hhard : forall cl, and_dnf_loop (hard ++ cl) opts l = inl s ->
              In x (concat s) <-> (In x hard \/ In x (concat (concat opts))) \/ In x cl \/ In x (flat_map child_lits l)).
    { intros cl H. rewrite (IH _ _ _ Ho H x), in_app_iff, <- or_assoc.
      apply or_iff_compat_r. rewrite !or_assoc. apply or_iff_compat_l, or_comm. }
    destruct (has_nf c); [|exact (Hhard [c] Hs)].
    destruct s2 as [|cl [|cl2 s2]]; [congruence| |].
    + cbn [concat]. rewrite app_nil_r. exact (Hhard cl Hs).
    + assert (Ho' : Forall (fun o => o <> []) (opts ++ [cl :: cl2 :: s2])).
      { apply Forall_app. split; [assumption|]. constructor; [congruence|constructor]. }
      rewrite (IH _ _ _ Ho' Hs x), !concat_app, in_app_iff. cbn [concat]. rewrite !app_nil_r.
      now rewrite <- !or_assoc.
Qed.

Lemma concat_nf_lits l : forall s, concat_nf l = inl s -> concat s = flat_map child_lits l.
Proof.
  induction l as [|[c d] l IH]; intros s Hs; cbn [concat_nf] in Hs.
  - now injection Hs as <-.
  - cbn [flat_map]. unfold child_lits at 1. cbn [fst snd]. destruct (has_nf c).
    + destruct d as [s1|]; [|discriminate]. destruct (concat_nf l) as [s'|]; [|discriminate].
      injection Hs as <-. now rewrite concat_app, (IH _ eq_refl).
    + destruct (concat_nf l) as [s'|]; [|discriminate]. injection Hs as <-.
      cbn. now rewrite (IH _ eq_refl).
Qed.

Theorem dnf_lits r : forall s, dnf true r = inl s -> forall x, In x (concat s) <-> In x (tree_lits r).
Proof.
  induction r as [| |r _|k n cs IH] using restr_ind'; intros s Hs x;
    try (injection Hs as <-; reflexivity).
  assert (Hcs : In x (flat_map child_lits (map (fun c => (c, dnf true c)) cs)) <-> In x (flat_map tree_lits cs)).
  { clear Hs. induction IH as [|c cs Hc _ IHcs]; [reflexivity|]. cbn [map flat_map].
    rewrite !in_app_iff, IHcs. unfold child_lits. cbn [fst snd].
    destruct (dnf_total true c) as [sc [Hsc _]]. rewrite Hsc.
    destruct (has_nf c) eqn:E; [now rewrite (Hc sc Hsc x)|]. now destruct c. }
  assert (Htot : Forall child_total (map (fun c => (c, dnf true c)) cs)).
  { apply Forall_map, Forall_forall. intros c _. apply dnf_total. }
  assert (Hand : and_dnf n cs (map (fun c => (c, dnf true c)) cs) = inl s ->
            In x (concat s) <-> In x (if n then map Neg cs else flat_map tree_lits cs)).
  { unfold and_dnf. destruct n.
    - intros [= <-]. destruct cs as [|c cs]; [cbn; tauto|]. generalize (c :: cs). intros l.
      induction l as [|a l IHl]; [reflexivity|]. cbn in *. now rewrite IHl.
    - destruct cs as [|c cs]; [intros [= <-]; cbn; tauto|]. intros H.
      rewrite (and_dnf_loop_lits _ Htot _ _ _ (Forall_nil _) H x), Hcs. cbn. tauto. }
  cbn [dnf] in Hs. cbn [tree_lits]. destruct k; try (injection Hs as <-; reflexivity); try exact (Hand Hs).
  unfold or_dnf in Hs. destruct n.
  - injection Hs as <-. cbn. now rewrite app_nil_r.
  - destruct cs as [|c cs]; [injection Hs as <-; cbn; tauto|].
    now rewrite (concat_nf_lits _ _ Hs).
Qed.

Definition is_literal (r : restr) : bool :=
  match r with Node (KAnd | KOr | KAtom) _ _ => false | _ => true end.

Lemma tree_lits_shape r : forall x, In x (tree_lits r) -> is_literal x = true.
Proof.
  induction r as [| |r _|k n cs IH] using restr_ind'; try (now intros x [<-|[]]).
  rewrite Forall_forall in IH. intros x Hx.
  assert (Hgrp : In x (if n then map Neg cs else flat_map tree_lits cs) -> is_literal x = true).
  { destruct n; intros H.
    - now apply in_map_iff in H as [c [<- _]].
    - apply in_flat_map in H as [c [Hc Hx']]. exact (IH c Hc x Hx'). }
  destruct k; cbn [tree_lits] in Hx; try exact (Hgrp Hx); now destruct Hx as [<-|[]].
Qed.

Definition dnf_equiv_full : Prop :=
  forall fse r s, dnf fse r = inl s -> forall e, eval_dnf e s = eval e r.
Definition cnf_equiv_full : Prop :=
  forall fse r s, cnf fse r = inl s -> forall e, eval_cnf e s = eval e r.

(* beside the empty any-of (Prop_C06): the negated empty all-of *)
Lemma dnf_equiv_refuted_nand_proof :
  exists s, dnf false (Node KAnd true []) = inl s /\
            forall e, eval_dnf e s = true /\ eval e (Node KAnd true []) = false.
Proof. exists [[]]. split; [reflexivity|]. intros e. split; reflexivity. Qed.

(* the model evaluated: a tree outside both classes with its DNF and its refused CNF, the CNF of
   an any-of, a truth table of `match` *)
Definition ex_tree : restr :=
  Node KAnd false
    [Leaf false 0; Node KOr false [Leaf false 1; Node KAnd false [Leaf true 2; Leaf false 3]];
     Node KOr true [Leaf false 1; Leaf false 2]; Node KJustOne false [Leaf false 0; Leaf false 3];
     Neg (Node KAtMostOne true [Leaf false 1; Leaf false 2; Leaf false 3])].

Example ex_tree_outside_class : dnf_class false ex_tree = false /\ cnf_class false ex_tree = false.
Proof. split; reflexivity. Qed.
Example ex_tree_dnf :
  dnf false ex_tree =
  inl [[Leaf false 0; Neg (Leaf false 1); Neg (Leaf false 2); Node KJustOne false [Leaf false 0; Leaf false 3];
        Neg (Node KAtMostOne true [Leaf false 1; Leaf false 2; Leaf false 3]); Leaf false 1];
       [Leaf false 0; Neg (Leaf false 1); Neg (Leaf false 2); Node KJustOne false [Leaf false 0; Leaf false 3];
        Neg (Node KAtMostOne true [Leaf false 1; Leaf false 2; Leaf false 3]); Leaf true 2; Leaf false 3]].
Proof. reflexivity. Qed.
Example ex_tree_cnf_refused : cnf false ex_tree = inr ENotImpl.
Proof. reflexivity. Qed.
Example ex_or_cnf :
  cnf false (Node KOr false [Leaf false 0; Node KAnd false [Leaf false 1; Leaf false 2];
                             Node KAnd true [Leaf false 3; Leaf false 4]]) =
  inl [[Leaf false 0; Neg (Leaf false 3); Neg (Leaf false 4); Leaf false 1];
       [Leaf false 0; Neg (Leaf false 3); Neg (Leaf false 4); Leaf false 2]].
Proof. reflexivity. Qed.
Example ex_match_truth_table :
  map (fun m => eval (env_of_mask m) (Node KJustOne true [Leaf false 0; Leaf true 1; Always false])) [0;1;2;3]%N
  = [false; true; true; false].
Proof. reflexivity. Qed.
