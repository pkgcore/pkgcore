(* Proofs_C38.v — tokens, the comment regex and line splitting on code-point lists; with_keywords; expand. *)
From Coq Require Import List ZArith Bool Lia.
Import ListNotations.
From Verif Require Import Base.Val Base.Lists C38.Model_C38 C38.Spec_C38.
Local Open Scope N_scope.

Lemma concat_splitlines t : concat (splitlines t) = t.
Proof.
  induction t as [|c t IH]; cbn [splitlines]; [reflexivity|].
  destruct (ends_line c t).
  - cbn. now rewrite IH.
  - destruct (splitlines t) as [|l r] eqn:E; cbn in *; now rewrite <- IH.
Qed.

Lemma rstrip_crlf_prefix s : rstrip_crlf s ++ skipn (length (rstrip_crlf s)) s = s.
Proof.
  induction s as [|c s IH]; [reflexivity|].
  cbn [rstrip_crlf]. destruct (all_crlf (c :: s)); cbn; [reflexivity|].
  now rewrite IH.
Qed.

Section Parse.
Variable aof : str -> option str.

Lemma parse_line_raw_eol n line e :
  parse_line aof n line = Ok e -> raw e ++ eol e = line /\ lineno e = n.
Proof.
  unfold parse_line. destruct (split_comment (rstrip_crlf line)) as [[pre sep] cmt].
  destruct (tokens pre) as [|t ks].
  - intros [= <-]; cbn. split; [apply rstrip_crlf_prefix|reflexivity].
  - destruct (aof t); [|discriminate]. intros [= <-]; cbn.
    split; [apply rstrip_crlf_prefix|reflexivity].
Qed.

Lemma parse_lines_render n ls es :
  parse_lines aof n ls = Ok es -> render es = concat ls.
Proof.
  revert n es; induction ls as [|l r IH]; intros n es; cbn [parse_lines].
  - intros [= <-]; reflexivity.
  - destruct (parse_line aof n l) as [e|] eqn:E; [|discriminate].
    destruct (parse_lines aof (n + 1) r) as [es'|] eqn:E'; [|discriminate].
    intros [= <-]. unfold render in *; cbn.
    apply parse_line_raw_eol in E as [-> _]. now rewrite (IH _ _ E').
Qed.

End Parse.

Lemma isspace_not_hash c : isspace c = true -> (c =? HASH) = false.
Proof. intro H. destruct (N.eqb_spec c HASH) as [->|]; [discriminate H | reflexivity]. Qed.
Lemma crlf_is_lb c : is_crlf c = true -> is_lb c = true.
Proof.
  unfold is_crlf. intros H. apply orb_true_iff in H as [H|H]; apply N.eqb_eq in H; subst; reflexivity.
Qed.
Lemma lb_isspace c : is_lb c = true -> isspace c = true.
Proof.
  unfold is_lb, isspace. intros H.
  repeat (apply orb_true_iff in H as [H|H]); try (apply N.eqb_eq in H; subst; reflexivity);
    apply andb_true_iff in H as [H1 H2]; apply N.leb_le in H1, H2.
  - replace (9 <=? c) with true by (symmetry; apply N.leb_le, (N.le_trans _ 10); easy).
    apply N.leb_le in H2. now rewrite H2.
  - replace (c <=? 32) with true by (symmetry; apply N.leb_le, (N.le_trans _ 30); easy).
    apply N.leb_le in H1. rewrite H1. cbn [andb]. now rewrite orb_true_r.
Qed.
(* above U+3000 no test of the class succeeds *)
Lemma isspace_bounded c : isspace c = true -> c < 12544.
Proof.
  intro H. destruct (N.lt_ge_cases c 12544) as [L|G]; [exact L|]. exfalso.
  assert (Le : forall a, a < 12544 -> (c <=? a) = false).
  { intros a Ha. apply N.leb_gt. exact (N.lt_le_trans _ _ _ Ha G). }
  assert (Eq : forall a, a < 12544 -> (c =? a) = false).
  { intros a Ha. apply N.eqb_neq. intros ->. exact (N.lt_irrefl _ (N.lt_le_trans _ _ _ Ha G)). }
  unfold isspace in H. rewrite !Le, !Eq, !andb_false_r in H by reflexivity. discriminate H.
Qed.
Lemma is_lb_bounded c : is_lb c = true -> c < 12544.
Proof. intro H. apply isspace_bounded, lb_isspace, H. Qed.
Definition all_nws (s : str) : bool := forallb notspace s.

Lemma tokens_ws_cons c s : isspace c = true -> tokens (c :: s) = tokens s.
Proof. intros H; cbn. now rewrite H. Qed.
Lemma tokens_ws_app w s : all_ws w = true -> tokens (w ++ s) = tokens s.
Proof.
  induction w as [|c w IH]; cbn [app]; [reflexivity|]. intros H.
  cbn in H. apply andb_true_iff in H as [Hc Hw]. rewrite tokens_ws_cons by assumption. auto.
Qed.
Lemma all_ws_tokens w : all_ws w = true -> tokens w = [].
Proof. intros H. rewrite <- (app_nil_r w). now rewrite tokens_ws_app. Qed.
Lemma all_ws_hd w : all_ws w = true -> w = [] \/ hd_ws w = true.
Proof. destruct w as [|c w]; [now left|]. cbn. intros H. apply andb_true_iff in H as [H _]. now right. Qed.

Lemma tokens_cons2 a b s :
  tokens (a :: b :: s) =
  if isspace a then tokens (b :: s)
  else if isspace b then [a] :: tokens (b :: s)
       else match tokens (b :: s) with t :: r => (a :: t) :: r | [] => [[a]] end.
Proof. reflexivity. Qed.

Lemma tokens_nonempty d s : isspace d = false -> tokens (d :: s) <> [].
Proof.
  intros Hd. destruct s as [|e s]; [cbn; rewrite Hd; discriminate|].
  rewrite tokens_cons2, Hd. destruct (isspace e); [discriminate|].
  destruct (tokens (e :: s)); discriminate.
Qed.
Lemma tokens_tok t : t <> [] -> all_nws t = true -> tokens t = [t].
Proof.
  induction t as [|a t IH]; [congruence|]. intros _ H.
  cbn in H. apply andb_true_iff in H as [Ha Ht]. apply negb_true_iff in Ha.
  destruct t as [|b t].
  - cbn. now rewrite Ha.
  - assert (Hb : isspace b = false).
    { cbn in Ht. apply andb_true_iff in Ht as [Hb _]. now apply negb_true_iff in Hb. }
    rewrite tokens_cons2, Ha, Hb. rewrite IH; [reflexivity|discriminate|assumption].
Qed.

Lemma last_ws_cons c x : x <> [] -> last_ws (c :: x) = last_ws x.
Proof.
  intros Hx. unfold last_ws. cbn [rev]. destruct (rev x) as [|d r] eqn:E.
  - exfalso. apply Hx. apply (f_equal (@rev N)) in E. now rewrite rev_involutive in E.
  - reflexivity.
Qed.
Lemma tokens_app_sep a b :
  last_ws a = true \/ hd_ws b = true \/ b = [] -> tokens (a ++ b) = tokens a ++ tokens b.
Proof.
  induction a as [|c a IH]; intros H; [reflexivity|].
  destruct a as [|d a].
  - cbn [app]. destruct (isspace c) eqn:Ec.
    + now rewrite !tokens_ws_cons by assumption.
    + destruct H as [H|[H|H]].
      * unfold last_ws in H; cbn in H. congruence.
      * destruct b as [|e b]; [discriminate|]. cbn in H.
        rewrite tokens_cons2, Ec, H. cbn. now rewrite Ec.
      * subst b. now rewrite app_nil_r.
  - assert (H' : last_ws (d :: a) = true \/ hd_ws b = true \/ b = []).
    { destruct H as [H|H]; [left|right; assumption]. now rewrite last_ws_cons in H by discriminate. }
    specialize (IH H'). change ((c :: d :: a) ++ b) with (c :: d :: (a ++ b)).
    rewrite !tokens_cons2. change (d :: a ++ b) with ((d :: a) ++ b). rewrite IH.
    destruct (isspace c); [reflexivity|]. destruct (isspace d) eqn:Ed; [reflexivity|].
    destruct (tokens (d :: a)) as [|t r] eqn:Et; [|reflexivity].
    exfalso. now apply (tokens_nonempty d a Ed).
Qed.

Lemma tokens_tok_ws t c s :
  t <> [] -> all_nws t = true -> isspace c = true -> tokens (t ++ c :: s) = t :: tokens s.
Proof.
  intros Hn Ht Hc. rewrite tokens_app_sep by (right; left; exact Hc).
  now rewrite tokens_tok, tokens_ws_cons.
Qed.
Lemma tokens_app_ws s w : all_ws w = true -> tokens (s ++ w) = tokens s.
Proof.
  intros Hw. rewrite tokens_app_sep; [now rewrite (all_ws_tokens w Hw), app_nil_r|].
  right. destruct (all_ws_hd w Hw); auto.
Qed.

Lemma span_spec p s a b : span p s = (a, b) ->
  s = a ++ b /\ forallb p a = true /\ (match b with [] => True | c :: _ => p c = false end).
Proof.
  revert a b; induction s as [|c s IH]; intros a b; cbn.
  - intros [= <- <-]; auto.
  - destruct (p c) eqn:E.
    + destruct (span p s) as [a' b'] eqn:E'. intros [= <- <-].
      destruct (IH _ _ eq_refl) as (-> & H1 & H2). cbn. rewrite E. auto.
    + intros [= <- <-]. cbn. rewrite E. auto.
Qed.

Lemma tokens_decomp s w0 r0 t0 r1 :
  span isspace s = (w0, r0) -> span notspace r0 = (t0, r1) ->
  s = w0 ++ t0 ++ r1 /\ all_ws w0 = true /\ all_nws t0 = true /\
  (match r1 with [] => True | c :: _ => isspace c = true end) /\
  tokens s = (if null t0 then [] else t0 :: tokens r1) /\ (t0 = [] -> r1 = []).
Proof.
  intros H0 H1. apply span_spec in H0 as (-> & Hw0 & Hr0). apply span_spec in H1 as (-> & Ht0 & Hr1).
  repeat split; auto.
  - destruct r1; [trivial|]. unfold notspace in Hr1. now apply negb_false_iff in Hr1.
  - rewrite tokens_ws_app by assumption. destruct t0 as [|a t0].
    + cbn. destruct r1 as [|c r1]; [reflexivity|]. exfalso.
      cbn in Hr0. unfold notspace in Hr1. apply negb_false_iff in Hr1. congruence.
    + cbn [null]. destruct r1 as [|c r1].
      * rewrite app_nil_r. apply tokens_tok; [discriminate|assumption].
      * unfold notspace in Hr1. apply negb_false_iff in Hr1.
        rewrite tokens_tok_ws by (try discriminate; assumption).
        now rewrite tokens_ws_cons.
  - intros ->. destruct r1 as [|c r1]; [reflexivity|]. exfalso.
    cbn in Hr0. unfold notspace in Hr1. apply negb_false_iff in Hr1. congruence.
Qed.

Lemma rstrip_trail s : s = rstrip_ws s ++ trail_ws s.
Proof.
  induction s as [|c s IH]; [reflexivity|]. cbn [rstrip_ws trail_ws].
  destruct (all_ws (c :: s)); [reflexivity|]. cbn. now rewrite <- IH.
Qed.
Lemma trail_ws_all_ws s : all_ws (trail_ws s) = true.
Proof.
  induction s as [|c s IH]; [reflexivity|]. cbn [trail_ws].
  destruct (all_ws (c :: s)) eqn:E; assumption.
Qed.
Lemma trail_ws_app_ws a w : all_ws w = true -> trail_ws (a ++ w) = trail_ws a ++ w.
Proof.
  intros Hw. induction a as [|c a IH]; cbn [app].
  - destruct w as [|d w]; [reflexivity|]. cbn [trail_ws]. now rewrite Hw.
  - cbn [trail_ws]. unfold all_ws in *. cbn [forallb]. rewrite forallb_app, Hw, andb_true_r.
    destruct (isspace c && forallb isspace a); [reflexivity|assumption].
Qed.
Lemma trail_ws_app_nws a b : all_ws b = false -> trail_ws (a ++ b) = trail_ws b.
Proof.
  intros Hb. induction a as [|c a IH]; cbn [app]; [reflexivity|].
  cbn [trail_ws]. unfold all_ws in *. cbn [forallb]. rewrite forallb_app, Hb, andb_false_r, andb_false_r.
  assumption.
Qed.
Lemma rstrip_ws_nil s : rstrip_ws s = [] -> all_ws s = true.
Proof. destruct s as [|c s]; [reflexivity|]. cbn [rstrip_ws]. destruct (all_ws (c :: s)); [reflexivity|discriminate]. Qed.
Lemma tokens_rstrip s : tokens (rstrip_ws s) = tokens s.
Proof. rewrite (rstrip_trail s) at 2. now rewrite tokens_app_ws by apply trail_ws_all_ws. Qed.

Lemma last_ws_rstrip s : last_ws (rstrip_ws s) = false.
Proof.
  induction s as [|c s IH]; [reflexivity|]. cbn [rstrip_ws].
  destruct (all_ws (c :: s)) eqn:E; [reflexivity|].
  destruct (rstrip_ws s) as [|d r] eqn:E'.
  - apply rstrip_ws_nil in E'. cbn in E. unfold all_ws in E'. rewrite E', andb_true_r in E.
    unfold last_ws; cbn. assumption.
  - rewrite last_ws_cons by discriminate. assumption.
Qed.
Lemma last_ws_app a b : b <> [] -> last_ws (a ++ b) = last_ws b.
Proof.
  intros Hb. induction a as [|c a IH]; [reflexivity|]. cbn [app].
  rewrite last_ws_cons; [assumption|]. destruct a; cbn; [assumption|discriminate].
Qed.

Lemma trail_ws_tok t : all_nws t = true -> trail_ws t = [].
Proof.
  induction t as [|a t IH]; [reflexivity|]. intros H. cbn in H. apply andb_true_iff in H as [Ha Ht].
  unfold notspace in Ha. apply negb_true_iff in Ha. cbn [trail_ws all_ws forallb]. rewrite Ha. cbn. auto.
Qed.
Lemma rstrip_ws_id t : trail_ws t = [] -> rstrip_ws t = t.
Proof. intros H. rewrite (rstrip_trail t) at 2. now rewrite H, app_nil_r. Qed.
Lemma last_ws_tok t : all_nws t = true -> last_ws t = false.
Proof. intros H. rewrite <- (rstrip_ws_id t) by now apply trail_ws_tok. apply last_ws_rstrip. Qed.
Lemma last_ws_all_ws w : w <> [] -> all_ws w = true -> last_ws w = true.
Proof.
  induction w as [|c w IH]; [congruence|]. intros _ H. cbn in H. apply andb_true_iff in H as [Hc Hw].
  destruct w as [|d w]; [unfold last_ws; cbn; exact Hc|].
  rewrite last_ws_cons by discriminate. apply IH; [discriminate|exact Hw].
Qed.
Lemma hd_ws_rstrip s : hd_ws s = false -> hd_ws (rstrip_ws s) = false.
Proof. destruct s as [|c s]; [reflexivity|]. cbn [rstrip_ws]. destruct (all_ws (c :: s)); [reflexivity|]. auto. Qed.

Lemma last_ws_trail s : last_ws s = false -> trail_ws s = [].
Proof.
  intros H. pose proof (rstrip_trail s) as E. pose proof (trail_ws_all_ws s) as W.
  destruct (trail_ws s) as [|c w] eqn:Et; [reflexivity|]. exfalso.
  rewrite E, last_ws_app in H by discriminate. rewrite last_ws_all_ws in H; [discriminate|discriminate|exact W].
Qed.
Lemma tokens_nil_all_ws s : tokens s = [] -> all_ws s = true.
Proof.
  induction s as [|c s IH]; [reflexivity|]. intros H. cbn [all_ws forallb].
  destruct (isspace c) eqn:E.
  - rewrite tokens_ws_cons in H by assumption. cbn. now apply IH.
  - exfalso. now apply (tokens_nonempty c s E).
Qed.

(* no '#' at a position where a comment may start; pw = the previous character is whitespace
   (or we are at the start of the string) *)
Fixpoint nohash_after (pw : bool) (x : str) : bool :=
  match x with
  | [] => true
  | c :: x' => negb (pw && (c =? HASH)) && nohash_after (isspace c) x'
  end.
Fixpoint ends_ws (pw : bool) (x : str) : bool :=
  match x with [] => pw | c :: x' => ends_ws (isspace c) x' end.

Lemma nohash_app pw x y :
  nohash_after pw (x ++ y) = nohash_after pw x && nohash_after (ends_ws pw x) y.
Proof.
  revert pw; induction x as [|c x IH]; intros pw; cbn; [reflexivity|].
  now rewrite IH, andb_assoc.
Qed.
Lemma nohash_mono b x : nohash_after true x = true -> nohash_after b x = true.
Proof. destruct x as [|c x]; [reflexivity|]. destruct b; cbn; [auto|]. intros H. apply andb_true_iff in H as [_ H]. exact H. Qed.
Lemma nohash_app_true b x y :
  nohash_after b x = true -> nohash_after true y = true -> nohash_after b (x ++ y) = true.
Proof. intros Hx Hy. rewrite nohash_app, Hx. cbn. now apply nohash_mono. Qed.
Lemma nohash_all_ws b w : all_ws w = true -> nohash_after b w = true.
Proof.
  revert b; induction w as [|c w IH]; intros b H; [reflexivity|].
  cbn in H. apply andb_true_iff in H as [Hc Hw]. cbn. rewrite (isspace_not_hash c Hc), andb_false_r. cbn. auto.
Qed.
Lemma ends_ws_all_ws w : all_ws w = true -> ends_ws true w = true.
Proof.
  assert (G : forall b, b = true -> all_ws w = true -> ends_ws b w = true).
  { induction w as [|c w IH]; intros b Hb H; [exact Hb|]. cbn in H. apply andb_true_iff in H as [Hc Hw].
    cbn. apply IH; assumption. }
  intros H. now apply G.
Qed.

Lemma nohash_nws k : all_nws k = true -> nohash_after false k = true.
Proof.
  induction k as [|c k IH]; [reflexivity|]. intros H. cbn in H. apply andb_true_iff in H as [Hc Hk].
  unfold notspace in Hc. apply negb_true_iff in Hc. cbn. rewrite Hc. auto.
Qed.
Lemma wf_tok_parts k : wf_tok k ->
  k <> [] /\ all_nws k = true /\ hd_is HASH k = false.
Proof.
  unfold wf_tok, wf_tokb. intros H. apply andb_true_iff in H as [H H3]. apply andb_true_iff in H as [H1 H2].
  repeat split; auto.
  - destruct k; [discriminate|discriminate].
  - now apply negb_true_iff in H3.
Qed.
Lemma nohash_tok k : wf_tok k -> nohash_after true k = true.
Proof.
  intros H. apply wf_tok_parts in H as (Hn & Hw & Hh). destruct k as [|c k]; [reflexivity|].
  cbn in Hh. cbn. rewrite Hh. cbn. cbn in Hw. apply andb_true_iff in Hw as [Hc Hk].
  unfold notspace in Hc. apply negb_true_iff in Hc. rewrite Hc. now apply nohash_nws.
Qed.
Lemma nohash_join ks : Forall wf_tok ks -> nohash_after true (join [SP] ks) = true.
Proof.
  induction 1 as [|k ks Hk Hks IH]; [reflexivity|].
  destruct ks as [|k2 ks]; [now apply nohash_tok|].
  change (join [SP] (k :: k2 :: ks)) with (k ++ [SP] ++ join [SP] (k2 :: ks)).
  apply nohash_app_true; [now apply nohash_tok|]. apply nohash_app_true; [reflexivity|exact IH].
Qed.
Lemma tokens_join ks : Forall wf_tok ks -> tokens (join [SP] ks) = ks.
Proof.
  induction 1 as [|k ks Hk Hks IH]; [reflexivity|].
  apply wf_tok_parts in Hk as (Hn & Hw & _).
  destruct ks as [|k2 ks]; [now apply tokens_tok|].
  change (join [SP] (k :: k2 :: ks)) with (k ++ SP :: join [SP] (k2 :: ks)).
  rewrite tokens_tok_ws by (try reflexivity; assumption). now rewrite IH.
Qed.

Lemma split_ws_hash_none x : split_ws_hash x = None -> nohash_after false x = true.
Proof.
  induction x as [|c x IH]; [reflexivity|]. cbn [split_ws_hash].
  destruct (isspace c && hd_is HASH x) eqn:E; [discriminate|].
  destruct (split_ws_hash x) as [[[p w] r]|] eqn:E'; [discriminate|]. intros _.
  specialize (IH eq_refl). cbn. destruct (isspace c) eqn:Ec; [|exact IH].
  cbn in E. destruct x as [|d x]; [reflexivity|]. cbn in E. cbn. rewrite E. cbn. exact IH.
Qed.
Lemma split_ws_hash_some x p w r : split_ws_hash x = Some (p, w, r) ->
  x = p ++ w :: r /\ isspace w = true /\ hd_is HASH r = true /\ nohash_after false p = true.
Proof.
  revert p; induction x as [|c x IH]; intros p; [discriminate|]. cbn [split_ws_hash].
  destruct (isspace c && hd_is HASH x) eqn:E.
  - intros [= <- <- <-]. apply andb_true_iff in E as [E1 E2]. auto.
  - destruct (split_ws_hash x) as [[[p' w'] r']|] eqn:E'; [|discriminate].
    intros [= <- <- <-]. destruct (IH _ eq_refl) as (-> & Hw & Hr & Hp). repeat split; auto.
    cbn. destruct (isspace c) eqn:Ec; [|exact Hp]. cbn in E.
    destruct p' as [|d p']; [reflexivity|]. cbn in E. cbn. rewrite E. exact Hp.
Qed.

Lemma split_comment_spec s pre sep cmt : split_comment s = (pre, sep, cmt) ->
  s = pre ++ sep ++ cmt /\ nohash_after true pre = true /\ all_ws sep = true /\
  ((sep = [] /\ cmt = []) \/
   (hd_is HASH cmt = true /\ ((sep = [] /\ pre = []) \/ exists w, sep = [w] /\ isspace w = true))).
Proof.
  unfold split_comment. destruct (hd_is HASH s) eqn:Eh.
  - intros [= <- <- <-]. repeat (split; [reflexivity|]). right. split; [exact Eh|]. left. auto.
  - destruct (split_ws_hash s) as [[[p w] r]|] eqn:E.
    + intros [= <- <- <-]. apply split_ws_hash_some in E as (-> & Hw & Hr & Hp).
      split; [reflexivity|]. split; [|split].
      * destruct p as [|c p]; [reflexivity|]. cbn in Eh. cbn. rewrite Eh. exact Hp.
      * cbn. now rewrite Hw.
      * right. split; [exact Hr|]. right. exists w. auto.
    + intros [= <- <- <-]. rewrite app_nil_r. split; [reflexivity|]. split; [|split; [reflexivity | left; auto]].
      apply split_ws_hash_none in E. destruct s as [|c s]; [reflexivity|].
      cbn in Eh. cbn. rewrite Eh. exact E.
Qed.

Lemma nohash_true_hd x : nohash_after true x = true -> hd_is HASH x = false.
Proof. destruct x as [|c x]; [reflexivity|]. cbn. intros H. apply andb_true_iff in H as [H _]. now apply negb_true_iff in H. Qed.
Lemma nohash_false_none x : nohash_after false x = true -> split_ws_hash x = None.
Proof.
  induction x as [|c x IH]; [reflexivity|]. cbn. intros H.
  assert (E : isspace c && hd_is HASH x = false).
  { destruct (isspace c); [|reflexivity]. cbn. now apply nohash_true_hd. }
  rewrite E. rewrite IH; [reflexivity|]. destruct (isspace c); [now apply nohash_mono|exact H].
Qed.
Lemma split_comment_none x : nohash_after true x = true -> split_comment x = (x, [], []).
Proof.
  intros H. unfold split_comment. rewrite (nohash_true_hd _ H).
  rewrite nohash_false_none; [reflexivity|now apply nohash_mono].
Qed.
Lemma split_ws_hash_app x w cmt :
  nohash_after false x = true -> isspace w = true -> hd_is HASH cmt = true ->
  split_ws_hash (x ++ w :: cmt) = Some (x, w, cmt).
Proof.
  intros Hx Hw Hc. induction x as [|c x IH]; cbn [app split_ws_hash].
  - now rewrite Hw, Hc.
  - cbn in Hx.
    assert (E : isspace c && hd_is HASH (x ++ w :: cmt) = false).
    { destruct (isspace c); [|reflexivity]. cbn. destruct x as [|d x]; cbn.
      - now apply isspace_not_hash.
      - cbn in Hx. apply andb_true_iff in Hx as [Hx _]. now apply negb_true_iff in Hx. }
    rewrite E. rewrite IH; [reflexivity|]. destruct (isspace c); [now apply nohash_mono|exact Hx].
Qed.
Lemma split_comment_app x w cmt :
  nohash_after true x = true -> isspace w = true -> hd_is HASH cmt = true ->
  split_comment (x ++ w :: cmt) = (x, [w], cmt).
Proof.
  intros Hx Hw Hc. unfold split_comment.
  assert (E : hd_is HASH (x ++ w :: cmt) = false).
  { destruct x as [|c x]; cbn; [now apply isspace_not_hash|]. cbn in Hx.
    apply andb_true_iff in Hx as [Hx _]. now apply negb_true_iff in Hx. }
  rewrite E. rewrite split_ws_hash_app; auto using nohash_mono.
Qed.

Definition nocrlf (s : str) : bool := forallb (fun c => negb (is_crlf c)) s.
Definition nolb (s : str) : bool := forallb (fun c => negb (is_lb c)) s.

Lemma rstrip_crlf_all e : all_crlf e = true -> rstrip_crlf e = [].
Proof. destruct e as [|c e]; [reflexivity|]. cbn [rstrip_crlf]. now intros ->. Qed.
Lemma rstrip_crlf_app r e : nocrlf r = true -> all_crlf e = true -> rstrip_crlf (r ++ e) = r.
Proof.
  intros Hr He. induction r as [|c r IH]; cbn [app]; [now apply rstrip_crlf_all|].
  cbn in Hr. apply andb_true_iff in Hr as [Hc Hr]. apply negb_true_iff in Hc.
  cbn [rstrip_crlf all_crlf forallb]. rewrite Hc. cbn. now rewrite IH.
Qed.
Lemma parse_line_raw aof n r el : nocrlf r = true -> all_crlf el = true ->
  parse_line aof n (r ++ el) =
  let '(pre, _, cmt) := split_comment r in
  match tokens pre with
  | [] => Ok {| lineno := n; raw := r; pkg := None; keywords := []; comment := cmt; eol := el |}
  | t :: ks =>
      match aof t with
      | None => Fail 0 n r
      | Some p => Ok {| lineno := n; raw := r; pkg := Some p; keywords := ks; comment := cmt; eol := el |}
      end
  end.
Proof. intros Hr He. unfold parse_line. now rewrite rstrip_crlf_app, skipn_app_exact. Qed.

Lemma nolb_nocrlf s : nolb s = true -> nocrlf s = true.
Proof.
  apply forallb_impl. intros c _ H. destruct (is_crlf c) eqn:E; [|reflexivity].
  now rewrite (crlf_is_lb c E) in H.
Qed.
Lemma nws_nolb s : all_nws s = true -> nolb s = true.
Proof.
  apply forallb_impl. intros c _ H. destruct (is_lb c) eqn:E; [|reflexivity].
  unfold notspace in H. now rewrite (lb_isspace c E) in H.
Qed.
Lemma splitlines_nolb_last b : nolb b = true -> b <> [] -> splitlines b = [b].
Proof.
  induction b as [|c b IH]; [congruence|]. intros Hb _.
  cbn in Hb. apply andb_true_iff in Hb as [Hc Hb]. apply negb_true_iff in Hc.
  cbn [splitlines]. unfold ends_line at 1. rewrite Hc. cbn [andb].
  destruct b as [|d b]; [reflexivity|]. rewrite IH; [reflexivity|exact Hb|discriminate].
Qed.

(* [term] is a line terminator that str.splitlines does not join with what follows: one line-break
   character (not the \r of \r\n), or \r\n *)
Definition term_ok (term rest : str) : Prop :=
  (exists c, term = [c] /\ is_lb c = true /\ (c =? CR) && hd_is LF rest = false) \/ term = [CR; LF].
(* [l] is a complete line in front of [rest] *)
Definition complete (l rest : str) : Prop :=
  exists b term, l = b ++ term /\ nolb b = true /\
                 ((term = [] /\ rest = [] /\ b <> []) \/ term_ok term rest).

Lemma splitlines_nolb_term b c rest : nolb b = true -> is_lb c = true ->
  (c =? CR) && hd_is LF rest = false ->
  splitlines (b ++ c :: rest) = (b ++ [c]) :: splitlines rest.
Proof.
  intros Hb Hc Hn. induction b as [|d b IH]; cbn [app].
  - cbn [splitlines]. unfold ends_line. now rewrite Hc, Hn.
  - cbn in Hb. apply andb_true_iff in Hb as [Hd Hb]. apply negb_true_iff in Hd.
    cbn [splitlines]. unfold ends_line at 1. rewrite Hd. cbn [andb]. now rewrite IH.
Qed.
Lemma splitlines_nolb_crlf b rest : nolb b = true ->
  splitlines (b ++ CR :: LF :: rest) = (b ++ [CR; LF]) :: splitlines rest.
Proof.
  intros Hb. induction b as [|d b IH]; cbn [app].
  - reflexivity.
  - cbn in Hb. apply andb_true_iff in Hb as [Hd Hb]. apply negb_true_iff in Hd.
    specialize (IH Hb). cbn [splitlines]. unfold ends_line at 1. rewrite Hd. cbn [andb]. now rewrite IH.
Qed.

Lemma splitlines_complete l rest : complete l rest -> splitlines (l ++ rest) = l :: splitlines rest.
Proof.
  intros (b & term & -> & Hb & [(-> & -> & Hn)|[(c & -> & Hc & Hn)| ->]]).
  - rewrite !app_nil_r. now apply splitlines_nolb_last.
  - rewrite <- app_assoc. cbn [app]. now apply splitlines_nolb_term.
  - rewrite <- app_assoc. cbn [app]. now apply splitlines_nolb_crlf.
Qed.

Lemma splitlines_nil t : splitlines t = [] -> t = [].
Proof. intros H. rewrite <- (concat_splitlines t), H. reflexivity. Qed.

Lemma splitlines_cons_complete t l ls : splitlines t = l :: ls -> complete l (concat ls).
Proof.
  revert l ls; induction t as [|c t IH]; intros l ls; [discriminate|]. cbn [splitlines].
  destruct (ends_line c t) eqn:E.
  - intros [= <- <-]. rewrite concat_splitlines. exists [], [c]. split; [reflexivity|]. split; [reflexivity|].
    right. left. exists c. unfold ends_line in E. apply andb_true_iff in E as [E1 E2].
    apply negb_true_iff in E2. auto.
  - destruct (is_lb c) eqn:Elb.
    + unfold ends_line in E. rewrite Elb in E. cbn in E. apply negb_false_iff in E.
      apply andb_true_iff in E as [E1 E2]. apply N.eqb_eq in E1; subst c.
      destruct t as [|d t]; [discriminate|]. cbn in E2. apply N.eqb_eq in E2; subst d.
      cbn [splitlines]. change (ends_line LF t) with true. cbn iota. intros [= <- <-].
      exists [], [CR; LF]. split; [reflexivity|]. split; [reflexivity|]. right. right. reflexivity.
    + destruct (splitlines t) as [|l0 r] eqn:Es.
      * intros [= <- <-]. apply splitlines_nil in Es. subst t. exists [c], []. split; [reflexivity|].
        split; [cbn; now rewrite Elb|]. left. repeat split. discriminate.
      * intros [= <- <-]. destruct (IH _ _ eq_refl) as (b & term & -> & Hb & Ht).
        exists (c :: b), term. split; [reflexivity|]. split; [cbn; now rewrite Elb|].
        destruct Ht as [(-> & Hr & Hn)|Ht]; [left; repeat split; auto; discriminate|right; exact Ht].
Qed.

(* the lines are what str.splitlines makes of their concatenation *)
Inductive lines_ok : list str -> Prop :=
| lo_nil : lines_ok []
| lo_cons l ls : complete l (concat ls) -> lines_ok ls -> lines_ok (l :: ls).

Lemma splitlines_lines_ok ls : forall t, splitlines t = ls -> lines_ok ls.
Proof.
  induction ls as [|l ls IH]; intros t H; [constructor|].
  pose proof (splitlines_cons_complete _ _ _ H) as Hc. constructor; [exact Hc|].
  apply (IH (concat ls)). pose proof (splitlines_complete _ _ Hc) as Hs.
  assert (Ht : l ++ concat ls = t) by (rewrite <- (concat_splitlines t), H; reflexivity).
  rewrite Ht, H in Hs. now injection Hs as <-.
Qed.
Lemma lines_ok_splitlines ls : lines_ok ls -> splitlines (concat ls) = ls.
Proof. induction 1 as [|l ls Hc _ IH]; [reflexivity|]. cbn [concat]. rewrite splitlines_complete by exact Hc. now rewrite IH. Qed.

Lemma complete_nonempty l rest : complete l rest -> l <> [].
Proof.
  intros (b & term & -> & _ & [(-> & _ & Hn)|[(c & -> & _)| ->]]).
  - now rewrite app_nil_r.
  - destruct b; discriminate.
  - destruct b; discriminate.
Qed.
Lemma complete_rest l rest rest' : complete l rest ->
  (rest = [] <-> rest' = []) -> hd_is LF rest = hd_is LF rest' -> complete l rest'.
Proof.
  intros (b & term & -> & Hb & H) Hn Hh. exists b, term. split; [reflexivity|]. split; [exact Hb|].
  destruct H as [(-> & Hr & Hbn)|[(c & -> & Hc & Hx)| ->]].
  - left. repeat split; auto. now apply Hn.
  - right. left. exists c. rewrite <- Hh. auto.
  - right. right. reflexivity.
Qed.

(* l' may stand wherever l stands *)
Definition sim (l l' : str) : Prop :=
  hd_is LF l' = hd_is LF l /\ (l <> [] -> l' <> []) /\ (forall rest, complete l rest -> complete l' rest).
Lemma sim_refl l : sim l l.
Proof. unfold sim; auto. Qed.

Lemma hd_is_app c a b : a <> [] -> hd_is c (a ++ b) = hd_is c a.
Proof. destruct a; [congruence|reflexivity]. Qed.

Lemma lines_ok_sim ls ls' : lines_ok ls -> Forall2 sim ls ls' ->
  lines_ok ls' /\ (concat ls = [] <-> concat ls' = []) /\ hd_is LF (concat ls) = hd_is LF (concat ls').
Proof.
  intros H F. revert H. induction F as [|l l' ls ls' Hs F IH]; intros H.
  - split; [constructor|]. split; [tauto|reflexivity].
  - inversion H as [|? ? Hc Hl]; subst. destruct (IH Hl) as (Hok & Hn & Hh).
    destruct Hs as (Hhd & Hne & Hcomp). pose proof (complete_nonempty _ _ Hc) as Hln.
    pose proof (Hne Hln) as Hl'n.
    split; [|split].
    + constructor; [|exact Hok]. apply (complete_rest _ (concat ls)); auto.
    + cbn [concat]. split; intros E; apply app_eq_nil in E as [E _]; congruence.
    + cbn [concat]. rewrite !hd_is_app by assumption. now symmetry.
Qed.

Lemma lines_ok_in ls l : lines_ok ls -> In l ls -> exists rest, complete l rest.
Proof.
  induction 1 as [|l0 ls Hc _ IH]; intro Hin; [destruct Hin|]. destruct Hin as [<-|Hin]; eauto.
Qed.

Lemma in_splitlines_raw_eol t line : In line (splitlines t) ->
  exists r e, line = r ++ e /\ nocrlf r = true /\ all_crlf e = true.
Proof.
  intro Hin. apply (lines_ok_in _ _ (splitlines_lines_ok _ t eq_refl)) in Hin.
  destruct Hin as (rest & b & term & -> & Hb & Ht). apply nolb_nocrlf in Hb as Hb'.
  destruct Ht as [(-> & _)|[(c & -> & Hc & _)| ->]].
  - exists b, []. auto.
  - destruct (is_crlf c) eqn:E.
    + exists b, [c]. repeat split; [exact Hb'|]. cbn. now rewrite E.
    + exists (b ++ [c]), []. rewrite app_nil_r. repeat split.
      unfold nocrlf in *. rewrite forallb_app, Hb'. cbn. now rewrite E.
  - exists b, [CR; LF]. auto.
Qed.

(* The three spans with_keywords takes of the text before the comment, for a line whose tokens are
   t :: ks0: leading whitespace w0, the spec t, whitespace w1, and r2, which holds the keywords; body
   falls into these parts and its trailing whitespace. *)
Lemma wk_decomp body t ks0 w0 r0 t0 r1 w1 r2 :
  tokens body = t :: ks0 ->
  span isspace body = (w0, r0) -> span notspace r0 = (t0, r1) -> span isspace r1 = (w1, r2) ->
  t0 = t /\ t <> [] /\ all_nws t = true /\ all_ws w0 = true /\
  match ks0 with
  | [] => body = (w0 ++ t) ++ trail_ws body
  | _ => body = (w0 ++ t ++ w1) ++ rstrip_ws r2 ++ trail_ws body /\ all_ws w1 = true /\ w1 <> [] /\
         tokens (rstrip_ws r2) = ks0 /\ tightb (rstrip_ws r2) = true
  end.
Proof.
  intros Htok H0 H1 H2.
  destruct (tokens_decomp _ _ _ _ _ H0 H1) as (Hb & Hw0 & Ht0 & Hr1 & Htk & Hnil).
  rewrite Htok in Htk. destruct t0 as [|a t0]; [discriminate|]. change (null (a :: t0)) with false in Htk. cbv iota in Htk.
  injection Htk as -> Hks. split; [reflexivity|]. split; [discriminate|]. split; [exact Ht0|]. split; [exact Hw0|].
  apply span_spec in H2 as (Hr1e & Hw1 & Hr2).
  destruct ks0 as [|k ks0].
  - symmetry in Hks. apply tokens_nil_all_ws in Hks.
    rewrite Hb at 2. rewrite app_assoc. rewrite trail_ws_app_ws by exact Hks.
    rewrite trail_ws_app_nws.
    + rewrite trail_ws_tok by exact Ht0. rewrite Hb at 1. now rewrite app_assoc.
    + cbn in Ht0. apply andb_true_iff in Ht0 as [Ha _]. unfold notspace in Ha. apply negb_true_iff in Ha.
      cbn. now rewrite Ha.
  - assert (Hr2ws : all_ws r2 = false).
    { destruct (all_ws r2) eqn:E; [|reflexivity]. exfalso.
      rewrite Hr1e, tokens_ws_app, (all_ws_tokens r2 E) in Hks by exact Hw1. discriminate. }
    assert (Htb : trail_ws body = trail_ws r2).
    { rewrite Hb, Hr1e. rewrite !app_assoc. now apply trail_ws_app_nws. }
    split.
    + rewrite Htb, <- (rstrip_trail r2). rewrite Hb at 1. rewrite Hr1e. now rewrite <- !app_assoc.
    + split; [exact Hw1|]. split.
      * intros ->. cbn in Hr1e. subst r2. destruct r1 as [|c r1]; [discriminate|]. cbn in Hr2. congruence.
      * split.
        -- rewrite tokens_rstrip. rewrite Hr1e, tokens_ws_app in Hks by exact Hw1. now symmetry.
        -- unfold tightb. rewrite last_ws_rstrip. rewrite hd_ws_rstrip; [reflexivity|].
           destruct r2 as [|c r2]; [reflexivity|exact Hr2].
Qed.

Lemma with_keywords_region e ks pre sep cmt t p :
  split_comment (raw e) = (pre, sep, cmt) -> tokens pre = t :: keywords e ->
  pkg e = Some p -> comment e = cmt ->
  exists pfx mid wsS,
    kw_region e pfx mid (wsS ++ cmt) /\
    with_keywords e ks = rewritten e pfx (wsS ++ cmt) ks /\
    pre ++ sep = pfx ++ mid ++ wsS /\ wsS = trail_ws (pre ++ sep) /\
    tokens pfx = [t] /\
    (keywords e = [] -> last_ws pfx = false) /\ (keywords e <> [] -> last_ws pfx = true).
Proof.
  intros Hsc Htok Hpkg Hcmt.
  destruct (split_comment_spec _ _ _ _ Hsc) as (Hraw & Hpre & Hsepws & Hsep).
  assert (Htb : tokens (pre ++ sep) = t :: keywords e) by now rewrite tokens_app_ws.
  unfold with_keywords. rewrite Hpkg, Hsc.
  destruct (span isspace (pre ++ sep)) as [w0 r0] eqn:E0.
  destruct (span notspace r0) as [t0 r1] eqn:E1.
  destruct (span isspace r1) as [w1 r2] eqn:E2.
  destruct (wk_decomp _ _ _ _ _ _ _ _ _ Htb E0 E1 E2) as (-> & Htn & Htw & Hw0 & Hd).
  rewrite Htb. pose proof (trail_ws_all_ws (pre ++ sep)) as Htws.
  assert (Hpt : tokens (w0 ++ t) = [t]) by (rewrite tokens_ws_app by exact Hw0; now apply tokens_tok).
  destruct (keywords e) as [|k ks0] eqn:Ek.
  - exists (w0 ++ t), [], (trail_ws (pre ++ sep)).
    split; [|split; [|split; [|split; [|split; [|split]]]]]; auto.
    + constructor.
      * rewrite Hraw, app_assoc, Hd at 1. cbn [app]. now rewrite <- !app_assoc.
      * eauto.
      * intros _. rewrite last_ws_app by exact Htn. now apply last_ws_tok.
      * now rewrite Ek.
      * reflexivity.
      * rewrite Hcmt. eauto.
    + unfold rewritten. rewrite Ek, Hpkg. unfold glue. cbn [null andb].
      f_equal. destruct ks; cbn [null negb]; now rewrite <- !app_assoc.
    + intros _. rewrite last_ws_app by exact Htn. now apply last_ws_tok.
  - destruct Hd as (Hb & Hw1 & Hw1n & Hmid & Htight).
    exists (w0 ++ t ++ w1), (rstrip_ws r2), (trail_ws (pre ++ sep)).
    split; [|split; [|split; [|split; [|split; [|split]]]]]; auto.
    + constructor.
      * rewrite Hraw, app_assoc, Hb at 1. now rewrite <- !app_assoc.
      * exists t. rewrite app_assoc, tokens_app_ws by exact Hw1. exact Hpt.
      * rewrite Ek. discriminate.
      * now rewrite Ek.
      * exact Htight.
      * rewrite Hcmt. eauto.
    + unfold rewritten. rewrite Ek, Hpkg. unfold glue. cbn [null andb app].
      f_equal; try now rewrite <- !app_assoc.
    + rewrite app_assoc, tokens_app_ws by exact Hw1. exact Hpt.
    + discriminate.
    + intros _. rewrite app_assoc, last_ws_app by exact Hw1n. now apply last_ws_all_ws.
Qed.

Lemma nolb_join ks : Forall wf_tok ks -> nolb (join [SP] ks) = true.
Proof.
  induction 1 as [|k ks Hk Hks IH]; [reflexivity|].
  apply wf_tok_parts in Hk as (_ & Hw & _). apply nws_nolb in Hw.
  destruct ks as [|k2 ks]; [exact Hw|].
  change (join [SP] (k :: k2 :: ks)) with (k ++ [SP] ++ join [SP] (k2 :: ks)).
  unfold nolb in *. rewrite !forallb_app, Hw, IH. reflexivity.
Qed.
Lemma nocrlf_join ks : Forall wf_tok ks -> nocrlf (join [SP] ks) = true.
Proof. intro H. apply nolb_nocrlf, nolb_join, H. Qed.

Theorem with_keywords_local_proof (aof : str -> option str) t n line e ks :
  In line (splitlines t) -> parse_line aof n line = Ok e ->
  (pkg e = None -> with_keywords e ks = e) /\
  (pkg e <> None ->
   exists pfx mid sfx,
     kw_region e pfx mid sfx /\
     with_keywords e ks = rewritten e pfx sfx ks /\
     (Forall wf_tok ks ->
      parse_line aof n (raw (with_keywords e ks) ++ eol (with_keywords e ks)) = Ok (with_keywords e ks))).
Proof.
  intros Hin Hp. split.
  { intros H. unfold with_keywords. now rewrite H. }
  intros Hpkg.
  destruct (in_splitlines_raw_eol _ _ Hin) as (r & el & -> & Hr & Hel).
  rewrite parse_line_raw in Hp by assumption.
  destruct (split_comment r) as [[pre sep] cmt] eqn:Hsc.
  destruct (tokens pre) as [|t0 ks0] eqn:Htok.
  { injection Hp as <-. cbn in Hpkg. congruence. }
  destruct (aof t0) as [p|] eqn:Ha; [|discriminate]. injection Hp as <-.
  set (e := {| lineno := n; raw := r; pkg := Some p; keywords := ks0; comment := cmt; eol := el |}).
  destruct (with_keywords_region e ks pre sep cmt t0 p Hsc Htok eq_refl eq_refl)
    as (pfx & mid & wsS & Hreg & Hwk & Hbody & HwsS & Hpt & Hl0 & Hl1).
  exists pfx, mid, (wsS ++ cmt). split; [exact Hreg|]. split; [exact Hwk|].
  intros Hks. rewrite Hwk. unfold rewritten. cbn [raw eol lineno pkg comment keywords e].
  destruct (split_comment_spec _ _ _ _ Hsc) as (Hraw & Hpre & Hsepws & Hsep).
  assert (HwsS' : wsS = trail_ws pre ++ sep) by (rewrite HwsS; now apply trail_ws_app_ws).
  pose proof (trail_ws_all_ws pre) as Htp.
  set (J := join [SP] ks).
  set (pre' := pfx ++ glue ks0 ks ++ J ++ trail_ws pre).
  assert (Hraw' : pfx ++ glue ks0 ks ++ J ++ wsS ++ cmt = pre' ++ sep ++ cmt).
  { unfold pre'. rewrite HwsS'. now rewrite <- !app_assoc. }
  assert (Hglue : all_ws (glue ks0 ks) = true) by (unfold glue; destruct (null ks0 && negb (null ks)); reflexivity).
  (* no \r \n in the new raw *)
  assert (Hnc : nocrlf (pfx ++ glue ks0 ks ++ J ++ wsS ++ cmt) = true).
  { assert (Hr' : nocrlf (pfx ++ mid ++ wsS ++ cmt) = true).
    { rewrite Hraw in Hr. rewrite app_assoc, Hbody in Hr. now rewrite <- !app_assoc in Hr. }
    unfold nocrlf in *. rewrite !forallb_app in Hr'. rewrite !forallb_app.
    apply andb_true_iff in Hr' as [H1 H2]. apply andb_true_iff in H2 as [_ H2].
    rewrite H1, H2. fold (nocrlf J). unfold J. rewrite nocrlf_join by assumption.
    unfold glue. destruct (null ks0 && negb (null ks)); reflexivity. }
  rewrite parse_line_raw by assumption.
  (* the comment is found at the same place *)
  assert (Hnh : nohash_after true pre' = true).
  { unfold pre'. assert (Hb : nohash_after true (pre ++ sep) = true).
    { apply nohash_app_true; [exact Hpre|]. now apply nohash_all_ws. }
    rewrite Hbody, nohash_app in Hb. apply andb_true_iff in Hb as [Hb _].
    apply nohash_app_true; [exact Hb|]. apply nohash_app_true; [now apply nohash_all_ws|].
    apply nohash_app_true; [now apply nohash_join|]. now apply nohash_all_ws. }
  assert (Htk' : tokens pre' = t0 :: ks).
  { unfold pre'. rewrite tokens_app_sep.
    - rewrite Hpt. cbn [app]. f_equal. rewrite tokens_ws_app by exact Hglue.
      rewrite tokens_app_ws by exact Htp. now apply tokens_join.
    - destruct ks0 as [|k0 ks0].
      + right. unfold glue. cbn [null andb]. destruct ks as [|k ks]; cbn [null negb app].
        * destruct (all_ws_hd _ Htp) as [->|H]; auto.
        * left. reflexivity.
      + left. apply Hl1. discriminate. }
  rewrite Hraw'.
  assert (Hsplit : split_comment (pre' ++ sep ++ cmt) = (pre', sep, cmt)).
  { destruct Hsep as [[-> ->]|[Hc [[-> ->]|(w & -> & Hw)]]].
    - rewrite !app_nil_r. now apply split_comment_none.
    - discriminate.
    - now apply split_comment_app. }
  rewrite Hsplit, Htk', Ha. reflexivity.
Qed.

Lemma kws_eqb_eq a b : kws_eqb a b = true <-> a = b.
Proof.
  revert b; induction a as [|x a IH]; intros [|y b]; cbn; split; intro H; try reflexivity; try discriminate.
  - apply andb_true_iff in H as [H1 H2]. apply str_eqb_eq in H1. apply IH in H2. congruence.
  - injection H as -> ->. apply andb_true_iff; split; [apply str_eqb_refl|now apply IH].
Qed.

Lemma expand_kws_spec sug prev multi ks :
  expand_kws sug prev multi ks =
  if has_kw SAME_KW ks && match prev with None => true | Some p => null p && multi end
  then inl (match prev with None => 1 | Some _ => 2 end)
  else inr (expansion sug prev ks).
Proof.
  induction ks as [|k ks IH]; [reflexivity|].
  cbn [expand_kws]. unfold has_kw in *. cbn [existsb]. unfold expansion in *. cbn [map concat].
  unfold subst_kw at 1.
  destruct (str_eqb k ALL_KW) eqn:Ea.
  - apply str_eqb_eq in Ea; subst k. change (str_eqb ALL_KW SAME_KW) with false. cbn [orb].
    rewrite IH. destruct (existsb _ ks && _); reflexivity.
  - destruct (str_eqb k SAME_KW) eqn:Es.
    + cbn [orb andb]. destruct prev as [p|]; [|reflexivity].
      destruct (null p && multi) eqn:En; [reflexivity|].
      rewrite IH. rewrite ?En, andb_false_r. reflexivity.
    + cbn [orb]. rewrite IH. destruct (existsb _ ks && _); reflexivity.
Qed.

Lemma expansion_no_sentinel sug prev ks : has_sentinel ks = false -> expansion sug prev ks = ks.
Proof.
  unfold has_sentinel, has_kw, expansion. induction ks as [|k ks IH]; [reflexivity|].
  cbn [existsb map concat]. intros H. apply orb_false_iff in H as [H1 H2].
  apply orb_false_iff in H1 as [Ha H1]. apply orb_false_iff in H2 as [Hs H2].
  unfold subst_kw at 1. rewrite Ha, Hs. cbn [app]. f_equal. apply IH. now rewrite H1, H2.
Qed.

Definition parsed_in (aof : str -> option str) (t : str) (e : entry) : Prop :=
  exists n line, In line (splitlines t) /\ parse_line aof n line = Ok e.

Lemma parse_lines_parsed aof n ls es :
  parse_lines aof n ls = Ok es ->
  Forall (fun e => exists n line, In line ls /\ parse_line aof n line = Ok e) es.
Proof.
  revert n es; induction ls as [|l r IH]; intros n es; cbn [parse_lines].
  - intros [= <-]. constructor.
  - destruct (parse_line aof n l) as [e|] eqn:E; [|discriminate].
    destruct (parse_lines aof (n + 1) r) as [es'|] eqn:E'; [|discriminate].
    intros [= <-]. constructor.
    + exists n, l. split; [now left|exact E].
    + specialize (IH _ _ E'). eapply Forall_impl; [|exact IH].
      intros a (n' & l' & Hin & Hp). exists n', l'. split; [now right|exact Hp].
Qed.
Lemma parse_parsed aof t es : parse aof t = Ok es -> Forall (parsed_in aof t) es.
Proof. apply parse_lines_parsed. Qed.

Lemma line_frame_refl e : line_frame e e.
Proof. unfold line_frame. repeat split; auto. Qed.

Lemma expand_entries_frame aof t suggest prev es es' ch :
  Forall (parsed_in aof t) es -> expand_entries suggest prev es = Ok (es', ch) ->
  Forall2 line_frame es es' /\ (ch = false -> es' = es) /\
  map keywords es' = expected_kws suggest prev es.
Proof.
  intros HF. revert prev es' ch. induction HF as [|e es He HF IH]; intros prev es' ch; cbn [expand_entries].
  - intros [= <- <-]. repeat split; auto.
  - destruct (pkg e) as [p|] eqn:Ep.
    + rewrite expand_kws_spec. destruct (has_kw _ _ && _); [discriminate|].
      set (ks := expansion (suggest p) prev (keywords e)).
      destruct (expand_entries suggest (Some ks) es) as [[es1 ch1]|] eqn:E; [|discriminate].
      intros [= <- <-]. destruct (IH _ _ _ E) as (F2 & Hch & Hk).
      cbn [map expected_kws]. rewrite Ep, Hk. fold ks. destruct (kws_eqb ks (keywords e)) eqn:Eq.
      * apply kws_eqb_eq in Eq. split; [constructor; [apply line_frame_refl|exact F2]|].
        split; [intros H; f_equal; now apply Hch | now rewrite Eq].
      * destruct He as (n & line & Hin & Hp).
        destruct (with_keywords_local_proof aof t n line e ks Hin Hp) as [_ Hw].
        destruct Hw as (pfx & mid & sfx & Hreg & Hwk & _); [congruence|]. rewrite Hwk.
        split; [constructor; [|exact F2] | split; [discriminate | reflexivity]].
        unfold line_frame, rewritten. cbn [lineno pkg comment eol keywords]. repeat split; auto.
        -- intros Hs. unfold ks in Eq. rewrite expansion_no_sentinel in Eq by exact Hs.
           now rewrite (proj2 (kws_eqb_eq _ _) eq_refl) in Eq.
        -- right. exists pfx, mid, sfx. split; [exact Hreg | split; [|reflexivity]].
           intros H0. unfold ks in Eq. now rewrite H0 in Eq.
    + destruct (expand_entries suggest prev es) as [[es1 ch1]|] eqn:E; [|discriminate].
      intros [= <- <-]. destruct (IH _ _ _ E) as (F2 & Hch & Hk). cbn [map expected_kws]. rewrite Ep, Hk.
      split; [constructor; [apply line_frame_refl|exact F2]|].
      split; [intros H; f_equal; now apply Hch | reflexivity].
Qed.

Lemma expand_text_inv aof suggest t t' : expand_text aof suggest t = Ok t' ->
  exists es es' ch, parse aof t = Ok es /\ expand_entries suggest None es = Ok (es', ch) /\
                    t' = if ch then render es' else t.
Proof.
  unfold expand_text. destruct (parse aof t) as [es|]; [|discriminate].
  destruct (expand_entries suggest None es) as [[es' ch]|] eqn:E; [|discriminate].
  intros [= <-]. exists es, es', ch. auto.
Qed.

Lemma join_nonempty k ks : k <> [] -> join [SP] (k :: ks) <> [].
Proof. intros Hk. destruct ks; cbn; [exact Hk|]. destruct k; [congruence|discriminate]. Qed.
Lemma last_ws_join k ks : Forall wf_tok (k :: ks) -> last_ws (join [SP] (k :: ks)) = false.
Proof.
  revert k; induction ks as [|k2 ks IH]; intros k H; inversion H as [|? ? Hk Hks]; subst.
  - cbn. apply wf_tok_parts in Hk as (_ & Hw & _). now apply last_ws_tok.
  - change (join [SP] (k :: k2 :: ks)) with (k ++ SP :: join [SP] (k2 :: ks)).
    assert (Hn : join [SP] (k2 :: ks) <> []).
    { apply join_nonempty. inversion Hks as [|? ? Hk2 _]; subst. now apply wf_tok_parts in Hk2 as (? & _). }
    rewrite last_ws_app by discriminate. rewrite last_ws_cons by exact Hn. now apply IH.
Qed.
Lemma build_line_wf s ks : Forall wf_tok (s :: ks) -> build_line (s, ks) = join [SP] (s :: ks).
Proof. intros H. unfold build_line. cbn [fst snd]. apply rstrip_ws_id, last_ws_trail, last_ws_join, H. Qed.

Definition build_ok (aof : str -> option str) (x : str * list str) : Prop :=
  wf_tok (fst x) /\ Forall wf_tok (snd x) /\ aof (fst x) <> None.

Lemma parse_built_line aof n s ks el :
  Forall wf_tok (s :: ks) -> all_crlf el = true ->
  parse_line aof n (join [SP] (s :: ks) ++ el) =
  match aof s with
  | Some p => Ok {| lineno := n; raw := join [SP] (s :: ks); pkg := Some p; keywords := ks;
                    comment := []; eol := el |}
  | None => Fail 0 n (join [SP] (s :: ks))
  end.
Proof.
  intros H Hel. rewrite parse_line_raw by (auto using nocrlf_join).
  rewrite split_comment_none by now apply nohash_join. now rewrite tokens_join.
Qed.

Lemma build_parse_gen aof n es :
  Forall (build_ok aof) es ->
  exists ents, parse_lines aof n (splitlines (join [LF] (map build_line es))) = Ok ents /\
               map (fun e => (pkg e, keywords e, comment e)) ents
               = map (fun x => (aof (fst x), snd x, [])) es.
Proof.
  intros H. revert n. induction H as [|[s ks] es (Hs & Hks & Ha) Hes IH]; intros n.
  - exists []. split; reflexivity.
  - cbn [fst snd] in *. assert (Hwf : Forall wf_tok (s :: ks)) by now constructor.
    cbn [map]. rewrite build_line_wf by exact Hwf.
    destruct (aof s) as [p|] eqn:Ea; [|congruence].
    destruct es as [|x es].
    + change (join [LF] (join [SP] (s :: ks) :: map build_line [])) with (join [SP] (s :: ks)).
      rewrite splitlines_nolb_last.
      * cbn [parse_lines]. pose proof (parse_built_line aof n s ks [] Hwf eq_refl) as P.
        rewrite app_nil_r in P. rewrite P, Ea. eexists. split; [reflexivity|]. cbn. now rewrite Ea.
      * now apply nolb_join.
      * apply join_nonempty. now apply wf_tok_parts in Hs as (? & _).
    + change (join [LF] (join [SP] (s :: ks) :: map build_line (x :: es)))
        with (join [SP] (s :: ks) ++ LF :: join [LF] (map build_line (x :: es))).
      rewrite splitlines_nolb_term by (try reflexivity; now apply nolb_join).
      cbn [parse_lines]. rewrite parse_built_line, Ea by auto.
      destruct (IH (n + 1)) as (ents & -> & Hm).
      eexists. split; [reflexivity|]. cbn [map]. cbn [pkg keywords comment fst snd]. now rewrite Ea, Hm.
Qed.

Lemma parse_line_shape aof t n line e :
  In line (splitlines t) -> parse_line aof n line = Ok e ->
  nocrlf (raw e) = true /\ all_crlf (eol e) = true.
Proof.
  intros Hin Hp. destruct (in_splitlines_raw_eol _ _ Hin) as (r & el & -> & Hr & Hel).
  rewrite parse_line_raw in Hp by assumption.
  destruct (split_comment r) as [[pre sep] cmt]. destruct (tokens pre) as [|t0 ks0].
  - injection Hp as <-. cbn. auto.
  - destruct (aof t0); [|discriminate]. injection Hp as <-. cbn. auto.
Qed.

Lemma tokens_wf_len n : forall s, (length s <= n)%nat -> nohash_after true s = true -> Forall wf_tok (tokens s).
Proof.
  induction n as [|n IH]; intros s Hl Hn.
  - destruct s; [constructor|cbn in Hl; lia].
  - destruct (span isspace s) as [w0 r0] eqn:E0. destruct (span notspace r0) as [t0 r1] eqn:E1.
    destruct (tokens_decomp _ _ _ _ _ E0 E1) as (Hs & Hw0 & Ht0 & Hr1 & Htk & Hnil).
    rewrite Htk. destruct t0 as [|a t0]; [constructor|]. cbn [null].
    rewrite Hs, nohash_app in Hn. apply andb_true_iff in Hn as [_ Hn].
    rewrite ends_ws_all_ws in Hn by exact Hw0. rewrite nohash_app in Hn. apply andb_true_iff in Hn as [Hta Hr].
    constructor.
    + unfold wf_tok, wf_tokb. cbn [null negb andb]. fold (all_nws (a :: t0)). rewrite Ht0. cbn [andb].
      apply nohash_true_hd in Hta. now rewrite Hta.
    + destruct r1 as [|c r1]; [constructor|]. rewrite tokens_ws_cons by exact Hr1.
      apply IH.
      * rewrite Hs in Hl. rewrite !app_length in Hl. cbn in Hl. lia.
      * cbn in Hr. apply andb_true_iff in Hr as [_ Hr]. now rewrite Hr1 in Hr.
Qed.
Lemma tokens_wf s : nohash_after true s = true -> Forall wf_tok (tokens s).
Proof. apply (tokens_wf_len (length s)). lia. Qed.

Lemma parse_line_kws_wf aof n line e : parse_line aof n line = Ok e -> Forall wf_tok (keywords e).
Proof.
  unfold parse_line. destruct (split_comment (rstrip_crlf line)) as [[pre sep] cmt] eqn:Hsc.
  destruct (split_comment_spec _ _ _ _ Hsc) as (_ & Hpre & _ & _). apply tokens_wf in Hpre.
  destruct (tokens pre) as [|t0 ks0].
  - intros [= <-]. constructor.
  - destruct (aof t0); [|discriminate]. intros [= <-]. cbn. now inversion Hpre.
Qed.

Definition wf_prev (prev : option (list str)) : Prop :=
  match prev with Some p => Forall wf_tok p | None => True end.
Lemma expansion_wf sug prev ks :
  Forall wf_tok sug -> wf_prev prev -> Forall wf_tok ks -> Forall wf_tok (expansion sug prev ks).
Proof.
  intros Hs Hp Hk. unfold expansion. induction Hk as [|k ks Hk Hks IH]; [constructor|].
  cbn [map concat]. apply Forall_app. split; [|exact IH].
  unfold subst_kw. destruct (str_eqb k ALL_KW).
  - destruct (null sug); [repeat constructor|exact Hs].
  - destruct (str_eqb k SAME_KW); [|now repeat constructor].
    destruct prev as [p|]; [exact Hp|constructor].
Qed.

Lemma app_last_split (a x b : str) c : x <> [] -> a ++ x = b ++ [c] -> exists s0, x = s0 ++ [c].
Proof.
  intros Hx H. destruct (exists_last Hx) as (s0 & d & ->). exists s0.
  rewrite app_assoc in H. apply app_inj_tail in H as [_ ->]. reflexivity.
Qed.
Lemma last_ws_snoc b c : last_ws (b ++ [c]) = isspace c.
Proof. unfold last_ws. rewrite rev_app_distr. reflexivity. Qed.
Lemma tokens_nonnil_nonempty s : tokens s <> [] -> s <> [].
Proof. destruct s; [cbn; congruence|discriminate]. Qed.

Lemma rewritten_sim aof t n line e pfx mid sfx ks :
  In line (splitlines t) -> parse_line aof n line = Ok e ->
  kw_region e pfx mid sfx -> keywords e <> [] -> Forall wf_tok ks ->
  sim line (pfx ++ join [SP] ks ++ sfx ++ eol e).
Proof.
  intros Hin Hp Hreg Hne Hks.
  destruct (parse_line_shape _ _ _ _ _ Hin Hp) as (Hr & Hel).
  destruct (parse_line_raw_eol aof n line e Hp) as [Hl _]. symmetry in Hl.
  destruct Hreg as [Hraw (spec & Hpfx) _ Hmid Htight _].
  assert (Hpn : pfx <> []) by (apply tokens_nonnil_nonempty; rewrite Hpfx; discriminate).
  assert (Hmn : mid <> []) by (apply tokens_nonnil_nonempty; now rewrite Hmid).
  assert (Hml : last_ws mid = false).
  { unfold tightb in Htight. apply andb_true_iff in Htight as [_ H]. now apply negb_true_iff in H. }
  assert (HL : line = pfx ++ mid ++ sfx ++ eol e) by (rewrite Hl, Hraw; now rewrite <- !app_assoc).
  unfold sim. split; [|split].
  - rewrite HL. now rewrite !hd_is_app by assumption.
  - intros _. destruct pfx; [congruence|discriminate].
  - intros rest (b & term & Hb & Hnb & Ht).
    (* the terminator lies inside sfx ++ eol *)
    assert (Hs0 : exists s0, sfx ++ eol e = s0 ++ term).
    { destruct Ht as [(-> & _)|[(c & -> & Hc & _)| ->]].
      - exists (sfx ++ eol e). now rewrite app_nil_r.
      - remember (sfx ++ eol e) as xx eqn:Ex. destruct xx as [|x xs].
        + exfalso. rewrite HL, app_nil_r in Hb.
          assert (last_ws (pfx ++ mid) = last_ws (b ++ [c])) by now rewrite Hb.
          rewrite last_ws_app, last_ws_snoc, Hml in H by exact Hmn. apply lb_isspace in Hc. congruence.
        + apply (app_last_split (pfx ++ mid) (x :: xs) b c); [discriminate|].
          rewrite <- Hb, HL. now rewrite <- !app_assoc.
      - exists sfx. f_equal.
        assert (E1 : rstrip_crlf line = raw e) by (rewrite Hl; now apply rstrip_crlf_app).
        assert (E2 : rstrip_crlf line = b) by (rewrite Hb; apply rstrip_crlf_app; [now apply nolb_nocrlf|reflexivity]).
        rewrite Hl, <- E1, E2 in Hb. now apply app_inv_head in Hb. }
    destruct Hs0 as (s0 & Hs0).
    assert (Hbe : b = pfx ++ mid ++ s0).
    { apply (app_inv_tail term). rewrite <- Hb, HL, <- !app_assoc. now rewrite <- Hs0. }
    exists (pfx ++ join [SP] ks ++ s0), term. split; [rewrite <- !app_assoc; now rewrite <- Hs0|]. split.
    + rewrite Hbe in Hnb. unfold nolb in *. rewrite !forallb_app in *.
      apply andb_true_iff in Hnb as [H1 H2]. apply andb_true_iff in H2 as [_ H2].
      rewrite H1, H2. fold (nolb (join [SP] ks)). now rewrite nolb_join.
    + destruct Ht as [(-> & Hr0 & _)|Ht]; [|right; exact Ht].
      left. repeat split; auto. destruct pfx; [congruence|discriminate].
Qed.

Definition line_of (e : entry) : str := raw e ++ eol e.

Lemma render_line_of es : render es = concat (map line_of es).
Proof. reflexivity. Qed.

Lemma expand_entries_reparse aof t suggest :
  (forall p, Forall wf_tok (suggest p)) ->
  forall ls n es prev es' ch,
    (forall l, In l ls -> In l (splitlines t)) ->
    parse_lines aof n ls = Ok es -> wf_prev prev ->
    expand_entries suggest prev es = Ok (es', ch) ->
    parse_lines aof n (map line_of es') = Ok es' /\ Forall2 sim ls (map line_of es').
Proof.
  intros Hsug. induction ls as [|l ls IH]; intros n es prev es' ch Hin Hp Hprev He.
  - cbn in Hp. injection Hp as <-. cbn in He. injection He as <- <-. split; [reflexivity|constructor].
  - cbn [parse_lines] in Hp. destruct (parse_line aof n l) as [e|] eqn:El; [|discriminate].
    destruct (parse_lines aof (n + 1) ls) as [es0|] eqn:Els; [|discriminate]. injection Hp as <-.
    assert (Hinl : In l (splitlines t)) by (apply Hin; now left).
    assert (Hin' : forall x, In x ls -> In x (splitlines t)) by (intros x Hx; apply Hin; now right).
    destruct (parse_line_raw_eol aof n l e El) as [Hle _].
    assert (Keep : forall es1, parse_lines aof (n + 1) (map line_of es1) = Ok es1 ->
              Forall2 sim ls (map line_of es1) ->
              parse_lines aof n (map line_of (e :: es1)) = Ok (e :: es1)
              /\ Forall2 sim (l :: ls) (map line_of (e :: es1))).
    { intros es1 Hpl Hsim. cbn [map parse_lines]. unfold line_of at 1. rewrite Hle, El, Hpl.
      split; [reflexivity|]. constructor; [|exact Hsim]. unfold line_of. rewrite Hle. apply sim_refl. }
    cbn [expand_entries] in He. destruct (pkg e) as [p|] eqn:Ep.
    + rewrite expand_kws_spec in He. destruct (has_kw _ _ && _); [discriminate|].
      set (ks := expansion (suggest p) prev (keywords e)) in *.
      assert (Hks : Forall wf_tok ks).
      { apply expansion_wf; auto. eapply parse_line_kws_wf; eauto. }
      destruct (expand_entries suggest (Some ks) es0) as [[es1 ch1]|] eqn:E; [|discriminate].
      injection He as <- <-. destruct (IH _ _ (Some ks) _ _ Hin' Els Hks E) as (Hpl & Hsim).
      destruct (kws_eqb ks (keywords e)) eqn:Eq.
      * now apply Keep.
      * destruct (with_keywords_local_proof aof t n l e ks Hinl El) as [_ Hw].
        destruct Hw as (pfx & mid & sfx & Hreg & Hwk & Hre); [congruence|].
        assert (Hne : keywords e <> []).
        { intros H0. unfold ks in Eq. rewrite H0 in Eq. cbn in Eq. discriminate. }
        cbn [map parse_lines]. unfold line_of at 1. rewrite (Hre Hks), Hpl. split; [reflexivity|].
        constructor; [|exact Hsim]. unfold line_of. rewrite Hwk. unfold rewritten. cbn [raw eol].
        unfold glue. destruct (keywords e) as [|k0 kr] eqn:Ek; [congruence|]. cbn [null andb app].
        rewrite <- !app_assoc. rewrite <- Ek in Hne. eapply rewritten_sim; eauto.
    + destruct (expand_entries suggest prev es0) as [[es1 ch1]|] eqn:E; [|discriminate].
      injection He as <- <-. destruct (IH _ _ _ _ _ Hin' Els Hprev E) as (Hpl & Hsim).
      now apply Keep.
Qed.

Lemma expand_entries_parse aof suggest t es es' ch :
  (forall p, Forall wf_tok (suggest p)) ->
  parse aof t = Ok es -> expand_entries suggest None es = Ok (es', ch) ->
  parse aof (render es') = Ok es'.
Proof.
  intros Hsug Ep Ee.
  destruct (expand_entries_reparse aof t suggest Hsug (splitlines t) 1 es None es' ch
              (fun l H => H) Ep I Ee) as (Hpl & Hsim).
  destruct (lines_ok_sim _ _ (splitlines_lines_ok _ t eq_refl) Hsim) as (Hok' & _).
  unfold parse. now rewrite render_line_of, (lines_ok_splitlines _ Hok').
Qed.

(* text: '  c/a *\t ^  # why\r\nc/b\n# x\nc/d ^ ppc\x0b'; every token containing '/' is a valid spec; suggest = ["amd64";"x86"] for c/a *)
Definition ex_aof (s : str) : option str := if existsb (N.eqb 47) s then Some s else None.
Definition ex_text : str := [32;32;99;47;97;32;42;9;32;94;32;32;35;32;119;104;121;13;10;99;47;98;10;35;32;120;10;99;47;100;32;94;32;112;112;99;11].
Definition ex_sug (p : str) : list str := if str_eqb p [99;47;97] then [[97;109;100;54;52]; [120;56;54]] else [].
Example ex_parse_ok :
  match parse ex_aof ex_text with
  | Ok es => map (fun e => (lineno e, keywords e, comment e, eol e)) es =
             [(1, [[42]; [94]], [35;32;119;104;121], [13;10]); (2, [], [], [10]); (3, [], [35;32;120], [10]);
              (4, [[94]; [112;112;99]], [], [])]
  | Fail _ _ _ => False
  end.
Proof. vm_compute. reflexivity. Qed.
(* "^" on the first spec line is refused (kind 1) *)
Example ex_expand_refused : expand_text ex_aof ex_sug ex_text = Fail 1 1 [32;32;99;47;97;32;42;9;32;94;32;32;35;32;119;104;121].
Proof. vm_compute. reflexivity. Qed.
Definition ex_text2 : str := [32;32;99;47;97;32;42;9;32;45;32;32;35;32;119;104;121;13;10;99;47;98;32;126;97;114;109;10;35;32;120;10;99;47;100;32;94;32;112;112;99;11].
Example ex_expand_ok :
  expand_text ex_aof ex_sug ex_text2 = Ok [32;32;99;47;97;32;97;109;100;54;52;32;120;56;54;32;45;32;32;35;32;119;104;121;13;10;99;47;98;32;126;97;114;109;10;35;32;120;10;99;47;100;32;126;97;114;109;32;112;112;99;11].
Proof. vm_compute. reflexivity. Qed.
Example ex_build :
  build [([99;47;97], [[97;109;100;54;52]; [42]]); ([99;47;98], [])] = [99;47;97;32;97;109;100;54;52;32;42;10;99;47;98]
  /\ Forall (build_ok ex_aof) [([99;47;97], [[97;109;100;54;52]; [42]]); ([99;47;98], [])].
Proof. split; [vm_compute; reflexivity|]. repeat constructor; try reflexivity; vm_compute; discriminate. Qed.
(* the well-formedness hypothesis of with_keywords_local cannot be dropped: a keyword starting
   with '#' turns into a comment when the line is parsed again *)
Example ex_wf_needed :
  match parse ex_aof [99;47;97;32;120] with
  | Ok [e] => let e' := with_keywords e [[35;121]] in
              match parse_line ex_aof 1 (raw e' ++ eol e') with
              | Ok e'' => keywords e'' = [] /\ comment e'' = [35;121]
              | Fail _ _ _ => False
              end
  | _ => False
  end.
Proof. vm_compute. split; reflexivity. Qed.
(* the hypothesis of expand_reparse is satisfiable by a non-trivial suggestion function *)
Example ex_sug_wf : forall p, Forall wf_tok (ex_sug p).
Proof. intros p. unfold ex_sug. destruct (str_eqb p _); repeat constructor. Qed.
