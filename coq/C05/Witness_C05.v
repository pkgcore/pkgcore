From Coq Require Import List ZArith Bool Lia.
Import ListNotations.
From Verif Require Import Base.Val Base.Lists C01.Model_C01 C01.Spec_C01 C01.Order_C01 C01.Proofs_C01 C01.Prop_C01
  C04.Model_C04 C04.Spec_C04 C04.Proofs_C04 C05.Model_C05 C05.Spec_C05 C05.Proofs_C05.

Definition s_alpha : str := [95; 97; 108; 112; 104; 97]%N.        (* "_alpha" *)

Lemma split_alpha v : split_on 95 (v ++ s_alpha) = split_on 95 v ++ [[97; 108; 112; 104; 97]%N].
Proof. unfold s_alpha. rewrite split_app_gen. reflexivity. Qed.

Lemma suf_loop_extra l x : suf_loop (l ++ [x]) l =
  let '(n, d) := parse_suffix x in
  let v := suffix_val n in
  if negb (Z.eqb v 0) then Some (cmpZ v 0) else Some (cmpN (suffix_num d) 0).
Proof.
  induction l as [|y l IH]; cbn; [reflexivity|]. rewrite str_eqb_refl. exact IH.
Qed.

Lemma str_eqb_app_ne v x c : str_eqb (v ++ c :: x) v = false.
Proof.
  destruct (str_eqb (v ++ c :: x) v) eqn:E; [|reflexivity]. apply str_eqb_eq in E.
  apply (f_equal (@length N)) in E. rewrite app_length in E. cbn in E. lia.
Qed.

Lemma ver_cmp_alpha_below v r s : ver_cmp (v ++ s_alpha) r v s = (-1)%Z.
Proof.
  unfold ver_cmp, ver_cmp_gen. unfold s_alpha at 1. rewrite str_eqb_app_ne.
  rewrite split_alpha.
  destruct (split_on 95 v) as [|h t] eqn:E; [exfalso; exact (split_nonempty 95 v E)|].
  cbn [hd tl app]. unfold num_cmp. rewrite str_eqb_refl. cbn [Z.eqb negb].
  rewrite suf_loop_extra. vm_compute. reflexivity.
Qed.

Lemma is_version_alpha v : is_version v -> is_version (v ++ s_alpha).
Proof.
  intro H. apply valid_version_iff in H. apply valid_version_iff.
  unfold valid_version_core in *. rewrite split_alpha.
  destruct (split_on 95 v) as [|h t] eqn:E; [discriminate|]. cbn [app].
  apply andb_true_iff in H as [H1 H2]. rewrite H1. cbn. rewrite forallb_app, H2. vm_compute. reflexivity.
Qed.

Lemma rev_cmp_succ r : rev_cmp (Some (rev_val r + 1)%N) r = 1%Z.
Proof. unfold rev_cmp, cmpN. cbn [rev_val]. destruct (N.compare_spec (rev_val r + 1) (rev_val r)); try lia. reflexivity. Qed.

Lemma ver_cmp_next_rev v s : ver_cmp v (Some (rev_val s + 1)%N) v s = 1%Z.
Proof. rewrite ver_cmp_same. apply rev_cmp_succ. Qed.

(* decimal text of a revision number (only for the fullver text of a bumped revision; no operator
   but `=*` reads fullver, and a glob is always matched on an atom's own text) *)
Fixpoint dec_digits (fuel : nat) (n : N) (acc : str) : str :=
  match fuel with
  | O => acc
  | S f => let acc' := (48 + N.modulo n 10)%N :: acc in
           if N.eqb (N.div n 10) 0 then acc' else dec_digits f (N.div n 10) acc'
  end.
Definition dec_text (n : N) : str := dec_digits (S (N.to_nat (N.log2 n))) n [].

Definition vtriple := (str * option N * str)%type.        (* version, revision, fullver *)
Definition own (x : atom) : vtriple := (a_ver x, a_rev x, fullver_of x).
Definition above (x : atom) : vtriple :=
  let n := (rev_val (a_rev x) + 1)%N in (a_ver x, Some n, a_ver x ++ [45; 114]%N ++ dec_text n).
Definition below (x : atom) : vtriple := (a_ver x ++ s_alpha, None, a_ver x ++ s_alpha).
Definition candidates (a b : atom) : list vtriple := [own a; own b; above a; above b; below a; below b].

Definition MvT (a : atom) (w : vtriple) : bool := Mv ver_cmp a (fst (fst w)) (snd (fst w)) (snd w).

(* the witness: the first candidate both version restrictions accept; the default [own a] is never
   reached when some candidate is accepted ([version_witness_ok]) *)
Definition version_witness (a b : atom) : vtriple :=
  match find (fun w => MvT a w && MvT b w) (candidates a b) with Some w => w | None => own a end.

Lemma version_witness_ok a b :
  (exists w, In w (candidates a b) /\ MvT a w = true /\ MvT b w = true) ->
  MvT a (version_witness a b) = true /\ MvT b (version_witness a b) = true.
Proof.
  intros [w [Hin [H1 H2]]]. unfold version_witness.
  destruct (find _ _) as [w'|] eqn:E.
  - apply find_some in E as [_ E]. apply andb_true_iff in E. exact E.
  - exfalso. pose proof (find_none _ _ E w Hin) as N. cbv beta in N. rewrite H1, H2 in N. discriminate.
Qed.

(* ---- what each candidate satisfies: an atom's own version when its operator admits equality,
   its next revision for >=, > and ~, its version with _alpha appended for < and <= *)
Lemma MvT_nonglob x w : wf_atom x = true -> (a_op x <= 5)%N ->
  MvT x w = vmatch ver_cmp (a_op x) false (a_ver x) (a_rev x) (fst (fst w)) (snd (fst w)).
Proof. apply Mv_nonglob. Qed.

Lemma own_ok x : wf_atom x = true ->
  (a_op x = 1 \/ a_op x = 2 \/ a_op x = 3 \/ a_op x = 5 \/ a_op x = 6)%N -> MvT x (own x) = true.
Proof.
  intros W [E|[E|[E|[E|E]]]];
    try (rewrite MvT_nonglob by (assumption || lia); unfold vmatch, own; rewrite E; cbn;
         rewrite ver_cmp_same; unfold rev_cmp; rewrite ?cmpN_refl; reflexivity).
  unfold MvT. rewrite (Mv_glob _ _ _ _ _ W E).
  pose proof (startswith_app (fullver_of x) []) as H. rewrite app_nil_r in H. exact H.
Qed.

Lemma above_ok x : wf_atom x = true -> (a_op x = 3 \/ a_op x = 4 \/ a_op x = 5)%N -> MvT x (above x) = true.
Proof.
  intros W [E|[E|E]]; rewrite MvT_nonglob by (assumption || lia); unfold vmatch, above; rewrite E; cbn;
    rewrite ver_cmp_same, ?rev_cmp_succ; unfold rev_cmp; rewrite ?cmpN_refl; reflexivity.
Qed.

Lemma below_ok x : wf_atom x = true -> (a_op x = 0 \/ a_op x = 1)%N -> MvT x (below x) = true.
Proof.
  intros W [E|E]; rewrite MvT_nonglob by (assumption || lia); unfold vmatch, below; rewrite E; cbn;
    rewrite ver_cmp_alpha_below; reflexivity.
Qed.

Lemma solo_ok x : wf_atom x = true -> (a_op x <= 6)%N ->
  exists w, In w [own x; above x; below x] /\ MvT x w = true.
Proof.
  intros W L.
  assert (C : ((a_op x = 0 \/ a_op x = 1) \/ a_op x = 4 \/
               (a_op x = 1 \/ a_op x = 2 \/ a_op x = 3 \/ a_op x = 5 \/ a_op x = 6))%N) by lia.
  destruct C as [E|[E|E]].
  - exists (below x). split; [cbn; auto|apply below_ok; assumption].
  - exists (above x). split; [cbn; auto|apply above_ok; auto].
  - exists (own x). split; [cbn; auto|apply own_ok; assumption].
Qed.

Definition Wit (a b : atom) : Prop :=
  exists w, In w (candidates a b) /\ MvT a w = true /\ MvT b w = true.

Lemma Wit_sym a b : Wit b a -> Wit a b.
Proof.
  intros [w [Hin [H1 H2]]]. exists w. split; [|split; assumption].
  unfold candidates in *. cbn in *. intuition.
Qed.

Lemma wit_unversioned a b :
  wf_atom a = true -> wf_atom b = true -> a_op a = 7%N -> Wit a b.
Proof.
  intros Wa Wb Ua.
  assert (Ma : forall w, MvT a w = true) by (intro w; apply Mv_unversioned; assumption).
  destruct (N.eq_dec (a_op b) 7) as [Ub|Nb].
  - exists (own a). split; [cbn; auto|]. split; [apply Ma|apply Mv_unversioned; assumption].
  - pose proof (proj1 (wf_atom_inv b Wb)) as Lb.
    destruct (solo_ok b Wb) as [w [Hin Hw]]; [lia|]. exists w. split; [|split; [apply Ma|exact Hw]].
    unfold candidates. cbn in *. intuition.
Qed.

(* `=` against anything versioned: its own version *)
Lemma wit_eq a b :
  wf_atom a = true -> wf_atom b = true -> a_op a = 2%N -> (a_op b <= 6)%N ->
  version_part ver_cmp a b = true -> Wit a b.
Proof.
  intros Wa Wb Ea Lb H. exists (own a). split; [cbn; auto|]. split; [apply own_ok; auto|].
  destruct (N.eq_dec (a_op b) 6) as [Eb|Nb].
  - unfold MvT. rewrite (Mv_glob _ _ _ _ _ Wb Eb). rewrite (vp_eq_glob _ a b Ea Eb) in H. exact H.
  - rewrite MvT_nonglob by (assumption || lia). rewrite vp_eq in H by (assumption || lia). exact H.
Qed.

Lemma mem_lower op c : (op = 0 \/ op = 1)%N -> c = (-1)%Z -> memZ c (opv op) = true.
Proof. intros [->| ->] ->; reflexivity. Qed.
Lemma mem_upper op c : (op = 3 \/ op = 4)%N -> c = 1%Z -> memZ c (opv op) = true.
Proof. intros [->| ->] ->; reflexivity. Qed.

(* both bounded above: just below the smaller bound *)
Lemma wit_lower a b :
  wf_atom a = true -> wf_atom b = true -> is_version (a_ver a) -> is_version (a_ver b) ->
  (a_op a = 0 \/ a_op a = 1)%N -> (a_op b = 0 \/ a_op b = 1)%N -> Wit a b.
Proof.
  (* when ver a <= ver b, a_alpha is below both *)
  assert (Half : forall x y, wf_atom y = true -> is_version (a_ver x) -> is_version (a_ver y) ->
    (a_op y = 0 \/ a_op y = 1)%N ->
    (ver_cmp (a_ver x) (a_rev x) (a_ver y) (a_rev y) <= 0)%Z -> MvT y (below x) = true).
  { intros x y Wy Vx Vy Oy Le.
    rewrite MvT_nonglob, vmatch_op by (assumption || lia). apply mem_lower; [exact Oy|]. unfold below. cbn [fst snd].
    apply (ord_lt_le _ _ ver_cmp_total_preorder _ _ (a_ver x) (a_rev x));
      auto using is_version_alpha, ver_cmp_alpha_below. }
  intros Wa Wb Va Vb Oa Ob.
  destruct (Z_le_gt_dec (ver_cmp (a_ver a) (a_rev a) (a_ver b) (a_rev b)) 0) as [Le|Gt].
  - exists (below a). split; [cbn; auto 7|]. split; [apply below_ok|apply Half]; assumption.
  - exists (below b). split; [cbn; auto 7|]. split; [apply Half|apply below_ok]; try assumption.
    rewrite (ord_anti _ _ ver_cmp_total_preorder (a_ver a) (a_rev a)) by assumption. lia.
Qed.

(* both bounded below: the next revision of the larger bound *)
Lemma wit_upper a b :
  wf_atom a = true -> wf_atom b = true -> is_version (a_ver a) -> is_version (a_ver b) ->
  (a_op a = 3 \/ a_op a = 4)%N -> (a_op b = 3 \/ a_op b = 4)%N -> Wit a b.
Proof.
  assert (Half : forall x y, wf_atom y = true -> is_version (a_ver x) -> is_version (a_ver y) ->
    (a_op y = 3 \/ a_op y = 4)%N ->
    (0 <= ver_cmp (a_ver x) (a_rev x) (a_ver y) (a_rev y))%Z -> MvT y (above x) = true).
  { intros x y Wy Vx Vy Oy Ge.
    rewrite MvT_nonglob, vmatch_op by (assumption || lia). apply mem_upper; [exact Oy|]. unfold above. cbn [fst snd].
    apply (ord_gt_ge _ _ ver_cmp_total_preorder _ _ (a_ver x) (a_rev x)); auto.
    apply ver_cmp_next_rev. }
  intros Wa Wb Va Vb Oa Ob.
  destruct (Z_le_gt_dec 0 (ver_cmp (a_ver a) (a_rev a) (a_ver b) (a_rev b))) as [Ge|Lt].
  - exists (above a). split; [cbn; auto 7|]. split; [apply above_ok; [assumption|lia]|apply Half; assumption].
  - exists (above b). split; [cbn; auto 7|]. split; [apply Half|apply above_ok; [assumption|lia]]; try assumption.
    rewrite (ord_anti _ _ ver_cmp_total_preorder (a_ver a) (a_rev a)) by assumption. lia.
Qed.

(* opposite directions.  [lo] is >= or >, [hi] is <= or < *)
Definition nonadjacent (lo hi : atom) : Prop :=
  ver_cmp (a_ver lo) None (a_ver hi) None <> 0%Z
  \/ rev_val (a_rev hi) <> (rev_val (a_rev lo) + 1)%N.

Lemma wit_opposite lo hi :
  wf_atom lo = true -> wf_atom hi = true ->
  (a_op lo = 3 \/ a_op lo = 4)%N -> (a_op hi = 0 \/ a_op hi = 1)%N ->
  (a_op lo = 4%N -> a_op hi = 0%N -> nonadjacent lo hi) ->
  version_part ver_cmp lo hi = true -> Wit lo hi.
Proof.
  intros Wl Wh Ol Oh Hna H.
  rewrite (vp_opposite _ lo hi Ol Oh) in H. apply andb_true_iff in H as [H1 H2].
  destruct Ol as [El|El].
  - (* >= : lo's own version *)
    exists (own lo). split; [cbn; auto|]. split; [apply own_ok; auto|].
    rewrite MvT_nonglob by (assumption || lia). exact H1.
  - destruct Oh as [Eh|Eh].
    + (* > against < : the next revision of lo *)
      exists (above lo). split; [cbn; auto 7|]. split; [apply above_ok; auto|].
      rewrite MvT_nonglob by (assumption || lia). unfold above. cbn [fst snd].
      unfold vm in H1. rewrite Eh, vmatch_op in H1 |- * by discriminate.
      cbn in H1 |- *. rewrite orb_false_r in H1 |- *. apply Z.eqb_eq in H1. apply Z.eqb_eq.
      destruct (ver_cmp_shape (a_ver lo) (a_ver hi)) as [[c|] Hk]; rewrite Hk in *; [exact H1|].
      specialize (Hna El Eh). destruct Hna as [Hna|Hna]; [rewrite Hk in Hna; contradiction|].
      unfold rev_cmp, cmpN in *. cbn [rev_val].
      destruct (N.compare_spec (rev_val (a_rev lo)) (rev_val (a_rev hi))); cbn in H1; try discriminate.
      destruct (N.compare_spec (rev_val (a_rev lo) + 1) (rev_val (a_rev hi))); try reflexivity; lia.
    + (* <= : hi's own version *)
      exists (own hi). split; [cbn; auto|]. split; [|apply own_ok; auto].
      rewrite MvT_nonglob by (assumption || lia). exact H2.
Qed.

Lemma wit_tilde_tilde a b :
  wf_atom a = true -> wf_atom b = true -> a_op a = 5%N -> a_op b = 5%N ->
  version_part ver_cmp a b = true -> Wit a b.
Proof.
  intros Wa Wb Ea Eb H. rewrite (vp_tilde_tilde _ a b Ea Eb) in H.
  apply andb_true_iff in H as [H _]. apply str_eqb_eq in H.
  exists (own a). split; [cbn; auto|]. split; [apply own_ok; auto|].
  rewrite MvT_nonglob by (assumption || lia). unfold own. cbn [fst snd].
  rewrite Eb, vmatch_tilde, H, ver_cmp_same. reflexivity.
Qed.

Lemma wit_glob_glob a b :
  wf_atom a = true -> wf_atom b = true -> a_op a = 6%N -> a_op b = 6%N ->
  version_part ver_cmp a b = true -> Wit a b.
Proof.
  intros Wa Wb Ea Eb H. rewrite (vp_glob_glob _ a b Ea Eb) in H. apply orb_true_iff in H as [H|H].
  - exists (own a). split; [cbn; auto|]. split; [apply own_ok; auto 6|].
    unfold MvT. rewrite (Mv_glob _ _ _ _ _ Wb Eb). exact H.
  - exists (own b). split; [cbn; auto|]. split; [|apply own_ok; auto 6].
    unfold MvT. rewrite (Mv_glob _ _ _ _ _ Wa Ea). exact H.
Qed.

(* a glob WITHOUT a revision against `~`: the `~` atom's own version *)
Lemma wit_glob_tilde g t :
  wf_atom g = true -> wf_atom t = true -> a_op g = 6%N -> a_op t = 5%N -> fullver_of g = a_ver g ->
  version_part ver_cmp g t = true -> Wit g t.
Proof.
  intros Wg Wt Eg Et Hf H. rewrite (vp_glob_tilde _ g t Eg Et) in H.
  exists (own t). split; [cbn; auto|]. split; [|apply own_ok; auto 6].
  unfold MvT. rewrite (Mv_glob _ _ _ _ _ Wg Eg), Hf. exact H.
Qed.

Lemma wit_ranged_tilde r t :
  wf_atom r = true -> wf_atom t = true ->
  ((a_op r = 0 \/ a_op r = 1) \/ (a_op r = 3 \/ a_op r = 4))%N -> a_op t = 5%N ->
  version_part ver_cmp r t = true -> Wit r t.
Proof.
  intros Wr Wt Or Et H.
  assert (Hv : vm ver_cmp r t = true \/ ((a_op r = 3 \/ a_op r = 4)%N /\ vm ver_cmp t r = true)).
  { destruct Or as [Or|Or]; [rewrite (vp_lower_tilde _ r t Or Et) in H; auto|].
    rewrite (vp_upper_tilde _ r t Or Et) in H. apply orb_true_iff in H as [H|H]; auto. }
  destruct Hv as [H1|[Og H2]].
  - exists (own t). split; [cbn; auto|]. split; [|apply own_ok; auto 6].
    rewrite MvT_nonglob by (assumption || lia). exact H1.
  - exists (above r). split; [cbn; auto 7|]. split; [apply above_ok; [assumption|lia]|].
    rewrite MvT_nonglob by (assumption || lia). unfold above. cbn [fst snd].
    unfold vm in H2. rewrite Et, vmatch_tilde in *. exact H2.
Qed.

(* a ranged operator against a glob whose own version is in the range *)
Lemma wit_ranged_glob r g :
  wf_atom r = true -> wf_atom g = true ->
  ((a_op r = 0 \/ a_op r = 1) \/ (a_op r = 3 \/ a_op r = 4))%N -> a_op g = 6%N ->
  (a_op g = 6%N -> is_ranged r = true -> vm ver_cmp r g = true) -> Wit r g.
Proof.
  intros Wr Wg Or Eg H.
  exists (own g). split; [cbn; auto|]. split; [|apply own_ok; auto 6].
  rewrite MvT_nonglob by (assumption || lia). apply H; [exact Eg|].
  unfold is_ranged, has_lt, has_gt. destruct Or as [[-> | ->]|[-> | ->]]; reflexivity.
Qed.

(* the premises that exclude the recorded unwitnessed classes (adjacent revisions; a glob with a
   revision against `~`) and the part not proved (a ranged operator against a glob is covered only
   when the glob's own version lies in the range) *)
Definition wit_premise (a b : atom) : Prop :=
  (a_op a = 4%N -> a_op b = 0%N -> nonadjacent a b) /\ (a_op b = 4%N -> a_op a = 0%N -> nonadjacent b a)
  /\ (a_op a = 6%N -> a_op b = 5%N -> fullver_of a = a_ver a)
  /\ (a_op b = 6%N -> a_op a = 5%N -> fullver_of b = a_ver b)
  /\ (a_op a = 6%N -> is_ranged b = true -> vm ver_cmp b a = true)
  /\ (a_op b = 6%N -> is_ranged a = true -> vm ver_cmp a b = true).

Lemma version_witnessed_cells : forall a b,
  wf_atom a = true -> wf_atom b = true ->
  (a_op a <> 7%N -> is_version (a_ver a)) -> (a_op b <> 7%N -> is_version (a_ver b)) ->
  wit_premise a b ->
  version_part ver_cmp a b = true -> Wit a b.
Proof.
  intros a b Wa Wb Va Vb [P1 [P2 [P3 [P4 [P5 P6]]]]] H.
  pose proof (proj1 (wf_atom_inv a Wa)) as La. pose proof (proj1 (wf_atom_inv b Wb)) as Lb.
  destruct (N.eq_dec (a_op a) 7) as [Ua|Na]; [apply wit_unversioned; assumption|].
  destruct (N.eq_dec (a_op b) 7) as [Ub|Nb]; [apply Wit_sym, wit_unversioned; assumption|].
  specialize (Va Na). specialize (Vb Nb).
  assert (Hs : version_part ver_cmp b a = true).
  { rewrite version_part_sym; [exact H| |assumption|assumption].
    intros _ _. apply (ord_zero_sym _ _ ver_cmp_total_preorder); assumption. }
  destruct (N.eq_dec (a_op a) 2) as [Ea|Ne]; [apply wit_eq; try assumption; lia|].
  destruct (N.eq_dec (a_op b) 2) as [Eb|Neb]; [apply Wit_sym, wit_eq; try assumption; lia|].
  assert (Ka : ((a_op a = 0 \/ a_op a = 1) \/ (a_op a = 3 \/ a_op a = 4) \/ a_op a = 5 \/ a_op a = 6)%N) by lia.
  assert (Kb : ((a_op b = 0 \/ a_op b = 1) \/ (a_op b = 3 \/ a_op b = 4) \/ a_op b = 5 \/ a_op b = 6)%N) by lia.
  destruct Ka as [Ka|[Ka|[Ka|Ka]]]; destruct Kb as [Kb|[Kb|[Kb|Kb]]].
  - apply wit_lower; assumption.
  - apply Wit_sym, wit_opposite; assumption.
  - apply wit_ranged_tilde; auto.
  - apply wit_ranged_glob; auto.
  - apply wit_opposite; assumption.
  - apply wit_upper; assumption.
  - apply wit_ranged_tilde; auto.
  - apply wit_ranged_glob; auto.
  - apply Wit_sym, wit_ranged_tilde; auto.
  - apply Wit_sym, wit_ranged_tilde; auto.
  - apply wit_tilde_tilde; assumption.
  - apply Wit_sym, wit_glob_tilde; auto.
  - apply Wit_sym, wit_ranged_glob; auto.
  - apply Wit_sym, wit_ranged_glob; auto.
  - apply wit_glob_tilde; auto.
  - apply wit_glob_glob; assumption.
Qed.

Definition pick (x y : option str) (d : str) : str :=
  match x with Some s => s | None => match y with Some s => s | None => d end end.
Definition toks_of (a : atom) : list str := match a_use a with Some t => t | None => [] end.
Definition pos_flags (toks : list str) : list str :=
  flat_map (fun t => let '(_, s, f) := parse_use_token t in if s then [f] else []) toks.
Definition neg_flags (toks : list str) : list str :=
  flat_map (fun t => let '(_, s, f) := parse_use_token t in if s then [] else [f]) toks.
Definition all_flags (toks : list str) : list str := map (fun t => snd (parse_use_token t)) toks.

(* category/name of the atoms, the perturbed version, the slot / sub-slot / repository either atom
   asks for, every flag either atom mentions in IUSE, the positively required ones enabled *)
Definition witness (a b : atom) : package :=
  let w := version_witness a b in
  let T := toks_of a ++ toks_of b in
  {| p_cat := a_cat a; p_pkg := a_pkg a;
     p_ver := fst (fst w); p_rev := snd (fst w); p_fullver := snd w;
     p_slot := pick (a_slot a) (a_slot b) [48]%N;
     p_subslot := pick (a_subslot a) (a_subslot b) [48]%N;
     p_repo := pick (a_repo a) (a_repo b) [103]%N;
     p_use := pos_flags T; p_iuse := all_flags T |}.

(* no flag is required both on and off (excludes the recorded class
   unwitnessed-use-default-hidden-conflict and self-contradictory atoms) *)
Definition use_consistent (a b : atom) : bool :=
  let T := toks_of a ++ toks_of b in
  forallb (fun f => negb (smem f (pos_flags T))) (neg_flags T).

Lemma smem_false x l : ~ In x l -> smem x l = false.
Proof. intro H. destruct (smem x l) eqn:E; [|reflexivity]. apply existsb_str_In in E. contradiction. Qed.

Lemma group_In d s toks f : In f (group d s toks) ->
  exists t d', In t toks /\ parse_use_token t = (d', s, f).
Proof.
  unfold group. intro H. apply in_map_iff in H as [t [Ef Ht]]. apply filter_In in Ht as [Ht Hc].
  destruct (parse_use_token t) as [[d' s'] f'] eqn:E. cbn in Ef. subst f'.
  apply andb_true_iff in Hc as [_ Hs]. apply Bool.eqb_prop in Hs. subst s'. exists t, d'. auto.
Qed.

Lemma mixed_off V use : (forall f, In f V -> smem f use = false) -> mixed V use = false.
Proof.
  intro H. unfold mixed. replace (existsb (fun f => smem f use) V) with false; [reflexivity|].
  symmetry. apply not_true_is_false. rewrite existsb_exists. intros [f [Hf E]].
  rewrite (H f Hf) in E. discriminate.
Qed.

Section UseWitness.
Variables (T : list str).
Hypothesis Hcons : forallb (fun f => negb (smem f (pos_flags T))) (neg_flags T) = true.

Lemma token_state t d s f : In t T -> parse_use_token t = (d, s, f) ->
  smem f (all_flags T) = true /\ smem f (pos_flags T) = s.
Proof.
  intros Ht E. split.
  - apply existsb_str_In, in_map_iff. exists t. rewrite E. auto.
  - destruct s.
    + apply existsb_str_In, in_flat_map. exists t. rewrite E. cbn; auto.
    + rewrite forallb_forall in Hcons. apply negb_true_iff, Hcons, in_flat_map.
      exists t. rewrite E. cbn; auto.
Qed.

Lemma use_witness_ok vc p toks :
  (forall t, In t toks -> In t T) -> p_use p = pos_flags T -> p_iuse p = all_flags T ->
  forallb (eval_restr vc p) (use_restrictions toks) = true.
Proof.
  intros Hin Eu Ei.
  assert (Hoff : forall d V, (forall f, In f V -> In f (group d false toks)) -> mixed V (p_use p) = false).
  { intros d V HV. apply mixed_off. intros f Hf. apply HV, group_In in Hf as (t & d' & Ht & E).
    rewrite Eu. exact (proj2 (token_state t d' false f (Hin t Ht) E)). }
  rewrite use_tokens_part.
  - apply forallb_forall. intros t Ht. destruct (parse_use_token t) as [[d s] f] eqn:E.
    destruct (token_state t d s f (Hin t Ht) E) as [Hi Hu].
    unfold usedep_holds, flag_state. rewrite Ei, Eu, Hi, Hu. apply eqb_reflx.
  - unfold nand_toks. rewrite (Hoff None), (Hoff (Some false)), (Hoff (Some true)); auto.
    + apply andb_false_r.
    + intros f Hf. apply filter_In in Hf. tauto.
Qed.
End UseWitness.

Lemma pick_left x y d : opt_eq x (pick x y d) = true.
Proof. destruct x; cbn; [apply str_eqb_refl|reflexivity]. Qed.
Lemma pick_right x y d : both_differ x y = false -> opt_eq y (pick x y d) = true.
Proof.
  destruct x, y; cbn; intros H; try reflexivity; try apply str_eqb_refl.
  apply negb_false_iff in H. rewrite str_eqb_sym. exact H.
Qed.

Lemma use_witness_clause a b x : use_consistent a b = true -> x = a \/ x = b ->
  use_clause ver_cmp x (witness a b) = true.
Proof.
  intros Hu Hx. unfold use_clause. destruct (a_use x) as [toks|] eqn:E; [|reflexivity].
  apply (use_witness_ok _ Hu); try reflexivity. intros t Ht. apply in_or_app.
  destruct Hx as [<-|<-]; [left|right]; unfold toks_of; rewrite E; exact Ht.
Qed.

Lemma witness_left a b :
  wf_atom a = true -> a_negate_vers a = false -> use_consistent a b = true ->
  MvT a (version_witness a b) = true -> atom_match ver_cmp a (witness a b) = true.
Proof.
  intros Wa Na Hu Hv. apply (atom_match_iff _ _ _ Wa Na). cbn [witness p_cat p_pkg p_slot p_subslot p_repo].
  repeat split; try apply str_eqb_refl; try apply pick_left; [exact Hv|apply use_witness_clause; auto].
Qed.

Lemma witness_right a b :
  wf_atom b = true -> a_negate_vers b = false -> use_consistent a b = true ->
  attrs_compatible a b = true ->
  MvT b (version_witness a b) = true -> atom_match ver_cmp b (witness a b) = true.
Proof.
  intros Wb Nb Hu Hat Hv. unfold attrs_compatible in Hat.
  apply andb_true_iff in Hat as [Hat _]. apply andb_true_iff in Hat as [Hat Hr].
  apply andb_true_iff in Hat as [Hat Hss]. apply andb_true_iff in Hat as [Hat Hs].
  apply andb_true_iff in Hat as [Hc Hk]. apply negb_true_iff in Hr, Hss, Hs.
  apply (atom_match_iff _ _ _ Wb Nb). cbn [witness p_cat p_pkg p_slot p_subslot p_repo].
  repeat split; try (rewrite str_eqb_sym; assumption); try (apply pick_right; assumption);
    [exact Hv|apply use_witness_clause; auto].
Qed.

(* >=a/b-1.0:0[x] and <a/b-2::g[-y] : the witness is a/b-1.0, slot 0, repo g, USE="x", IUSE="x y" *)
Example witness_example :
  let a := {| a_cat := [97]%N; a_pkg := [98]%N; a_op := 3; a_ver := [49; 46; 48]%N; a_rev := None;
              a_fullver := Some [49; 46; 48]%N; a_slot := Some [48]%N; a_subslot := None; a_slotop := None;
              a_repo := None; a_use := Some [[120]]%N; a_blocks := false; a_strong := false; a_negate_vers := false |} in
  let b := {| a_cat := [97]%N; a_pkg := [98]%N; a_op := 0; a_ver := [50]%N; a_rev := None;
              a_fullver := Some [50]%N; a_slot := None; a_subslot := None; a_slotop := None;
              a_repo := Some [103]%N; a_use := Some [[45; 121]]%N; a_blocks := false; a_strong := false;
              a_negate_vers := false |} in
  intersects ver_cmp a b = true /\ use_consistent a b = true
  /\ p_ver (witness a b) = [49; 46; 48]%N /\ p_use (witness a b) = [[120]]%N
  /\ atom_match ver_cmp a (witness a b) = true /\ atom_match ver_cmp b (witness a b) = true.
Proof. vm_compute. repeat split. Qed.

(* >a/b-1 and <a/b-1-r3 (not adjacent): the witness is a/b-1-r1;  <a/b-1 and <=a/b-2: a/b-1_alpha *)
Example witness_perturbed :
  p_fullver (witness (vatom 4 [49]%N None [49]%N) (vatom 0 [49]%N (Some 3%N) [49; 45; 114; 51]%N)) = [49; 45; 114; 49]%N
  /\ p_ver (witness (vatom 0 [49]%N None [49]%N) (vatom 1 [50]%N None [50]%N)) = [49; 95; 97; 108; 112; 104; 97]%N.
Proof. vm_compute. repeat split. Qed.
