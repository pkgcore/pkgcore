From Coq Require Import List NArith Bool.
Import ListNotations.
From Verif Require Import Base.Val Base.Lists C12.Model_C12 C12.Spec_C12 C12.Proofs_C12 C13.Model_C13 C13.Spec_C13.

Lemma nmem_In x l : nmem x l = true <-> In x l.
Proof. apply existsb_N_In. Qed.
Lemma nmem_app x a b : nmem x (a ++ b) = nmem x a || nmem x b.
Proof. unfold nmem. apply existsb_app. Qed.
Lemma nmem_filter x f l : nmem x (filter f l) = nmem x l && f x.
Proof.
  apply eq_true_iff_eq. rewrite andb_true_iff, !nmem_In, filter_In. tauto.
Qed.

(* in_force with a default for atoms no layer mentions *)
Fixpoint in_force_d (rl : list (list N * list N)) (a : N) (d : bool) : bool :=
  match rl with
  | [] => d
  | (neg, pos) :: r => if nmem a pos then true else if nmem a neg then false else in_force_d r a d
  end.
Lemma in_force_d_false rl a : in_force_d rl a false = in_force rl a.
Proof. induction rl as [|[neg pos] r IH]; cbn; [reflexivity | now rewrite IH]. Qed.
Lemma in_force_d_app l1 l2 a d : in_force_d (l1 ++ l2) a d = in_force_d l1 a (in_force_d l2 a d).
Proof. induction l1 as [|[neg pos] r IH]; cbn; [reflexivity | now rewrite IH]. Qed.

Lemma mask_fold ls : forall s a,
  nmem a (fold_left mask_step ls s) = in_force_d (rev ls) a (nmem a s).
Proof.
  induction ls as [|[neg pos] ls IH]; intros s a; cbn [fold_left rev]; [reflexivity|].
  rewrite IH, in_force_d_app. cbn [in_force_d]. f_equal.
  unfold mask_step; cbn [fst snd]. rewrite nmem_app, nmem_filter.
  destruct (nmem a pos), (nmem a neg), (nmem a s); reflexivity.
Qed.

Lemma hits_swap p s : hits p s = existsb (fun a => nmem a s) (p_match p).
Proof.
  unfold hits. apply eq_true_iff_eq. rewrite !existsb_exists.
  split; intros [a [Ha Hm]]; apply nmem_In in Hm; exists a; (split; [assumption | now apply nmem_In]).
Qed.

Lemma layered_set ls user p :
  hits p (fold_left mask_step ls [] ++ user)
  = existsb (in_force (rev (ls ++ [([], user)]))) (p_match p).
Proof.
  rewrite hits_swap. apply existsb_ext_in. intros a _.
  rewrite rev_app_distr. cbn [rev app in_force]. rewrite nmem_app, mask_fold.
  cbn [nmem existsb]. rewrite in_force_d_false.
  destruct (nmem a user); [now rewrite orb_true_r | now rewrite orb_false_r].
Qed.

Lemma mask_conjunct_proof : forall c p, mask_ok c p = mask_spec c p.
Proof.
  intros c p. unfold mask_ok, mask_spec, masked_spec, unmasked_spec, mask_set, unmask_set,
    mask_layers, unmask_layers.
  rewrite (layered_set (([], repo_masks c) :: prof_masks c)), (layered_set (prof_unmasks c)).
  reflexivity.
Qed.

Lemma forallb_flat_map {A B} (f : B -> bool) (g : A -> list B) l :
  forallb f (flat_map g l) = forallb (fun a => forallb f (g a)) l.
Proof. induction l as [|a l IH]; cbn; [reflexivity|]. now rewrite forallb_app, IH. Qed.
Lemma existsb_flat_map {A B} (f : B -> bool) (g : A -> list B) l :
  existsb f (flat_map g l) = existsb (fun a => existsb f (g a)) l.
Proof. induction l as [|a l IH]; cbn; [reflexivity|]. now rewrite existsb_app, IH. Qed.
Lemma is_nil_flat_map {A B} (g : A -> list B) l : is_nil (flat_map g l) = forallb (fun a => is_nil (g a)) l.
Proof. induction l as [|a l IH]; cbn; [reflexivity|]. rewrite <- IH. destruct (g a); reflexivity. Qed.
(* The trees nest through [list], for which Coq's own induction principles give no hypothesis about
   the children: these carry [Forall P] over them. *)
Definition Forall_all {A} (P : A -> Prop) (f : forall a, P a) : forall l, Forall P l :=
  fix go l := match l with [] => Forall_nil P | x :: r => Forall_cons x (f x) (go r) end.
Section EtreeInd.
  Variable P : etree -> Prop.
  Hypothesis HL : forall l, P (ELic l).
  Hypothesis HA : forall cs, Forall P cs -> P (EAll cs).
  Hypothesis HO : forall cs, Forall P cs -> P (EAny cs).
  Fixpoint etree_ind' (t : etree) : P t :=
    match t with
    | ELic l => HL l
    | EAll cs => HA cs (Forall_all P etree_ind' cs)
    | EAny cs => HO cs (Forall_all P etree_ind' cs)
    end.
End EtreeInd.
Section LtreeInd.
  Variable P : ltree -> Prop.
  Hypothesis HL : forall l, P (LLic l).
  Hypothesis HA : forall cs, Forall P cs -> P (LAll cs).
  Hypothesis HO : forall cs, Forall P cs -> P (LAny cs).
  Hypothesis HU : forall n f cs, Forall P cs -> P (LUse n f cs).
  Fixpoint ltree_ind' (t : ltree) : P t :=
    match t with
    | LLic l => HL l
    | LAll cs => HA cs (Forall_all P ltree_ind' cs)
    | LAny cs => HO cs (Forall_all P ltree_ind' cs)
    | LUse n f cs => HU n f cs (Forall_all P ltree_ind' cs)
    end.
End LtreeInd.

Fixpoint esat (acc : str -> bool) (t : etree) : bool :=
  match t with
  | ELic l => acc l
  | EAll cs => forallb (esat acc) cs
  | EAny cs => match cs with [] => true | _ => existsb (esat acc) cs end
  end.

Section Dnf.
  Variable acc : str -> bool.
  Let sat (s : list lclause) : bool := existsb (forallb acc) s.

  Lemma cross_sem a b : sat (cross a b) = sat a && sat b.
  Proof.
    unfold sat, cross. induction a as [|n a IH]; cbn; [reflexivity|].
    rewrite existsb_app, IH. clear IH.
    assert (E : existsb (forallb acc) (map (fun n2 => n ++ n2) b) = forallb acc n && existsb (forallb acc) b).
    { induction b as [|m b IHb]; cbn; [now rewrite andb_false_r|].
      rewrite forallb_app, IHb. destruct (forallb acc n); reflexivity. }
    rewrite E. destruct (forallb acc n); cbn; [|reflexivity].
    destruct (existsb (forallb acc) b); [reflexivity | now rewrite andb_false_r].
  Qed.
  Lemma product_sem others : forall a, sat (product a others) = sat a && forallb sat others.
  Proof.
    induction others as [|o os IH]; intro a; cbn; [now rewrite andb_true_r|].
    rewrite cross_sem, IH. reflexivity.
  Qed.
  Definition child_sat (ch : option str * list lclause) : bool :=
    match fst ch with Some s => acc s | None => sat (snd ch) end.
  Lemma and_loop_sem l : forall hard opts,
    sat (and_loop hard opts l) = forallb acc hard && forallb sat opts && forallb child_sat l.
  Proof.
    induction l as [|[lf d] l IH]; intros hard opts.
    - cbn [and_loop forallb]. rewrite product_sem. cbn. now rewrite orb_false_r, andb_true_r.
    - cbn [forallb]. destruct lf as [s|].
      + cbn [and_loop]. rewrite IH, forallb_app. cbn [forallb].
        change (child_sat (Some s, d)) with (acc s).
        destruct (forallb acc hard), (acc s), (forallb sat opts), (forallb child_sat l); reflexivity.
      + change (child_sat (None, d)) with (sat d).
        assert (Hopt : sat (and_loop hard (opts ++ [d]) l)
                       = forallb acc hard && forallb sat opts && (sat d && forallb child_sat l)).
        { rewrite IH, forallb_app. cbn [forallb].
          destruct (forallb acc hard), (forallb sat opts), (sat d), (forallb child_sat l); reflexivity. }
        destruct d as [|cl [|cl2 d']]; try exact Hopt.
        cbn [and_loop]. rewrite IH, forallb_app. unfold sat at 3. cbn [existsb].
        rewrite orb_false_r.
        destruct (forallb acc hard), (forallb acc cl), (forallb sat opts), (forallb child_sat l); reflexivity.
  Qed.

  Lemma ldnf_sem : forall t, existsb (forallb acc) (ldnf t) = esat acc t.
  Proof.
    change (forall t, sat (ldnf t) = esat acc t).
    induction t as [l | cs IH | cs IH] using etree_ind'; [cbn; now rewrite andb_true_r, orb_false_r | |];
      (destruct cs as [|c0 cs']; [reflexivity|]); rewrite Forall_forall in IH; cbn [esat].
    - change (ldnf (EAll (c0 :: cs'))) with (and_loop [] [] (map (fun ch => (leaf_of ch, ldnf ch)) (c0 :: cs'))).
      rewrite and_loop_sem, forallb_map. change (forallb acc [] && forallb sat []) with true. cbn [andb].
      apply forallb_ext_in. intros c Hc.
      specialize (IH c Hc). destruct c; [reflexivity | exact IH | exact IH].
    - change (ldnf (EAny (c0 :: cs'))) with (flat_map ldnf (c0 :: cs')).
      unfold sat. rewrite existsb_flat_map. apply existsb_ext_in. exact IH.
  Qed.
End Dnf.

Section Eval.
  Variable u : list N.
  Variable acc : str -> bool.
  Let h := lsat u acc.
  Definition vtrue (o : option bool) : bool := match o with Some b => b | None => true end.
  Definition vfalse (o : option bool) : bool := match o with Some b => b | None => false end.

  Definition absent (o : option bool) : bool := match o with Some _ => false | None => true end.

  Lemma present_nil {A} (g : A -> option bool) l :
    is_nil (present (map g l)) = forallb (fun a => absent (g a)) l.
  Proof.
    unfold present. rewrite is_nil_flat_map, forallb_map. apply forallb_ext_in. intros a _. destruct (g a); reflexivity.
  Qed.
  Lemma present_forallb {A} (g : A -> option bool) l :
    forallb (fun b => b) (present (map g l)) = forallb (fun a => vtrue (g a)) l.
  Proof.
    induction l as [|a l IH]; cbn; [reflexivity|]. unfold present in *. cbn.
    rewrite forallb_app, IH. destruct (g a); cbn; [now rewrite andb_true_r | reflexivity].
  Qed.
  Lemma present_existsb {A} (g : A -> option bool) l :
    existsb (fun b => b) (present (map g l)) = existsb (fun a => vfalse (g a)) l.
  Proof.
    induction l as [|a l IH]; cbn; [reflexivity|]. unfold present in *. cbn.
    rewrite existsb_app, IH. destruct (g a); cbn; [now rewrite orb_false_r | reflexivity].
  Qed.
  Lemma all_present_spec l :
    absent (all_present l) = is_nil (present l)
    /\ vtrue (all_present l) = forallb (fun b => b) (present l)
    /\ vfalse (all_present l) = negb (is_nil (present l)) && forallb (fun b => b) (present l).
  Proof. unfold all_present. destruct (present l); repeat split. Qed.
  Lemma any_present_spec l :
    absent (any_present l) = is_nil (present l)
    /\ vtrue (any_present l) = is_nil (present l) || existsb (fun b => b) (present l)
    /\ vfalse (any_present l) = existsb (fun b => b) (present l).
  Proof. unfold any_present. destruct (present l); repeat split. Qed.

  Lemma present_somes {A} (g : A -> bool) l : present (map (fun t => Some (g t)) l) = map g l.
  Proof. induction l as [|a l IHl]; cbn; [reflexivity | now rewrite <- IHl]. Qed.
  Lemma all_present_somes {A} (g : A -> bool) l : l <> [] ->
    all_present (map (fun t => Some (g t)) l) = Some (forallb g l).
  Proof.
    intro H. unfold all_present. rewrite present_somes. destruct l as [|a l]; [congruence|].
    rewrite <- (forallb_map (fun b : bool => b) g). reflexivity.
  Qed.
  Lemma any_present_somes {A} (g : A -> bool) l : l <> [] ->
    any_present (map (fun t => Some (g t)) l) = Some (existsb g l).
  Proof.
    intro H. unfold any_present. rewrite present_somes. destruct l as [|a l]; [congruence|].
    rewrite <- (existsb_map (fun b : bool => b) g). reflexivity.
  Qed.

  (* what a node contributes to its parent's sequence: nothing iff it is absent; to an all-of
     parent its value or true, to an any-of parent its value or false *)
  Definition ev_ok (t : ltree) : Prop :=
    forall pa, is_nil (ev u pa t) = absent (h t)
               /\ forallb (esat acc) (ev u false t) = vtrue (h t)
               /\ existsb (esat acc) (ev u true t) = vfalse (h t).

  (* splicing (a node of the parent's kind, or one with at most one child) keeps the meaning *)
  Lemma place_all_spec l :
    (forall pa, is_nil (place_all pa l) = is_nil l)
    /\ forallb (esat acc) (place_all false l) = forallb (esat acc) l
    /\ existsb (esat acc) (place_all true l) = negb (is_nil l) && forallb (esat acc) l.
  Proof.
    unfold place_all. destruct l as [|a [|b l]]; cbn; repeat split; try (intros []; reflexivity);
      rewrite ?andb_true_r, ?orb_false_r; reflexivity.
  Qed.
  Lemma place_any_spec l :
    (forall pa, is_nil (place_any pa l) = is_nil l)
    /\ forallb (esat acc) (place_any false l) = is_nil l || existsb (esat acc) l
    /\ existsb (esat acc) (place_any true l) = existsb (esat acc) l.
  Proof.
    unfold place_any. destruct l as [|a [|b l]]; cbn; repeat split; try (intros []; reflexivity);
      rewrite ?andb_true_r, ?orb_false_r; reflexivity.
  Qed.

  Lemma all_like cs : Forall ev_ok cs ->
    forall pa, is_nil (place_all pa (flat_map (ev u false) cs)) = absent (all_present (map h cs))
      /\ forallb (esat acc) (place_all false (flat_map (ev u false) cs)) = vtrue (all_present (map h cs))
      /\ existsb (esat acc) (place_all true (flat_map (ev u false) cs)) = vfalse (all_present (map h cs)).
  Proof.
    intros IH pa. rewrite Forall_forall in IH.
    destruct (place_all_spec (flat_map (ev u false) cs)) as [-> [-> ->]].
    destruct (all_present_spec (map h cs)) as [-> [-> ->]].
    rewrite is_nil_flat_map, present_nil, forallb_flat_map, present_forallb.
    rewrite (forallb_ext_in _ _ cs (fun a Ha => proj1 (IH a Ha false))).
    rewrite (forallb_ext_in _ _ cs (fun a Ha => proj1 (proj2 (IH a Ha false)))). auto.
  Qed.
  Lemma any_like cs : Forall ev_ok cs ->
    forall pa, is_nil (place_any pa (flat_map (ev u true) cs)) = absent (any_present (map h cs))
      /\ forallb (esat acc) (place_any false (flat_map (ev u true) cs)) = vtrue (any_present (map h cs))
      /\ existsb (esat acc) (place_any true (flat_map (ev u true) cs)) = vfalse (any_present (map h cs)).
  Proof.
    intros IH pa. rewrite Forall_forall in IH.
    destruct (place_any_spec (flat_map (ev u true) cs)) as [-> [-> ->]].
    destruct (any_present_spec (map h cs)) as [-> [-> ->]].
    rewrite is_nil_flat_map, present_nil, existsb_flat_map, present_existsb.
    rewrite (forallb_ext_in _ _ cs (fun a Ha => proj1 (IH a Ha true))).
    rewrite (existsb_ext_in _ _ cs (fun a Ha => proj2 (proj2 (IH a Ha true)))). auto.
  Qed.

  Lemma ev_sem : forall t, ev_ok t.
  Proof.
    induction t as [l | cs IH | cs IH | n f cs IH] using ltree_ind'; intro pa.
    - cbn. now rewrite andb_true_r, orb_false_r.
    - apply all_like, IH.
    - apply any_like, IH.
    - unfold h. cbn [ev lsat]. destruct (xorb (nmem f u) n); [|repeat split].
      destruct cs as [|c0 cs']; [repeat split | apply all_like, IH].
  Qed.

  Lemma plain_children cs :
    Forall (fun t => wf_ltree t = true -> has_cond t = false -> h t = Some (esat acc (plain t))) cs ->
    forallb wf_ltree cs = true -> existsb has_cond cs = false ->
    map h cs = map (fun t => Some (esat acc (plain t))) cs.
  Proof.
    intros IH Hwf Hc. apply map_ext_in. intros a Ha. rewrite Forall_forall in IH. rewrite forallb_forall in Hwf.
    apply IH; [exact Ha | exact (Hwf a Ha) | exact (proj1 (existsb_false _ _) Hc a Ha)].
  Qed.
  Lemma plain_sem : forall t, wf_ltree t = true -> has_cond t = false ->
    h t = Some (esat acc (plain t)).
  Proof.
    induction t as [l | cs IH | cs IH | n f cs IH] using ltree_ind'; intros Hwf Hc;
      [reflexivity | | | discriminate];
      cbn in Hwf, Hc; apply andb_true_iff in Hwf as [Hne Hwf];
      (destruct cs as [|c0 cs']; [discriminate|]).
    - change (h (LAll (c0 :: cs'))) with (all_present (map h (c0 :: cs'))).
      rewrite (plain_children _ IH Hwf Hc), all_present_somes by discriminate.
      cbn [plain esat]. now rewrite forallb_map.
    - change (h (LAny (c0 :: cs'))) with (any_present (map h (c0 :: cs'))).
      rewrite (plain_children _ IH Hwf Hc), any_present_somes by discriminate.
      cbn [plain esat map]. change (plain c0 :: map plain cs') with (map plain (c0 :: cs')).
      now rewrite existsb_map.
  Qed.

  Lemma evaluate_sem ts : forallb wf_ltree ts = true ->
    esat acc (evaluate u ts) = forallb (fun b => b) (present (map h ts)).
  Proof.
    intro Hwf. unfold evaluate. destruct (existsb has_cond ts) eqn:Hc; cbn [esat].
    - rewrite forallb_flat_map, present_forallb. apply forallb_ext_in. intros a _.
      apply (proj2 (ev_sem a false)).
    - rewrite forallb_map, present_forallb. apply forallb_ext_in. intros a Ha.
      rewrite forallb_forall in Hwf. rewrite plain_sem; [reflexivity | exact (Hwf a Ha) | exact (proj1 (existsb_false _ _) Hc a Ha)].
  Qed.
End Eval.

Lemma lw_ext (A A' D D' : str -> str -> bool) rs x b :
  (forall t, A t x = A' t x) -> (forall t, D t x = D' t x) ->
  last_writer A D rs x b = last_writer A' D' rs x b.
Proof. intros HA HD. induction rs as [|t r IH]; cbn; [reflexivity|]. now rewrite HA, HD, IH. Qed.

Lemma lic_adds_member cl g t l : In l cl -> lic_adds cl g t l = lic_adds [l] g t l.
Proof.
  intro H. unfold lic_adds. destruct t as [|ch i]; [reflexivity|].
  destruct (N.eqb ch DASH); [reflexivity|]. destruct (N.eqb ch AT); [reflexivity|].
  destruct (str_eqb (ch :: i) [STAR]); [|reflexivity].
  apply mem_In in H. rewrite H. cbn. now rewrite str_eqb_refl.
Qed.

Lemma wf_license_ok t : wf_license t = true -> bad_license t = None.
Proof.
  unfold wf_license, wf, bad_license. intro H.
  apply andb_true_iff in H as [H H3]. apply andb_true_iff in H as [H H2]. apply andb_true_iff in H as [H0 H1].
  apply negb_true_iff in H0, H1, H2, H3. now rewrite H0, H1, H2, H3.
Qed.
Lemma wf_ok t : wf t = true -> bad_inc t = None.
Proof.
  unfold wf, bad_inc. intro H. apply andb_true_iff in H as [H0 H1].
  apply negb_true_iff in H0, H1. now rewrite H0, H1.
Qed.
Lemma In_sunion_nil t l : In t (sunion [] l) -> In t l.
Proof. intro H. apply mem_In in H. rewrite mem_sunion_nil in H. now apply mem_In. Qed.

Lemma lic_tokens_wf c p : wf_lic_tokens c = true -> first_bad bad_license (lic_tokens c p) = None.
Proof.
  unfold wf_lic_tokens. intro H. apply andb_true_iff in H as [H1 H2].
  rewrite forallb_forall in H1, H2. apply first_bad_none. intros t Ht. apply wf_license_ok.
  unfold lic_tokens in Ht. apply in_app_or in Ht as [Ht | Ht]; [now apply H1|].
  apply in_concat in Ht as [l [Hl Ht]]. apply in_map_iff in Hl as [e [<- He]].
  apply filter_In in He as [He _]. apply In_sunion_nil in Ht.
  specialize (H2 e He). rewrite forallb_forall in H2. now apply H2.
Qed.

Definition lic_lw (c : config) (toks : list str) (x : str) : bool :=
  last_writer (lic_adds [x] (groups c)) (lic_dels [x] (groups c)) (rev toks) x false.

(* over the package's own stream this is the statement's [lic_accepts] *)
Lemma lic_lw_accepts c p x : lic_lw c (lic_tokens c p) x = lic_accepts c p x.
Proof. reflexivity. Qed.

Lemma lic_scan_sem c toks : first_bad bad_license toks = None ->
  forall cls, lic_scan c toks cls = inr (existsb (forallb (lic_lw c toks)) cls).
Proof.
  intros Hwf cls. induction cls as [|cl r IH]; [reflexivity|].
  cbn [lic_scan existsb].
  pose proof (license_rejects_proof cl (groups c) toks) as R. rewrite Hwf in R. destruct R as [s Hs].
  rewrite Hs.
  assert (E : forallb (fun l => mem l s) cl = forallb (lic_lw c toks) cl).
  { apply forallb_ext_in. intros l Hl. rewrite (expand_license_mem _ _ _ _ Hs). unfold lic_lw.
    apply lw_ext; intro t; [now apply lic_adds_member | reflexivity]. }
  rewrite E. destruct (forallb (lic_lw c toks) cl); [reflexivity | exact IH].
Qed.

Lemma license_conjunct_proof : forall c p,
  wf_lic_tokens c = true -> wf_pkg p = true -> lic_ok c p = inr (license_spec c p).
Proof.
  intros c p Hc Hp. unfold lic_ok, lic_active, license_spec.
  destruct (is_nil (accept_lic c) && is_nil (lic_entries c)); [reflexivity|]. cbn [negb].
  rewrite (lic_scan_sem c _ (lic_tokens_wf c p Hc)), ldnf_sem, (evaluate_sem (use c) _ (p_lic p) Hp).
  change (lic_lw c (lic_tokens c p)) with (lic_accepts c p). reflexivity.
Qed.

Lemma positive_ok t : positive t = true -> bad_inc t = None.
Proof.
  destruct t as [|ch i]; [discriminate|]. unfold positive, bad_inc. cbn [is_nil].
  destruct (N.eqb ch DASH) eqn:E; [discriminate|]. intros _. cbn. now rewrite E.
Qed.

Lemma expand_total ts orig : first_bad bad_inc ts = None ->
  exists s, expand true ts orig = Ok s /\ forall x, mem x s = lw ts x (mem x orig).
Proof.
  intro H. pose proof (expand_rejects_proof true ts orig) as R. rewrite H in R. destruct R as [s Hs].
  exists s. split; [exact Hs | exact (expand_mem _ _ _ _ Hs)].
Qed.

Lemma accept_mem c e : accept_set c = Ok e -> forall x, mem x e = ak_accepts c x.
Proof. intro Hs. exact (expand_mem _ _ _ _ Hs). Qed.

Lemma mem_map_exists x (f : str -> str) l :
  mem x (map f l) = existsb (fun y => str_eqb (f y) x) l.
Proof.
  induction l as [|a l IH]; cbn; [reflexivity|]. rewrite <- IH. unfold mem. cbn.
  now rewrite (str_eqb_sym x (f a)).
Qed.

Lemma dk_mem c e : accept_set c = Ok e ->
  forall x, mem x (default_keys_of c e) = base_accepts c x.
Proof.
  intros Hs x. unfold default_keys_of, base_accepts. rewrite !mem_sunion.
  rewrite (accept_mem c e Hs). cbn [mem existsb]. rewrite orb_false_r. f_equal.
  rewrite mem_map_exists. apply eq_true_iff_eq. rewrite !existsb_exists. split.
  - intros [y [Hy E]]. apply filter_In in Hy as [Hy St]. apply mem_In in Hy.
    rewrite (accept_mem c e Hs) in Hy. exists y. split.
    + apply (last_writer_true_in _ _ Hy).
    + unfold ak_accepts in *. now rewrite Hy, St, E.
  - intros [y [Hy E]]. apply andb_true_iff in E as [E E3]. apply andb_true_iff in E as [E1 E2].
    exists y. split; [|exact E3]. apply filter_In. split; [|exact E2].
    apply mem_In. now rewrite (accept_mem c e Hs).
Qed.

Lemma dk_positive c e : wf_kw_tokens c = true -> accept_set c = Ok e ->
  forall t, In t (default_keys_of c e) -> positive t = true.
Proof.
  intros Hwf Hs t Ht. unfold wf_kw_tokens in Hwf.
  apply andb_true_iff in Hwf as [Hwf _]. apply andb_true_iff in Hwf as [Ha Hk].
  rewrite forallb_forall in Hk.
  apply mem_In in Ht. unfold default_keys_of in Ht. rewrite !mem_sunion in Ht.
  apply orb_true_iff in Ht as [Ht | Ht]; [apply orb_true_iff in Ht as [Ht | Ht]|].
  - cbn in Ht. rewrite orb_false_r in Ht. apply str_eqb_eq in Ht. now subst t.
  - rewrite (accept_mem c e Hs) in Ht. apply (last_writer_true_in _ _ Ht).
  - rewrite mem_map_exists in Ht. apply existsb_exists in Ht as [y [Hy E]].
    apply str_eqb_eq in E. subst t. apply filter_In in Hy as [Hy _]. apply mem_In in Hy.
    rewrite (accept_mem c e Hs) in Hy. destruct (last_writer_true_in _ _ Hy) as [Hin Hp].
    specialize (Hk y Hin). apply andb_true_iff in Hk as [_ Hk]. rewrite Hp in Hk. exact Hk.
Qed.

Lemma matched_snoc l m d : matched (l ++ [(m, d)]) = matched l ++ (if m then d else []).
Proof.
  unfold matched. rewrite filter_app, map_app, concat_app. cbn. destruct m; cbn; now rewrite ?app_nil_r.
Qed.

(* the buckets after folding collapse_one over the sources of a list of entries: each holds what
   it held, followed by the entries' tokens as the statement's streams list them *)
Section Collapse.
  Variable c : config.
  Variable p : pkg.
  Definition kw_src (e : entry) : source := (bucket_of p e, nmem (e_id e) (p_match p), e_tokens c e).

  Definition kind_toks (k : ekind) (es : list entry) : list str :=
    concat (map (e_tokens c) (filter (fun e => kind_eqb (e_kind e) k && nmem (e_id e) (p_match p)) es)).
  Definition glob_toks (es : list entry) : list str :=
    concat (map (e_tokens c) (filter (fun e => kind_eqb (e_kind e) EAlways) es)).

  Definition buckets_inv (a col : collapsed) (es : list entry) : Prop :=
    c_always col = c_always a ++ glob_toks es
    /\ matched (c_repo col) = matched (c_repo a) ++ kind_toks ERepo es
    /\ matched (c_cat col) = matched (c_cat a) ++ kind_toks ECat es
    /\ matched (c_pkg col) = matched (c_pkg a) ++ kind_toks EPkg es
    /\ matched (c_multi col) = matched (c_multi a) ++ kind_toks EMulti es
    (* collapse_one replays the negations of a match-all entry into the atoms bucket only when that
       bucket is not empty, that is when a same-key atom entry came before: the [seen] flag *)
    /\ matched (c_atoms col) = matched (c_atoms a) ++ atom_tokens c p (negb (is_nil (c_atoms a))) es.

  Lemma kind_toks_cons k e r :
    kind_toks k (e :: r)
    = (if kind_eqb (e_kind e) k && nmem (e_id e) (p_match p) then e_tokens c e else []) ++ kind_toks k r.
  Proof.
    unfold kind_toks. cbn [filter]. destruct (kind_eqb (e_kind e) k && nmem (e_id e) (p_match p)); reflexivity.
  Qed.
  Lemma glob_toks_cons e r :
    glob_toks (e :: r) = (if kind_eqb (e_kind e) EAlways then e_tokens c e else []) ++ glob_toks r.
  Proof. unfold glob_toks. cbn [filter]. destruct (kind_eqb (e_kind e) EAlways); reflexivity. Qed.

  Lemma is_nil_snoc {A} (l : list A) x : is_nil (l ++ [x]) = false.
  Proof. destruct l; reflexivity. Qed.

  Lemma collapse_inv es : forall a, buckets_inv a (fold_left collapse_one (map kw_src es) a) es.
  Proof.
    induction es as [|e r IH]; intro a.
    - unfold buckets_inv, kind_toks, glob_toks. cbn. now rewrite !app_nil_r.
    - cbn [map fold_left]. specialize (IH (collapse_one a (kw_src e))).
      destruct IH as [I1 [I2 [I3 [I4 [I5 I6]]]]].
      unfold buckets_inv. rewrite I1, I2, I3, I4, I5, I6. clear I1 I2 I3 I4 I5 I6.
      rewrite glob_toks_cons, !kind_toks_cons. cbn [atom_tokens].
      unfold kw_src. generalize (e_tokens c e) as d. intro d.
      destruct e as [[k id] toks]. unfold bucket_of, e_kind, e_id. cbn [fst snd].
      set (m := nmem id (p_match p)).
      unfold collapse_one.
      destruct (is_nil d) eqn:Hd.
      + (* empty payload: the source is skipped *)
        assert (d = []) as -> by (destruct d; [reflexivity | discriminate]).
        destruct k; cbn [kind_eqb andb negb is_nil filter]; rewrite ?andb_false_r;
          cbn [app]; rewrite ?app_nil_r;
          repeat split; try reflexivity;
          try (destruct m; reflexivity);
          try (destruct (negb (is_nil (c_atoms a))); reflexivity).
      + (* by kind, the payload goes to [always] (its negations also behind a non-empty atoms bucket), to
           one freeform bucket, or, for an atom of p's key, to the atoms bucket; the other buckets stay *)
        destruct k; cbn [kind_eqb andb negb c_always c_repo c_cat c_pkg c_multi c_atoms];
          rewrite ?andb_true_r, ?andb_false_r; cbn [negb app]; rewrite ?app_nil_r.
        2-5: repeat split; try reflexivity; rewrite matched_snoc; now rewrite app_assoc.
        * repeat split; try reflexivity; try (now rewrite app_assoc).
          destruct (c_atoms a) as [|x0 l0] eqn:Ha; cbn [is_nil negb andb].
          -- reflexivity.
          -- rewrite matched_snoc, is_nil_snoc. cbn [negb]. now rewrite app_assoc.
        * destruct (nmem id (p_key p)); cbn [andb c_always c_repo c_cat c_pkg c_multi c_atoms].
          -- repeat split; try reflexivity. rewrite matched_snoc, is_nil_snoc. cbn [negb]. now rewrite app_assoc.
          -- repeat split; reflexivity.
  Qed.
End Collapse.

(* over all the entries of the configuration these are the statement's streams *)
Lemma kind_toks_of_kind c p k : kind_toks c p k (kw_entries c) = of_kind c p k.
Proof. reflexivity. Qed.
Lemma glob_toks_global c : glob_toks c (kw_entries c) = global_tokens c.
Proof. reflexivity. Qed.

Lemma payload_tokens c e : payload true (stable_system c) c e = e_tokens c e.
Proof. destruct e as [[k a] toks]. unfold payload, e_tokens. cbn [snd]. destruct k; reflexivity. Qed.

Lemma lw_app a b x d : lw (a ++ b) x d = lw b x (lw a x d).
Proof. apply last_writer_rev_app. Qed.
Lemma lw_positive ts x : (forall t, In t ts -> positive t = true) -> lw ts x false = mem x ts.
Proof. apply last_writer_positive. Qed.
Lemma positive_is_not_neg x : positive x = true -> is_neg x = false.
Proof. destruct x as [|ch i]; [reflexivity|]. unfold positive, is_neg. now destruct (N.eqb ch DASH). Qed.

Lemma first_bad_app k a b : first_bad k (a ++ b) = None <-> first_bad k a = None /\ first_bad k b = None.
Proof.
  rewrite !first_bad_none. split.
  - intro H. split; intros t Ht; apply H; apply in_or_app; tauto.
  - intros [H1 H2] t Ht. apply in_app_or in Ht as [Ht | Ht]; auto.
Qed.

Section KwTokens.
  Variable c : config.
  Variable p : pkg.
  Hypothesis Hwf : wf_kw_tokens c = true.

  Lemma e_tokens_ok e t : In e (kw_entries c) -> In t (e_tokens c e) -> bad_inc t = None.
  Proof.
    intros He Ht. unfold wf_kw_tokens in Hwf. apply andb_true_iff in Hwf as [_ H].
    rewrite forallb_forall in H. specialize (H e He). rewrite forallb_forall in H.
    unfold e_tokens in Ht. destruct (stable_system c && is_nil (sunion [] (snd e))).
    - destruct Ht as [<- | []]. apply positive_ok. reflexivity.
    - apply wf_ok. apply H. now apply In_sunion_nil.
  Qed.
  Lemma entries_ok q t : In t (concat (map (e_tokens c) (filter q (kw_entries c)))) -> bad_inc t = None.
  Proof.
    intro Ht. apply in_concat in Ht as [l [Hl Ht]].
    apply in_map_iff in Hl as [e [<- He]]. apply filter_In in He as [He _]. eapply e_tokens_ok; eauto.
  Qed.
  Lemma atoms_ok es : (forall e, In e es -> In e (kw_entries c)) ->
    forall seen t, In t (atom_tokens c p seen es) -> bad_inc t = None.
  Proof.
    induction es as [|e r IH]; intros Hs seen t Ht; [destruct Ht|].
    assert (Hr : forall e', In e' r -> In e' (kw_entries c)) by (intros; apply Hs; now right).
    assert (He : In e (kw_entries c)) by (apply Hs; now left).
    cbn [atom_tokens] in Ht. destruct (e_kind e); try (eapply IH; eauto; fail).
    - apply in_app_or in Ht as [Ht | Ht]; [|eapply IH; eauto].
      destruct (seen && negb (is_nil (e_tokens c e))); [|destruct Ht].
      apply filter_In in Ht as [Ht _]. eapply e_tokens_ok; eauto.
    - destruct (nmem (e_id e) (p_key p) && negb (is_nil (e_tokens c e))); [|eapply IH; eauto].
      apply in_app_or in Ht as [Ht | Ht]; [|eapply IH; eauto].
      destruct (nmem (e_id e) (p_match p)); [|destruct Ht]. eapply e_tokens_ok; eauto.
  Qed.
  Lemma specific_ok : first_bad bad_inc (specific_stream c p) = None.
  Proof.
    apply first_bad_none. intros t Ht. unfold specific_stream in Ht.
    repeat (apply in_app_or in Ht as [Ht | Ht]; [exact (entries_ok _ _ Ht)|]).
    eapply atoms_ok; [|exact Ht]. auto.
  Qed.
End KwTokens.

Lemma collapse_streams c p dk :
  is_nil dk = false -> mem (unstable_arch c) dk = negb (stable_system c) ->
  c_always (collapse (kw_sources true c dk p)) = dk ++ global_tokens c
  /\ specific_tokens (collapse (kw_sources true c dk p)) = specific_stream c p.
Proof.
  intros Hne Hst.
  set (a0 := {| c_always := [] ++ dk; c_repo := []; c_cat := []; c_pkg := []; c_multi := []; c_atoms := [] |}).
  assert (Hcol : collapse (kw_sources true c dk p)
                 = fold_left collapse_one (map (kw_src c p) (kw_entries c)) a0).
  { unfold collapse, kw_sources. cbn [fold_left]. f_equal.
    - apply map_ext. intro e0. unfold to_source, kw_src. rewrite Hst, negb_involutive, payload_tokens. reflexivity.
    - unfold collapse_one. rewrite Hne. reflexivity. }
  rewrite Hcol. destruct (collapse_inv c p (kw_entries c) a0) as [I1 [I2 [I3 [I4 [I5 I6]]]]].
  rewrite glob_toks_global in I1. rewrite !kind_toks_of_kind in *.
  split; [exact I1|]. unfold specific_tokens, specific_stream. rewrite I2, I3, I4, I5, I6. reflexivity.
Qed.

Section KwAllowed.
  Variable c : config.
  Variable e : list str.
  Variable p : pkg.
  Hypothesis Hwf : wf_kw_tokens c = true.
  Hypothesis Hs : accept_set c = Ok e.
  Let dk := default_keys_of c e.

  Lemma kw_defaults :
    exists d, defaults true (collapse (kw_sources true c dk p)) = Ok d
      /\ specific_tokens (collapse (kw_sources true c dk p)) = specific_stream c p
      /\ (forall x, mem x d = lw (global_tokens c) x (base_accepts c x))
      /\ (forall y, In y d -> positive y = true).
  Proof.
    assert (Hpos : forall t, In t dk -> positive t = true) by (apply (dk_positive c e Hwf Hs)).
    assert (Hne : is_nil dk = false).
    { assert (H : mem (arch c) dk = true).
      { unfold dk. rewrite (dk_mem c e Hs). unfold base_accepts. now rewrite str_eqb_refl. }
      destruct dk; [discriminate | reflexivity]. }
    destruct (collapse_streams c p dk Hne) as [Halw Hspec].
    { unfold dk. rewrite (dk_mem c e Hs). unfold stable_system. now rewrite negb_involutive. }
    assert (Hbad : first_bad bad_inc (dk ++ global_tokens c) = None).
    { apply first_bad_app. split; apply first_bad_none; intros t Ht;
        [apply positive_ok, Hpos, Ht | exact (entries_ok c Hwf _ _ Ht)]. }
    destruct (expand_total (dk ++ global_tokens c) [] Hbad) as [d [Hd Md]].
    exists d. split; [|split; [exact Hspec|split; [|exact (expand_true_positive _ _ Hd)]]].
    - unfold defaults. rewrite Halw. destruct (dk ++ global_tokens c) eqn:E; [destruct dk; discriminate | exact Hd].
    - intro x. rewrite Md, lw_app. cbn [mem existsb]. rewrite (lw_positive dk x Hpos).
      unfold dk. now rewrite (dk_mem c e Hs).
  Qed.

  Lemma kw_allowed_sem : exists s, kw_allowed true c dk p = Ok s /\ forall x, mem x s = kw_accepts c p x.
  Proof.
    destruct kw_defaults as [d [Hdef [Hspec [Md Pd]]]].
    unfold kw_allowed, kw_accepts. unfold dk at 1. rewrite (dk_mem c e Hs). unfold stable_system.
    destruct (base_accepts c (unstable_arch c)); cbn [negb].
    - (* ~ARCH accepted: the specific entries are plainly added *)
      unfold non_incremental_pull. rewrite Hdef. cbn [res_bind]. rewrite Hspec.
      eexists. split; [reflexivity|]. intro x. rewrite mem_sunion, Md. reflexivity.
    - unfold pull_data. rewrite Hdef. cbn [res_bind is_nil]. rewrite Hspec.
      destruct (expand_total (specific_stream c p) (filter (fun x => negb (is_neg x)) d) (specific_ok c p Hwf))
        as [s [Hs' Ms]].
      exists s. split; [exact Hs'|]. intro x. rewrite Ms, lw_app, <- Md, mem_filter. f_equal.
      destruct (mem x d) eqn:Mx; [|reflexivity]. apply mem_In, Pd, positive_is_not_neg in Mx. now rewrite Mx.
  Qed.
End KwAllowed.

Lemma kw_apply_sem s ks (acc : str -> bool) : (forall x, mem x s = acc x) ->
  kw_apply s ks
  = (acc W_ANY || (acc W_STABLE && existsb kw_stable ks) || (acc W_TESTING && existsb kw_testing ks)
     || existsb acc ks).
Proof.
  intro H. unfold kw_apply. rewrite !H. f_equal. apply existsb_ext_in. intros k _. apply H.
Qed.

Lemma kw_conjunct_proof : forall c p e,
  wf_kw_tokens c = true -> accept_set c = Ok e ->
  build_fails true true c (default_keys_of c e) p = false
  /\ kw_ok true true c (default_keys_of c e) p = inr (kw_spec c p).
Proof.
  intros c p e Hwf Hs. set (dk := default_keys_of c e).
  destruct (kw_defaults c e p Hwf Hs) as [d [Hd _]]. destruct (kw_allowed_sem c e p Hwf Hs) as [s [Ha Ms]].
  fold dk in Hd, Ha.
  unfold build_fails, kw_ok. cbn [andb].
  destruct (is_nil (kw_entries c) && is_nil (prof_kw c) && negb (has_wild dk)) eqn:X.
  - split; [reflexivity|]. f_equal.
    apply andb_true_iff in X as [X Hw]. apply andb_true_iff in X as [X1 X2].
    assert (E1 : kw_entries c = []) by (destruct (kw_entries c); [reflexivity | discriminate]).
    assert (E2 : prof_kw c = []) by (destruct (prof_kw c); [reflexivity | discriminate]).
    assert (Hacc : forall x, kw_accepts c p x = mem x dk).
    { intro x. unfold kw_accepts, global_tokens, specific_stream, of_kind. rewrite E1. cbn.
      unfold dk. rewrite (dk_mem c e Hs). unfold lw. cbn. destruct (stable_system c); [reflexivity | now rewrite orb_false_r]. }
    unfold kw_spec, keywords_spec. rewrite E2. cbn [filter map concat]. rewrite app_nil_r.
    apply negb_true_iff in Hw. unfold has_wild in Hw.
    apply orb_false_iff in Hw as [Hw W3]. apply orb_false_iff in Hw as [W1 W2].
    rewrite !Hacc, W1, W2, W3. cbn [orb andb]. apply existsb_ext_in. intros k _. now rewrite Hacc.
  - rewrite Hd, Ha. split; [reflexivity|]. f_equal. apply kw_apply_sem. exact Ms.
Qed.

Lemma wf_accept c : wf_kw_tokens c = true -> exists e, accept_set c = Ok e.
Proof.
  intro H. unfold wf_kw_tokens in H. apply andb_true_iff in H as [H _]. apply andb_true_iff in H as [_ H].
  rewrite forallb_forall in H.
  pose proof (expand_rejects_proof true (accept_kw c) []) as R.
  assert (E : first_bad bad_inc (accept_kw c) = None).
  { apply first_bad_none. intros t Ht. apply wf_ok. specialize (H t Ht). now apply andb_true_iff in H as [H _]. }
  rewrite E in R. exact R.
Qed.

Definition s_a1 : str := [97;49]%N.           (* a1 *)
Definition s_ta1 : str := [126;97;49]%N.      (* ~a1 *)
Definition s_tb2 : str := [126;98;50]%N.      (* ~b2 *)
Definition s_L1 : str := [76;49]%N.
Definition s_L2 : str := [76;50]%N.
Definition s_G1 : str := [71;49]%N.
Definition cfg0 : config :=
  {| repo_masks := [0%N]; prof_masks := [([0%N], [1%N])]; user_masks := []; prof_unmasks := []; user_unmasks := [2%N];
     arch := s_a1; accept_kw := [s_a1]; prof_kw := [];
     kw_entries := [(EAtom, 3%N, []); (EAlways, 4%N, [[DASH; 126; 97; 49]%N])];
     accept_lic := [[DASH; STAR]; AT :: s_G1]; lic_entries := [(3%N, [s_L2])];
     groups := [(s_G1, [s_L1])]; use := [7%N] |}.
Definition mk (m k : list N) (kw : list str) (l : list ltree) : pkg :=
  {| p_match := m; p_key := k; p_kw := kw; p_lic := l |}.

(* a configuration with masks withdrawn by a profile node, an unmask, an empty entry on a stable
   system followed by a global negation, a license group and a package.license entry: *)
Example visible_example :
  wf_config cfg0 = true
  /\ visible cfg0 (mk [] [] [s_a1] [LLic s_L1]) = Visible true                      (* plain *)
  /\ visible cfg0 (mk [0%N] [] [s_a1] [LLic s_L1]) = Visible true                   (* mask withdrawn by the profile *)
  /\ visible cfg0 (mk [1%N] [] [s_a1] [LLic s_L1]) = Visible false                  (* masked *)
  /\ visible cfg0 (mk [1%N; 2%N] [] [s_a1] [LLic s_L1]) = Visible true              (* unmasked *)
  /\ visible cfg0 (mk [] [] [s_ta1] [LLic s_L1]) = Visible false                    (* keyword not accepted *)
  /\ visible cfg0 (mk [3%N] [3%N] [s_ta1] [LAny [LLic s_L2; LLic s_L1]]) = Visible false
       (* the empty entry gives ~a1, but the later global -~a1 is re-applied after it *)
  /\ visible cfg0 (mk [] [] [s_a1] [LLic s_L2]) = Visible false                     (* license not accepted *)
  /\ visible cfg0 (mk [3%N] [3%N] [s_a1] [LLic s_L2]) = Visible true                (* package.license *)
  /\ visible cfg0 (mk [] [] [s_a1] [LAny [LLic s_L2; LUse false 7%N [LLic s_L1]]]) = Visible true
  /\ visible cfg0 (mk [] [] [s_a1] [LAny [LLic s_L2; LUse true 7%N [LLic s_L1]]]) = Visible false.
Proof. vm_compute. repeat split; reflexivity. Qed.

Example raises_example :
  visible {| repo_masks := []; prof_masks := []; user_masks := []; prof_unmasks := []; user_unmasks := [];
             arch := s_a1; accept_kw := [s_a1]; prof_kw := []; kw_entries := [(EAtom, 0%N, [[DASH]])];
             accept_lic := []; lic_entries := []; groups := []; use := [] |}
          (mk [0%N] [0%N] [s_a1] []) = Raises.
Proof. vm_compute. reflexivity. Qed.

(* the statement, asked of the tree before fixes/C13-*.patch; refuted in Prop_C13.v *)
Definition visible_is_spec_pinned : Prop := forall c p,
  wf_config c = true -> wf_pkg p = true -> visible_pinned c p = Visible (visible_spec c p).
Definition cfg_plain (ak : list str) (es : list entry) : config :=
  {| repo_masks := []; prof_masks := []; user_masks := []; prof_unmasks := []; user_unmasks := [];
     arch := s_a1; accept_kw := ak; prof_kw := []; kw_entries := es;
     accept_lic := []; lic_entries := []; groups := []; use := [] |}.
