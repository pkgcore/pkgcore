(* Proofs_C25.v — the write side of C25: what archive_to_fsobj reads of the members written for a
   well-formed set ([raw_back]); examples; the full statement about symlinked directories that fails,
   with its witness. *)
From Coq Require Import List ZArith Bool Lia Permutation.
Import ListNotations.
From Verif Require Import Base.Val Base.Lists C25.Path_C25 C25.Model_C25 C25.Spec_C25.
From Verif Require C22.Proofs_C22.
Module P22 := Verif.C22.Proofs_C22.

(* Path_C25's functions are the terms of C22/Model_C22.v under other names: C22's lemmas hold of them *)
Lemma plain_nosl l : Forall plainc l -> Forall nosl l.
Proof. exact (P22.plain_nosl l). Qed.
Lemma fold_plain rooted l acc : Forall plainc l -> fold_left (np_step rooted) l acc = rev l ++ acc.
Proof. exact (P22.fold_plain rooted l acc). Qed.
Lemma join_ends l : Forall plainc l -> l <> [] -> exists pre z, join_sl l = pre ++ [z] /\ is_sl z = false.
Proof. exact (P22.join_ends l). Qed.
Lemma lstrip_join l : Forall plainc l -> lstrip_sl (join_sl l) = join_sl l.
Proof. exact (P22.lstrip_join l). Qed.
Lemma normpath_rooted_comps l :
  Forall nosl l -> (match l with [] => True | c :: _ => c <> [] end) ->
  normpath (SL :: join_sl l) = SL :: join_sl (rev (fold_left (np_step true) l [])).
Proof. exact (P22.normpath_rooted_comps l). Qed.

Lemma rstrip_nosl_end s p z : s = p ++ [z] -> is_sl z = false -> rstrip_sl s = s.
Proof. intros -> Hz. unfold rstrip_sl. rewrite rev_app_distr. cbn. rewrite Hz. cbn.
  rewrite rev_involutive. reflexivity. Qed.

Lemma rstrip_abs l : l <> [] -> Forall plainc l -> rstrip_sl (abs_of l) = abs_of l.
Proof.
  intros Hne HF. destruct (join_ends l HF Hne) as (p & z & E & Hz).
  apply (rstrip_nosl_end _ (SL :: p) z); [|exact Hz]. unfold abs_of. rewrite E. reflexivity.
Qed.

(* "./a/b" is untouched by strip("/") *)
Lemma strip_dotname l : l <> [] -> Forall plainc l ->
  strip_sl (46%N :: SL :: join_sl l) = 46%N :: SL :: join_sl l.
Proof.
  intros Hne HF. destruct (join_ends l HF Hne) as (p & z & E & Hz).
  apply (rstrip_nosl_end _ (46%N :: SL :: p) z); [|exact Hz]. rewrite E. reflexivity.
Qed.

Lemma normpath_abs l : l <> [] -> Forall plainc l -> normpath (abs_of l) = abs_of l.
Proof.
  intros Hne HF. unfold abs_of. rewrite normpath_rooted_comps, fold_plain, app_nil_r, rev_involutive; auto.
  - apply plain_nosl. exact HF.
  - destruct HF as [|c l [Hc _] _]; auto.
Qed.

(* normpath("/./a/b") = "/a/b" *)
Lemma normpath_slash_dot l : l <> [] -> Forall plainc l ->
  normpath (SL :: 46%N :: SL :: join_sl l) = abs_of l.
Proof.
  intros Hne HF.
  assert (E : SL :: 46%N :: SL :: join_sl l = SL :: join_sl (dot :: l)) by (destruct l; [congruence|reflexivity]).
  rewrite E, normpath_rooted_comps.
  - change (fold_left (np_step true) (dot :: l) []) with (fold_left (np_step true) l []).
    rewrite fold_plain, app_nil_r, rev_involutive by exact HF. reflexivity.
  - constructor; [reflexivity|apply plain_nosl; exact HF].
  - discriminate.
Qed.

Lemma name_roundtrip_proof : forall l, plain_loc l ->
  loc_of_name (member_name l) = l /\ loc_of_link (member_name l) = l
  /\ strip_sl (member_name l) <> dot.
Proof.
  intros l (cs & Hne & HF & ->). unfold member_name, loc_of_name, loc_of_link.
  change (lstrip_sl (abs_of cs)) with (lstrip_sl (join_sl cs)). rewrite lstrip_join, strip_dotname by assumption.
  repeat split.
  - apply normpath_slash_dot; assumption.
  - cbn [pjoin]. change (is_sl 46) with false. cbn iota. cbn [ends_sl rev app]. change (is_sl SL) with true.
    cbn iota. cbn [app]. apply normpath_slash_dot; assumption.
  - discriminate.
Qed.

Lemma ins_perm {A} (lt : A -> A -> bool) x l : Permutation (ins lt x l) (x :: l).
Proof.
  induction l as [|y r IH]; cbn; [reflexivity|]. destruct (lt x y); [reflexivity|].
  rewrite IH. apply perm_swap.
Qed.
Lemma isort_perm {A} (lt : A -> A -> bool) l : Permutation (isort lt l) l.
Proof.
  unfold isort. assert (G : forall acc, Permutation (fold_left (fun a x => ins lt x a) l acc) (l ++ acc)).
  { induction l as [|x r IH]; intros acc; cbn; [reflexivity|]. rewrite IH. rewrite ins_perm.
    symmetry. apply Permutation_middle. }
  rewrite G. rewrite app_nil_r. reflexivity.
Qed.

Lemma filter_split_perm {A} (f : A -> bool) l :
  Permutation (filter f l ++ filter (fun x => negb (f x)) l) l.
Proof.
  induction l as [|x r IH]; cbn; [reflexivity|]. destruct (f x); cbn.
  - constructor. exact IH.
  - rewrite <- Permutation_middle. constructor. exact IH.
Qed.

Lemma Forall2_in_l {A B} (R : A -> B -> Prop) l l' x : Forall2 R l l' -> In x l -> exists y, In y l' /\ R x y.
Proof.
  induction 1 as [|a b l l' Hab H IH]; intros Hx; [destruct Hx|]. destruct Hx as [<-|Hx].
  - exists b. split; [left; reflexivity|exact Hab].
  - destruct (IH Hx) as (y & Hy & Ry). exists y. split; [right; exact Hy|exact Ry].
Qed.
Lemma Forall2_map_eq {A B C} (R : A -> B -> Prop) (f : A -> C) (g : B -> C) l l' :
  (forall a b, R a b -> g b = f a) -> Forall2 R l l' -> map g l' = map f l.
Proof. intros H. induction 1; cbn; f_equal; auto. Qed.

Definition plaincb (c : str) : bool :=
  negb (str_eqb c []) && negb (str_eqb c dot) && negb (str_eqb c dotdot) && forallb (fun x => negb (is_sl x)) c.
Lemma plain_loc_abs cs : cs <> [] -> forallb plaincb cs = true -> plain_loc (abs_of cs).
Proof.
  intros Hne H. exists cs. split; [exact Hne|]. split; [|reflexivity].
  apply Forall_forall. intros c Hc. apply (proj1 (forallb_forall _ _) H) in Hc.
  unfold plaincb in Hc. repeat (apply andb_true_iff in Hc as [Hc ?]).
  repeat split; try assumption; apply str_eqb_neq, negb_true_iff; assumption.
Qed.
Lemma nodupb_ok l : nodupb l = true -> NoDup l.
Proof.
  induction l as [|x r IH]; cbn; intros H; constructor; apply andb_true_iff in H as [H1 H2]; auto.
  intros Hx. apply negb_true_iff in H1. rewrite (proj2 (existsb_exists _ _)) in H1; [discriminate|].
  exists x. split; [exact Hx|apply str_eqb_refl].
Qed.

(* the tar header keeps the low twelve bits of a mode; the file-type bits lie above them *)
Lemma land_perm p : (p < 4096)%N -> N.land p 4095 = p.
Proof. intros H. change 4095%N with (N.ones 12). rewrite N.land_ones. apply N.mod_small. exact H. Qed.

Lemma lor_type_perm p t : (p < 4096)%N -> N.land t 4095 = 0%N -> N.land (N.lor p t) 4095 = p.
Proof. intros H Ht. rewrite N.land_lor_distr_l, Ht, N.lor_0_r. apply land_perm. exact H. Qed.

Lemma lor_type_fmt p t : (p < 4096)%N -> N.land (N.lor p t) 61440 = N.land t 61440.
Proof.
  intros H. rewrite N.land_lor_distr_l, <- (land_perm p H), <- N.land_assoc.
  change (N.land 4095 61440) with 0%N. rewrite N.land_0_r. apply N.lor_0_l.
Qed.

Lemma dev_mode_back m :
  (exists p, (p < 4096)%N /\ (m = N.lor p S_IFCHR \/ m = N.lor p S_IFBLK)) ->
  N.lor (N.land m 4095) (if is_chr m then S_IFCHR else S_IFBLK) = m.
Proof.
  intros (p & Hp & [-> | ->]); unfold is_chr; rewrite lor_type_fmt, lor_type_perm by (exact Hp || reflexivity);
    reflexivity.
Qed.

Lemma find_key_app d i s1 s2 :
  find_key d i (s1 ++ s2) = match find_key d i s1 with Some y => Some y | None => find_key d i s2 end.
Proof. induction s1 as [|x r IH]; cbn; [reflexivity|]. destruct (_ && _); [reflexivity|exact IH]. Qed.
Lemma find_key_some d i s y : find_key d i s = Some y -> In y s /\ dev y = d /\ ino y = i.
Proof.
  induction s as [|x r IH]; cbn; [discriminate|]. destruct (oN_eqb (dev x) d && oN_eqb (ino x) i) eqn:E.
  - intros H; injection H as <-. apply andb_true_iff in E as [E1 E2]. split; [left; reflexivity|].
    unfold oN_eqb in *. destruct (dev x), d, (ino x), i; try discriminate;
      repeat match goal with X : N.eqb _ _ = true |- _ => apply N.eqb_eq in X end; subst; auto.
  - intros H. destruct (IH H) as (? & ? & ?). auto.
Qed.
Lemma oN_eqb_refl o : oN_eqb o o = true.
Proof. destruct o; cbn; [apply N.eqb_refl|reflexivity]. Qed.

Lemma same_file_sym a b : same_file a b -> same_file b a.
Proof. intros [E|[N E]]; [left; auto|right; split; congruence]. Qed.

Lemma obs_loc a b : obs a = obs b -> loc a = loc b.
Proof. unfold obs. intros H. injection H. auto. Qed.
Lemma obs_knd a b : obs a = obs b -> knd a = knd b.
Proof. unfold obs. intros H. injection H. auto. Qed.

(* cbn leaves these folded in the proofs below *)
Local Arguments loc_of_name : simpl never.
Local Arguments loc_of_link : simpl never.
Local Arguments member_name : simpl never.
Local Arguments strip_sl : simpl never.
Local Arguments N.land : simpl never.
Local Arguments N.lor : simpl never.
Local Arguments N.succ : simpl never.
Local Arguments is_chr : simpl never.
Local Arguments str_eqb : simpl never.

Lemma obs_perm_in X Y : Permutation (map obs X) (map obs Y) ->
  forall e, In e X -> exists f, In f Y /\ obs e = obs f.
Proof.
  intros P e He. apply (in_map obs), (Permutation_in _ P), in_map_iff in He as (f & O & Hf). eauto.
Qed.
Lemma obs_perm_loc X Y : Permutation (map obs X) (map obs Y) -> Permutation (map loc X) (map loc Y).
Proof.
  intros P. apply (Permutation_map (fun o => fst (fst (fst (fst (fst o)))))) in P.
  rewrite !map_map in P. exact P.
Qed.

Lemma kind_eqb_eq a b : kind_eqb a b = true <-> a = b.
Proof. destruct a, b; cbn; split; congruence. Qed.

Lemma add_nondirs_other seen x r : knd x <> KReg ->
  add_nondirs seen (x :: r) = to_info x :: add_nondirs seen r.
Proof. intros H. cbn [add_nondirs]. destruct (knd x); congruence. Qed.

(* the first loop of add_contents_to_tarfile does to the directories what the second would *)
Lemma add_nondirs_dirs seen D F : (forall e, In e D -> is_dir e = true) ->
  map to_info D ++ add_nondirs seen F = add_nondirs seen (D ++ F).
Proof.
  induction D as [|x r IH]; intros H; [reflexivity|]. cbn [map app]. rewrite add_nondirs_other, IH; auto.
  - intros e He. apply H. right. exact He.
  - assert (Hx := H x (or_introl eq_refl)). apply kind_eqb_eq in Hx. congruence.
Qed.

Section RoundTrip.
  Variable c : list entry.
  Hypothesis Hwf : wf c.

  Lemma c_inj e1 e2 : In e1 c -> In e2 c -> loc e1 = loc e2 -> e1 = e2.
  Proof. apply (NoDup_map_inj loc). apply (wf_nodup c Hwf). Qed.

  Lemma same_file_shift x ex g : In x c -> In ex c -> In g c ->
    hkey x = hkey ex -> hkey x <> None -> (same_file ex g <-> same_file x g).
  Proof.
    intros Hx Hex Hg E N. split.
    - intros [L|[N' E']]; right; split; auto.
      + assert (ex = g) by (apply c_inj; auto). subst. exact E.
      + congruence.
    - intros [L|[N' E']]; right; split; try congruence.
      assert (x = g) by (apply c_inj; auto). subst. congruence.
  Qed.

  Lemma nonreg_back x i cache rest : In x c -> knd x <> KReg ->
    exists e,
      raw_of i cache (to_info x :: rest) = option_map (cons e) (raw_of (N.succ i) cache rest)
      /\ obs e = obs x.
  Proof.
    intros Hx Hk. destruct (name_roundtrip_proof (loc x) (wf_loc c Hwf x Hx)) as (N1 & _ & N3).
    pose proof (wf_mode c Hwf x Hx) as Hm. pose proof (wf_devmode c Hwf x Hx) as Hd.
    destruct x as [l k md u g mt tg dv io dt sz mj mn od]. cbn [loc knd mode] in *.
    destruct k; try congruence.
    1-3: pose proof (land_perm md (Hm ltac:(discriminate))) as B; eexists; split;
      [cbn [raw_of to_info knd mty mname loc]; rewrite N1, ?(proj2 (str_eqb_neq _ _) N3); reflexivity
      |unfold obs; cbn; rewrite B; reflexivity].
    pose proof (dev_mode_back md (Hd eq_refl)) as B. revert B.
    cbn [raw_of to_info knd mty mname loc mode]. destruct (is_chr md); intros B; eexists;
      (split; [cbn [mty]; rewrite N1; reflexivity|unfold obs; cbn; rewrite B; reflexivity]).
  Qed.

  Lemma reg_back x i cache : In x c -> knd x = KReg ->
    exists e,
      (forall rest, raw_of i cache (to_info x :: rest) =
         option_map (cons e) (raw_of (N.succ i) ((loc x, (i, data x)) :: cache) rest))
      /\ obs e = obs x /\ ino e = Some i.
  Proof.
    intros Hx Kx. destruct (name_roundtrip_proof (loc x) (wf_loc c Hwf x Hx)) as (N1 & _ & _).
    pose proof (land_perm (mode x) (wf_mode c Hwf x Hx ltac:(congruence))) as Bm.
    eexists. split; [|split].
    - intros rest. cbn [raw_of to_info mty mname mdata loc]. rewrite Kx. cbn [mty]. rewrite N1. reflexivity.
    - unfold obs; cbn. rewrite Kx, Bm. reflexivity.
    - reflexivity.
  Qed.

  Lemma link_back x ex n i cache : In x c -> In ex c -> knd x = KReg -> data x = data ex ->
    cache_get (loc ex) cache = Some (n, data ex) ->
    exists e,
      (forall rest, raw_of i cache (as_link (to_info x) ex :: rest) =
         option_map (cons e) (raw_of (N.succ i) ((loc x, (n, data ex)) :: cache) rest))
      /\ obs e = obs x /\ ino e = Some n.
  Proof.
    intros Hx Hex Kx Dt Cex. destruct (name_roundtrip_proof (loc x) (wf_loc c Hwf x Hx)) as (N1 & _ & _).
    destruct (name_roundtrip_proof (loc ex) (wf_loc c Hwf ex Hex)) as (_ & L2 & _).
    pose proof (land_perm (mode x) (wf_mode c Hwf x Hx ltac:(congruence))) as Bm.
    eexists. split; [|split].
    - intros rest. cbn [raw_of as_link to_info mty mname mlink loc]. rewrite L2, Cex, N1. reflexivity.
    - unfold obs; cbn. rewrite Kx, Bm, Dt. reflexivity.
    - reflexivity.
  Qed.

  (* the invariant of the second loop of add_contents_to_tarfile run against archive_to_fsobj.
     A = the files written so far with the inode numbers they are read with; i = the next member index.
     The numbers are below i; two numbers are equal exactly for the same file; every entry of the
     inodes dict [seen] is numbered and cached under its number with its own data (so a hardlink to it
     reads that number and that data); and the key of every numbered file is in the dict -- which is
     why a file whose key is NOT found there is the same file as none of them and gets a fresh number. *)
  Definition Ainv (A : list (entry * N)) (seen : list entry) (cache : list (str * (N * N))) (i : N) : Prop :=
    (forall f n, In (f, n) A -> In f c /\ knd f = KReg /\ (n < i)%N) /\
    (forall f n g m, In (f, n) A -> In (g, m) A -> (n = m <-> same_file f g)) /\
    (forall x, In x seen -> exists n, In (x, n) A /\ cache_get (loc x) cache = Some (n, data x)) /\
    (forall f n, In (f, n) A -> exists y, find_key (dev f) (ino f) seen = Some y).

  Lemma Ainv_succ A seen cache i : Ainv A seen cache i -> Ainv A seen cache (N.succ i).
  Proof.
    intros (I1 & I). split; [|exact I]. intros f n H. destruct (I1 f n H) as (? & ? & ?).
    repeat split; auto. lia.
  Qed.

  (* the file x gets the number n: a fresh one, or that of an earlier file it shares an inode with;
     x joins [seen] when it is the first file with its key *)
  Lemma Ainv_cons A seen cache i x n dt (first : bool) :
    Ainv A seen cache i -> In x c -> knd x = KReg -> (n <= i)%N ->
    (forall f m, In (f, m) A -> loc f <> loc x) ->
    (forall g m, In (g, m) A -> (n = m <-> same_file x g)) ->
    (if first then dt = data x else exists y, find_key (dev x) (ino x) seen = Some y) ->
    Ainv ((x, n) :: A) (if first then seen ++ [x] else seen) ((loc x, (n, dt)) :: cache) (N.succ i).
  Proof.
    intros (I1 & I2 & I3 & I4) Hx Kx Hn Fr Hnum Hf. split; [|split; [|split]].
    - intros f m [E|H].
      + injection E as <- <-. repeat split; auto. lia.
      + destruct (I1 f m H) as (? & ? & ?). repeat split; auto. lia.
    - intros f m g m' [E|Hf'] [E'|Hg].
      + injection E as <- <-. injection E' as <- <-. split; [left; reflexivity|reflexivity].
      + injection E as <- <-. apply Hnum. exact Hg.
      + injection E' as <- <-. split; intros S.
        * apply same_file_sym, (Hnum f m Hf'). auto.
        * symmetry. apply (Hnum f m Hf'), same_file_sym, S.
      + apply I2; assumption.
    - intros y Hy.
      assert (Old : In y seen -> exists n0, In (y, n0) ((x, n) :: A)
                                  /\ cache_get (loc y) ((loc x, (n, dt)) :: cache) = Some (n0, data y)).
      { intros Hy'. destruct (I3 y Hy') as (ny & Ay & Cy). exists ny. split; [right; exact Ay|].
        cbn [cache_get]. rewrite (proj2 (str_eqb_neq _ _)); [exact Cy|]. intro E. apply (Fr y ny Ay). symmetry. exact E. }
      destruct first; [|auto]. apply in_app_or in Hy as [Hy|[<-|[]]]; [auto|].
      exists n. split; [left; reflexivity|]. cbn [cache_get]. rewrite str_eqb_refl, Hf. reflexivity.
    - intros f m [E|H].
      + injection E as <- <-. destruct first; [|exact Hf]. rewrite find_key_app.
        destruct (find_key (dev x) (ino x) seen); [eauto|]. cbn. rewrite !oN_eqb_refl. cbn. eauto.
      + destruct (I4 f m H) as (y & Fy). destruct first; [|eauto]. rewrite find_key_app, Fy. eauto.
  Qed.

  Lemma Ainv_new A seen cache i x (first : bool) :
    Ainv A seen cache i -> In x c -> knd x = KReg ->
    (forall f m, In (f, m) A -> loc f <> loc x) ->
    (forall g m, In (g, m) A -> ~ same_file x g) ->
    (if first then True else exists y, find_key (dev x) (ino x) seen = Some y) ->
    Ainv ((x, i) :: A) (if first then seen ++ [x] else seen) ((loc x, (i, data x)) :: cache) (N.succ i).
  Proof.
    intros Inv Hx Kx Fr NS Hf. apply Ainv_cons; auto; [lia| |destruct first; auto].
    intros g m Hg. split; [|intros S; destruct (NS g m Hg S)].
    intros <-. destruct Inv as (I1 & _). destruct (I1 g i Hg) as (_ & _ & ?). lia.
  Qed.

  Lemma can_link_true x ex : In x c -> In ex c -> knd x = KReg -> knd ex = KReg ->
    hkey x <> None -> dev ex = dev x -> ino ex = ino x -> can_link x ex = true.
  Proof.
    intros Hx Hex Kx Kex N D I.
    assert (K : hkey x = hkey ex) by (unfold hkey; rewrite D, I; reflexivity).
    destruct (wf_inode c Hwf x ex Hx Hex Kx Kex N K) as (U & G & M & T & _).
    unfold hkey in N. destruct (dev x) as [d0|] eqn:Dx; [|congruence].
    destruct (ino x) as [i0|] eqn:Ix; [|congruence].
    unfold can_link, is_reg. rewrite Kex, Dx, Ix, D, I, <- U, <- G, <- M, <- T. cbn. rewrite !N.eqb_refl. reflexivity.
  Qed.

  Lemma can_link_hkey x ex : can_link x ex = true -> hkey x <> None /\ hkey x = hkey ex.
  Proof.
    unfold can_link. intros H. repeat (apply andb_true_iff in H as [H ?]).
    unfold hkey. unfold oN_eqb, is_some in *.
    destruct (dev x), (ino x), (dev ex), (ino ex); try discriminate.
    repeat match goal with X : N.eqb _ _ = true |- _ => apply N.eqb_eq in X end. subst. split; congruence.
  Qed.

  Lemma file_step x seen cache i A : In x c -> knd x = KReg ->
    (forall f n, In (f, n) A -> loc f <> loc x) -> Ainv A seen cache i ->
    exists e n seen' cache',
      (forall r, raw_of i cache (add_nondirs seen (x :: r)) =
         option_map (cons e) (raw_of (N.succ i) cache' (add_nondirs seen' r)))
      /\ obs e = obs x /\ ino e = Some n /\ Ainv ((x, n) :: A) seen' cache' (N.succ i).
  Proof.
    intros Hx Kx Fr Inv. pose proof Inv as (I1 & I2 & I3 & I4).
    cbn [add_nondirs]. rewrite Kx. destruct (find_key (dev x) (ino x) seen) as [ex|] eqn:FK.
    - destruct (find_key_some _ _ _ _ FK) as (Hex & Dex & Iex).
      destruct (I3 ex Hex) as (nex & Aex & Cex). destruct (I1 ex nex Aex) as (Cex' & Kex & Bex).
      destruct (can_link x ex) eqn:CL.
      + (* written as a hardlink to ex *)
        destruct (can_link_hkey x ex CL) as (Nk & Ek).
        destruct (wf_inode c Hwf x ex Hx Cex' Kx Kex Nk Ek) as (_ & _ & _ & _ & Dt).
        destruct (link_back x ex nex i cache Hx Cex' Kx Dt Cex) as (e & Ee & Oe & Ie).
        exists e, nex, seen, ((loc x, (nex, data ex)) :: cache). split; [intros r; apply Ee|]. split; [exact Oe|]. split; [exact Ie|].
        apply (Ainv_cons A seen cache i x nex (data ex) false); eauto; [lia|].
        intros g m Hg. rewrite (I2 ex nex g m Aex Hg). apply same_file_shift; auto. apply (I1 g m Hg).
      + (* same key but not linkable: its inode is not known; written as a file of its own *)
        assert (Nk : hkey x = None).
        { destruct (hkey x) eqn:Hk; [|reflexivity]. exfalso.
          rewrite (can_link_true x ex) in CL; auto; [discriminate|congruence]. }
        destruct (reg_back x i cache Hx Kx) as (e & Ee & Oe & Ie).
        exists e, i, seen, ((loc x, (i, data x)) :: cache). split; [intros r; apply Ee|]. split; [exact Oe|]. split; [exact Ie|].
        apply (Ainv_new A seen cache i x false); eauto.
        intros g m Hg [L|[N _]]; [apply (Fr g m Hg); auto|congruence].
    - (* the first file with this key *)
      destruct (reg_back x i cache Hx Kx) as (e & Ee & Oe & Ie).
      exists e, i, (seen ++ [x]), ((loc x, (i, data x)) :: cache). split; [intros r; apply Ee|]. split; [exact Oe|]. split; [exact Ie|].
      apply (Ainv_new A seen cache i x true); auto.
      intros g m Hg [L|[N E']]; [apply (Fr g m Hg); auto|].
      destruct (I4 g m Hg) as (y & Fy). unfold hkey in N, E'.
      destruct (dev x), (ino x), (dev g), (ino g); congruence.
  Qed.

  Lemma files_back F : forall seen cache i A,
    (forall e, In e F -> In e c) -> NoDup (map loc F) ->
    (forall f n, In (f, n) A -> ~ In (loc f) (map loc F)) ->
    Ainv A seen cache i ->
    exists es A', raw_of i cache (add_nondirs seen F) = Some es /\
      Forall2 (fun f e => obs e = obs f /\ (knd f = KReg -> exists n, ino e = Some n /\ In (f, n) A')) F es /\
      (forall p, In p A -> In p A') /\
      (forall f n g m, In (f, n) A' -> In (g, m) A' -> (n = m <-> same_file f g)).
  Proof.
    induction F as [|x r IH]; intros seen cache i A HF ND HD Inv.
    - exists [], A. split; [reflexivity|]. split; [constructor|]. split; [auto|apply Inv].
    - assert (Hx : In x c) by (apply HF; left; reflexivity).
      assert (HFr : forall e, In e r -> In e c) by (intros e He; apply HF; right; exact He).
      cbn in ND. inversion ND as [|? ? NDx NDr]; subst.
      assert (HDr : forall f n, In (f, n) A -> ~ In (loc f) (map loc r))
        by (intros f n Hf E; apply (HD f n Hf); right; exact E).
      assert (HDx : forall f n, In (f, n) A -> loc f <> loc x)
        by (intros f n Hf E; apply (HD f n Hf); left; symmetry; exact E).
      destruct (is_reg x) eqn:Rx.
      + apply kind_eqb_eq in Rx.
        destruct (file_step x seen cache i A Hx Rx HDx Inv) as (e & n & seen' & cache' & Ee & Oe & Ie & Inv').
        destruct (IH seen' cache' (N.succ i) ((x, n) :: A) HFr NDr) as (es & A' & E & F2 & Sub & Cl);
          [|exact Inv'|].
        { intros f m [Hf|Hf]; [injection Hf as <- <-; exact NDx|apply (HDr f m Hf)]. }
        exists (e :: es), A'. split; [rewrite Ee, E; reflexivity|]. split; [|split; [|exact Cl]].
        * constructor; [|exact F2]. split; [exact Oe|]. intros _. exists n.
          split; [exact Ie|apply Sub; left; reflexivity].
        * intros p Hp. apply Sub. right. exact Hp.
      + assert (Hk : knd x <> KReg) by (intros K; apply kind_eqb_eq in K; unfold is_reg in Rx; congruence).
        destruct (nonreg_back x i cache (add_nondirs seen r) Hx Hk) as (e & Ee & Oe).
        destruct (IH seen cache (N.succ i) A HFr NDr HDr (Ainv_succ _ _ _ _ Inv)) as (es & A' & E & F2 & Sub & Cl).
        exists (e :: es), A'. split; [rewrite add_nondirs_other, Ee, E by exact Hk; reflexivity|].
        split; [|split; [exact Sub|exact Cl]].
        constructor; [|exact F2]. split; [exact Oe|]. intros K. contradiction.
  Qed.

  (* what archive_to_fsobj makes of to_members c is a round trip of c already: the entries of c
     as far as the property observes them, with inode numbers that identify exactly the classes of
     [same_file] *)
  Lemma raw_back : exists raw, raw_of 0 [] (to_members c) = Some raw /\ roundtrip_ok c raw.
  Proof.
    unfold to_members. set (D := sort_loc (filter is_dir c)). set (F := filter (fun e => negb (is_dir e)) c).
    rewrite add_nondirs_dirs.
    2:{ intros e He. apply (Permutation_in _ (isort_perm _ _)), filter_In in He. apply He. }
    assert (PL : Permutation (D ++ F) c).
    { eapply perm_trans; [|apply (filter_split_perm is_dir)]. apply Permutation_app_tail. apply isort_perm. }
    set (L := D ++ F) in *.
    assert (NDL : NoDup (map loc L)).
    { apply (Permutation_NoDup (Permutation_map loc (Permutation_sym PL))). apply (wf_nodup c Hwf). }
    destruct (files_back L [] [] 0%N []) as (raw & A' & E & F2 & _ & Cl).
    { intros e He. apply (Permutation_in _ PL). exact He. }
    { exact NDL. }
    { intros f n []. }
    { repeat split; intros; contradiction. }
    assert (Eobs : map obs raw = map obs L) by (apply (Forall2_map_eq _ _ _ _ _ (fun a b H => proj1 H) F2)).
    assert (Pobs : Permutation (map obs raw) (map obs c)) by (rewrite Eobs; apply Permutation_map, PL).
    exists raw. split; [exact E|]. split; [exact Pobs|].
    intros e1 e2 r1 r2 H1 H2 Hr1 Hr2 K1 K2 L1 L2.
    assert (G : forall e r0, In e c -> knd e = KReg -> In r0 raw -> loc r0 = loc e ->
                exists n, ino r0 = Some n /\ In (e, n) A').
    { intros e r0 He Ke Hr0 L0. apply (Permutation_in _ (Permutation_sym PL)) in He.
      destruct (Forall2_in_l _ _ _ e F2 He) as (e' & He' & O & I). destruct (I Ke) as (n & In' & HA).
      assert (r0 = e'); [|subst; eauto].
      apply (NoDup_map_inj loc raw); auto; [|rewrite L0; symmetry; apply obs_loc, O].
      apply (Permutation_NoDup (Permutation_sym (obs_perm_loc _ _ Pobs))), (wf_nodup c Hwf). }
    destruct (G e1 r1 H1 K1 Hr1 L1) as (n1 & I1 & A1).
    destruct (G e2 r2 H2 K2 Hr2 L2) as (n2 & I2 & A2).
    rewrite I1, I2, <- (Cl e1 n1 e2 n2 A1 A2). split; congruence.
  Qed.
End RoundTrip.

Local Open Scope N_scope.
Definition ex_dir  := mkE [47;117]%N KDir 493 0 0 40 [] None None 0 0 0 0 0.                       (* /u *)
Definition ex_f1   := mkE [47;117;47;97]%N KReg 420 1000 100 4000 [] (Some 1) (Some 7) 1 5 0 0 0.  (* /u/a *)
Definition ex_f2   := mkE [47;117;47;98]%N KReg 420 1000 100 4000 [] (Some 1) (Some 7) 1 5 0 0 0.  (* /u/b, same inode *)
Definition ex_f3   := mkE [47;99]%N KReg 384 0 0 1 [] (Some 1) (Some 8) 2 0 0 0 0.                 (* /c *)
Definition ex_sym  := mkE [47;108]%N KSym 511 0 0 9 [117]%N None None 0 0 0 0 0.                   (* /l -> u *)
Definition ex_fifo := mkE [47;117;47;112]%N KFifo 384 0 0 3 [] None None 0 0 0 0 0.                (* /u/p *)
Definition ex_dev  := mkE [47;117;47;110]%N KDev (N.lor 432 S_IFCHR) 0 0 3 [] None None 0 0 1 3 0. (* /u/n c 1 3 *)
Definition ex_set := [ex_f2; ex_sym; ex_dir; ex_f1; ex_dev; ex_f3; ex_fifo].

(* what the example set is written as, and what it reads back as: /u/a has become a hardlink of /u/b
   (the first of the two in the set's order), and both read back with one inode *)
Example ex_members : map (fun m => (mname m, mty m, mlink m)) (to_members ex_set) =
  [([46;47;117]%N, MDir, []); ([46;47;117;47;98]%N, MReg, []); ([46;47;108]%N, MSym, [117]%N);
   ([46;47;117;47;97]%N, MLnk, [46;47;117;47;98]%N); ([46;47;117;47;110]%N, MChr, []);
   ([46;47;99]%N, MReg, []); ([46;47;117;47;112]%N, MFifo, [])].
Proof. vm_compute. reflexivity. Qed.
Example ex_read : match of_members (to_members ex_set) with
                  | Ok r => map (fun e => (loc e, knd e, ino e, data e)) r
                  | Fail _ => [] end =
  [([47;117]%N, KDir, None, 0%N); ([47;108]%N, KSym, None, 0%N); ([47;117;47;110]%N, KDev, None, 0%N);
   ([47;117;47;112]%N, KFifo, None, 0%N); ([47;117;47;98]%N, KReg, Some 1%N, 1%N);
   ([47;117;47;97]%N, KReg, Some 1%N, 1%N); ([47;99]%N, KReg, Some 5%N, 2%N)].
Proof. vm_compute. reflexivity. Qed.

(* the hypotheses of tar_roundtrip are satisfiable by that set *)
Example ex_wf : wf ex_set /\ flat ex_set /\ parents_closed ex_set.
Proof.
  split; [constructor|split].
  - intros e He. cbn in He. repeat destruct He as [<-|He]; try contradiction.
    + exact (plain_loc_abs [[117]; [98]]%N ltac:(discriminate) eq_refl).
    + exact (plain_loc_abs [[108]]%N ltac:(discriminate) eq_refl).
    + exact (plain_loc_abs [[117]]%N ltac:(discriminate) eq_refl).
    + exact (plain_loc_abs [[117]; [97]]%N ltac:(discriminate) eq_refl).
    + exact (plain_loc_abs [[117]; [110]]%N ltac:(discriminate) eq_refl).
    + exact (plain_loc_abs [[99]]%N ltac:(discriminate) eq_refl).
    + exact (plain_loc_abs [[117]; [112]]%N ltac:(discriminate) eq_refl).
  - apply nodupb_ok. reflexivity.
  - intros e He K. cbn in He. repeat destruct He as [<-|He]; try contradiction; cbn; try reflexivity; congruence.
  - intros e He K. cbn in He. repeat destruct He as [<-|He]; try contradiction; try discriminate.
    exists 432%N. split; [reflexivity|left; reflexivity].
  - intros e1 e2 H1 H2 K1 K2 N E. cbn in H1, H2.
    repeat destruct H1 as [<-|H1]; try contradiction; try discriminate;
      repeat destruct H2 as [<-|H2]; try contradiction; try discriminate; cbn; auto.
  - intros s e Hs He K (rest & E). cbn in Hs, He.
    repeat destruct Hs as [<-|Hs]; try contradiction; try discriminate;
      repeat destruct He as [<-|He]; try contradiction; discriminate.
  - intros e He. cbn in He.
    repeat destruct He as [<-|He]; try contradiction; vm_compute; auto 10.
Qed.

(* The full statement (entries recorded beneath symlinks to directories end up where a live merge
   would put them, i.e. beneath no symlink) is FALSE for chains of directory symlinks: *)
Definition no_entry_beneath_symlink (r : list entry) : Prop :=
  forall s e, In s r -> In e r -> knd s = KSym -> ~ beneath (loc s) (loc e).
Definition symdirs_resolved_full_statement : Prop :=
  forall c r, NoDup (map loc c) -> of_members (to_members c) = Ok r -> no_entry_beneath_symlink r.

Definition chain_set :=
  [ mkE [47;115;98;105;110]%N KDir 493 0 0 0 [] None None 0 0 0 0 0;                  (* /sbin *)
    mkE [47;90;122;49;47;90]%N KDir 493 0 0 0 [] None None 0 0 0 0 0;                 (* /Zz1/Z *)
    mkE [47;108;110;107;48]%N KSym 511 0 0 0 [115;98;105;110]%N None None 0 0 0 0 0;  (* /lnk0 -> sbin *)
    mkE [47;90;122;49]%N KSym 511 0 0 0 [47;108;110;107;48]%N None None 0 0 0 0 0 ].  (* /Zz1 -> /lnk0 *)

Lemma chain_set_read : exists r, of_members (to_members chain_set) = Ok r
  /\ existsb (fun s => is_sym s && existsb (fun e => beneathb (loc s) (loc e)) r) r = true.
Proof. eexists. split; vm_compute; reflexivity. Qed.

(* the class in which that happens is decidable (Spec_C25.chain_classb) *)
Example chain_set_in_class : chain_classb chain_set = true.
Proof. vm_compute. reflexivity. Qed.
Example ex_set_not_in_class : chain_classb ex_set = false.
Proof. vm_compute. reflexivity. Qed.
