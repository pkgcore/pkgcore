From Coq Require Import List ZArith.
Import ListNotations.
From Verif Require Import C01.Model_C01 C04.Model_C04 C04.Spec_C04 C04.Proofs_C04 C04.Negate_C04.

(* atom.match is PMS matching for EVERY sign-valued version comparison, every well-formed atom
   record and every package, outside the two known classes (K1: `=*` text ending inside a version
   component; K2: a group of several negative USE deps with some flags on and some off); for atoms
   built with negate_vers=True the version clause of <,<=,=,>=,>,~ is inverted, `=*` and
   unversioned atoms ignore the flag (no premise on negate_vers) *)
Theorem match_is_pms_negate_partial : forall vc a p,
  sign_valued vc -> wf_atom a = true ->
  known_glob a p = false -> known_use_nand a p = false ->
  atom_match vc a p = pms_match_nv vc a p.
Proof.
  intros vc a p Hs Hwf Kg Ku. unfold pms_match_nv.
  rewrite (atom_match_parts vc a p Hwf), (ver_clause_nv vc a p Hs Hwf Kg), (use_part vc a p Ku).
  reflexivity.
Qed.
Print Assumptions match_is_pms_negate_partial.

(* for atoms built without negate_vers this is the statement as written *)
Theorem match_is_pms_partial : forall vc a p,
  sign_valued vc -> wf_atom a = true -> a_negate_vers a = false ->
  known_glob a p = false -> known_use_nand a p = false ->
  atom_match vc a p = pms_match vc a p.
Proof.
  intros vc a p Hs Hwf Hneg Kg Ku. rewrite <- (pms_match_nv_plain vc a p Hneg).
  apply match_is_pms_negate_partial; assumption.
Qed.
Print Assumptions match_is_pms_partial.

(* the full statement is false of the faithful model: =a/b-1* matches a/b-10 *)
Theorem match_is_pms_refuted :
  atom_match ver_cmp glob_witness_atom glob_witness_pkg = true
  /\ pms_match ver_cmp glob_witness_atom glob_witness_pkg = false
  /\ known_glob glob_witness_atom glob_witness_pkg = true
  /\ ~ C04_full_statement.
Proof.
  assert (Hm : atom_match ver_cmp glob_witness_atom glob_witness_pkg = true) by (vm_compute; reflexivity).
  assert (Hs : pms_match ver_cmp glob_witness_atom glob_witness_pkg = false) by (vm_compute; reflexivity).
  split; [exact Hm|]. split; [exact Hs|]. split; [vm_compute; reflexivity|].
  intro H. rewrite (H glob_witness_atom glob_witness_pkg eq_refl eq_refl), Hs in Hm. discriminate.
Qed.
Print Assumptions match_is_pms_refuted.

(* second refutation: a/b[-x,-y] matches a package with x enabled *)
Theorem use_nand_refuted :
  atom_match ver_cmp nand_witness_atom nand_witness_pkg = true
  /\ pms_match ver_cmp nand_witness_atom nand_witness_pkg = false
  /\ known_use_nand nand_witness_atom nand_witness_pkg = true.
Proof. vm_compute. repeat split. Qed.
Print Assumptions use_nand_refuted.

(* a blocker matches the same packages as its non-blocking form *)
Theorem blocker_same_matches : forall vc a p b s,
  atom_match vc (with_blocks a b s) p = atom_match vc a p.
Proof. reflexivity. Qed.
Print Assumptions blocker_same_matches.

(* one USE dependency: the truth table over (written default, sign, flag in IUSE, flag enabled),
   for arbitrary IUSE and USE sets *)
Theorem usedep_default_table : forall vc p tok d s f,
  parse_use_token tok = (d, s, f) ->
  forallb (eval_restr vc p) (use_restrictions [tok])
  = use_table d s (smem f (p_iuse p)) (smem f (p_use p)).
Proof. exact usedep_default_table_proof. Qed.
Print Assumptions usedep_default_table.

(* the text [-]flag[(+)|(-)] is read back as (default, sign, flag) *)
Theorem parse_render_use : forall d s c f,
  c <> 45%N -> last (c :: f) 0%N <> 41%N ->
  parse_use_token (render_use d s (c :: f)) = (d, s, c :: f).
Proof. exact parse_render_use_proof. Qed.
Print Assumptions parse_render_use.

(* a component prefix is in particular a string prefix: the implementation never misses a
   package PMS matches with =*; it only matches too many *)
Theorem glob_only_over_matches : forall g s, comp_prefix g s = true -> startswith s g = true.
Proof. exact comp_prefix_startswith. Qed.
Print Assumptions glob_only_over_matches.

(* the operator -> accepted-results table of the model is the one regenerated from restricts.py *)
Theorem opv_is_source_table : forall op, (op < 6)%N ->
  Model_C01.op_vals op = Some (op_droprev op, opv op).
Proof. exact Proofs_C04.opv_is_source_table. Qed.
Print Assumptions opv_is_source_table.
