From Coq Require Import List NArith.
Import ListNotations.
From Verif Require Import C12.Model_C12 C12.Spec_C12 C12.Proofs_C12.

(* incremental_expansion (finalize on or off) = the left fold of the per-token meanings
   = last writer wins, for every stream, every original set and every string *)
Theorem expand_last_writer : forall fin ts orig s,
  expand fin ts orig = Ok s ->
  forall x, (In x s <-> sem_fold (adds fin) (dels fin) ts (fun y => mem y orig) x = true)
         /\ (In x s <-> survives (adds fin) (dels fin) ts orig x).
Proof. intros fin ts orig s H. rewrite expand_is_run in H. exact (run_readings _ _ _ (step_sem fin) ts orig s H). Qed.
Print Assumptions expand_last_writer.

(* a stream is rejected iff it contains an incomplete token; the error is the first one's *)
Theorem expand_rejects : forall fin ts orig,
  match first_bad bad_inc ts with
  | Some e => expand fin ts orig = Fail e
  | None => exists s, expand fin ts orig = Ok s
  end.
Proof. exact expand_rejects_proof. Qed.
Print Assumptions expand_rejects.

(* the condensed form (pinned or repaired condenser), stored as a set in any order and applied
   the way domain.enabled_use applies it (split_negations, add_bare_global, render_pkg), gives
   every flag exactly the membership the left-to-right reading of the stream gives it — for
   EVERY original set.  Streams with "-prefix_*" tokens are outside C12 (see glob_outside). *)
Theorem optimize_sound : forall strict ts out,
  optimize strict ts = Ok out ->
  (forall t, In t ts -> glob_neg t = false) ->
  forall stored, same_set stored out ->
  forall orig, exists s,
    consume stored orig = Some s
    /\ (forall x, positive x = true ->
          (In x s <-> sem_fold (adds true) (dels true) ts (fun y => mem y orig) x = true))
    /\ (forall s', expand true ts orig = Ok s' ->
          forall x, positive x = true -> (In x s <-> In x s')).
Proof.
  intros strict ts out H G stored Hs orig.
  destruct (optimize_consume strict ts out H G stored Hs orig) as [s [Ec Key]].
  exists s. split; [exact Ec|]. split.
  - intros x Px. rewrite <- mem_In, (Key x Px), sem_fold_last_writer. reflexivity.
  - intros s' He x Px. rewrite <- !mem_In, (Key x Px), (expand_mem _ _ _ _ He). reflexivity.
Qed.
Print Assumptions optimize_sound.

(* a bare "-" anywhere in a stream of non-empty tokens is rejected by the expansion and by the
   (repaired) condenser, and nothing else is *)
Theorem incomplete_negation_rejected : forall ts,
  (forall t, In t ts -> t <> []) ->
  (In [DASH] ts ->
     optimize true ts = Fail EBareNeg /\ forall fin orig, expand fin ts orig = Fail EBareNeg)
  /\ (~ In [DASH] ts ->
     (exists out, optimize true ts = Ok out) /\ forall fin orig, exists s, expand fin ts orig = Ok s).
Proof.
  intros ts NE. pose proof (optimize_rejects ts NE) as O.
  pose proof (fun fin orig => expand_rejects fin ts orig) as X.
  rewrite (first_bad_inc_nonempty ts NE) in O, X. rewrite <- mem_In.
  destruct (mem [DASH] ts); split; intro H;
    [exact (conj O X) | exfalso; apply H; reflexivity | discriminate | exact (conj O X)].
Qed.
Print Assumptions incomplete_negation_rejected.

(* the pinned condenser does not reject "- -*" (the defect repaired by fixes/C12-*.patch) ... *)
Theorem optimize_pinned_refuted :
  optimize false [[DASH]; CLEAR] = Ok [CLEAR]
  /\ (forall fin orig, expand fin [[DASH]; CLEAR] orig = Fail EBareNeg).
Proof. split; reflexivity. Qed.
Print Assumptions optimize_pinned_refuted.
(* ... and is otherwise the repaired one *)
Theorem optimize_pinned_partial : forall ts out,
  optimize true ts = Ok out -> optimize false ts = Ok out.
Proof. intros ts out. apply scan_pinned_agrees. Qed.
Print Assumptions optimize_pinned_partial.

(* ACCEPT_LICENSE expansion with @group, -@group, *, -* is last writer wins over the group
   closure supplied as data (a missing group is empty) *)
Theorem license_last_writer : forall lics groups ts s,
  expand_license lics groups ts = Ok s ->
  forall x, (In x s <-> sem_fold (lic_adds lics groups) (lic_dels lics groups) ts (fun _ => false) x = true)
         /\ (In x s <-> survives (lic_adds lics groups) (lic_dels lics groups) ts [] x).
Proof.
  intros lics groups ts s H x. unfold expand_license in H. rewrite expand_license_is_run in H.
  rewrite (sem_fold_ext _ _ ts (fun _ => false) (fun y => mem y [])) by reflexivity.
  exact (run_readings _ _ _ (step_license_sem lics groups) ts [] s H x).
Qed.
Print Assumptions license_last_writer.

(* "-", "-@", "@" (and "") are rejected, with the first one's error; nothing else is *)
Theorem license_rejects : forall lics groups ts,
  match first_bad bad_license ts with
  | Some e => expand_license lics groups ts = Fail e
  | None => exists s, expand_license lics groups ts = Ok s
  end.
Proof. exact license_rejects_proof. Qed.
Print Assumptions license_rejects.

(* collapsed_restrict_to_data.pull_data = the left-to-right expansion of iter_pull_data's stream *)
Theorem pull_data_is_stream : forall srcs pre s ts,
  (forall t, In t pre -> positive t = true) ->
  pull_data true srcs pre = Ok s -> pull_stream true srcs pre = Some ts ->
  forall x, In x s <-> sem_fold (adds true) (dels true) ts (fun _ => false) x = true.
Proof.
  intros srcs pre s ts Ppre Hp Hs x.
  rewrite <- mem_In, (pull_data_mem srcs pre s ts Ppre Hp Hs), sem_fold_last_writer. reflexivity.
Qed.
Print Assumptions pull_data_is_stream.

(* finalize_defaults=False: the stored set {-*, a} denotes "-* a" only in insertion order; the
   code iterates it in set order (recorded finding; pull_data_is_stream is the finalized part) *)
Theorem unfinalized_set_order_refuted :
  expand false [CLEAR; [97%N]] [] = Ok [CLEAR; [97%N]]
  /\ expand true [CLEAR; [97%N]] [[98%N]] = Ok [[97%N]]
  /\ expand true [[97%N]; CLEAR] [[98%N]] = Ok [].
Proof. repeat split; reflexivity. Qed.
Print Assumptions unfinalized_set_order_refuted.

(* domain._apply_license_filter as bound by _pkg_filters: each answer in any sequence of queries
   against one filter is the reading of "ACCEPT_LICENSE, then the package.license entries that
   match THIS package"; earlier queries leave no trace *)
Theorem license_filter_is_stream : forall master entries groups qs,
  (forall q, In q qs -> first_bad bad_license (license_stream master entries (fst q)) = None) ->
  license_filter_seq master entries groups qs
  = map (fun q => BOk (accepted_by_stream groups (license_stream master entries (fst q)) (snd q))) qs.
Proof.
  intros master entries groups qs W. apply map_ext_in. intros q Hq. apply license_accept_spec, W, Hq.
Qed.
Print Assumptions license_filter_is_stream.

(* a nested group denotes the concrete members reachable through its references, whatever the order
   of the definitions (closure is what Licenses.groups is compared against) *)
Theorem closure_reach : forall raw n g x, In x (closure raw n g) <-> reach raw n g x.
Proof.
  induction n as [|n IH]; intros g x; [split; [intros [] | inversion 1]|].
  rewrite closure_step. split.
  - intros [[Hin Hr] | [h [Hin Hx]]]; [apply reach_here | apply (reach_ref raw n g h x Hin), IH]; assumption.
  - inversion 1; subst; [left | right; exists h; rewrite IH]; auto.
Qed.
Print Assumptions closure_reach.
