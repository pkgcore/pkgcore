From Coq Require Import List ZArith Bool Lia.
Import ListNotations.
From Verif Require Import Base.Lists C14.Model_C14 C14.Spec_C14.

Lemma mem_set_add f x l : mem f (set_add x l) = N.eqb f x || mem f l.
Proof.
  unfold set_add. destruct (mem x l) eqn:Hx; cbn; [|reflexivity].
  destruct (N.eqb f x) eqn:Hf; [|reflexivity]. apply N.eqb_eq in Hf. subst. now rewrite Hx.
Qed.

Lemma mem_remove_all f x l : mem f (remove_all x l) = negb (N.eqb f x) && mem f l.
Proof.
  apply eq_true_iff_eq. unfold mem, remove_all.
  rewrite andb_true_iff, !existsb_N_In, filter_In, !negb_true_iff, !N.eqb_neq. intuition congruence.
Qed.

Lemma same_set_refl a : same_set a a.
Proof. intro; reflexivity. Qed.

(* the record a change pushes when it is not refused and not a silent no-op *)
Definition push (enable : bool) (x : N) (l : lcs) : lcs :=
  {| new_ := if enable then set_add x (new_ l) else remove_all x (new_ l);
     changed := set_add x (changed l); order := (enable, x) :: order l; black := black l |}.

Lemma change_cases enable x l l' :
  lcs_change enable x l = ODone l' ->
  (l' = l /\ mem x (new_ l) = enable) \/ (mem x (changed l) = false /\ l' = push enable x l).
Proof.
  unfold lcs_change, lcs_add, lcs_remove, push.
  destruct enable; destruct (mem x (changed l)) eqn:Hc; cbn;
    destruct (mem x (black l)); cbn; destruct (mem x (new_ l)) eqn:Hn;
    intro H; inversion H; subst; auto.
Qed.

Lemma change_not_unch enable x l :
  mem x (new_ l) = enable -> lcs_change enable x l <> OUnch.
Proof.
  intro H. unfold lcs_change, lcs_add, lcs_remove.
  destruct enable; rewrite H; destruct (mem x (changed l) || mem x (black l)); discriminate.
Qed.

Lemma change_keyerr enable x l :
  lcs_change enable x l = OKeyErr -> enable = false /\ mem x (new_ l) = false.
Proof.
  unfold lcs_change, lcs_add, lcs_remove.
  destruct enable; destruct (mem x (changed l) || mem x (black l));
    destruct (mem x (new_ l)); try discriminate; auto.
Qed.

Lemma push_new_other enable x l z :
  z <> x -> mem z (new_ (push enable x l)) = mem z (new_ l).
Proof.
  intro H. apply N.eqb_neq in H. unfold push; destruct enable; cbn [new_].
  - now rewrite mem_set_add, H.
  - now rewrite mem_remove_all, H.
Qed.

Lemma push_new_self enable x l : mem x (new_ (push enable x l)) = enable.
Proof.
  unfold push; destruct enable; cbn [new_].
  - now rewrite mem_set_add, N.eqb_refl.
  - now rewrite mem_remove_all, N.eqb_refl.
Qed.

Lemma push_keeps enable x l z :
  mem z (new_ l) = enable -> mem z (new_ (push enable x l)) = enable.
Proof.
  intro H. destruct (N.eq_dec z x) as [->|Hne]; [apply push_new_self|].
  now rewrite push_new_other.
Qed.

(* observational equivalence of change sets: same members, same pins, same change order *)
Definition lequiv (l1 l2 : lcs) : Prop :=
  same_set (new_ l1) (new_ l2) /\ same_set (changed l1) (changed l2) /\ order l1 = order l2.

Lemma lequiv_refl l : lequiv l l.
Proof. split; [|split]; try reflexivity; apply same_set_refl. Qed.

Lemma lequiv_trans a b c : lequiv a b -> lequiv b c -> lequiv a c.
Proof.
  intros (H1 & H2 & H3) (K1 & K2 & K3). split; [|split].
  - intro f. rewrite H1. apply K1.
  - intro f. rewrite H2. apply K2.
  - congruence.
Qed.

Lemma pop_equiv l1 l2 : lequiv l1 l2 -> lequiv (pop l1) (pop l2).
Proof.
  intros (H1 & H2 & H3). unfold pop. rewrite H3.
  destruct (order l2) as [|[k x] r] eqn:Ho; [split; [|split]; congruence|].
  split; [|split]; cbn [new_ changed order]; [intro f | intro f | reflexivity].
  - destruct k; [rewrite !mem_remove_all | rewrite !mem_set_add]; now rewrite H1.
  - rewrite !mem_remove_all. now rewrite H2.
Qed.

Lemma iter_pop_equiv n l1 l2 : lequiv l1 l2 -> lequiv (Nat.iter n pop l1) (Nat.iter n pop l2).
Proof. intro H. induction n; cbn; [assumption | now apply pop_equiv]. Qed.

(* undoing a change that really flipped the flag restores the set *)
Lemma pop_push enable x l :
  mem x (changed l) = false -> mem x (new_ l) = negb enable ->
  lequiv (pop (push enable x l)) l.
Proof.
  intros Hc Hn. unfold pop, push, lequiv. cbn [new_ changed order].
  split; [|split]; [intro f | intro f | reflexivity].
  - destruct enable; rewrite ?mem_remove_all, ?mem_set_add, ?mem_remove_all;
      (destruct (N.eqb_spec f x) as [->|]; cbn; [now rewrite Hn | reflexivity]).
  - rewrite mem_remove_all, mem_set_add.
    destruct (N.eqb_spec f x) as [->|]; cbn; [now rewrite Hc | reflexivity].
Qed.

Lemma apply_app sw en xs ys l :
  apply_vals sw en (xs ++ ys) l =
  match apply_vals sw en xs l with
  | (LOk, l1) => apply_vals sw en ys l1
  | other => other
  end.
Proof.
  revert l. induction xs as [|x xs IH]; intro l; cbn; [reflexivity|].
  destruct (lcs_change en x l); [apply IH | reflexivity |].
  destruct sw; [apply IH | reflexivity].
Qed.

Lemma apply_len sw en xs l r l' :
  apply_vals sw en xs l = (r, l') -> (length (order l) <= length (order l'))%nat.
Proof.
  revert l. induction xs as [|x xs IH]; intros l H; cbn in H.
  - inversion H; subst; lia.
  - destruct (lcs_change en x l) as [l1| |] eqn:Hc.
    + apply IH in H. apply change_cases in Hc as [[-> _]|[_ ->]]; cbn in *; lia.
    + inversion H; subst; lia.
    + destruct sw; [now apply IH | inversion H; subst; lia].
Qed.

Lemma apply_keeps sw en xs l r l' z :
  apply_vals sw en xs l = (r, l') -> mem z (new_ l) = en -> mem z (new_ l') = en.
Proof.
  revert l. induction xs as [|x xs IH]; intros l H Hz; cbn in H.
  - inversion H; congruence.
  - destruct (lcs_change en x l) as [l1| |] eqn:Hc.
    + apply (IH l1); [assumption|].
      apply change_cases in Hc as [[-> _]|[_ ->]]; [assumption | now apply push_keeps].
    + inversion H; congruence.
    + destruct sw; [now apply (IH l) | inversion H; congruence].
Qed.

(* values already in the requested state can only be pinned or skipped: never refused *)
Lemma apply_pins_ok en ys l :
  (forall y, In y ys -> mem y (new_ l) = en) ->
  exists l', apply_vals true en ys l = (LOk, l').
Proof.
  revert l. induction ys as [|y ys IH]; intros l Q; cbn; [eauto|].
  destruct (lcs_change en y l) as [l1| |] eqn:Hc.
  - apply IH. intros z Hz.
    apply change_cases in Hc as [[-> _]|[_ ->]]; [| apply push_keeps]; apply Q; now right.
  - exfalso. eapply change_not_unch; [|exact Hc]. apply Q; now left.
  - apply IH. intros z Hz. apply Q; now right.
Qed.

(* values not in the requested state, or pinned: every recorded change really flips its flag,
   so popping what the loop recorded gives the set back *)
Lemma apply_flips_undo en xs : forall l r l',
  (forall x, In x xs -> mem x (new_ l) = en -> mem x (changed l) = true) ->
  apply_vals true en xs l = (r, l') ->
  exists n, length (order l') = (n + length (order l))%nat /\ lequiv (Nat.iter n pop l') l.
Proof.
  induction xs as [|x xs IH]; intros l r l' P H; cbn in H.
  - inversion H; subst. exists 0%nat. split; [reflexivity | apply lequiv_refl].
  - destruct (lcs_change en x l) as [l1| |] eqn:Hc.
    + apply change_cases in Hc as [[-> _]|[Hch ->]].
      * apply (IH l r l'); [|assumption]. intros z Hz. apply P; now right.
      * assert (Hn : mem x (new_ l) = negb en).
        { destruct (mem x (new_ l)) eqn:Hm; destruct en; try reflexivity;
            (rewrite P in Hch; [discriminate | now left | assumption]). }
        destruct (IH (push en x l) r l') as (n & Hlen & Heq); [|assumption|].
        { intros z Hz Hzn. unfold push at 1. cbn [changed]. rewrite mem_set_add.
          destruct (N.eqb z x) eqn:Hzx; [reflexivity|]. cbn.
          apply N.eqb_neq in Hzx. rewrite push_new_other in Hzn by assumption.
          apply P; [now right | assumption]. }
        exists (S n). split; [cbn in *; lia|].
        cbn [Nat.iter]. eapply lequiv_trans; [apply pop_equiv; exact Heq|].
        now apply pop_push.
    + inversion H; subst. exists 0%nat. split; [reflexivity | apply lequiv_refl].
    + apply (IH l r l'); [|assumption]. intros z Hz. apply P; now right.
Qed.

Lemma rollback_entry l l' n :
  length (order l') = (n + length (order l))%nat ->
  lcs_rollback (count l) l' = Some (Nat.iter n pop l').
Proof.
  intro H. unfold lcs_rollback, count. rewrite H.
  replace (Z.of_nat (length (order l)) <? 0)%Z with false by (symmetry; apply Z.ltb_ge; lia).
  replace (Z.of_nat (n + length (order l)) <? Z.of_nat (length (order l)))%Z with false
    by (symmetry; apply Z.ltb_ge; lia).
  cbn. do 2 f_equal. lia.
Qed.

Lemma flips_pre en l vals :
  forall x, In x (flips en l vals) -> mem x (new_ l) = en -> mem x (changed l) = true.
Proof.
  intros x Hx Hm. unfold flips in Hx. apply filter_In in Hx as [_ Hx].
  rewrite Hm in Hx. destruct en; discriminate.
Qed.

Lemma pins_pre en l vals : forall y, In y (pins en l vals) -> mem y (new_ l) = en.
Proof.
  intros y Hy. unfold pins in Hy. apply filter_In in Hy as [_ Hy].
  destruct (mem y (new_ l)); destruct en; try reflexivity; discriminate.
Qed.

Lemma in_flips_or_pins en l vals x : In x vals -> In x (flips en l vals) \/ In x (pins en l vals).
Proof.
  intro H. unfold flips, pins. destruct (Bool.eqb (mem x (new_ l)) en) eqn:Hb.
  - right. apply filter_In; auto.
  - left. apply filter_In; split; [assumption | now rewrite Hb].
Qed.

Lemma apply_sets en xs : forall la lb z,
  apply_vals true en xs la = (LOk, lb) -> In z xs -> mem z (new_ lb) = en.
Proof.
  induction xs as [|x xs IH]; intros la lb z H Hz; [destruct Hz|]. cbn in H.
  destruct (lcs_change en x la) as [l1| |] eqn:Hc; [| discriminate |].
  - destruct Hz as [->|Hz]; [| now apply (IH l1 lb)].
    eapply apply_keeps; [exact H|].
    apply change_cases in Hc as [[-> Hm]|[_ ->]]; [assumption | apply push_new_self].
  - destruct Hz as [->|Hz]; [| now apply (IH la lb)].
    eapply apply_keeps; [exact H|]. apply change_keyerr in Hc as [-> Hm]. assumption.
Qed.

(* a request either goes through, and every value ends in the requested state, or its rollback to
   the entry point gives the change set back *)
Lemma request_loop en vals l :
  let (r, l') := apply_vals true en (flips en l vals ++ pins en l vals) l in
  match r with
  | LOk => forall x, In x vals -> mem x (new_ l') = en
  | _ => exists n, lcs_rollback (count l) l' = Some (Nat.iter n pop l') /\ lequiv (Nat.iter n pop l') l
  end.
Proof.
  rewrite apply_app.
  destruct (apply_vals true en (flips en l vals) l) as [r1 l1] eqn:H1. destruct r1.
  2,3: destruct (apply_flips_undo en _ l _ l1 (flips_pre en l vals) H1) as (n & Hlen & Heq);
    exists n; split; [now apply rollback_entry | assumption].
  destruct (apply_pins_ok en (pins en l vals) l1) as [l2 H2].
  { intros y Hy. eapply apply_keeps; [exact H1 | now apply pins_pre in Hy]. }
  rewrite H2. intros x Hx. destruct (in_flips_or_pins en l vals x Hx) as [Hf|Hp].
  - eapply apply_keeps; [exact H2|]. eapply apply_sets; eassumption.
  - eapply apply_sets; eassumption.
Qed.

Section WrapperProofs.
  Variable V : Type.
  Variable E : N -> list N -> V.
  Notation state := (st V).
  Notation step' := (step V E).

  (* every cached value carries a generation not beyond the current one, and the ones of the
     current generation are the evaluation under the current USE set *)
  Definition Coherent (s : state) : Prop :=
    forall a pt v, In (a, (pt, v)) (cache s) ->
      (pt <= gen s)%N /\ (pt = gen s -> v = E a (current_use s)).

  Lemma lookup_In a (c : list (N * (N * V))) e : lookup V a c = Some e -> In (a, e) c.
  Proof.
    induction c as [|[b e'] c IH]; cbn; [discriminate|].
    destruct (N.eqb a b) eqn:Hab.
    - intro H. inversion H; subst. apply N.eqb_eq in Hab. subst. now left.
    - intro H. right. now apply IH.
  Qed.

  Lemma coherent_init use locked : Coherent (init V use locked).
  Proof. intros a pt v []. Qed.

  Lemma coherent_bump l s : Coherent s -> Coherent (bump V l s).
  Proof.
    intros H a pt v Hin. cbn in *. destruct (H a pt v Hin) as [Hle _]. split; [lia|].
    intro Heq. exfalso. lia.
  Qed.

  Lemma read_spec a s :
    Coherent s ->
    fst (read V E a s) = E a (current_use s)
    /\ cfg (snd (read V E a s)) = cfg s /\ Coherent (snd (read V E a s)).
  Proof.
    intro H. unfold read.
    assert (Fresh : Coherent {| cfg := cfg s; gen := gen s;
                                cache := (a, (gen s, E a (current_use s))) :: cache s |}).
    { intros b pt v [Heq|Hin]; cbn.
      - inversion Heq; subst. split; [lia | reflexivity].
      - apply (H b pt v Hin). }
    destruct (lookup V a (cache s)) as [[pt v]|] eqn:Hl; [|cbn; auto].
    destruct (N.eqb pt (gen s)) eqn:Hpt; [|cbn; auto].
    apply N.eqb_eq in Hpt. apply lookup_In in Hl. cbn.
    destruct (H a pt v Hl) as [_ Hv]. auto.
  Qed.

  Lemma request_cases en vals s :
    (exists l', request V en vals s = (RB true, bump V l' s)
                /\ forall x, In x vals -> mem x (new_ l') = en)
    \/ (exists l'', request V en vals s = (RB false, bump V l'' s) /\ lequiv l'' (cfg s)).
  Proof.
    unfold request. generalize (request_loop en vals (cfg s)).
    destruct (apply_vals true en _ (cfg s)) as [[| |] l']; [left; eauto | | ];
      intros (n & -> & Heq); right; eauto.
  Qed.

  Lemma step_coherent o s : Coherent s -> Coherent (snd (step' o s)).
  Proof.
    intro H. destruct o as [vals|vals|k| |a]; cbn.
    - destruct (request_cases true vals s) as [(l & -> & _)|(l & -> & _)]; now apply coherent_bump.
    - destruct (request_cases false vals s) as [(l & -> & _)|(l & -> & _)]; now apply coherent_bump.
    - unfold rollback. destruct (lcs_rollback k (cfg s)); cbn; [now apply coherent_bump | assumption].
    - now apply coherent_bump.
    - destruct (read_spec a s H) as (_ & _ & Hc). destruct (read V E a s); assumption.
  Qed.

  Lemma run_coherent ops s : Coherent s -> Coherent (run V step' ops s).
  Proof.
    revert s. induction ops as [|o ops IH]; intros s H; cbn; [assumption|].
    apply IH. now apply step_coherent.
  Qed.

  Lemma read_step a s :
    Coherent s ->
    fst (step' (Read a) s) = RV (E a (current_use s))
    /\ current_use (snd (step' (Read a) s)) = current_use s.
  Proof.
    intro H. destruct (read_spec a s H) as (Hv & Hc & _). cbn.
    destruct (read V E a s) as [v s']; cbn in *. unfold current_use. now rewrite Hv, Hc.
  Qed.

  Lemma exec_nth ops : forall s i a r s',
    Coherent s ->
    nth_error ops i = Some (Read a) ->
    nth_error (exec V step' ops s) i = Some (r, s') ->
    r = RV (E a (current_use s')).
  Proof.
    induction ops as [|o ops IH]; intros s i a r s' H Ho Hr; [destruct i; discriminate|].
    destruct i as [|i]; cbn in *.
    - inversion Ho; subst o. destruct (read_step a s H) as [Hv Hu].
      assert (Hp : step' (Read a) s = (r, s')) by congruence.
      rewrite Hp in Hv, Hu. cbn in *. now rewrite Hu.
    - eapply IH; [|exact Ho|exact Hr]. now apply step_coherent.
  Qed.

  (* refusal, for EVERY state (not only reachable ones): the USE set, the pins and the change
     count are as before *)
  Lemma refused_restores en vals s s' :
    request V en vals s = (RB false, s') -> lequiv (cfg s') (cfg s).
  Proof.
    intro H. destruct (request_cases en vals s) as [(l & Hq & _)|(l & Hq & Heq)];
      rewrite Hq in H; inversion H; subst s'; exact Heq.
  Qed.
  Lemma step_refused o s :
    is_request o -> fst (step' o s) = RB false -> lequiv (cfg (snd (step' o s))) (cfg s).
  Proof.
    intros Ho Hr. destruct o as [vals|vals|k| |a]; try destruct Ho; cbn [step] in *.
    - destruct (request V true vals s) as [r s'] eqn:Hq; cbn [fst snd] in *; subst r.
      exact (refused_restores _ _ _ _ Hq).
    - destruct (request V false vals s) as [r s'] eqn:Hq; cbn [fst snd] in *; subst r.
      exact (refused_restores _ _ _ _ Hq).
  Qed.

  Lemma step_answered o s : is_request o -> exists b, fst (step' o s) = RB b.
  Proof.
    intro Ho. destruct o as [vals|vals|k| |a]; try destruct Ho; cbn [step].
    - destruct (request_cases true vals s) as [(l & -> & _)|(l & -> & _)]; cbn [fst]; eauto.
    - destruct (request_cases false vals s) as [(l & -> & _)|(l & -> & _)]; cbn [fst]; eauto.
  Qed.

  Notation pstep := (step_pinned V E).

  Definition no_commit_no_disable (o : op) : Prop :=
    match o with Commit | Disable _ => False | _ => True end.

  Lemma add_never_keyerr sw xs l r l' : apply_vals sw true xs l = (r, l') -> r <> LKeyErr.
  Proof.
    revert l. induction xs as [|x xs IH]; intros l H; cbn [apply_vals] in H.
    - inversion H; discriminate.
    - destruct (lcs_change true x l) eqn:Hc.
      + now apply (IH l0).
      + inversion H; discriminate.
      + apply change_keyerr in Hc as [? _]. discriminate.
  Qed.

  Lemma stepp_coherent o s : no_commit_no_disable o -> Coherent s -> Coherent (snd (pstep o s)).
  Proof.
    intros Ho H. destruct o as [vals|vals|k| |a]; try destruct Ho; cbn.
    - unfold request_pinned.
      destruct (apply_vals false true vals (cfg s)) as [r l'] eqn:Ha.
      destruct r.
      + now apply coherent_bump.
      + destruct (lcs_rollback (count (cfg s)) l'); cbn; [now apply coherent_bump | assumption].
      + exfalso. now apply add_never_keyerr in Ha.
    - unfold rollback. destruct (lcs_rollback k (cfg s)); cbn; [now apply coherent_bump | assumption].
    - destruct (read_spec a s H) as (_ & _ & Hc). destruct (read V E a s); assumption.
  Qed.

  Lemma runp_coherent ops : Forall no_commit_no_disable ops ->
    forall s, Coherent s -> Coherent (run V pstep ops s).
  Proof.
    induction 1 as [|o ops Ho _ IH]; intros s H; cbn; [assumption|].
    apply IH. now apply stepp_coherent.
  Qed.
End WrapperProofs.

(* a concrete evaluator: the attribute IS the USE set *)
Definition Eid (_ : N) (use : list N) : list N := use.

(* a history with a successful enable, a refused disable, a rollback, a commit and reads *)
Example history_nontrivial :
  map fst (exec _ (step _ Eid)
             [Read 0; Enable [1]; Read 0; Disable [2; 9]; Read 0; Disable [1]; Commit;
              Disable [1]; Read 0; Rollback 0; Read 0; Rollback 5]%N
             (init _ [3]%N [9]%N))
  = [RV [3]; RB true; RV [1;3]; RB true; RV [1;3]; RB false; RNone;
     RB true; RV [3]; RNone; RV [1;3]; RTypeError]%N.
Proof. vm_compute. reflexivity. Qed.

(* refusals exist, in both directions, and leave the set alone *)
Example refusal_exists :
  let s := init (list N) [1; 9]%N [9; 8]%N in
  fst (step _ Eid (Disable [2; 9]%N) s) = RB false
  /\ current_use (snd (step _ Eid (Disable [2; 9]%N) s)) = [1; 9]%N
  /\ fst (step _ Eid (Enable [1; 8]%N) s) = RB false
  /\ current_use (snd (step _ Eid (Enable [1; 8]%N) s)) = [1; 9]%N.
Proof. vm_compute. repeat split. Qed.

(* (a) disable never invalidates: [read; disable x; read] *)
Theorem pinned_reads_current_refuted_disable :
  ~ reads_current_stmt _ Eid (step_pinned _ Eid).
Proof.
  intro H. specialize (H [1]%N (@nil N) [Read 0; Disable [1]]%N 0%N).
  vm_compute in H. destruct H as [H _]. discriminate.
Qed.

(* (b) commit resets the generation: [read; enable x; commit; read] *)
Theorem pinned_reads_current_refuted_commit :
  exists use locked ops a,
    Forall (fun o => match o with Disable _ => False | _ => True end) ops /\
    let s := run _ (step_pinned _ Eid) ops (init _ use locked) in
    fst (step_pinned _ Eid (Read a) s) <> RV (Eid a (current_use s)).
Proof.
  exists (@nil N), (@nil N), [Read 0; Enable [1]; Commit]%N, 0%N. split.
  - repeat constructor.
  - vm_compute. discriminate.
Qed.

(* (c) a refused disable(y, locked) of an absent y ADDS y; a refused enable(x, locked-off) of
   a present x DROPS x *)
Theorem pinned_refused_unchanged_refuted :
  ~ refused_unchanged_stmt _ (step_pinned _ Eid).
Proof.
  intro H. specialize (H [9]%N [9]%N [] (Disable [1; 9]%N) I).
  vm_compute in H. specialize (H eq_refl 1%N). discriminate.
Qed.

Example pinned_refused_enable_drops :
  let s := init (list N) [1]%N [9]%N in
  step_pinned _ Eid (Enable [1; 9]%N) s
  = (RB false, {| cfg := {| new_ := []; changed := []; order := []; black := [9]%N |};
                  gen := 1%N; cache := [] |}).
Proof. vm_compute. reflexivity. Qed.

(* a second disable of the same flag raises KeyError; with a locked-off flag in the same
   request the removal of the first flag stays and the cache is not invalidated *)
Theorem pinned_requests_answered_refuted :
  ~ requests_answered_stmt _ (step_pinned _ Eid).
Proof.
  intro H. specialize (H [1]%N (@nil N) [Disable [1]]%N (Disable [1]%N) I).
  vm_compute in H. destruct H as [b H]. discriminate.
Qed.

Example pinned_keyerror_leaves_stale :
  map fst (exec _ (step_pinned _ Eid) [Read 0; Disable [1; 9]; Read 0]%N (init _ [1]%N [9]%N))
  = [RV [1]; RKeyError; RV [1]]%N
  /\ current_use (run _ (step_pinned _ Eid) [Read 0; Disable [1; 9]]%N (init _ [1]%N [9]%N)) = [].
Proof. vm_compute. split; reflexivity. Qed.

(* outside the statement of C14 but worth knowing (snakeoil): an explicit rollback over a
   request that only pinned a flag flips that flag — in the repaired wrapper too *)
Example rollback_over_a_pin_flips :
  current_use (run _ (step _ Eid) [Enable [1]; Rollback 0]%N (init _ [1]%N [])) = []
  /\ current_use (run _ (step _ Eid) [Disable [1]; Rollback 0]%N (init _ [] [])) = [1]%N.
Proof. vm_compute. split; reflexivity. Qed.

Section MultiProofs.
  Variable V : Type.
  Variable Er : N -> N -> list N -> V.

  Definition MCoherent (ws : list (wst V)) : Prop :=
    Forall (fun x => Coherent V (Er (fst x)) (snd x)) ws.

  Lemma mstep_at_self : forall ws w o raw s,
    nth_error ws w = Some (raw, s) ->
    fst (mstep_at V Er w o ws) = Some (fst (step V (Er raw) o s))
    /\ nth_error (snd (mstep_at V Er w o ws)) w = Some (raw, snd (step V (Er raw) o s)).
  Proof.
    induction ws as [|[r0 s0] ws IH]; intros [|w] o raw s H;
      cbn [mstep_at fst snd nth_error] in *; try discriminate.
    - inversion H; subst. split; reflexivity.
    - now apply IH.
  Qed.

  Lemma mstep_at_other : forall ws w w' o,
    w' <> w -> nth_error (snd (mstep_at V Er w o ws)) w' = nth_error ws w'.
  Proof.
    induction ws as [|[r0 s0] ws IH]; intros [|w] [|w'] o H;
      cbn [mstep_at fst snd nth_error]; try reflexivity; try congruence.
    apply IH. congruence.
  Qed.

  Lemma mstep_coherent : forall ws w o, MCoherent ws -> MCoherent (snd (mstep_at V Er w o ws)).
  Proof.
    induction ws as [|[r0 s0] ws IH]; intros [|w] o H; cbn [mstep_at fst snd];
      try assumption; inversion H; subst; constructor; cbn [fst snd] in *; try assumption.
    - now apply step_coherent.
    - now apply IH.
  Qed.

  Lemma minit_coherent locked cfgs : MCoherent (minit V locked cfgs).
  Proof.
    unfold MCoherent, minit. induction cfgs as [|c cfgs IH]; cbn [map]; constructor;
      [apply coherent_init | assumption].
  Qed.

  Lemma mrun_coherent : forall ops ws, MCoherent ws -> MCoherent (mrun V Er ops ws).
  Proof.
    induction ops as [|[w o] ops IH]; intros ws H; cbn [mrun]; [assumption|].
    apply IH. now apply mstep_coherent.
  Qed.

  Lemma mrun_nth locked cfgs ops w raw s :
    nth_error (mrun V Er ops (minit V locked cfgs)) w = Some (raw, s) -> Coherent V (Er raw) s.
  Proof.
    intro Hn. pose proof (mrun_coherent ops _ (minit_coherent locked cfgs)) as HM.
    unfold MCoherent in HM. rewrite Forall_forall in HM. exact (HM _ (nth_error_In _ _ Hn)).
  Qed.
End MultiProofs.

(* two configured packages of the same raw package whose USE sets differ, used side by side *)
Example multi_nontrivial :
  map fst (mexec _ (fun _ => Eid)
             [(0%nat, Read 0); (1%nat, Read 0); (1%nat, Enable [2]); (0%nat, Disable [1]);
              (1%nat, Read 0); (0%nat, Read 0); (1%nat, Commit); (0%nat, Commit);
              (0%nat, Read 0); (1%nat, Read 0)]%N
             (minit _ [9]%N [(0, [1]); (0, [])]%N))
  = [Some (RV [1]); Some (RV []); Some (RB true); Some (RB true); Some (RV [2]); Some (RV []);
     Some RNone; Some RNone; Some (RV []); Some (RV [2])]%N.
Proof. vm_compute. reflexivity. Qed.
