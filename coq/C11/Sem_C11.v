(* Sem_C11.v — the per-flag (last writer) semantics [effl] of chunk lists, and the proof that
   _build_cp_atom_payload keeps it ([build_effl]). *)
From Coq Require Import List NArith Bool Lia.
Import ListNotations.
From Verif Require Import Base.Lists C11.Model_C11 C11.Spec_C11 C11.Class_C11.
Open Scope N_scope.

Lemma mem_In x l : mem x l = true <-> In x l.
Proof. apply existsb_N_In. Qed.
Lemma mem_false x l : mem x l = false <-> ~ In x l.
Proof. rewrite <- mem_In. destruct (mem x l); intuition congruence. Qed.

Lemma tcl_flag t f : 10 <= t -> tcl t f = (t =? f).
Proof.
  intro H. unfold tcl, pre_clears.
  rewrite (proj2 (N.eqb_neq t 0)), (proj2 (N.ltb_ge t 10)), andb_false_r by lia. reflexivity.
Qed.

Lemma rule_neg_In t s f : In f (rule_neg t s) <-> In f s /\ tcl t f = false.
Proof.
  unfold rule_neg, tcl, pre_clears. rewrite (N.eqb_sym t f).
  destruct (N.eqb_spec t 0) as [->|H0]; [cbn; intuition discriminate|].
  rewrite (proj2 (N.ltb_lt 0 t)) by lia.
  destruct (t <? 10); rewrite filter_In; destruct (f / 100 =? t), (f =? t); cbn; intuition discriminate.
Qed.

Definition cleared (ng : list N) (f : N) : bool := existsb (fun t => tcl t f) ng.

Lemma fold_rule_neg_In ng : forall s f,
  In f (fold_left (fun s t => rule_neg t s) ng s) <-> In f s /\ cleared ng f = false.
Proof.
  induction ng as [|t ng IH]; intros s f; cbn [fold_left cleared existsb].
  - tauto.
  - rewrite IH, rule_neg_In. fold (cleared ng f). rewrite orb_false_iff. tauto.
Qed.
Lemma fold_rule_pos_In ps : forall s f,
  In f (fold_left (fun s t => rule_pos t s) ps s) <-> In f s \/ In f ps.
Proof.
  induction ps as [|t ps IH]; intros s f; cbn [fold_left].
  - cbn. tauto.
  - rewrite IH. unfold rule_pos. rewrite in_app_iff. cbn. intuition.
Qed.
Lemma apply_entry_In e s f :
  In f (apply_entry e s) <-> In f (pos e) \/ (In f s /\ cleared (neg e) f = false).
Proof. unfold apply_entry. rewrite fold_rule_pos_In, fold_rule_neg_In. tauto. Qed.

Lemma cleared_false ng f :
  cleared ng f = false <->
  mem 0 ng = false /\ existsb (fun t => pre_clears t f) ng = false /\ mem f ng = false.
Proof.
  unfold cleared, mem. induction ng as [|t ng IH]; cbn [existsb].
  - tauto.
  - rewrite !orb_false_iff, IH. unfold tcl. rewrite !orb_false_iff.
    rewrite (N.eqb_sym 0 t), (N.eqb_sym f t). tauto.
Qed.

(* incremental_chunked's three passes over one chunk mean the same as the statement's rules *)
Lemma apply_chunk_In c s f :
  In f (apply_chunk c s) <-> In f (pos c) \/ (In f s /\ cleared (neg c) f = false).
Proof.
  unfold apply_chunk. rewrite in_app_iff, !filter_In, !negb_true_iff, cleared_false.
  destruct (mem 0 (neg c)); cbn [In]; intuition congruence.
Qed.

(* what chunk [c] says about flag [f]: added, removed, or nothing *)
Definition eff_chunk (c : chunk) (f : N) : option bool :=
  if mem f (pos c) then Some true else if cleared (neg c) f then Some false else None.
Definition orelse (a b : option bool) : option bool := match a with Some x => Some x | None => b end.
(* the verdict of the last chunk of [l] that applies to [p] and mentions [f] *)
Fixpoint effl (l : list chunk) (p : pkg) (f : N) : option bool :=
  match l with
  | [] => None
  | c :: r => orelse (effl r p f) (if applies (sc c) p then eff_chunk c f else None)
  end.

Lemma orelse_assoc a b c : orelse (orelse a b) c = orelse a (orelse b c).
Proof. destruct a; reflexivity. Qed.
Lemma orelse_none_r a : orelse a None = a.
Proof. destruct a; reflexivity. Qed.

Lemma effl_app a b p f : effl (a ++ b) p f = orelse (effl b p f) (effl a p f).
Proof.
  induction a as [|c a IH]; cbn [app effl].
  - rewrite orelse_none_r. reflexivity.
  - rewrite IH, orelse_assoc. reflexivity.
Qed.

Lemma eff_empty c f : empty_chunk c = true -> eff_chunk c f = None.
Proof.
  unfold empty_chunk, eff_chunk. intro H. apply andb_true_iff in H as [H1 H2].
  destruct (neg c); [|discriminate]. destruct (pos c); [|discriminate]. reflexivity.
Qed.
Lemma effl_cons_ne c l p f : effl (if empty_chunk c then l else c :: l) p f = effl (c :: l) p f.
Proof.
  cbn [effl]. destruct (empty_chunk c) eqn:E; [|reflexivity].
  rewrite (eff_empty _ _ E). destruct (applies (sc c) p); rewrite orelse_none_r; reflexivity.
Qed.
Lemma effl_filter_ne l p f : effl (filter (fun c => negb (empty_chunk c)) l) p f = effl l p f.
Proof.
  induction l as [|c l IH]; [reflexivity|]. rewrite <- (effl_cons_ne c l). cbn [filter].
  destruct (empty_chunk c); cbn [negb effl]; rewrite IH; reflexivity.
Qed.

(* a fold that treats each applicable chunk as the statement's rules do yields the flags whose
   last writer adds them; this covers incremental_chunked and the statement's own fold *)
Section Fold.
  Variable ap : chunk -> list N -> list N.
  Hypothesis ap_In : forall c s f,
    In f (ap c s) <-> In f (pos c) \/ (In f s /\ cleared (neg c) f = false).

  Lemma fold_effl p f : forall items pre,
    In f (fold_left (fun s c => if applies (sc c) p then ap c s else s) items pre) <->
    match effl items p f with Some b => b = true | None => In f pre end.
  Proof.
    induction items as [|c items IH]; intro pre; cbn [fold_left effl].
    - tauto.
    - rewrite IH. destruct (effl items p f) as [b|]; cbn [orelse]; [tauto|].
      destruct (applies (sc c) p); [|tauto].
      rewrite ap_In. unfold eff_chunk. destruct (mem f (pos c)) eqn:Ep.
      + apply mem_In in Ep. intuition.
      + apply mem_false in Ep. destruct (cleared (neg c) f); intuition congruence.
  Qed.
End Fold.

Lemma render_effl items p pre f :
  In f (render_list items p pre) <->
  match effl items p f with Some b => b = true | None => In f pre end.
Proof. apply (fold_effl apply_chunk apply_chunk_In). Qed.
Lemma history_effl items p pre f :
  In f (apply_history items p pre) <->
  match effl items p f with Some b => b = true | None => In f pre end.
Proof. apply (fold_effl apply_entry apply_entry_In). Qed.

(* no wildcard negation; no flag both negated and added *)
Definition nowild (c : chunk) : bool := forallb (fun t => 10 <=? t) (neg c).
Definition disjoint_c (c : chunk) : bool := forallb (fun f => negb (mem f (neg c))) (pos c).
Definition good (c : chunk) : bool := nowild c && disjoint_c c.

Lemma cleared_nowild ng f : forallb (fun t => 10 <=? t) ng = true -> cleared ng f = mem f ng.
Proof.
  unfold cleared, mem. induction ng as [|t ng IH]; cbn [forallb existsb]; [reflexivity|].
  intro H. apply andb_true_iff in H as [H1 H2]. apply N.leb_le in H1.
  rewrite (IH H2), (tcl_flag _ _ H1), (N.eqb_sym t f). reflexivity.
Qed.

(* what _build_cp_atom_payload reads off a chunk when it locks a token: negations first *)
Definition lock_eff (c : chunk) (t : N) : option bool :=
  if mem t (neg c) then Some false else if mem t (pos c) then Some true else None.

Lemma eff_good c f : good c = true -> eff_chunk c f = lock_eff c f.
Proof.
  unfold good, eff_chunk, lock_eff. intro H. apply andb_true_iff in H as [Hw Hd].
  rewrite (cleared_nowild _ _ Hw).
  destruct (mem f (pos c)) eqn:Ep; [|reflexivity].
  unfold disjoint_c in Hd. rewrite forallb_forall in Hd.
  apply mem_In in Ep. specialize (Hd f Ep). apply negb_true_iff in Hd. rewrite Hd. reflexivity.
Qed.

Lemma eff_sign c f b : good c = true -> eff_chunk c f = Some b ->
  if b then In f (pos c) else In f (neg c).
Proof.
  intros H. rewrite (eff_good _ _ H). unfold lock_eff.
  destruct (mem f (neg c)) eqn:En; [|destruct (mem f (pos c)) eqn:Ep; [|discriminate]];
    intro E; injection E as <-; apply mem_In; assumption.
Qed.

Lemma good_sub c n' p' :
  good c = true -> incl n' (neg c) -> incl p' (pos c) -> good (mkc (sc c) n' p') = true.
Proof.
  unfold good, nowild, disjoint_c. cbn [neg pos]. intros H Hn Hp.
  apply andb_true_iff in H as [H1 H2]. rewrite forallb_forall in H1, H2.
  apply andb_true_iff; split; apply forallb_forall.
  - intros x Hx. apply H1, Hn, Hx.
  - intros x Hx. specialize (H2 x (Hp x Hx)). apply negb_true_iff in H2. apply negb_true_iff.
    apply mem_false. intro Hi. apply mem_false in H2. apply H2, Hn, Hi.
Qed.

Lemma lk_get_app lk t b x :
  lk_get (lk ++ [(t, b)]) x = orelse (lk_get lk x) (if t =? x then Some b else None).
Proof.
  induction lk as [|[k v] lk IH]; cbn [app lk_get].
  - reflexivity.
  - destruct (k =? x); [reflexivity | exact IH].
Qed.

Lemma lk_get_setdefault b ts : forall lk x,
  lk_get (lk_setdefault b ts lk) x = orelse (lk_get lk x) (if mem x ts then Some b else None).
Proof.
  induction ts as [|t ts IH]; intros lk x; cbn [lk_setdefault].
  - cbn. rewrite orelse_none_r. reflexivity.
  - rewrite IH. unfold lk_has, mem. cbn [existsb]. rewrite (N.eqb_sym x t).
    destruct (lk_get lk t) eqn:Et.
    + destruct (lk_get lk x) eqn:Ex; cbn [orelse]; [reflexivity|].
      destruct (N.eqb_spec t x); [congruence | reflexivity].
    + rewrite lk_get_app, orelse_assoc.
      destruct (t =? x); cbn [orelse orb]; [destruct (existsb (N.eqb x) ts)|]; reflexivity.
Qed.

Definition keys_nodup (lk : locked) : Prop := NoDup (map fst lk).
Lemma lk_get_none_notin lk t : lk_get lk t = None -> ~ In t (map fst lk).
Proof.
  induction lk as [|[k v] lk IH]; cbn; [tauto|].
  destruct (N.eqb_spec k t); [discriminate | tauto].
Qed.
Lemma setdefault_nodup b ts : forall lk, keys_nodup lk -> keys_nodup (lk_setdefault b ts lk).
Proof.
  induction ts as [|t ts IH]; intros lk H; cbn [lk_setdefault]; [exact H|].
  apply IH. unfold lk_has. destruct (lk_get lk t) eqn:E; [exact H|].
  unfold keys_nodup. rewrite map_app. apply NoDup_rev in H. rewrite <- (rev_involutive (_ ++ _)).
  apply NoDup_rev. rewrite rev_app_distr. constructor; [|exact H].
  rewrite <- in_rev. apply lk_get_none_notin, E.
Qed.

(* [merged] splits the map by value; with distinct keys that is a lookup *)
Lemma merged_mem q lk f : keys_nodup lk ->
  mem f (map fst (filter (fun kv => q (snd kv)) lk)) =
  match lk_get lk f with Some b => q b | None => false end.
Proof.
  unfold keys_nodup. induction lk as [|[k v] lk IH]; intro Hn; [reflexivity|].
  cbn [map fst] in Hn. inversion Hn as [|? ? Hk Hn']; subst.
  cbn [filter snd lk_get]. destruct (N.eqb_spec k f) as [->|Hkf].
  - assert (Hz : mem f (map fst (filter (fun kv => q (snd kv)) lk)) = false).
    { apply mem_false. intro Hi. apply Hk. apply in_map_iff in Hi as [kv [E1 E2]].
      apply filter_In in E2 as [E2 _]. apply in_map_iff. exists kv. tauto. }
    destruct (q v); cbn [map fst]; [|exact Hz].
    unfold mem. cbn [existsb]. rewrite N.eqb_refl. reflexivity.
  - rewrite <- (IH Hn'). destruct (q v); cbn [map fst]; [|reflexivity].
    unfold mem. cbn [existsb]. rewrite (proj2 (N.eqb_neq f k)) by congruence. reflexivity.
Qed.

(* the verdict of the last lockable chunk of [seq] that mentions [t] *)
Fixpoint lsem (seq : list chunk) (t : N) : option bool :=
  match seq with
  | [] => None
  | c :: r => orelse (lsem r t) (if lockable c then lock_eff c t else None)
  end.

Definition filt (lk : locked) (c : chunk) : chunk :=
  mkc (sc c) (filter (fun x => negb (lk_has lk x)) (neg c)) (filter (fun x => negb (lk_has lk x)) (pos c)).

Lemma pass1_cons c r :
  pass1 (c :: r) =
  if lockable c then (lk_setdefault true (pos c) (lk_setdefault false (neg c) (fst (pass1 r))), snd (pass1 r))
  else (fst (pass1 r), if empty_chunk (filt (fst (pass1 r)) c) then snd (pass1 r)
                       else filt (fst (pass1 r)) c :: snd (pass1 r)).
Proof. cbn [pass1]. destruct (pass1 r) as [lk l]. reflexivity. Qed.

Lemma lk_get_pass1 seq t : lk_get (fst (pass1 seq)) t = lsem seq t.
Proof.
  induction seq as [|c r IH]; [reflexivity|].
  rewrite pass1_cons. cbn [lsem]. destruct (lockable c); cbn [fst].
  - rewrite !lk_get_setdefault, IH, orelse_assoc. f_equal. unfold lock_eff.
    destruct (mem t (neg c)); cbn [orelse]; reflexivity.
  - rewrite IH, orelse_none_r. reflexivity.
Qed.

Lemma pass1_nodup seq : keys_nodup (fst (pass1 seq)).
Proof.
  induction seq as [|c r IH]; [constructor|].
  rewrite pass1_cons. destruct (lockable c); cbn [fst]; [|exact IH].
  apply setdefault_nodup, setdefault_nodup, IH.
Qed.

Lemma mem_filter q l f : mem f (filter q l) = mem f l && q f.
Proof.
  apply eq_true_iff_eq. rewrite andb_true_iff, !mem_In, filter_In. tauto.
Qed.

Lemma lsem_false_in seq t : lsem seq t = Some false ->
  exists c, In c seq /\ lockable c = true /\ In t (neg c).
Proof.
  induction seq as [|c r IH]; cbn [lsem]; [discriminate|].
  destruct (lsem r t) as [b|] eqn:E; cbn [orelse].
  - intro H. injection H as ->. destruct (IH eq_refl) as [c' [H1 H2]]. exists c'. cbn. tauto.
  - destruct (lockable c) eqn:El; [|discriminate]. unfold lock_eff.
    destruct (mem t (neg c)) eqn:Em; [|destruct (mem t (pos c)); discriminate].
    intros _. exists c. cbn. apply mem_In in Em. tauto.
Qed.

Section Collapse.
  Variable p : pkg.
  Variable f : N.
  Variable lkF : locked.

  (* the specific chunks after both passes, empty ones not yet dropped *)
  Definition survivors (seq : list chunk) : list chunk := map (pass2 lkF) (snd (pass1 seq)).

  Lemma good_pass2_filt lk c : good c = true -> good (pass2 lkF (filt lk c)) = true.
  Proof.
    intro H. apply (good_sub c); [exact H| |]; cbn [filt neg pos];
      intros x Hx; apply incl_filter in Hx; apply incl_filter in Hx; exact Hx.
  Qed.

  (* what survives of a good specific chunk *)
  Lemma eff_pass2_filt lk c : good c = true ->
    eff_chunk (pass2 lkF (filt lk c)) f =
    match eff_chunk c f with
    | None => None
    | Some s => if lk_has lk f then None
                else match lk_get lkF f with
                     | Some b => if Bool.eqb b s then None else Some s
                     | None => Some s
                     end
    end.
  Proof.
    intro H. rewrite (eff_good _ f (good_pass2_filt lk c H)). pose proof (eff_good c f H) as X. rewrite X.
    unfold eff_chunk, lock_eff, pass2, filt in *. cbn [sc neg pos]. rewrite !mem_filter.
    destruct (mem f (neg c)), (mem f (pos c)); [discriminate X | | |];
      destruct (lk_has lk f), (lk_get lkF f) as [[|]|]; reflexivity.
  Qed.

  Lemma R_cons c r :
    effl (survivors (c :: r)) p f =
    if lockable c then effl (survivors r) p f
    else orelse (effl (survivors r) p f)
                (if applies (sc c) p then eff_chunk (pass2 lkF (filt (fst (pass1 r)) c)) f else None).
  Proof.
    unfold survivors. rewrite pass1_cons. destruct (lockable c); cbn [snd]; [reflexivity|].
    set (c' := filt (fst (pass1 r)) c).
    destruct (empty_chunk c') eqn:Ee; [|reflexivity].
    (* dropped after pass 1: it is empty, and pass 2 keeps it empty *)
    rewrite (eff_empty (pass2 lkF c')).
    - destruct (applies (sc c) p); rewrite orelse_none_r; reflexivity.
    - unfold empty_chunk in *. cbn [pass2 neg pos]. destruct (neg c'), (pos c'); try discriminate; reflexivity.
  Qed.

  Definition seq_ok (seq : list chunk) : Prop :=
    (forall c, In c seq -> lockable c = true -> applies (sc c) p = true) /\
    (forall c, In c seq -> applies (sc c) p = true -> good c = true).
  Definition sign_ok (seq : list chunk) : Prop :=
    forall c1 c2 x, In c1 seq -> In c2 seq -> lockable c1 = false -> lockable c2 = false ->
      applies (sc c1) p = true -> applies (sc c2) p = true -> In x (neg c1) -> In x (pos c2) -> False.

  Lemma seq_ok_tail c r : seq_ok (c :: r) -> seq_ok r.
  Proof. intros [H1 H2]. split; intros c' Hc; [apply H1 | apply H2]; right; exact Hc. Qed.
  Lemma sign_ok_tail c r : sign_ok (c :: r) -> sign_ok r.
  Proof. intros H c1 c2 x H1 H2. apply (H c1 c2 x); right; assumption. Qed.

  Lemma effl_none_lsem seq : seq_ok seq -> effl seq p f = None -> lsem seq f = None.
  Proof.
    induction seq as [|c r IH]; intros Hok; [reflexivity|].
    cbn [effl lsem]. destruct (effl r p f) eqn:E; cbn [orelse]; [discriminate|].
    intro H. rewrite (IH (seq_ok_tail _ _ Hok) eq_refl). cbn [orelse].
    destruct (lockable c) eqn:El; [|reflexivity].
    destruct Hok as [H1 H2]. pose proof (H1 c (or_introl eq_refl) El) as Ha. rewrite Ha in H.
    rewrite <- eff_good; [exact H | exact (H2 c (or_introl eq_refl) Ha)].
  Qed.

  Lemma effl_none_R seq : seq_ok seq -> effl seq p f = None -> effl (survivors seq) p f = None.
  Proof.
    induction seq as [|c r IH]; intros Hok; [reflexivity|].
    rewrite R_cons. cbn [effl]. destruct (effl r p f) eqn:E; cbn [orelse]; [discriminate|].
    intro H. rewrite (IH (seq_ok_tail _ _ Hok) eq_refl).
    destruct (lockable c); [reflexivity|]. cbn [orelse].
    destruct (applies (sc c) p) eqn:Ea; [|reflexivity].
    destruct Hok as [_ H2]. rewrite eff_pass2_filt, H; [reflexivity | exact (H2 c (or_introl eq_refl) Ea)].
  Qed.

  Lemma effl_writer seq b : effl seq p f = Some b ->
    exists s, In s seq /\ applies (sc s) p = true /\ eff_chunk s f = Some b.
  Proof.
    induction seq as [|c r IH]; cbn [effl]; [discriminate|].
    destruct (effl r p f) as [b'|] eqn:E; cbn [orelse].
    - intro H. injection H as ->. destruct (IH eq_refl) as [s [H1 H2]]. exists s. cbn. tauto.
    - destruct (applies (sc c) p) eqn:Ea; [|discriminate]. intro H. exists c. cbn. tauto.
  Qed.
  Lemma lsem_none_lockable seq s : lsem seq f = None -> In s seq -> lockable s = true -> lock_eff s f = None.
  Proof.
    induction seq as [|c r IH]; cbn [lsem In]; [tauto|].
    destruct (lsem r f) eqn:E; cbn [orelse]; [discriminate|].
    intros H [->|Hi] Hl; [rewrite Hl in H; exact H | exact (IH eq_refl Hi Hl)].
  Qed.

  (* [lkF] is any map that agrees with what [seq] locks for f *)
  Lemma collapse_claim seq :
    seq_ok seq -> sign_ok seq ->
    (forall b, lsem seq f = Some b -> lk_get lkF f = Some b) ->
    orelse (effl (survivors seq) p f) (lk_get lkF f) = orelse (effl seq p f) (lk_get lkF f).
  Proof.
    induction seq as [|c r IH]; intros Hok Hsg Hc; [reflexivity|].
    assert (Hokr := seq_ok_tail _ _ Hok).
    assert (Hcr : forall b, lsem r f = Some b -> lk_get lkF f = Some b).
    { intros b Hb. apply Hc. cbn [lsem]. rewrite Hb. reflexivity. }
    specialize (IH Hokr (sign_ok_tail _ _ Hsg) Hcr).
    rewrite R_cons. cbn [effl]. destruct Hok as [Hk1 Hk2].
    destruct (lockable c) eqn:El.
    - (* a lockable chunk: it applies and is good *)
      assert (Ha : applies (sc c) p = true) by (apply Hk1; [left; reflexivity | exact El]).
      assert (Hg : good c = true) by (apply Hk2; [left; reflexivity | exact Ha]).
      rewrite Ha. destruct (effl r p f) as [b|] eqn:Er; cbn [orelse]; [exact IH|].
      cbn [orelse] in IH. rewrite IH.
      destruct (eff_chunk c f) as [b|] eqn:Ec; [|reflexivity].
      apply Hc. cbn [lsem]. rewrite (effl_none_lsem r Hokr Er), El, <- (eff_good _ _ Hg). exact Ec.
    - destruct (applies (sc c) p) eqn:Ea.
      2:{ rewrite !orelse_none_r. exact IH. }
      assert (Hg : good c = true) by (apply Hk2; [left; reflexivity | exact Ea]).
      rewrite (eff_pass2_filt _ _ Hg). unfold lk_has. rewrite lk_get_pass1.
      destruct (effl r p f) as [b|] eqn:Er; cbn [orelse].
      + (* something to the right writes f *)
        cbn [orelse] in IH. destruct (effl (survivors r) p f) as [b'|] eqn:ERr; cbn [orelse]; [exact IH|].
        cbn [orelse] in IH.
        destruct (eff_chunk c f) as [s|] eqn:Ec; [|exact IH].
        destruct (lsem r f) as [x|] eqn:Els; [exact IH|].
        rewrite IH. destruct (Bool.eqb b s) eqn:Ebs; [reflexivity|]. exfalso.
        (* the writer to the right is a specific chunk with the other sign *)
        destruct (effl_writer r b Er) as [w [Hw1 [Hw2 Hw3]]].
        assert (Hgw : good w = true) by (apply Hk2; [right; exact Hw1 | exact Hw2]).
        assert (Hlw : lockable w = false).
        { destruct (lockable w) eqn:E; [|reflexivity].
          pose proof (lsem_none_lockable r w Els Hw1 E) as Hn.
          rewrite <- (eff_good _ _ Hgw), Hw3 in Hn. discriminate. }
        pose proof (eff_sign w f b Hgw Hw3) as S1. pose proof (eff_sign c f s Hg Ec) as S2.
        destruct b, s; try discriminate.
        * apply (Hsg c w f); cbn; auto.
        * apply (Hsg w c f); cbn; auto.
      + (* nothing to the right mentions f *)
        rewrite (effl_none_R r Hokr Er), (effl_none_lsem r Hokr Er). cbn [orelse].
        destruct (eff_chunk c f) as [s|] eqn:Ec; [|reflexivity].
        destruct (lk_get lkF f) as [b|] eqn:Eg; [|reflexivity].
        destruct b, s; reflexivity.
  Qed.
End Collapse.

Lemma pass2_nil c : pass2 [] c = c.
Proof.
  unfold pass2. cbn [lk_get lk_true negb]. rewrite !filter_all_true by reflexivity. destruct c; reflexivity.
Qed.

Lemma merged_nowild p seq r :
  seq_ok p seq -> nowild (merged r (fst (pass1 seq))) = true.
Proof.
  intros [H1 H2]. unfold nowild, merged. cbn [neg]. apply forallb_forall. intros t Ht.
  apply mem_In in Ht. rewrite (merged_mem negb _ _ (pass1_nodup seq)) in Ht.
  rewrite lk_get_pass1 in Ht. destruct (lsem seq t) as [[|]|] eqn:E; try discriminate.
  destruct (lsem_false_in _ _ E) as [c [Hc [Hl Hn]]].
  specialize (H2 c Hc (H1 c Hc Hl)). unfold good, nowild in H2. apply andb_true_iff in H2 as [H2 _].
  rewrite forallb_forall in H2. exact (H2 t Hn).
Qed.

Lemma merged_eff p seq r f :
  seq_ok p seq -> eff_chunk (merged r (fst (pass1 seq))) f = lsem seq f.
Proof.
  intro Hok. unfold eff_chunk. rewrite (cleared_nowild _ _ (merged_nowild p seq r Hok)).
  unfold merged. cbn [neg pos].
  rewrite (merged_mem (fun b => b) _ f (pass1_nodup seq)), (merged_mem negb _ f (pass1_nodup seq)), lk_get_pass1.
  destruct (lsem seq f) as [[|]|]; reflexivity.
Qed.

Lemma build_unfold c1 c2 rest r :
  build (c1 :: c2 :: rest) r =
  match fst (pass1 (c1 :: c2 :: rest)) with
  | [] => snd (pass1 (c1 :: c2 :: rest))
  | _ => merged r (fst (pass1 (c1 :: c2 :: rest)))
         :: filter (fun c => negb (empty_chunk c)) (survivors (fst (pass1 (c1 :: c2 :: rest))) (c1 :: c2 :: rest))
  end.
Proof.
  unfold build, survivors. destruct (pass1 (c1 :: c2 :: rest)) as [lk l]. cbn [fst snd].
  destruct lk; reflexivity.
Qed.

(* collapsing a chunk sequence keeps its last-writer semantics for package p, provided the
   lockable chunks (global / simple atom) apply to p, the chunks applying to p are free of
   wildcards and of flags both negated and added, and the specific chunks applying to p never
   give one flag opposite signs *)
Theorem build_effl p seq r f :
  seq_ok p seq -> sign_ok p seq -> applies r p = true ->
  effl (build seq r) p f = effl seq p f.
Proof.
  intros Hok Hsg Hr.
  destruct seq as [|c1 [|c2 rest]]; [reflexivity | reflexivity |].
  rewrite build_unfold. set (seq := c1 :: c2 :: rest) in *.
  pose proof (collapse_claim p f (fst (pass1 seq)) seq Hok Hsg) as Hc.
  rewrite lk_get_pass1 in Hc. specialize (Hc (fun b Hb => Hb)).
  (* what is locked for f is what the lockable chunks say, and they are among the writers *)
  replace (orelse (effl seq p f) (lsem seq f)) with (effl seq p f) in Hc
    by (destruct (effl seq p f) eqn:E; [|rewrite (effl_none_lsem p f seq Hok E)]; reflexivity).
  rewrite <- Hc. destruct (fst (pass1 seq)) as [|kv lk] eqn:Elk.
  - (* nothing locked *)
    rewrite <- lk_get_pass1, Elk. unfold survivors. rewrite (map_ext _ _ pass2_nil), map_id.
    symmetry. apply orelse_none_r.
  - cbn [effl merged sc]. rewrite Hr, effl_filter_ne, <- Elk, (merged_eff p) by exact Hok. reflexivity.
Qed.

(* where the chunks of a collapsed sequence come from *)
Lemma pass1_snd_in seq x : In x (snd (pass1 seq)) ->
  exists c, In c seq /\ lockable c = false /\ sc x = sc c /\ incl (neg x) (neg c) /\ incl (pos x) (pos c).
Proof.
  induction seq as [|c r IH]; [intros []|].
  rewrite pass1_cons. destruct (lockable c) eqn:El; cbn [snd].
  - intro H. destruct (IH H) as [c' Hc']. exists c'. cbn. tauto.
  - intro H.
    assert (Hx : x = filt (fst (pass1 r)) c \/ In x (snd (pass1 r))).
    { destruct (empty_chunk (filt (fst (pass1 r)) c)); [right; exact H|].
      destruct H as [<-|H]; [left; reflexivity | right; exact H]. }
    destruct Hx as [->|Hx].
    + exists c. cbn [In filt sc neg pos]. repeat split; auto; apply incl_filter.
    + destruct (IH Hx) as [c' Hc']. exists c'. cbn. tauto.
Qed.

Lemma build_in seq r x : In x (build seq r) ->
  In x seq
  \/ (x = merged r (fst (pass1 seq)) /\ fst (pass1 seq) <> [])
  \/ exists c, In c seq /\ lockable c = false /\ sc x = sc c /\ incl (neg x) (neg c) /\ incl (pos x) (pos c).
Proof.
  destruct seq as [|c1 [|c2 rest]]; [intros [] | intro H; left; exact H |].
  rewrite build_unfold. set (seq := c1 :: c2 :: rest).
  destruct (fst (pass1 seq)) as [|kv lk] eqn:Elk.
  - intro H. right; right. apply pass1_snd_in. exact H.
  - intros [<-|H]; [right; left; split; [reflexivity | discriminate]|].
    right; right. apply filter_In in H as [H _]. apply in_map_iff in H as [y [<- Hy]].
    destruct (pass1_snd_in _ _ Hy) as [c [H1 [H2 [H3 [H4 H5]]]]].
    exists c. cbn [pass2 sc neg pos]. repeat split; auto;
      intros z Hz; apply incl_filter in Hz; auto.
Qed.
