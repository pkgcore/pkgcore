(* Proofs_C45.v — security advisories flag exactly the vulnerable installed versions: what the repaired
   builder returns for a range and when it holds, one entry, [fix = false] (the unrepaired builder) against [fix = true]. *)
From Coq Require Import List ZArith Bool.
Import ListNotations.
From Verif Require Import Base.Val Base.Lists C01.Model_C01 C04.Model_C04 C44.Model_C44 C45.Model_C45 C45.Spec_C45 gen.Tables_C45.
From Verif Require C01.Spec_C01 C01.Proofs_C01 C01.Grammar_C01.
From Verif Require C03.Model_C03.
Local Open Scope N_scope.

(* every GLSA comparison operator is translated to the version operator the format gives it, and
   nothing else is in the table *)
Definition op_translate_stmt : Prop :=
  assoc [108; 116] op_translate = Some [60] /\ assoc [108; 101] op_translate = Some [60; 61]
  /\ assoc [101; 113] op_translate = Some [61] /\ assoc [103; 101] op_translate = Some [62; 61]
  /\ assoc [103; 116] op_translate = Some [62] /\ length op_translate = 5%nat.

Definition gall (l : list gr) (p : ipkg) : bool := forallb (fun g => geval g p) l.

Lemma gand_eval l neg p : geval (GAnd l neg) p = xorb (gall l p) neg.
Proof. reflexivity. Qed.

Lemma gor_eval l p : geval (GOr l) p = existsb (fun g => geval g p) l.
Proof. reflexivity. Qed.

Definition slot_ok (slot : str) (p : package) : bool := is_nil slot || str_eqb slot (p_slot p).

Lemma slot_restr_eval slot p : gall (slot_restr slot) p = slot_ok slot (i_pkg p).
Proof. unfold slot_restr, slot_ok. destruct (is_nil slot); cbn; [reflexivity|]. apply andb_true_r. Qed.

Lemma gall_app a b p : gall (a ++ b) p = gall a p && gall b p.
Proof. apply forallb_app. Qed.

Lemma gver_eval opid v r p :
  geval (GVer opid v r false) p
  = memZ (if op_droprev opid then ver_cmp (p_ver (i_pkg p)) None v None
          else ver_cmp (p_ver (i_pkg p)) (p_rev (i_pkg p)) v r) (opv opid).
Proof. cbn [geval]. unfold vmatch. destruct (op_droprev opid); now rewrite xorb_false_r. Qed.

Lemma lookup_op_in k l v : lookup_op k l = Some v -> In (k, v) l.
Proof.
  induction l as [|[k' v'] l IH]; cbn [lookup_op]; [discriminate|].
  destruct (str_eqb k k') eqn:E; intros H.
  - injection H as <-. apply str_eqb_eq in E. subst. left; reflexivity.
  - right. apply IH, H.
Qed.

Lemma cmpN_0 n : cmpN n 0 = 0%Z \/ cmpN n 0 = 1%Z.
Proof.
  unfold cmpN, sgn. destruct (N.compare n 0) eqn:E; auto.
  exfalso. apply N.compare_lt_iff in E. exact (N.nlt_0_r _ E).
Qed.

Lemma memZ_0 z : memZ z [0%Z] = Z.eqb z 0.
Proof. unfold memZ. cbn. apply orb_false_r. Qed.

Definition opid_of (c : cmpop) : N := match c with CLt => 0 | CLe => 1 | CEq => 2 | CGe => 3 | CGt => 4 end.

(* operator ids are C01's: 0 "<", 1 "<=", 2 "=", 3 ">=", 4 ">", 5 "~" (same version, any revision).  An r-form is
   "~v and op v-rN"; rle / rge without a revision are built as "= v" / "~ v" *)
Definition range_body (w : wrange) : list gr :=
  if w_glob w then [GGlob (w_fullver w)]
  else if w_rev_form w then
    match w_cmp w, w_rev w with
    | CLe, None => [GVer 2 (w_ver w) None false]
    | CGe, None => [GVer 5 (w_ver w) None false]
    | c, r => [GVer 5 (w_ver w) None false; GVer (opid_of c) (w_ver w) r false]
    end
  else [GVer (opid_of (w_cmp w)) (w_ver w) (w_rev w) false].

(* what the repaired builder returns for a range in GLSA format: by cases on the nine operators *)
Lemma restrict_is_body rg w neg :
  read_range rg = Some w -> rlt_r0 w = false ->
  restrict_from_range true rg neg = Some (GAnd (range_body w ++ slot_restr (w_slot w)) neg).
Proof.
  unfold read_range, restrict_from_range. cbv zeta.
  destruct (glsa_op (strip (g_op rg))) as [[rf c]|] eqn:Eop; [|discriminate].
  destruct (g_text rg) as [txt|]; [|discriminate].
  unfold glsa_op in Eop. apply lookup_op_in in Eop. cbn [glsa_ops In] in Eop.
  destruct (ends_star (strip txt));
    (match goal with |- context [parse_base ?b] => destruct (parse_base b) as [[[v r] fv]|] end; [|discriminate]);
    repeat (destruct Eop as [Eop|Eop]; [injection Eop as Eo <- <-; rewrite <- Eo|]); try contradiction;
    cbn; try discriminate; unfold rev_opt;
    destruct (is_nil r); cbn; intros H Hrlt; try discriminate; injection H as <-;
    try discriminate Hrlt; reflexivity.
Qed.

Lemma cmp_holds_opv c z : cmp_holds c z = memZ z (opv (opid_of c)).
Proof. destruct c; reflexivity. Qed.

Lemma body_sat w p :
  rlt_r0 w = false -> glob_disagrees w (i_pkg p) = false -> rev_compat w (i_pkg p) = true ->
  gall (range_body w ++ slot_restr (w_slot w)) p = range_sat w (i_pkg p).
Proof.
  intros Hrlt Hg Hr. rewrite gall_app, slot_restr_eval, andb_comm. unfold range_sat. fold (slot_ok (w_slot w) (i_pkg p)).
  f_equal. unfold rev_compat in Hr. apply Z.eqb_eq in Hr. unfold range_body, rlt_r0, glob_disagrees in *.
  destruct w as [rf c slot v r fv glob]. cbn [w_rev_form w_cmp w_slot w_ver w_rev w_fullver w_glob] in *.
  destruct glob.
  { cbn [gall forallb geval]. rewrite andb_true_r. apply negb_false_iff, eqb_prop in Hg. exact Hg. }
  destruct rf; [|cbn [gall forallb]; rewrite gver_eval, andb_true_r, cmp_holds_opv; now destruct c].
  set (base := ver_cmp (p_ver (i_pkg p)) None v None) in *.
  assert (Hrev : forall opid, op_droprev opid = false ->
            gall [GVer 5 v None false; GVer opid v r false] p
            = Z.eqb base 0 && memZ (cmpN (rev_val (p_rev (i_pkg p))) (rev_val r)) (opv opid)).
  { intros opid Hd. cbn [gall forallb]. rewrite !gver_eval, Hd, Hr, andb_true_r. cbn [op_droprev N.eqb Pos.eqb opv].
    fold base. rewrite memZ_0. now destruct (Z.eqb base 0). }
  destruct c, r as [n|]; try discriminate Hrlt;
    try (rewrite cmp_holds_opv; apply Hrev; reflexivity); cbn [gall forallb]; rewrite gver_eval, andb_true_r;
    cbn [op_droprev N.eqb Pos.eqb opv rev_val] in *; fold base; rewrite ?Hr, memZ_0;
    (destruct (Z.eqb base 0) eqn:Eb; [|now rewrite ?Eb]);
    destruct (cmpN_0 (rev_val (p_rev (i_pkg p)))) as [-> | ->]; reflexivity.
Qed.

(* outside the two recorded classes on this package: the glob reading agrees, the revision is the last tie-breaker *)
Definition in_scope (w : wrange) (p : ipkg) : Prop :=
  glob_disagrees w (i_pkg p) = false /\ rev_compat w (i_pkg p) = true.
Definition is_gand (neg : bool) (g : gr) : Prop := exists l, g = GAnd l neg.

Lemma ranges_ok neg : forall rgs ws,
  all_some (map read_range rgs) = Some ws ->
  (forall w, In w ws -> rlt_r0 w = false) ->
  exists gl, all_some (map (fun r => restrict_from_range true r neg) rgs) = Some gl
    /\ Forall (is_gand neg) gl
    /\ forall p, (forall w, In w ws -> in_scope w p) ->
         map (fun g => geval g p) gl = map (fun w => xorb (range_sat w (i_pkg p)) neg) ws.
Proof.
  induction rgs as [|rg rgs IH]; intros ws H Hr.
  - injection H as <-. exists []. repeat split; constructor.
  - cbn [map all_some] in H. destruct (read_range rg) as [w|] eqn:Ew; [|discriminate].
    destruct (all_some (map read_range rgs)) as [ws'|] eqn:Ews; [|discriminate]. injection H as <-.
    pose proof (Hr w (or_introl eq_refl)) as Hw.
    destruct (IH ws' eq_refl (fun w' Hi => Hr w' (or_intror Hi))) as (gl & Hgl & Hf & Hm).
    eexists. cbn [map all_some]. rewrite (restrict_is_body rg w neg Ew Hw), Hgl. split; [reflexivity|]. split.
    + constructor; [eexists; reflexivity | exact Hf].
    + intros p Hg. cbn [map]. rewrite gand_eval. f_equal.
      * f_equal. destruct (Hg w (or_introl eq_refl)). now apply body_sat.
      * apply Hm. intros w' Hi. apply Hg. right. exact Hi.
Qed.

Definition not_glob (g : gr) : Prop := match g with GGlob _ => False | _ => True end.
(* `x not in vuln_list` can only drop a bare glob restriction *)
Lemma filter_not_glob vl il : Forall not_glob il -> filter (fun x => negb (in_vuln_list x vl)) il = il.
Proof.
  intros H. apply filter_all_true. intros g Hg. rewrite Forall_forall in H. specialize (H g Hg).
  now destruct g.
Qed.

Lemma gand_not_glob neg g : is_gand neg g -> not_glob g.
Proof. now intros [l ->]. Qed.

Lemma vuln0_eval vl p : vl <> [] ->
  geval (match vl with [x] => x | _ => GOr vl end) p = existsb (fun g => geval g p) vl.
Proof.
  destruct vl as [|x [|y vl]]; intros H; [contradiction| |reflexivity].
  cbn [existsb]. rewrite orb_false_r. reflexivity.
Qed.

Lemma affected_is_spec_under_compat : forall e p,
  read_entry e <> None -> known_class e p = false -> revs_compat e p = true ->
  flagged true e p = affected_spec e p.
Proof.
  intros e p Hre Hk Hrc. unfold affected_spec, known_class, revs_compat in *.
  destruct (read_entry e) as [[[a vs] us]|] eqn:Er; [|contradiction]. clear Hre.
  cbn [known_of revs_compat_of affected_of] in *.
  assert (Hgood : forall w, In w (vs ++ us) -> in_scope w p /\ rlt_r0 w = false).
  { intros w Hi. pose proof (proj1 (existsb_false _ _) Hk w Hi) as H1. apply orb_false_iff in H1 as [H1 H2].
    rewrite forallb_forall in Hrc. repeat split; auto. }
  unfold read_entry in Er.
  destruct (name_atom e) as [a'|] eqn:En; [|discriminate].
  destruct (all_some (map read_range (n_vuln e))) as [[|v vs']|] eqn:Ev; try discriminate.
  destruct (all_some (map read_range (n_unaff e))) as [us'|] eqn:Eu; [|discriminate].
  injection Er as <- <- <-.
  destruct (ranges_ok false _ _ Ev (fun w Hi => proj2 (Hgood w (in_or_app _ _ _ (or_introl Hi)))))
    as (vl & Hvl & _ & Hvm).
  destruct (ranges_ok true _ _ Eu (fun w Hi => proj2 (Hgood w (in_or_app _ _ _ (or_intror Hi)))))
    as (il & Hil & Hig & Him).
  specialize (Hvm p (fun w Hi => proj1 (Hgood w (in_or_app _ _ _ (or_introl Hi))))).
  specialize (Him p (fun w Hi => proj1 (Hgood w (in_or_app _ _ _ (or_intror Hi))))).
  assert (Hvne : vl <> []).
  { intros ->. cbn in Hvm. discriminate. }
  unfold flagged, advisory_entry, intersects.
  destruct (n_vuln e) as [|rg0 rgs0] eqn:Env; [cbn in Ev; discriminate Ev|].
  rewrite Hvl, Hil.
  rewrite (filter_not_glob vl il (Forall_impl _ (gand_not_glob true) Hig)).
  unfold name_atom in En.
  destruct (Model_C03.parse_atom None false (strip (n_name e))) as [a0| |]; try discriminate.
  destruct (Model_C03.a_transitive a0); [discriminate|]. injection En as <-.
  rewrite gand_eval, xorb_false_r. change (gall (?x :: il) p) with (geval x p && gall il p).
  assert (Hu : gall il p = forallb (fun w => negb (range_sat w (i_pkg p))) us').
  { unfold gall. rewrite <- (forallb_map (fun b => b)), Him, forallb_map. reflexivity. }
  assert (Hv : existsb (fun g => geval g p) vl = existsb (fun w => range_sat w (i_pkg p)) (v :: vs')).
  { rewrite <- (existsb_map (fun b => b)), Hvm, existsb_map. apply existsb_ext_in. intros w _. apply xorb_false_r. }
  rewrite Hu. unfold arch_of, arch_ok.
  destruct (n_arch e) as [s|].
  - destruct (is_nil (words (strip s)) || smem [c_star] (words (strip s))) eqn:Ea.
    + rewrite (vuln0_eval vl p Hvne), Hv. cbn [orb]. rewrite andb_true_r, andb_assoc. reflexivity.
    + rewrite gand_eval, xorb_false_r. cbn [gall forallb geval]. rewrite (vuln0_eval vl p Hvne), Hv, andb_true_r.
      cbn [orb].
      set (b1 := atom_match _ _ _). set (b2 := existsb _ (v :: vs')). set (b3 := existsb _ (words _)).
      set (b4 := forallb _ us'). destruct b1, b2, b3, b4; reflexivity.
  - rewrite (vuln0_eval vl p Hvne), Hv, andb_true_r, andb_assoc. reflexivity.
Qed.

Lemma pms_rev_last a ra b rb :
  Spec_C01.pms_cmp a ra b rb
  = if Z.eqb (Spec_C01.pms_cmp a 0 b 0) 0 then cmpN ra rb else Spec_C01.pms_cmp a 0 b 0.
Proof.
  unfold Spec_C01.pms_cmp.
  destruct (Z.eqb (Spec_C01.pms_nums (Spec_C01.nums a) (Spec_C01.nums b)) 0) eqn:E1; cbn [negb];
    [|rewrite E1; reflexivity].
  destruct (Z.eqb (Spec_C01.pms_letter (Spec_C01.letter a) (Spec_C01.letter b)) 0) eqn:E2; cbn [negb];
    [|rewrite E2; reflexivity].
  destruct (Z.eqb (Spec_C01.pms_sufs (Spec_C01.sufs a) (Spec_C01.sufs b)) 0) eqn:E3; cbn [negb];
    [|rewrite E3; reflexivity].
  reflexivity.
Qed.

Lemma rev_last_tiebreak_proof : forall v1 v2 r1 r2,
  valid_version_core v1 = true -> valid_version_core v2 = true ->
  ver_cmp v1 r1 v2 r2
  = if Z.eqb (ver_cmp v1 None v2 None) 0 then cmpN (rev_val r1) (rev_val r2) else ver_cmp v1 None v2 None.
Proof.
  intros v1 v2 r1 r2 H1 H2.
  apply Grammar_C01.valid_core_is_version in H1 as (a & Ha & <-).
  apply Grammar_C01.valid_core_is_version in H2 as (b & Hb & <-).
  rewrite !Proofs_C01.ver_cmp_is_pms_proof by assumption. cbn [rev_val]. apply pms_rev_last.
Qed.

Lemma revs_compat_valid e p : versions_valid e p = true -> revs_compat e p = true.
Proof.
  unfold versions_valid, revs_compat, versions_valid_of, revs_compat_of. intros H.
  apply andb_true_iff in H as [Hp H]. destruct (read_entry e) as [[[a vs] us]|]; [|reflexivity].
  rewrite forallb_forall in *. intros w Hi. unfold rev_compat. apply Z.eqb_eq.
  apply rev_last_tiebreak_proof; [exact Hp | apply H, Hi].
Qed.

(* the raw shape of the ranges on which the unrepaired builder is known to differ: a slot on a glob or on
   rle / rge, and an unaffected ([neg]) glob *)
Definition raw_pinned (rg : range) (neg : bool) : bool :=
  let slotted := negb (is_nil (opt_slot (g_slot rg))) in
  let globbed := match g_text rg with Some t => ends_star (strip t) | None => false end in
  let op := strip (g_op rg) in
  (slotted && (globbed || str_eqb op s_rle || str_eqb op s_rge)) || (neg && globbed).

(* [g] from the unrepaired builder, [g'] from the repaired one: they hold of the same packages; an unaffected
   ([neg]) restriction is never a bare glob, so that `x not in vuln_list` keeps it *)
Definition same_restr (neg : bool) (g g' : gr) : Prop :=
  (forall p, geval g p = geval g' p) /\ (neg = true -> not_glob g) /\ is_gand neg g'.
Definition same_restr_opt (neg : bool) (a b : option gr) : Prop :=
  match a, b with
  | Some g, Some g' => same_restr neg g g'
  | None, None => True
  | _, _ => False
  end.

Lemma range_orig_fixed rg neg : raw_pinned rg neg = false ->
  same_restr_opt neg (restrict_from_range false rg neg) (restrict_from_range true rg neg).
Proof.
  unfold raw_pinned, restrict_from_range. cbv zeta.
  set (op := strip (g_op rg)). set (slot := opt_slot (g_slot rg)).
  destruct (assoc (lstrip_r op) op_translate) as [optxt|]; [|intros _; exact I].
  destruct (g_text rg) as [txt|]; [|intros _; exact I].
  set (base0 := strip txt).
  destruct (ends_star base0) eqn:Eg; cbv iota.
  - (* glob *)
    rewrite orb_true_l, !andb_true_r. intros H. apply orb_false_iff in H as [Hs Hn].
    apply negb_false_iff in Hs. subst neg.
    destruct (parse_base (removelast base0)) as [[[v r] fv]|]; [|exact I].
    destruct (negb (str_eqb op s_eq)); [exact I|].
    unfold slot_restr. rewrite Hs. split; [|split].
    + intros p. rewrite gand_eval. cbn. rewrite andb_true_r, xorb_false_r. reflexivity.
    + discriminate.
    + eexists; reflexivity.
  - rewrite andb_false_r, orb_false_r, orb_false_l. intros H.
    destruct (parse_base base0) as [[[v r] fv]|]; [|exact I].
    destruct (op_of_text optxt) as [opid|]; [|exact I].
    destruct (starts_r op && is_nil r && str_eqb op s_rlt); [exact I|].
    (* rle / rge without revision: no slot, so the AND has one member *)
    assert (Hone : forall k, str_eqb op s_rle || str_eqb op s_rge = true ->
              same_restr neg (GVer k v None neg) (GAnd (GVer k v None false :: slot_restr slot) neg)).
    { intros k Hb. rewrite Hb, andb_true_r in H. apply negb_false_iff in H. unfold slot_restr. rewrite H.
      split; [|split; [intros _; exact I | eexists; reflexivity]].
      intros p. rewrite gand_eval. cbn [gall forallb geval]. unfold vmatch.
      destruct (op_droprev k); now rewrite andb_true_r, xorb_false_r. }
    destruct (starts_r op && is_nil r && str_eqb op s_rle) eqn:E1.
    { apply andb_true_iff in E1 as [_ E1]. apply Hone. now rewrite E1. }
    destruct (starts_r op && is_nil r && str_eqb op s_rge) eqn:E2.
    { apply andb_true_iff in E2 as [_ E2]. apply Hone. rewrite E2. apply orb_true_r. }
    split; [reflexivity|]. split; [intros _; exact I | eexists; reflexivity].
Qed.

Lemma ranges_orig_fixed neg : forall rgs,
  (forall rg, In rg rgs -> raw_pinned rg neg = false) ->
  match all_some (map (fun r => restrict_from_range false r neg) rgs),
        all_some (map (fun r => restrict_from_range true r neg) rgs) with
  | Some gl, Some gl' => Forall2 (same_restr neg) gl gl'
  | None, None => True
  | _, _ => False
  end.
Proof.
  induction rgs as [|rg rgs IH]; intros H; [constructor|].
  cbn [map all_some].
  pose proof (range_orig_fixed rg neg (H rg (or_introl eq_refl))) as Hr.
  specialize (IH (fun rg' Hi => H rg' (or_intror Hi))).
  destruct (restrict_from_range false rg neg) as [g|], (restrict_from_range true rg neg) as [g'|];
    cbn [same_restr_opt] in Hr; try contradiction; [|exact I].
  destruct (all_some (map (fun r => restrict_from_range false r neg) rgs)) as [gl|],
           (all_some (map (fun r => restrict_from_range true r neg) rgs)) as [gl'|]; try contradiction; [|exact I].
  constructor; assumption.
Qed.

Lemma forall2_gall gl gl' p :
  Forall2 (same_restr true) gl gl' ->
  gall gl p = gall gl' p /\ Forall not_glob gl /\ Forall (is_gand true) gl'.
Proof.
  induction 1 as [|g g' gl gl' (H1 & H2 & H3) _ (IH1 & IH2 & IH3)]; [repeat split; constructor|].
  cbn [gall forallb]. fold (gall gl p) (gall gl' p). rewrite H1, IH1. repeat split; constructor; auto.
Qed.

Lemma forall2_any gl gl' p neg :
  Forall2 (same_restr neg) gl gl' ->
  existsb (fun g => geval g p) gl = existsb (fun g => geval g p) gl' /\ (gl = [] <-> gl' = []).
Proof.
  induction 1 as [|g g' gl gl' (H1 & _) _ (IH & _)]; [split; [reflexivity|tauto]|].
  cbn [existsb]. rewrite H1, IH. split; [reflexivity|]. split; discriminate.
Qed.

Lemma vuln0_eval' vl p : vl <> [] ->
  geval (match vl with [x] => x | _ => GOr vl end) p = existsb (fun g => geval g p) vl.
Proof. apply vuln0_eval. Qed.

Lemma all_some_cons_ne {A B} (f : A -> option B) x l vl :
  all_some (map f (x :: l)) = Some vl -> vl <> [].
Proof.
  cbn [map all_some]. destruct (f x); [|discriminate]. destruct (all_some (map f l)); [|discriminate].
  intros H; injection H as <-. discriminate.
Qed.

Definition entry_not_pinned (e : entry) : Prop :=
  (forall rg, In rg (n_vuln e) -> raw_pinned rg false = false)
  /\ (forall rg, In rg (n_unaff e) -> raw_pinned rg true = false).

Lemma intersects_orig_fixed e : entry_not_pinned e ->
  match intersects false e, intersects true e with
  | Some g, Some g' => forall p, geval g p = geval g' p
  | None, None => True
  | _, _ => False
  end.
Proof.
  intros [Hv Hu]. unfold intersects.
  destruct (n_vuln e) as [|rg0 rgs0] eqn:Env; [exact I|].
  pose proof (ranges_orig_fixed false (rg0 :: rgs0) Hv) as Rv.
  pose proof (ranges_orig_fixed true (n_unaff e) Hu) as Ru.
  destruct (all_some (map (fun r => restrict_from_range false r false) (rg0 :: rgs0))) as [vl|] eqn:E1,
           (all_some (map (fun r => restrict_from_range true r false) (rg0 :: rgs0))) as [vl'|] eqn:E2;
    try contradiction; [|exact I].
  destruct (all_some (map (fun r => restrict_from_range false r true) (n_unaff e))) as [il|],
           (all_some (map (fun r => restrict_from_range true r true) (n_unaff e))) as [il'|];
    try contradiction; [|exact I].
  intros p.
  destruct (forall2_gall il il' p Ru) as (Hil & Hng & Hga).
  destruct (forall2_any vl vl' p false Rv) as (Hvl & Hnil).
  rewrite (filter_not_glob vl il Hng), (filter_not_glob vl' il' (Forall_impl _ (gand_not_glob true) Hga)).
  rewrite !gand_eval. f_equal. change (gall (?x :: ?l) p) with (geval x p && gall l p). rewrite Hil. f_equal.
  pose proof (all_some_cons_ne _ _ _ _ E1) as Hne. pose proof (all_some_cons_ne _ _ _ _ E2) as Hne'.
  destruct (arch_of (n_arch e)); [rewrite !gand_eval; cbn [gall forallb]; do 2 f_equal|];
    now rewrite (vuln0_eval vl p Hne), (vuln0_eval vl' p Hne').
Qed.

Lemma restrict_ends_with_slot rg neg g :
  restrict_from_range true rg neg = Some g ->
  exists l, g = GAnd (l ++ slot_restr (opt_slot (g_slot rg))) neg.
Proof.
  unfold restrict_from_range. cbv zeta. intros H.
  destruct (assoc _ op_translate); [|discriminate].
  destruct (g_text rg) as [txt|]; [|discriminate].
  destruct (parse_base _) as [[[v r] fv]|]; [|discriminate].
  destruct (ends_star _).
  - destruct (negb _); [discriminate|]. injection H as <-. now exists [GGlob fv].
  - destruct (op_of_text _); [|discriminate].
    destruct (starts_r (strip (g_op rg)));
    repeat match type of H with (if ?c then _ else _) = _ => destruct c end; try discriminate;
      injection H as <-; first [now eexists [_; _] | now eexists [_]].
Qed.

Arguments P (c n v)%bs_scope r (fv sl ss repo)%bs_scope kw.
Arguments R (op)%bs_scope slot text.
Arguments E (name)%bs_scope arch vuln unaff.
Definition pk (v : bstr) (r : option N) (fv sl : bstr) (kw : list bstr) : ipkg := P "a" "b" v r fv sl sl "vdb" kw.
Arguments pk (v)%bs_scope r (fv sl)%bs_scope kw.
Definition b05 := pk "0.5" None "0.5" "0" ["x86"%bs].
Definition b10 := pk "1.0" None "1.0" "0" ["x86"%bs].
Definition b10r1_s1 := pk "1.0" (Some 1) "1.0-r1" "1" ["x86"%bs].
Definition b15 := pk "1.5" None "1.5" "0" ["arm"%bs].
Definition b10_big := pk "10" None "10" "0" ["x86"%bs].

(* K1: vulnerable < 2.0, unaffected = 1.0* *)
Definition e_k1 := E "a/b" None [R "lt" None (Some "2.0"%bs)] [R "eq" None (Some "1.0*"%bs)].
(* K2: vulnerable rge 1.0 in slot 1 only *)
Definition e_k2 := E "a/b" None [R "rge" (Some "1"%bs) (Some "1.0"%bs)] [].
(* K3: vulnerable = 1* *)
Definition e_k3 := E "a/b" None [R "eq" None (Some "1*"%bs)] [].
(* K4: vulnerable rlt 1.0 (empty) or < 0.9 *)
Definition e_k4 := E "a/b" None [R "rlt" None (Some "1.0"%bs); R "lt" None (Some "0.9"%bs)] [].

(* the full statement (no class excluded), for the unrepaired builder ([fix_ = false]) and for the repaired one *)
Definition C45_full_statement (fix_ : bool) : Prop :=
  forall e p, read_entry e <> None -> versions_valid e p = true -> flagged fix_ e p = affected_spec e p.

Lemma full_statement_refuted fix_ e p :
  read_entry e <> None -> versions_valid e p = true -> flagged fix_ e p <> affected_spec e p ->
  ~ C45_full_statement fix_.
Proof. intros H1 H2 H3 H. exact (H3 (H e p H1 H2)). Qed.

Definition e_ok := E " a/b " (Some "x86 amd64"%bs)
                     [R "rgt" (Some "1"%bs) (Some "1.0"%bs); R "lt" None (Some "1.0"%bs)]
                     [R "ge" None (Some "1.5"%bs); R "eq" (Some "0"%bs) (Some "0.5"%bs)].
Example ex_entry_ok :
  read_entry e_ok <> None /\ entry_not_pinned e_ok
  /\ known_class e_ok b10r1_s1 = false /\ versions_valid e_ok b10r1_s1 = true
  /\ flagged true e_ok b10r1_s1 = true /\ affected_spec e_ok b10r1_s1 = true
  /\ flagged true e_ok b05 = false       (* the unaffected = 0.5 in slot 0 *)
  /\ flagged true e_ok b15 = false       (* >= 1.5 unaffected, and arm *)
  /\ flagged true e_ok b10 = false.      (* 1.0 is not < 1.0, and rgt 1.0 only in slot 1 *)
Proof.
  split; [vm_compute; discriminate|]. split.
  - split; intros rg Hi; unfold e_ok, E in Hi; cbn [n_vuln n_unaff In] in Hi;
      repeat (destruct Hi as [<-|Hi]; [vm_compute; reflexivity|]); contradiction.
  - vm_compute. repeat split; reflexivity.
Qed.
