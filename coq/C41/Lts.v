(* C41/Lts.v — labelled transition systems: runs ([star]), reachability and invariants, termination
   by a decreasing measure (Section Rel); systems given by a step function, with the executable
   [run]/[accepts] used for trace acceptance (Section Fun).  Used by C41 and C35. *)
From Coq Require Import List Arith Lia.
Import ListNotations.

Section Rel.
  Variables state label : Type.
  Variable step : state -> label -> state -> Prop.
  Variable init : state -> Prop.

  Inductive star : state -> list label -> state -> Prop :=
  | star_refl : forall s, star s [] s
  | star_cons : forall s l s' tr s'', step s l s' -> star s' tr s'' -> star s (l :: tr) s''.

  Definition reachable (s : state) : Prop := exists s0 tr, init s0 /\ star s0 tr s.

  Lemma star_app s tr1 s1 tr2 s2 : star s tr1 s1 -> star s1 tr2 s2 -> star s (tr1 ++ tr2) s2.
  Proof.
    induction 1 as [|s l s' tr s'' H1 H2 IH]; intro H; cbn; [exact H|].
    eapply star_cons; [exact H1 | apply IH; exact H].
  Qed.

  Lemma star_snoc s tr s1 l s2 : star s tr s1 -> step s1 l s2 -> star s (tr ++ [l]) s2.
  Proof.
    intros H1 H2. eapply star_app; [exact H1|]. eapply star_cons; [exact H2 | apply star_refl].
  Qed.

  Lemma reachable_init s : init s -> reachable s.
  Proof. intro H. exists s, []. split; [exact H | apply star_refl]. Qed.

  Lemma reachable_step s l s' : reachable s -> step s l s' -> reachable s'.
  Proof.
    intros [s0 [tr [Hi Hs]]] H. exists s0, (tr ++ [l]). split; [exact Hi|].
    eapply star_snoc; eassumption.
  Qed.

  Lemma star_preserves (P : state -> Prop) :
    (forall s l s', P s -> step s l s' -> P s') ->
    forall s tr s', star s tr s' -> P s -> P s'.
  Proof.
    intros Hstep s tr s' H. induction H as [|s l s' tr s'' H1 H2 IH]; intro HP; [exact HP|].
    apply IH. eapply Hstep; eassumption.
  Qed.

  Lemma reachable_star s tr s' : reachable s -> star s tr s' -> reachable s'.
  Proof. intros Hr H. exact (star_preserves reachable reachable_step s tr s' H Hr). Qed.

  Theorem invariant_by_induction (P : state -> Prop) :
    (forall s, init s -> P s) ->
    (forall s l s', P s -> step s l s' -> P s') ->
    forall s, reachable s -> P s.
  Proof.
    intros Hi Hs s [s0 [tr [H0 Hstar]]].
    eapply star_preserves; [exact Hs | exact Hstar | apply Hi; exact H0].
  Qed.

  Theorem invariant_by_induction_r (P : state -> Prop) :
    (forall s, init s -> P s) ->
    (forall s l s', reachable s -> P s -> step s l s' -> P s') ->
    forall s, reachable s -> P s.
  Proof.
    intros Hi Hs s Hr.
    assert (H : reachable s /\ P s); [|exact (proj2 H)].
    apply (invariant_by_induction (fun s => reachable s /\ P s)); [| |exact Hr].
    - intros s1 H1. split; [apply reachable_init; exact H1 | apply Hi; exact H1].
    - intros s1 l s2 [Hr1 HP1] Hst. split; [eapply reachable_step; eassumption|].
      eapply Hs; eassumption.
  Qed.

  Section Termination.
    Variable measure : state -> nat.
    Hypothesis decreases : forall s l s', step s l s' -> measure s' < measure s.

    Lemma star_length_measure s tr s' : star s tr s' -> length tr + measure s' <= measure s.
    Proof.
      induction 1 as [|s l s' tr s'' H1 H2 IH]; cbn; [lia|].
      apply decreases in H1. lia.
    Qed.

    Theorem no_infinite_run (f : nat -> state) :
      ~ (forall n, exists l, step (f n) l (f (S n))).
    Proof.
      intro H.
      assert (B : forall n, n + measure (f n) <= measure (f 0)).
      { induction n as [|n IH]; [lia|]. destruct (H n) as [l Hl]. apply decreases in Hl. lia. }
      specialize (B (S (measure (f 0)))). lia.
    Qed.

    Variable Inv : state -> Prop.
    Variable terminal : state -> Prop.
    Hypothesis terminal_dec : forall s, terminal s \/ ~ terminal s.
    Hypothesis Inv_step : forall s l s', Inv s -> step s l s' -> Inv s'.
    Hypothesis progress : forall s, Inv s -> ~ terminal s -> exists l s', step s l s'.

    Theorem reaches_terminal s : Inv s -> exists tr s', star s tr s' /\ terminal s'.
    Proof.
      remember (measure s) as m eqn:Hm. revert s Hm.
      induction m as [m IH] using lt_wf_ind. intros s Hm HI.
      destruct (terminal_dec s) as [Ht|Hnt].
      - exists [], s. split; [apply star_refl | exact Ht].
      - destruct (progress s HI Hnt) as [l [s1 Hst]].
        assert (Hlt : measure s1 < m) by (subst m; eapply decreases; exact Hst).
        destruct (IH _ Hlt s1 eq_refl (Inv_step _ _ _ HI Hst)) as [tr [s2 [Hs2 Ht2]]].
        exists (l :: tr), s2. split; [eapply star_cons; eassumption | exact Ht2].
    Qed.
  End Termination.
End Rel.

Section Fun.
  Variables state label : Type.
  Variable stepf : state -> label -> option state.

  Definition fstep (s : state) (l : label) (s' : state) : Prop := stepf s l = Some s'.

  Fixpoint run (s : state) (tr : list label) : option state :=
    match tr with
    | [] => Some s
    | l :: tr' => match stepf s l with Some s' => run s' tr' | None => None end
    end.

  Definition accepts (s : state) (tr : list label) : bool :=
    match run s tr with Some _ => true | None => false end.

  (* index of the first label that is not enabled (for diagnostics) *)
  Fixpoint reject_at (i : nat) (s : state) (tr : list label) : option nat :=
    match tr with
    | [] => None
    | l :: tr' => match stepf s l with Some s' => reject_at (S i) s' tr' | None => Some i end
    end.

  Theorem run_star s tr s' : run s tr = Some s' <-> star state label fstep s tr s'.
  Proof.
    split.
    - revert s. induction tr as [|l tr IH]; cbn; intros s H.
      + injection H as <-. apply star_refl.
      + destruct (stepf s l) as [s1|] eqn:E; [|discriminate].
        eapply star_cons; [exact E | apply IH; exact H].
    - induction 1 as [|s l s1 tr s2 H1 H2 IH]; cbn; [reflexivity|].
      unfold fstep in H1. rewrite H1. exact IH.
  Qed.

  Lemma run_app s tr1 tr2 :
    run s (tr1 ++ tr2) = match run s tr1 with Some s1 => run s1 tr2 | None => None end.
  Proof.
    revert s. induction tr1 as [|l tr1 IH]; cbn; intro s; [reflexivity|].
    destruct (stepf s l); [apply IH | reflexivity].
  Qed.

  Lemma accepts_reachable (init : state -> Prop) s0 tr :
    init s0 -> accepts s0 tr = true ->
    exists s, run s0 tr = Some s /\ reachable state label fstep init s.
  Proof.
    unfold accepts. intros Hi H. destruct (run s0 tr) as [s|] eqn:E; [|discriminate].
    exists s. split; [reflexivity|]. exists s0, tr. split; [exact Hi | apply run_star; exact E].
  Qed.
End Fun.
