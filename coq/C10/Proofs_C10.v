(* Proofs_C10.v — the compilation computes the implication meaning [eval_impl] constraint by
   constraint, the domains admit exactly the allowed values, the preferred one last; so under the
   contract S the produced list is exactly the allowed assignments satisfying [eval_impl], each
   once, the preferred one first ([solutions_exact]). *)
From Coq Require Import List ZArith Bool Permutation.
Import ListNotations.
From Verif Require Import Base.Val Base.Lists C10.Model_C10 C10.Spec_C10.

Lemma memb_In x l : memb x l = true <-> In x l.
Proof. apply existsb_N_In. Qed.
Lemma memb_false x l : memb x l = false <-> ~ In x l.
Proof. rewrite <- memb_In. destruct (memb x l); split; congruence. Qed.

Lemma memb_ext (a b : list N) :
  (forall x, In x a <-> In x b) -> forall x, memb x a = memb x b.
Proof. intros H x. apply eq_true_iff_eq. now rewrite !memb_In. Qed.
Lemma memb_filter v (f : N -> bool) l : memb v (filter f l) = memb v l && f v.
Proof. apply eq_true_iff_eq. now rewrite andb_true_iff, !memb_In, filter_In. Qed.

Lemma memb_app v a b : memb v (a ++ b) = memb v a || memb v b.
Proof. apply existsb_app. Qed.
Lemma NoDup_app_memb (a b : list N) :
  NoDup a -> NoDup b -> (forall x, memb x a && memb x b = false) -> NoDup (a ++ b).
Proof.
  intros Na Nb H. apply NoDup_app. split; [assumption|]. split; [assumption|].
  intros x Ha%memb_In Hb%memb_In. specialize (H x). now rewrite Ha, Hb in H.
Qed.

Lemma in_inter x a b : In x (inter a b) <-> In x a /\ In x b.
Proof. unfold inter. rewrite filter_In, memb_In. tauto. Qed.
Lemma in_diff x a b : In x (diff a b) <-> In x a /\ ~ In x b.
Proof. unfold diff. rewrite filter_In, negb_true_iff, memb_false. tauto. Qed.
Lemma in_dedup x l : In x (dedup l) <-> In x l.
Proof.
  induction l as [|y l IH]; cbn; [tauto|].
  destruct (memb y l) eqn:E.
  - rewrite IH. apply memb_In in E. split; [tauto | intros [<-|]; tauto].
  - cbn. rewrite IH. tauto.
Qed.
Lemma memb_dedup v l : memb v (dedup l) = memb v l.
Proof. apply memb_ext. intro. apply in_dedup. Qed.
Lemma nodup_dedup l : NoDup (dedup l).
Proof.
  induction l as [|y l IH]; cbn; [constructor|].
  destruct (memb y l) eqn:E; [assumption|].
  constructor; [|assumption]. rewrite in_dedup. now apply memb_false.
Qed.
Lemma map_ext_in' {A B} (f g : A -> B) l :
  (forall x, In x l -> f x = g x) -> map f l = map g l.
Proof. intro H. now apply map_ext_in. Qed.
Lemma forallb_concat {A} (f : A -> bool) ls :
  forallb f (concat ls) = forallb (forallb f) ls.
Proof.
  induction ls as [|l ls IH]; cbn; [reflexivity|]. now rewrite forallb_app, IH.
Qed.
Lemma forallb_or_distr {A} (a : bool) (f : A -> bool) l :
  forallb (fun x => a || f x) l = a || forallb f l.
Proof.
  induction l as [|x l IH]; cbn; [now rewrite orb_true_r|].
  rewrite IH. destruct a, (f x), (forallb f l); reflexivity.
Qed.
Lemma in_bools b d : In b d <-> existsb (Bool.eqb b) d = true.
Proof.
  rewrite existsb_exists. split; [intro; exists b; auto using eqb_reflx|].
  now intros (x & Hx & ->%eqb_prop).
Qed.

Lemma bind_ok {A B} (x : res A) (f : A -> res B) y :
  bind x f = Ok y -> exists a, x = Ok a /\ f a = Ok y.
Proof. destruct x; [eauto | discriminate]. Qed.
Lemma sequence_ok {A B} (f : A -> res B) l t :
  sequence (map f l) = Ok t -> Forall2 (fun x y => f x = Ok y) l t.
Proof.
  revert t; induction l as [|x l IH]; cbn; intros t H.
  - injection H as <-. constructor.
  - destruct (f x) as [y|e] eqn:E; [|discriminate].
    destruct (sequence (map f l)) as [t'|e] eqn:E'; [|discriminate].
    injection H as <-. constructor; [assumption | now apply IH].
Qed.
Lemma sequence_all_ok {A B} (f : A -> res B) l :
  (forall x, In x l -> exists y, f x = Ok y) -> exists t, sequence (map f l) = Ok t.
Proof.
  induction l as [|x l IH]; cbn; intro H; [now eexists|].
  destruct (H x (or_introl eq_refl)) as (y & ->).
  destruct IH as (t & ->); [intros; apply H; now right|]. now eexists.
Qed.
Lemma nonempty_ok {A} (l l' : list A) : nonempty l = Ok l' -> l' = l.
Proof. destruct l; cbn; [discriminate | now intros [= <-]]. Qed.

Section RuInd.
  Variable P : ru -> Prop.
  Hypothesis HF : forall neg al vals, P (Flag neg al vals).
  Hypothesis HC : forall neg v kids, Forall P kids -> P (Cond neg v kids).
  Hypothesis HG : forall k neg kids, Forall P kids -> P (Grp k neg kids).
  Fixpoint ru_ind' (r : ru) : P r :=
    let go := fix go (l : list ru) : Forall P l :=
      match l with [] => Forall_nil P | x :: t => Forall_cons x (ru_ind' x) (go t) end in
    match r with
    | Flag neg al vals => HF neg al vals
    | Cond neg v kids => HC neg v kids (go kids)
    | Grp k neg kids => HG k neg kids (go kids)
    end.
End RuInd.

Lemma local_kids kids on on' :
  Forall (fun r => local (fun on => eval_impl on r) (flags r)) kids ->
  (forall v, In v (concat (map flags kids)) -> memb v on = memb v on') ->
  forall x, In x kids -> eval_impl on x = eval_impl on' x.
Proof.
  intros IH H x Hx. rewrite Forall_forall in IH. apply (IH x Hx).
  intros w Hw. apply H, in_concat. exists (flags x). split; [now apply in_map | assumption].
Qed.
Lemma eval_impl_local r : local (fun on => eval_impl on r) (flags r).
Proof.
  induction r as [neg al vals|neg v kids IH|k neg kids IH] using ru_ind'; intros on on' H; cbn in *.
  - unfold flag_match, subsetb, disjointb. f_equal. destruct al.
    + now apply forallb_ext_in.
    + do 2 f_equal. now apply existsb_ext_in.
  - unfold cond_met. rewrite (H v (or_introl eq_refl)). f_equal.
    apply forallb_ext_in, (local_kids kids); auto.
  - do 2 f_equal. apply map_ext_in, (local_kids kids); auto.
Qed.

Lemma wf_flags r : wf_ru r = true -> flags r <> [].
Proof.
  induction r as [neg al vals|neg v kids IH|k neg kids IH] using ru_ind'; cbn; intro H.
  - apply andb_true_iff in H as (_ & H). destruct vals; discriminate.
  - discriminate.
  - apply andb_true_iff in H as (H1 & H2). destruct kids as [|x kids]; [discriminate|].
    cbn in *. apply andb_true_iff in H2 as (H2 & _). inversion IH as [|? ? Hx _]; subst.
    intro K. apply app_eq_nil in K as (K & _). now apply (Hx H2).
Qed.

Lemma single_kids kids l :
  bind (sequence (map to_single kids)) nonempty = Ok l ->
  Forall (fun r => forall c vs, to_single r = Ok (c, vs) ->
                  (forall on, c on = eval_impl on r) /\ vs = flags r) kids ->
  (forall on, map (fun c : cfun => c on) (map fst l) = map (eval_impl on) kids)
  /\ concat (map snd l) = concat (map flags kids).
Proof.
  intros (l' & E & ->%nonempty_ok)%bind_ok. apply sequence_ok in E.
  induction E as [|x [c vs] kids l Hx Hl IH]; intro HF; cbn; [split; reflexivity|].
  inversion HF as [|? ? H1 H2]; subst. destruct (H1 c vs Hx) as (Hc & ->).
  destruct (IH H2) as (Hm & ->). split; [|reflexivity]. intro on. now rewrite Hc, Hm.
Qed.

Lemma single_sem r : forall c vs, to_single r = Ok (c, vs) ->
  (forall on, c on = eval_impl on r) /\ vs = flags r.
Proof.
  induction r as [neg al vals|neg v kids IH|k neg kids IH] using ru_ind'; intros c vs H; cbn in H.
  - destruct al; [discriminate|]. injection H as <- <-. split; [|reflexivity].
    intro on. cbn. unfold c_flag, flag_match. destruct (disjointb vals on), neg; reflexivity.
  - apply bind_ok in H as (l & E & [= <- <-]). destruct (single_kids kids l E IH) as (Hm & ->).
    split; [|reflexivity]. intro on. cbn. unfold c_cond, cond_met.
    rewrite <- (forallb_map (fun b => b) (fun c : cfun => c on)), Hm, forallb_map.
    destruct (memb v on), neg; reflexivity.
  - apply bind_ok in H as (l & E & [= <- <-]). destruct (single_kids kids l E IH) as (Hm & ->).
    split; [|reflexivity]. intro on. cbn. unfold c_grp. rewrite Hm. destruct k; reflexivity.
Qed.

Definition multi_good (r : ru) (l : list constr) : Prop :=
  (forall on, forallb (fun p : constr => fst p on) l = eval_impl on r)
  /\ (forall c vs, In (c, vs) l -> local c vs /\ incl vs (flags r) /\ (wf_ru r = true -> vs <> [])).

Lemma multi_of_single r l : bind (to_single r) (fun p => Ok [p]) = Ok l -> multi_good r l.
Proof.
  intros ([c vs] & E & [= <-])%bind_ok. destruct (single_sem r c vs E) as (Hc & ->). split.
  - intro on. cbn. now rewrite Hc, andb_true_r.
  - intros c' vs' [[= <- <-]|[]]. split; [|split; [apply incl_refl | apply wf_flags]].
    intros on on' Hv. rewrite !Hc. now apply eval_impl_local.
Qed.

Lemma multi_kids kids ls :
  Forall2 (fun x y => to_multi x = Ok y) kids ls ->
  Forall (fun r => forall l, to_multi r = Ok l -> multi_good r l) kids ->
  (forall on, forallb (fun p : constr => fst p on) (concat ls) = forallb (eval_impl on) kids)
  /\ (forall c vs, In (c, vs) (concat ls) ->
        local c vs /\ incl vs (concat (map flags kids)) /\ (forallb wf_ru kids = true -> vs <> [])).
Proof.
  induction 1 as [|x l kids ls Hx Hl IH]; intro HF; cbn; [split; [reflexivity|intros ? ? []]|].
  inversion HF as [|? ? H1 H2]; subst. destruct (H1 l Hx) as (Ha & Hb). destruct (IH H2) as (Hc & Hd).
  split.
  - intro on. now rewrite forallb_app, Ha, Hc.
  - intros c vs H. apply in_app_or in H as [H|H].
    + destruct (Hb c vs H) as (L & I & V). split; [assumption|].
      split; [now apply incl_appl | intros (W & _)%andb_true_iff; exact (V W)].
    + destruct (Hd c vs H) as (L & I & V). split; [assumption|].
      split; [now apply incl_appr | intros (_ & W)%andb_true_iff; exact (V W)].
Qed.

Lemma multi_sem r : forall l, to_multi r = Ok l -> multi_good r l.
Proof.
  induction r as [neg al vals|neg v kids IH|k neg kids IH] using ru_ind'; intros l H.
  - now apply multi_of_single.
  - cbn in H. apply bind_ok in H as (ls & E%sequence_ok & [= <-]).
    destruct (multi_kids kids ls E IH) as (Ha & Hb). split.
    + intro on. rewrite forallb_map. cbn [fst eval_impl]. unfold c_cond. cbn [forallb].
      rewrite (forallb_ext_in _ (fun p : constr => Bool.eqb (memb v on) neg || fst p on))
        by (intros; now rewrite andb_true_r).
      rewrite forallb_or_distr, Ha. unfold cond_met. destruct (memb v on), neg; reflexivity.
    + intros c vs ([c0 vs0] & [= <- <-] & Hin)%in_map_iff.
      destruct (Hb c0 vs0 Hin) as (Hl & Hi & _). split; [|split; [|discriminate]].
      * intros on on' Hv. unfold c_cond. cbn. rewrite (Hv v (or_introl eq_refl)).
        rewrite (Hl on on'); [reflexivity|]. intros w Hw. apply Hv. now right.
      * cbn. intros w [<-|Hw]; [now left | right; now apply Hi].
  - destruct k; try now apply multi_of_single.
    cbn in H. destruct neg; [discriminate|].
    apply bind_ok in H as (ls & E%sequence_ok & [= <-]).
    destruct (multi_kids kids ls E IH) as (Ha & Hb). split.
    + intro on. rewrite Ha. cbn. now rewrite forallb_map, xorb_false_r.
    + intros c vs Hin. destruct (Hb c vs Hin) as (Hl & Hi & Hv).
      repeat split; try assumption. intros (_ & W)%andb_true_iff. exact (Hv W).
Qed.

Lemma compile_sem rs cs : compile rs = Ok cs ->
  (forall on, forallb (fun p : constr => fst p on) cs = sat_impl rs on)
  /\ (forall c vs, In (c, vs) cs ->
        local c vs /\ incl vs (flags_all rs) /\ (forallb wf_ru rs = true -> vs <> [])).
Proof.
  intros (ls & E%sequence_ok & [= <-])%bind_ok.
  apply (multi_kids rs ls E). apply Forall_forall. intros r _ l. apply multi_sem.
Qed.

Lemma single_kids_total kids :
  Forall (fun r => wf_ru r = true -> exists p, to_single r = Ok p) kids ->
  negb (match kids with [] => true | _ => false end) && forallb wf_ru kids = true ->
  exists l, bind (sequence (map to_single kids)) nonempty = Ok l.
Proof.
  intros IH (H1 & H2)%andb_true_iff. rewrite Forall_forall in IH. rewrite forallb_forall in H2.
  destruct (sequence_all_ok to_single kids) as (t & Ht); [intros x Hx; apply IH; auto|].
  rewrite Ht. apply sequence_ok in Ht. destruct Ht; [discriminate | cbn; now eexists].
Qed.
Lemma single_total r : wf_ru r = true -> exists p, to_single r = Ok p.
Proof.
  induction r as [neg al vals|neg v kids IH|k neg kids IH] using ru_ind'; cbn; intro H.
  - apply andb_true_iff in H as (H & _). apply negb_true_iff in H. rewrite H. now eexists.
  - destruct (single_kids_total kids IH H) as (l & ->). cbn. now eexists.
  - destruct (single_kids_total kids IH H) as (l & ->). cbn. now eexists.
Qed.
Lemma multi_of_single_total r :
  wf_ru r = true -> exists l, bind (to_single r) (fun p => Ok [p]) = Ok l.
Proof. intros (p & ->)%single_total. now eexists. Qed.
Lemma multi_total r : wf_ru r = true -> spine_ok r = true -> exists l, to_multi r = Ok l.
Proof.
  induction r as [neg al vals|neg v kids IH|k neg kids IH] using ru_ind'; intros H Hs.
  - now apply multi_of_single_total.
  - cbn in H, Hs. apply andb_true_iff in H as (H1 & H2). rewrite Forall_forall in IH.
    rewrite forallb_forall in H2, Hs.
    destruct (sequence_all_ok to_multi kids) as (t & Ht); [intros x Hx; apply IH; auto|].
    cbn. rewrite Ht. now eexists.
  - destruct k; try now apply multi_of_single_total.
    cbn in H, Hs. apply andb_true_iff in H as (H1 & H2). apply andb_true_iff in Hs as (Hn & Hs).
    apply negb_true_iff in Hn. subst neg. rewrite Forall_forall in IH. rewrite forallb_forall in H2, Hs.
    destruct (sequence_all_ok to_multi kids) as (t & Ht); [intros x Hx; apply IH; auto|].
    cbn. rewrite Ht. now eexists.
Qed.
Lemma compile_total rs : wf_all rs = true -> exists cs, compile rs = Ok cs.
Proof.
  intro H. unfold wf_all in H. rewrite forallb_forall in H. unfold compile.
  destruct (sequence_all_ok to_multi rs) as (t & ->); [|now eexists].
  intros x Hx. apply H in Hx. apply andb_true_iff in Hx as (H1 & H2). now apply multi_total.
Qed.

(* Problem never looks at a constraint over no variable and hands the others their own variables
   only; neither matters, as every constraint compiled from a well-formed tree has a variable and
   reads only its own *)
Lemma sat_all_sem rs cs : wf_all rs = true -> compile rs = Ok cs ->
  forall a, sat_all cs a = sat_impl rs (on_of a).
Proof.
  intros Hw Hc a. destruct (compile_sem rs cs Hc) as (Hs & Hl). rewrite <- Hs.
  apply forallb_ext_in. intros [c vs] Hin. destruct (Hl c vs Hin) as (Hloc & _ & Hv).
  unfold has_vars, sat1. cbn [fst snd]. destruct vs as [|v0 vs].
  - exfalso. apply Hv; [|reflexivity]. apply forallb_forall. intros r Hr.
    unfold wf_all in Hw. rewrite forallb_forall in Hw. now apply Hw, andb_true_iff in Hr.
  - apply Hloc. intros v Hv'. rewrite memb_filter. apply memb_In in Hv'. now rewrite Hv'.
Qed.

Lemma members_impl on kids :
  existsb is_cond kids = false -> (forall x, In x kids -> eval_pms on x = eval_impl on x) ->
  map (fun c => is_member on c && eval_pms on c) kids = map (eval_impl on) kids.
Proof.
  intros H Hk. apply map_ext_in. intros x Hx. rewrite (Hk x Hx).
  apply (proj1 (existsb_false _ _) H) in Hx. now destruct x.
Qed.

Lemma pms_impl on r : cond_in_group r = false -> eval_pms on r = eval_impl on r.
Proof.
  induction r as [neg al vals|neg v kids IH|k neg kids IH] using ru_ind'; intro H; cbn in *.
  - reflexivity.
  - rewrite Forall_forall in IH. rewrite existsb_false in H.
    f_equal. apply forallb_ext_in. intros x Hx. now apply (IH x Hx), H.
  - apply orb_false_iff in H as (H1 & H2). rewrite existsb_false in H2. rewrite Forall_forall in IH.
    assert (Hk : forall x, In x kids -> eval_pms on x = eval_impl on x)
      by (intros x Hx; now apply (IH x Hx), H2).
    f_equal. destruct k; cbn.
    + now rewrite (members_impl on kids).
    + rewrite forallb_map. now apply forallb_ext_in.
    + now rewrite (members_impl on kids).
    + now rewrite (members_impl on kids).
Qed.

Lemma sat_pms_impl rs on : known_class rs = false -> sat_pms rs on = sat_impl rs on.
Proof.
  unfold known_class. rewrite existsb_false. intro H.
  apply forallb_ext_in. intros r Hr. now apply pms_impl, H.
Qed.

Definition const_doms (d : list bool) (vs : list N) : list dom := map (fun v => (v, d)) vs.
Lemma keys_app p q : keys (p ++ q) = keys p ++ keys q.
Proof. unfold keys. apply map_app. Qed.
Lemma keys_const_doms d vs : keys (const_doms d vs) = vs.
Proof. unfold keys, const_doms. rewrite map_map. cbn. apply map_id. Qed.

Lemma add_vars_ok d vs : forall p, NoDup (keys p ++ vs) -> add_vars d vs p = Ok (p ++ const_doms d vs).
Proof.
  induction vs as [|a vs IH]; cbn; intros p H; [now rewrite app_nil_r|].
  destruct (memb a (keys p)) eqn:E.
  - apply memb_In in E. apply NoDup_remove_2 in H. destruct H. apply in_or_app. now left.
  - rewrite IH; [now rewrite <- app_assoc|]. now rewrite keys_app, <- app_assoc.
Qed.
Lemma add_vars_fail d vs : forall p, (exists v, In v vs /\ In v (keys p)) -> add_vars d vs p = Fail EAssert.
Proof.
  induction vs as [|a vs IH]; cbn; intros p (v & Hv & Hk); [contradiction|].
  destruct (memb a (keys p)) eqn:E; [reflexivity|].
  apply IH. destruct Hv as [->|Hv].
  - apply memb_false in E. contradiction.
  - exists v. split; [assumption|]. rewrite keys_app. apply in_or_app. now left.
Qed.

(* [allowed] is [allowed1] on every entry *)
Definition allowed1 (iuse ft ff : list N) (x : N * bool) : bool :=
  let (v, b) := x in
  if memb v iuse
  then (if memb v ft then b else true) && (if memb v ff then negb b else true)
  else negb b.
Definition good_dom (iuse ft ff pt : list N) (v : N) (d : list bool) : Prop :=
  nodup_b d = true /\ (forall b, existsb (Bool.eqb b) d = allowed1 iuse ft ff (v, b))
  /\ hd_error (rev d) = Some (pref_val iuse ft ff pt v).

(* Membership in each of the four variable lists of find_constraint_satisfaction is a boolean
   formula over membership in iuse, force_true, force_false, prefer_true: cases on those four. *)
Section Domains.
  Variables iuse ft ff pt : list N.
  Let iu := dedup iuse.
  Definition free_off := diff (diff (diff iu ft) ff) pt.
  Definition free_on := diff (diff (inter iu pt) ff) ft.
  Definition forced_off := inter iu ff.
  Definition forced_on := inter iu ft.
  Definition iuse_domains : list dom :=
    ((const_doms [true; false] free_off ++ const_doms [false; true] free_on)
     ++ const_doms [false] forced_off) ++ const_doms [true] forced_on.

  Lemma memb_free_off v :
    memb v free_off = memb v iuse && negb (memb v ft) && negb (memb v ff) && negb (memb v pt).
  Proof. unfold free_off, diff, iu. now rewrite !memb_filter, memb_dedup. Qed.
  Lemma memb_free_on v :
    memb v free_on = memb v iuse && memb v pt && negb (memb v ff) && negb (memb v ft).
  Proof. unfold free_on, diff, inter, iu. now rewrite !memb_filter, memb_dedup. Qed.
  Lemma memb_forced_off v : memb v forced_off = memb v iuse && memb v ff.
  Proof. unfold forced_off, inter, iu. now rewrite memb_filter, memb_dedup. Qed.
  Lemma memb_forced_on v : memb v forced_on = memb v iuse && memb v ft.
  Proof. unfold forced_on, inter, iu. now rewrite memb_filter, memb_dedup. Qed.

  Lemma overlap_iff : overlap iuse ft ff = true <-> exists v, In v iuse /\ In v ft /\ In v ff.
  Proof.
    unfold overlap. split.
    - intros (v & Hv & (H1 & H2)%andb_true_iff)%existsb_exists. exists v. apply memb_In in H1, H2. auto.
    - intros (v & H1 & H2%memb_In & H3%memb_In). apply existsb_exists. exists v. now rewrite H2, H3.
  Qed.
  Lemma no_overlap_at v : overlap iuse ft ff = false -> memb v iuse && memb v ft && memb v ff = false.
  Proof.
    intro Ho. destruct (memb v iuse) eqn:E; [|reflexivity]. apply memb_In in E.
    apply (proj1 (existsb_false _ _) Ho v E).
  Qed.

  Lemma keys_iuse_domains : keys iuse_domains = ((free_off ++ free_on) ++ forced_off) ++ forced_on.
  Proof. unfold iuse_domains. now rewrite !keys_app, !keys_const_doms. Qed.

  Lemma classes_disjoint x :
    memb x free_off && memb x free_on = false /\ memb x (free_off ++ free_on) && memb x forced_off = false
    /\ (memb x iuse && memb x ft && memb x ff = false ->
        memb x ((free_off ++ free_on) ++ forced_off) && memb x forced_on = false).
  Proof.
    rewrite !memb_app, memb_free_off, memb_free_on, memb_forced_off, memb_forced_on.
    destruct (memb x iuse); [|auto]. destruct (memb x ft), (memb x ff), (memb x pt); auto.
  Qed.
  Lemma nodup_classes :
    NoDup free_off /\ NoDup (free_off ++ free_on) /\ NoDup ((free_off ++ free_on) ++ forced_off)
    /\ (overlap iuse ft ff = false -> NoDup (((free_off ++ free_on) ++ forced_off) ++ forced_on)).
  Proof.
    assert (NA : NoDup free_off /\ NoDup free_on /\ NoDup forced_off /\ NoDup forced_on).
    { unfold free_off, free_on, forced_off, forced_on, diff, inter.
      repeat split; repeat apply NoDup_filter; apply nodup_dedup. }
    destruct NA as (NA & NB & NC & ND).
    assert (N2 : NoDup (free_off ++ free_on)).
    { apply NoDup_app_memb; try assumption. intro x. apply classes_disjoint. }
    assert (N3 : NoDup ((free_off ++ free_on) ++ forced_off)).
    { apply NoDup_app_memb; try assumption. intro x. apply classes_disjoint. }
    repeat split; try assumption. intro Ho.
    apply NoDup_app_memb; try assumption. intro x. now apply classes_disjoint, no_overlap_at.
  Qed.

  (* the first three add_variable calls never meet a known variable; the fourth does exactly when
     a forced-on flag of IUSE is also forced off *)
  Lemma domains_eq :
    domains iuse ft ff pt = if overlap iuse ft ff then Fail EAssert else Ok iuse_domains.
  Proof.
    destruct nodup_classes as (N1 & N2 & N3 & N4).
    unfold domains. fold iu. fold free_off free_on forced_off forced_on.
    rewrite add_vars_ok by exact N1. cbn [bind app].
    rewrite add_vars_ok by now rewrite keys_const_doms. cbn [bind].
    rewrite add_vars_ok by now rewrite keys_app, !keys_const_doms. cbn [bind].
    destruct (overlap iuse ft ff) eqn:Ho.
    - apply overlap_iff in Ho as (v & H1%memb_In & H2%memb_In & H3%memb_In).
      apply add_vars_fail. exists v. rewrite <- !memb_In, !keys_app, !keys_const_doms, !memb_app.
      rewrite memb_forced_off, memb_forced_on, H1, H2, H3. split; [reflexivity | apply orb_true_r].
    - apply add_vars_ok. rewrite !keys_app, !keys_const_doms. now apply N4.
  Qed.

  Lemma iuse_domains_props : overlap iuse ft ff = false ->
    NoDup (keys iuse_domains) /\ (forall v, In v (keys iuse_domains) <-> In v iuse)
    /\ (forall v d, In (v, d) iuse_domains -> good_dom iuse ft ff pt v d).
  Proof.
    intro Ho. split; [|split].
    - rewrite keys_iuse_domains. now apply nodup_classes.
    - intro v. rewrite <- !memb_In, keys_iuse_domains, !memb_app.
      rewrite memb_free_off, memb_free_on, memb_forced_off, memb_forced_on.
      destruct (memb v iuse); [|easy]. now destruct (memb v ft), (memb v ff), (memb v pt).
    - (* in each of the four lists: the memberships the list stands for, then evaluation *)
      intros v d Hin. pose proof (no_overlap_at v Ho) as Hv. unfold iuse_domains in Hin.
      apply in_app_or in Hin as [Hin|K];
        [apply in_app_or in Hin as [Hin|K]; [apply in_app_or in Hin as [K|K]|]|];
        apply in_map_iff in K as (w & [= -> <-] & K%memb_In);
        rewrite ?memb_free_off, ?memb_free_on, ?memb_forced_off, ?memb_forced_on in K;
        unfold good_dom, allowed1, pref_val;
        (destruct (memb v iuse); [|discriminate K]);
        destruct (memb v ft), (memb v ff), (memb v pt); try discriminate K; try discriminate Hv;
        (split; [reflexivity | split; [now intros [] | reflexivity]]).
  Qed.
End Domains.

Lemma add_missing_inv (Q : N -> list bool -> Prop) cs : forall p,
  NoDup (keys p) -> (forall v d, In (v, d) p -> Q v d) ->
  (forall c vs v, In (c, vs) cs -> In v vs -> ~ In v (keys p) -> Q v [false]) ->
  NoDup (keys (add_missing cs p)) /\ incl p (add_missing cs p)
  /\ (forall v d, In (v, d) (add_missing cs p) -> Q v d)
  /\ (forall c vs, In (c, vs) cs -> incl vs (keys (add_missing cs p))).
Proof.
  induction cs as [|[c0 vs0] cs IH]; intros p Hp HQ Hnew; cbn [add_missing].
  - repeat split; [assumption | apply incl_refl | assumption | intros ? ? []].
  - set (new := dedup (diff vs0 (keys p))). fold (const_doms [false] new).
    assert (Hin : forall v, In v new <-> In v vs0 /\ ~ In v (keys p))
      by (intro; unfold new; now rewrite in_dedup, in_diff).
    destruct (IH (p ++ const_doms [false] new)) as (H1 & H2 & H3 & H4).
    + rewrite keys_app, keys_const_doms. apply NoDup_app.
      split; [assumption|]. split; [apply nodup_dedup|]. intros x Hx Hx'%Hin. tauto.
    + intros v d [K|(w & [= -> <-] & (K1 & K2)%Hin)%in_map_iff]%in_app_or; [now apply HQ|].
      apply (Hnew c0 vs0); auto. now left.
    + intros c vs v K Hv Hk. apply (Hnew c vs); auto; [now right|].
      intro. apply Hk. rewrite keys_app. apply in_or_app. now left.
    + split; [assumption|]. split; [|split; [assumption|]].
      * intros x Hx. apply H2, in_or_app. now left.
      * intros c vs [[= -> ->]|K]; [|now apply (H4 c vs)].
        intros v Hv. apply (incl_map fst H2). fold (keys (p ++ const_doms [false] new)).
        rewrite keys_app, keys_const_doms, in_app_iff, Hin.
        destruct (memb v (keys p)) eqn:E; [left; now apply memb_In|].
        right. split; [assumption | now apply memb_false].
Qed.

Lemma in_enum : forall p a, In a (enum p) <-> within p a.
Proof.
  induction p as [|[v d] p IH]; intro a; cbn.
  - split; [intros [<-|[]]; constructor | intro W; inversion W; now left].
  - rewrite in_flat_map. split.
    + intros (b & Hb & (a' & <- & Ha')%in_map_iff).
      constructor; [split; [reflexivity | now apply in_rev] | now apply IH].
    + intro W. inversion W as [|? [w b] ? a' (W1 & W2) W3]; subst. cbn in *. subst w.
      exists b. split; [now apply -> in_rev | now apply in_map, IH].
Qed.

Lemma nodup_flat_map {A B} (f : A -> list B) l :
  NoDup l -> (forall x, In x l -> NoDup (f x)) ->
  (forall x y z, In x l -> In y l -> x <> y -> In z (f x) -> In z (f y) -> False) ->
  NoDup (flat_map f l).
Proof.
  induction 1 as [|x l Hx Hl IH]; cbn; intros Hf Hd; [constructor|].
  apply NoDup_app. split; [|split].
  - apply Hf. now left.
  - apply IH; [intros; apply Hf; now right | intros a b z Ha Hb; apply Hd; now right].
  - intros z Hz Hz'. apply in_flat_map in Hz' as (y & Hy & Hz').
    apply (Hd x y z); [now left | now right | intro; subst; contradiction | assumption | assumption].
Qed.

Lemma nodup_b_rev d : nodup_b d = true -> NoDup (rev d).
Proof.
  destruct d as [|a [|b [|c d]]]; cbn; intro H; try discriminate.
  - constructor.
  - constructor; [intros [] | constructor].
  - constructor; [|constructor; [intros [] | constructor]].
    intros [->|[]]. destruct b; discriminate.
Qed.

Lemma nodup_enum p : (forall d, In d p -> nodup_b (snd d) = true) -> NoDup (enum p).
Proof.
  induction p as [|[v d] p IH]; cbn; intro H; [constructor; [intros []|constructor]|].
  apply nodup_flat_map.
  - apply nodup_b_rev. apply (H (v, d)). now left.
  - intros b _. apply FinFun.Injective_map_NoDup; [intros x y E; now injection E|].
    apply IH. intros; apply H; now right.
  - intros x y z _ _ Hxy Hx Hy. apply in_map_iff in Hx as (a1 & <- & _).
    apply in_map_iff in Hy as (a2 & E & _). injection E as E _. congruence.
Qed.

Lemma enum_head : forall p a, last_assign p = Some a -> exists t, enum p = a :: t.
Proof.
  induction p as [|[v d] p IH]; cbn; intros a H.
  - injection H as <-. now exists [].
  - destruct (rev d) as [|b bs]; [discriminate|].
    destruct (last_assign p) as [a'|]; [|discriminate]. injection H as <-.
    destruct (IH a' eq_refl) as (t & ->). cbn. eexists. reflexivity.
Qed.

(* solve_ref on a small problem: three solutions, one non-solution, the last-value assignment first *)
Example solve_ref_example :
  solve_ref [(0, [true; false]); (1, [false; true])]%N
            [((fun on => memb 0%N on || memb 1%N on), [0; 1]%N)]
  = [[(0, false); (1, true)]; [(0, true); (1, true)]; [(0, true); (1, false)]]%N.
Proof. reflexivity. Qed.

Lemma problem_inv rs iuse ft ff pt p cs :
  problem rs iuse ft ff pt = Ok (p, cs) ->
  overlap iuse ft ff = false /\ compile rs = Ok cs /\ p = add_missing cs (iuse_domains iuse ft ff pt).
Proof.
  unfold problem. rewrite domains_eq. destruct (overlap iuse ft ff); [discriminate|].
  cbn [bind]. intros (cs' & -> & [= <- <-])%bind_ok. auto.
Qed.

Lemma final_props rs iuse ft ff pt p cs :
  problem rs iuse ft ff pt = Ok (p, cs) ->
  NoDup (keys p) /\ incl iuse (keys p) /\ incl (keys p) (iuse ++ flags_all rs)
  /\ (forall v d, In (v, d) p -> good_dom iuse ft ff pt v d)
  /\ (forall c vs, In (c, vs) cs -> incl vs (keys p)).
Proof.
  intro H. apply problem_inv in H as (Ho & Hc & ->).
  destruct (iuse_domains_props iuse ft ff pt Ho) as (P1 & P2 & P3).
  destruct (compile_sem rs cs Hc) as (_ & Hl).
  destruct (add_missing_inv (fun v d => good_dom iuse ft ff pt v d /\ In v (iuse ++ flags_all rs))
              cs _ P1) as (A1 & A2 & A3 & A4).
  - intros v d K. split; [now apply P3|]. apply in_or_app. left. apply P2. exact (in_map fst _ _ K).
  - intros c vs v K Hv Hk. split; [|apply in_or_app; right; now apply (Hl c vs K)].
    assert (E : memb v iuse = false) by (apply memb_false; intro; now apply Hk, P2).
    unfold good_dom, allowed1, pref_val. rewrite E.
    split; [reflexivity | split; [now intros [] | reflexivity]].
  - split; [assumption|]. split; [|split; [|split; [|assumption]]].
    + intros v Hv. apply (incl_map fst A2). now apply P2.
    + intros v ([w d] & <- & Hx)%in_map_iff. apply (A3 w d Hx).
    + intros v d K. apply (A3 v d K).
Qed.

Lemma problem_wf rs iuse ft ff pt p cs :
  problem rs iuse ft ff pt = Ok (p, cs) -> wf_problem p cs.
Proof.
  intro H. destruct (final_props _ _ _ _ _ _ _ H) as (F1 & _ & _ & F4 & F5).
  split; [assumption|]. split.
  - intros [v d] Hin. apply (F4 v d Hin).
  - intros [c vs] v Hc Hv. now apply (F5 c vs Hc).
Qed.

Lemma within_dom (ok : N * bool -> bool) p :
  (forall v d, In (v, d) p -> forall b, existsb (Bool.eqb b) d = ok (v, b)) ->
  forall a, within p a <-> map fst a = keys p /\ forallb ok a = true.
Proof.
  induction p as [|[v d] p IH]; intros H [|[w b] a]; cbn.
  - split; [split; reflexivity | constructor].
  - split; [intro W; inversion W | intros ([=] & _)].
  - split; [intro W; inversion W | intros ([=] & _)].
  - specialize (IH (fun v d K => H v d (or_intror K)) a). specialize (H v d (or_introl eq_refl) b).
    rewrite andb_true_iff. split.
    + intro W. inversion W as [|? ? ? ? (W1 & W2%in_bools) W3]; subst. cbn in *. subst w.
      apply IH in W3 as (-> & ->). rewrite <- H. auto.
    + intros ([= -> E] & A1 & A2). rewrite <- H in A1.
      constructor; [split; [reflexivity | now apply in_bools] | apply IH; auto].
Qed.
Lemma last_assign_dom (f : N -> bool) p :
  (forall v d, In (v, d) p -> hd_error (rev d) = Some (f v)) ->
  last_assign p = Some (map (fun v => (v, f v)) (keys p)).
Proof.
  induction p as [|[v d] p IH]; cbn; intro H; [reflexivity|].
  rewrite IH by (intros; apply H; now right).
  specialize (H v d (or_introl eq_refl)). destruct (rev d); [discriminate | now injection H as ->].
Qed.

Lemma within_iff rs iuse ft ff pt p cs a :
  problem rs iuse ft ff pt = Ok (p, cs) ->
  (within p a <-> map fst a = keys p /\ allowed iuse ft ff a = true).
Proof.
  intro H. destruct (final_props _ _ _ _ _ _ _ H) as (_ & _ & _ & F4 & _).
  apply (within_dom (allowed1 iuse ft ff)). intros v d K. apply (F4 v d K).
Qed.
Lemma within_all ks a : within (map (fun v => (v, [true; false])) ks) a <-> map fst a = ks.
Proof.
  rewrite (within_dom (fun _ => true)).
  - unfold keys. rewrite map_map, map_id. split; [tauto | split; [assumption | now apply forallb_forall]].
  - now intros v d (w & [= _ <-] & _)%in_map_iff [].
Qed.

Lemma solutions_exact solve : S solve -> exact_impl_stmt solve.
Proof.
  intros HS rs iuse ft ff pt p cs Hw H.
  destruct (HS p cs (problem_wf _ _ _ _ _ _ _ H)) as (S1 & S2 & S3).
  pose proof (problem_inv _ _ _ _ _ _ _ H) as (_ & Hc & _).
  destruct (final_props _ _ _ _ _ _ _ H) as (_ & _ & _ & F4 & _).
  split; [assumption|]. split.
  - intro a. rewrite S2, (within_iff _ _ _ _ _ _ _ a H), (sat_all_sem rs cs Hw Hc). apply and_assoc.
  - intro Hp. apply S3; [|now rewrite (sat_all_sem rs cs Hw Hc)].
    apply last_assign_dom. intros v d K. apply (F4 v d K).
Qed.

Lemma solutions_perm solve : S solve -> forall rs iuse ft ff pt p cs,
  wf_all rs = true -> problem rs iuse ft ff pt = Ok (p, cs) ->
  Permutation (solve p cs)
    (filter (fun a => allowed iuse ft ff a && sat_impl rs (on_of a)) (all_assign (keys p))).
Proof.
  intros HS rs iuse ft ff pt p cs Hw H.
  destruct (solutions_exact solve HS _ _ _ _ _ _ _ Hw H) as (N & E & _).
  apply NoDup_Permutation; [assumption | |].
  - apply NoDup_filter, nodup_enum. intros d (v & <- & _)%in_map_iff. reflexivity.
  - intro a. unfold all_assign. now rewrite E, filter_In, andb_true_iff, in_enum, within_all.
Qed.

(* inside the known class the full statements are false (finding cond-member-of-group):
   || ( a? ( b ) c ) and ^^ ( a? ( b ) c ) *)
Definition rs_or : list ru := [Grp KOr false [Cond false 0%N [Flag false false [1%N]]; Flag false false [2%N]]].
Definition rs_one : list ru := [Grp KOne false [Cond false 0%N [Flag false false [1%N]]; Flag false false [2%N]]].

Example witnesses_in_class : known_class rs_or = true /\ known_class rs_one = true
  /\ wf_all rs_or = true /\ wf_all rs_one = true.
Proof. repeat split. Qed.

(* Over IUSE = {a, b, c} with c preferred.  With nothing enabled the conditional is vacuously true
   but not a member of the || group; with only c enabled it is vacuously true and so a second member
   of the ^^ group.  A solver meeting S produces the first assignment and not the second. *)
Definition dom3 : list dom := [(0, [true; false]); (1, [true; false]); (2, [false; true])]%N.
Definition all_off : assignment := [(0, false); (1, false); (2, false)]%N.
Definition only_c : assignment := [(0, false); (1, false); (2, true)]%N.
Lemma rs_or_all_off : sat_impl rs_or (on_of all_off) = true /\ sat_pms rs_or (on_of all_off) = false.
Proof. split; reflexivity. Qed.
Lemma rs_one_only_c : sat_impl rs_one (on_of only_c) = false /\ sat_pms rs_one (on_of only_c) = true.
Proof. split; reflexivity. Qed.
Lemma rs_or_witness solve : S solve ->
  exists cs, problem rs_or [0; 1; 2]%N [] [] [2%N] = Ok (dom3, cs) /\ In all_off (solve dom3 cs).
Proof.
  intro HS. assert (E : exists cs, problem rs_or [0; 1; 2]%N [] [] [2%N] = Ok (dom3, cs))
    by (eexists; reflexivity).
  destruct E as (cs & E). exists cs. split; [exact E|].
  apply (solutions_exact solve HS rs_or _ _ _ _ _ _ eq_refl E). repeat split.
Qed.
Lemma rs_one_witness solve : S solve ->
  exists cs, problem rs_one [0; 1; 2]%N [] [] [2%N] = Ok (dom3, cs) /\ ~ In only_c (solve dom3 cs).
Proof.
  intro HS. assert (E : exists cs, problem rs_one [0; 1; 2]%N [] [] [2%N] = Ok (dom3, cs))
    by (eexists; reflexivity).
  destruct E as (cs & E). exists cs. split; [exact E|]. intro K.
  apply (solutions_exact solve HS rs_one _ _ _ _ _ _ eq_refl E) in K as (_ & _ & K).
  destruct rs_one_only_c. congruence.
Qed.

(* non-vacuity of the hypotheses of the positive theorems: a tree outside the known class with a
   nested conditional, ^^ and ??, several solutions, a non-solution, forced and preferred flags *)
Example positive_example :
  let rs := [Cond false 0%N [Grp KOne false [Flag false false [1%N]; Flag true false [2%N]]];
             Grp KAmo false [Flag false false [0%N]; Flag false false [3%N]]] in
  known_class rs = false /\ wf_all rs = true
  /\ run_fcs (rs, ([0;1;2;3]%N, [0]%N, [], [2]%N))
     = VL [VB false; VL [VL [VZ 15; VZ 1]; VL [VZ 15; VZ 7]]].
Proof. vm_compute. repeat split. Qed.
