(* Hardlinks_C18.v — on the NoAlias domain, entries that shared an inode in the source and are
   linkable end on one inode (invariant HL over the non-directory pass). *)
From Coq Require Import List ZArith.
Import ListNotations.
From Verif Require Import C18.Fs C18.FsLemmas C18.Model_C18 C18.Spec_C18 C18.Exact_C18 C18.Shapes_C18.

Lemma can_hl_sym c x : can_hl c x = true -> can_hl x c = true.
Proof.
  intro H. apply can_hl_spec in H as (d & d' & i & A & B & E1 & E2 & E3 & E4).
  apply can_hl_spec. exists d', d, i. auto 10.
Qed.
Lemma can_hl_trans a b c : can_hl a b = true -> can_hl b c = true -> can_hl a c = true.
Proof.
  intros H1 H2. apply can_hl_spec in H1 as (d & d' & i & A & B & E1 & E2 & E3 & E4).
  apply can_hl_spec in H2 as (d2 & d3 & j & A' & B' & F1 & F2 & F3 & F4).
  rewrite B in A'. injection A' as <- <-.
  apply can_hl_spec. exists d, d3, i. repeat split; auto; congruence.
Qed.
Lemma can_hl_refl_r c x : can_hl c x = true -> can_hl x x = true.
Proof. intro H. eapply can_hl_trans; [apply can_hl_sym|]; eauto. Qed.
Lemma can_hl_refl_l c x : can_hl c x = true -> can_hl c c = true.
Proof. intro H. eapply can_hl_trans; [|apply can_hl_sym]; eauto. Qed.


Section Hardlinks.
Variable um : N.
Variable C : list entry.
Variable s0 : fs.
Hypothesis HD : Dom C s0.

(* the candidates are pairwise unlinkable, and every processed linkable file sits on the inode of
   one of them *)
Record HL (merged P : list entry) (s : fs) : Prop := {
  hl_sep : forall r1 r2, In r1 merged -> In r2 merged -> can_hl r1 r2 = true -> e_loc r1 = e_loc r2;
  hl_rep : forall y, In y P -> can_hl y y = true ->
           exists r i, In r merged /\ can_hl r y = true /\ ino_at s (e_loc y) = Some i /\ ino_at s (e_loc r) = Some i
}.

Lemma nondir_step_hl P s x merged ops merged' s1 :
  Inv C s0 P s -> In x C -> (forall y, In y P -> e_loc y <> e_loc x) -> is_kdir x = false ->
  (forall d, In d C -> is_kdir d = true -> In d P) -> files_in merged P -> HL merged P s ->
  nondir_step um s merged x = (ops, None, merged') -> run_opt ops s = Some s1 ->
  HL merged' (x :: P) s1.
Proof.
  intros HI Hx Hfr Hk Hdirs Hm HH Hst Hrun.
  destruct (nondir_step_inv um C s0 HD P s x HI Hx Hfr merged ops merged' s1 Hk Hdirs Hm Hst Hrun) as [HI1 Hm1].
  pose proof (nondir_step_crash um C s0 HD P s x HI Hx Hfr merged ops merged' s1 Hk Hdirs Hm Hst Hrun) as BC.
  assert (Hstep : forall y, In y P -> ino_at s1 (e_loc y) = ino_at s (e_loc y)).
  { intros y Hy. unfold ino_at. destruct (inv_good _ _ _ _ HI y Hy) as (n & L & _).
    rewrite (bc_final _ _ _ _ (e_loc y) BC Hrun); auto. congruence. }
  assert (Hold : forall m', incl merged m' -> forall y, In y P -> can_hl y y = true ->
            exists r i, In r m' /\ can_hl r y = true /\ ino_at s1 (e_loc y) = Some i /\ ino_at s1 (e_loc r) = Some i).
  { intros m' Hinc y Hy Hyy. destruct (hl_rep _ _ _ HH y Hy Hyy) as (r & i & Hr & Hc & E1 & E2).
    exists r, i. split; [now apply Hinc|]. split; [exact Hc|].
    destruct (Hm r Hr) as [HrP _]. now rewrite !Hstep. }
  revert Hrun.
  apply (nondir_step_elim um C s0 HD P s x HI Hx Hfr (fun ops0 m' => run_opt ops0 s = Some s1 -> HL m' (x :: P) s1)
           merged ops merged' Hk Hm); [| |exact Hst].
  - intros c nc Hc Hhl Hlc Hfile _ Hlx Hrun.
    cbn in Hrun. rewrite Hlc, Hfile in Hrun. destruct (can_create s (e_loc x)); [|discriminate]. injection Hrun as <-.
    destruct (Hm c Hc) as [HcP _]. constructor.
    + apply (hl_sep _ _ _ HH).
    + intros y [<-|Hy] Hyy; [|now apply (Hold merged (incl_refl _))].
      destruct nc; try discriminate. exists c, ino. split; [exact Hc|]. split; [exact Hhl|]. unfold ino_at.
      rewrite lookup_set_same. rewrite lookup_set_other by (apply Hfr; exact HcP). now rewrite Hlc.
  - intros ops0 m' Hcf [[-> Hxx]|(-> & Hnone & d & hl & Ek)] Hrun.
    + constructor; [apply (hl_sep _ _ _ HH)|].
      intros y [<-|Hy] Hyy; [congruence|now apply (Hold merged (incl_refl _))].
    + constructor.
      * intros r1 r2 H1 H2 Hc. apply in_app_or in H1 as [H1|[<-|[]]]; apply in_app_or in H2 as [H2|[<-|[]]].
        -- now apply (hl_sep _ _ _ HH).
        -- rewrite (Hnone r1 H1) in Hc. discriminate.
        -- apply can_hl_sym in Hc. rewrite (Hnone r2 H2) in Hc. discriminate.
        -- reflexivity.
      * intros y [<-|Hy] Hyy; [|apply (Hold (merged ++ [x])); auto; intros z Hz; apply in_or_app; now left].
        destruct (inv_good _ _ _ _ HI1 x (or_introl eq_refl)) as (n & L & G).
        assert (R : realises x n).
        { destruct G as [R|(K & _)]; [exact R|]. rewrite Hk in K. discriminate. }
        pose proof (realises_file_node _ _ _ _ Ek R) as Hf. destruct n; try discriminate.
        exists x, ino. split; [apply in_or_app; right; now left|]. split; [exact Hyy|].
        unfold ino_at. rewrite L. auto.
Qed.

Lemma nondirs_phase_hl xs P s merged ops sf :
  pending C false P xs -> Inv C s0 P s -> (forall d, In d C -> is_kdir d = true -> In d P) ->
  files_in merged P -> nondirs_phase um s merged xs = (ops, sf, None) ->
  forall s', run_opt ops s = Some s' -> HL merged P s -> exists mf, HL mf (rev xs ++ P) s'.
Proof.
  apply (nondirs_phase_ind um C s0 HD (fun P s m xs _ s' => HL m P s -> exists mf, HL mf (rev xs ++ P) s')); [eauto|].
  cbv beta. intros P0 s1 m x r ops1 m' s2 ops2 s' Hpe HI Hdirs Hm Hst Hr1 _ IH HH.
  destruct (pending_cons _ _ _ _ _ Hpe) as (HxC & Hxk & Hfrx & _).
  cbn [rev]. rewrite <- app_assoc. apply IH. eapply nondir_step_hl; eauto.
Qed.

Lemma HL_share merged P s c x :
  HL merged P s -> In c P -> In x P -> can_hl c x = true ->
  exists j, ino_at s (e_loc c) = Some j /\ ino_at s (e_loc x) = Some j.
Proof.
  intros HH Hc Hx Hhl.
  destruct (hl_rep _ _ _ HH c Hc (can_hl_refl_l _ _ Hhl)) as (rc & jc & Hrc & Hcrc & Ec1 & Ec2).
  destruct (hl_rep _ _ _ HH x Hx (can_hl_refl_r _ _ Hhl)) as (rx & jx & Hrx & Hcrx & Ex1 & Ex2).
  assert (Hrr : can_hl rc rx = true).
  { eapply can_hl_trans; [exact Hcrc|]. eapply can_hl_trans; [exact Hhl|]. now apply can_hl_sym. }
  pose proof (hl_sep _ _ _ HH rc rx Hrc Hrx Hrr) as Eloc.
  exists jc. split; [exact Ec1|]. rewrite Ex1. rewrite <- Ex2, <- Eloc. exact Ec2.
Qed.

End Hardlinks.

Lemma merge_hl i sf :
  noalias i = true -> merge_err i = None -> run_opt (merge_ops i) (i_fs i) = Some sf ->
  exists mf P, HL mf P sf /\ (forall y, In y (cset_of i) -> can_hl y y = true -> In y P).
Proof.
  intros Hna Herr Hrun.
  destruct (merge_passes i sf Hna Herr Hrun) as (HD & ops1 & s1 & ops2 & s2 & _ & E1 & Hr1 & E2 & Hr2 & Hp1 & Hp2 & Hdirs).
  pose proof (dirs_phase_inv _ _ _ HD _ _ _ _ _ Hp1 (inv_start _ _) E1 _ Hr1) as HI1. rewrite app_nil_r in HI1.
  assert (Hfile : forall y, can_hl y y = true -> is_kdir y = false).
  { intros y Hyy. apply can_hl_spec in Hyy as (d & _ & j & Ek & _). unfold is_kdir. now rewrite Ek. }
  assert (Hm0 : files_in [] (rev (dirs_of (cset_of i)))) by (intros c []).
  assert (HH0 : HL [] (rev (dirs_of (cset_of i))) s1).
  { constructor; [intros ? ? []|]. intros y Hy Hyy. exfalso. apply in_rev in Hy.
    destruct Hp1 as (Hds & _). destruct (Hds y Hy) as [_ Hk]. rewrite (Hfile y Hyy) in Hk. discriminate. }
  destruct (nondirs_phase_hl _ _ _ HD _ _ _ _ _ _ Hp2 HI1 Hdirs Hm0 E2 _ Hr2 HH0) as [mf HH].
  exists mf, (rev (nondirs_of (cset_of i)) ++ rev (dirs_of (cset_of i))). split; [exact HH|].
    intros y Hy Hyy. apply in_or_app. left. apply -> in_rev. apply filter_In. now rewrite (Hfile y Hyy).
Qed.
