(* Proofs_C02.v — proofs about Model_C02 against Spec_C02. *)
From Coq Require Import List ZArith Bool.
Import ListNotations.
From Verif Require Import Base.Val gen.Tables_C02 C01.Model_C01 C01.Spec_C01 C01.Order_C01
  C01.Proofs_C01 C02.Model_C02 C02.Spec_C02.

Lemma list_eqb_eq l1 l2 : list_eqb str_eqb l1 l2 = true <-> l1 = l2.
Proof.
  revert l2; induction l1 as [|x l1 IH]; intros [|y l2]; cbn; split; intros H; try reflexivity; try discriminate.
  - apply andb_true_iff in H as [H1 H2]. apply str_eqb_eq in H1. apply IH in H2. congruence.
  - injection H as -> ->. rewrite str_eqb_refl. apply IH. reflexivity.
Qed.
Lemma opt_eqb_eq {A} (eqb : A -> A -> bool) (H : forall x y, eqb x y = true <-> x = y) o1 o2 :
  opt_eqb eqb o1 o2 = true <-> o1 = o2.
Proof.
  destruct o1, o2; cbn; split; intros E; try reflexivity; try discriminate.
  - apply H in E. congruence.
  - injection E as ->. apply H. reflexivity.
Qed.
Definition opt_str_eq := opt_eqb_eq str_eqb str_eqb_eq.
Definition opt_list_eq := opt_eqb_eq (list_eqb str_eqb) list_eqb_eq.

(* the answers of the six operators of a three-valued comparison [c], with hash answer [h] *)
Definition obs_of (c : Z) (h : bool) : obs :=
  {| o_eq := Z.eqb c 0; o_ne := negb (Z.eqb c 0); o_lt := Z.ltb c 0; o_le := Z.leb c 0;
     o_gt := Z.gtb c 0; o_ge := Z.geb c 0; o_hash := h |}.

Lemma order_clauses_of_Z (c : Z) (h : bool) :
  cl_eq_unordered (obs_of c h) = true /\ cl_neq_strict (obs_of c h) = true /\ cl_ne (obs_of c h) = true
  /\ cl_le (obs_of c h) = true /\ cl_ge (obs_of c h) = true /\ cl_asym (obs_of c h) = true.
Proof. destruct c; cbn; repeat split; reflexivity. Qed.

Section CpvParse.
  (* the CPV parser is not modelled; all that is used is that the fields of a CPV are a FUNCTION of
     its (normalised) text: re-parsing cpvstr gives category, package, version and revision value *)
  Variable cpv_parse : str -> str * str * str * N.
  Definition cpv_consistent (a : cpv) : Prop :=
    cpv_parse (cpv_hash_key a) = (cat a, pkg a, ver a, rev_val (rev a)).

  Lemma cpv_key_sound a b : cpv_consistent a -> cpv_consistent b ->
    cpv_hash_key a = cpv_hash_key b -> cpv_eq a b = true.
  Proof.
    unfold cpv_consistent. intros Ca Cb E. rewrite E in Ca. rewrite Ca in Cb.
    injection Cb as E1 E2 E3 E4.
    unfold cpv_eq, same_key, cpv_vcmp. rewrite E1, E2, E3, !str_eqb_refl, ver_cmp_same. unfold rev_cmp. rewrite E4, cmpN_refl.
    reflexivity.
  Qed.

  Lemma cpv_eq2_eq a b : cpv_consistent a -> cpv_consistent b -> cpv_eq2 a b = cpv_eq a b.
  Proof.
    intros Ca Cb. unfold cpv_eq2. destruct (str_eqb (cpv_hash_key a) (cpv_hash_key b)) eqn:E; [|reflexivity].
    apply str_eqb_eq in E. rewrite (cpv_key_sound a b Ca Cb E). reflexivity.
  Qed.

  Lemma cpv_eq_same_text_key a b : cpv_eq a b = true -> ver a = ver b -> cpv_hash_key a = cpv_hash_key b.
  Proof.
    unfold cpv_eq, same_key, cpv_vcmp. intros H Ev.
    apply andb_true_iff in H as [H Hc]. apply andb_true_iff in H as [H1 H2].
    apply (proj1 (str_eqb_eq _ _)) in H1. apply (proj1 (str_eqb_eq _ _)) in H2.
    rewrite Ev, ver_cmp_same in Hc. apply (proj1 (Z.eqb_eq _ _)) in Hc. apply (proj1 (cmpN_eq _ _)) in Hc.
    unfold cpv_hash_key. rewrite H1, H2, Ev, Hc. reflexivity.
  Qed.

  Lemma cpv_obs_of_cmp a b : cpv_consistent a -> cpv_consistent b ->
    cpv_obs a b = obs_of (cpv_cmp a b) (str_eqb (cpv_hash_key a) (cpv_hash_key b)).
  Proof.
    intros Ca Cb. unfold cpv_obs, obs_of. rewrite (cpv_eq2_eq a b Ca Cb).
    destruct (cpv_ops_proof a b) as (-> & _ & -> & -> & -> & ->). reflexivity.
  Qed.
End CpvParse.

Lemma cpv_hash_clause a b :
  cpv_known a b || impb (cpv_eq a b) (str_eqb (cpv_hash_key a) (cpv_hash_key b)) = true.
Proof.
  unfold impb, cpv_known. destruct (cpv_eq a b) eqn:E; [|apply orb_true_r]. cbn [negb orb].
  assert (S : same_key a b = true) by (unfold cpv_eq in E; apply andb_true_iff in E; tauto).
  rewrite S. cbn [andb]. destruct (str_eqb (ver a) (ver b)) eqn:Ev; [|reflexivity]. cbn [negb orb].
  apply str_eqb_eq in Ev. apply str_eqb_eq. apply cpv_eq_same_text_key; assumption.
Qed.

(* refuted: equal CPVs hashed by different texts (1.0 vs 1.00; _alpha vs _alpha0) *)
Definition mk_cpv (v : str) : cpv := {| cat := [97]%N; pkg := [98]%N; ver := v; rev := None |}.
Lemma cpv_eq_hash_refuted :
  (cpv_eq2 (mk_cpv [49;46;48]%N) (mk_cpv [49;46;48;48]%N) = true
   /\ cpv_hash_key (mk_cpv [49;46;48]%N) <> cpv_hash_key (mk_cpv [49;46;48;48]%N)
   /\ cpv_known (mk_cpv [49;46;48]%N) (mk_cpv [49;46;48;48]%N) = true)
  /\ (cpv_eq2 (mk_cpv [49;95;97;108;112;104;97]%N) (mk_cpv [49;95;97;108;112;104;97;48]%N) = true
      /\ cpv_hash_key (mk_cpv [49;95;97;108;112;104;97]%N) <> cpv_hash_key (mk_cpv [49;95;97;108;112;104;97;48]%N)).
Proof. vm_compute. repeat split; try reflexivity; discriminate. Qed.

Definition attrs_equal (a b : atomf) : Prop :=
  a_cpvstr a = a_cpvstr b /\ a_op a = a_op b /\ a_blocks a = a_blocks b /\ a_negate a = a_negate b
  /\ a_use a = a_use b /\ a_slot a = a_slot b /\ a_subslot a = a_subslot b /\ a_slotop a = a_slotop b
  /\ a_repo a = a_repo b.

(* depends on the regenerated attribute list *)
Lemma atom_eq_spec a b : atom_eq a b = true <-> attrs_equal a b.
Proof.
  unfold atom_eq, attrs_equal.
  change attr_comparison with [0;1;2;3;4;5;6;7;8]%N. cbn [forallb attr_eqb].
  rewrite !andb_true_iff, !str_eqb_eq, !Bool.eqb_true_iff, !opt_str_eq, opt_list_eq. tauto.
Qed.

Lemma chain_zero ids a b : chain_cmp ids a b = 0%Z <-> Forall (fun id => key_cmp id a b = 0%Z) ids.
Proof.
  induction ids as [|id ids IH]; cbn [chain_cmp]; [split; [constructor|reflexivity]|].
  destruct (Z.eqb_spec (key_cmp id a b) 0) as [E|E]; split; intros H.
  - constructor; [exact E|apply IH; exact H].
  - inversion H; subst. apply IH; assumption.
  - contradiction.
  - inversion H; subst. contradiction.
Qed.

Lemma tuple_cmp_lex a b : tuple_cmp a b = list_lex str_cmp a b.
Proof. revert b; induction a as [|x a IH]; intros [|y b]; cbn; try reflexivity. rewrite IH. reflexivity. Qed.

Lemma tuple_cmp_zero a b : tuple_cmp a b = 0%Z <-> a = b.
Proof. rewrite tuple_cmp_lex. apply list_lex_eq, str_cmp_eq. Qed.

Lemma cmp_opt_zero {A} (c : A -> A -> Z) (Hc : forall x y, c x y = 0%Z <-> x = y) o1 o2 :
  cmp_opt c o1 o2 = 0%Z <-> o1 = o2.
Proof.
  destruct o1, o2; cbn; split; intros H; try reflexivity; try discriminate.
  - apply Hc in H. congruence.
  - injection H as ->. apply Hc. reflexivity.
Qed.

Lemma cmp_bool_zero a b : cmp_bool a b = 0%Z <-> a = b.
Proof. destruct a, b; cbn; split; intros H; try reflexivity; discriminate. Qed.

Definition keys_equal (a b : atomf) : Prop :=
  a_cat a = a_cat b /\ a_pkg a = a_pkg b /\ a_op a = a_op b /\ atom_vcmp a b = 0%Z
  /\ a_blocks a = a_blocks b /\ a_bstrong a = a_bstrong b /\ a_negate a = a_negate b
  /\ slot_text (a_slot a) = slot_text (a_slot b) /\ a_use a = a_use b /\ a_repo a = a_repo b.

Lemma atom_cmp_spec a b : atom_cmp a b = 0%Z <-> keys_equal a b.
Proof.
  (* depends on the regenerated key chain *)
  unfold atom_cmp, keys_equal. rewrite chain_zero. change cmp_chain with [0;1;2;3;4;5;6;7;8;9]%N.
  rewrite !Forall_cons_iff, Forall_nil_iff. cbn [key_cmp].
  rewrite Z.eq_opp_l, Z.opp_0, !str_cmp_eq, !cmp_bool_zero,
    (cmp_opt_zero tuple_cmp tuple_cmp_zero), (cmp_opt_zero str_cmp str_cmp_eq). tauto.
Qed.

Section AtomParse.
  (* the atom/CPV parser is not modelled; all that is used is that category, package, version and
     revision are a FUNCTION of the operator (versioned or not) and the cpv text *)
  Variable atom_parse : str -> str -> str * str * option str * option N.
  Definition atom_consistent (a : atomf) : Prop :=
    atom_parse (a_op a) (a_cpvstr a) = (a_cat a, a_pkg a, a_ver a, a_rev a).
  (* an empty slot is rejected by the parser *)
  Definition slot_wf (a : atomf) : Prop := a_slot a <> Some [].

  Lemma atom_vcmp_same a b : a_ver a = a_ver b -> a_rev a = a_rev b -> atom_vcmp a b = 0%Z.
  Proof.
    unfold atom_vcmp. intros -> ->. destruct (a_ver b); [|reflexivity].
    rewrite ver_cmp_same. apply cmpN_refl.
  Qed.

  Lemma atom_eq_cmp_zero a b : atom_consistent a -> atom_consistent b ->
    atom_eq a b = true -> k_strength a b = false -> atom_cmp a b = 0%Z.
  Proof.
    intros Ca Cb E K. apply (proj1 (atom_eq_spec _ _)) in E. destruct E as (E0 & E1 & E2 & E3 & E4 & E5 & E6 & E7 & E8).
    unfold k_strength in K. apply negb_false_iff in K. apply (proj1 (Bool.eqb_true_iff _ _)) in K.
    unfold atom_consistent in Ca, Cb. rewrite E0, E1, Cb in Ca. injection Ca as P1 P2 P3 P4.
    apply atom_cmp_spec. unfold keys_equal. rewrite E5.
    repeat split; try congruence. apply atom_vcmp_same; congruence.
  Qed.

  Lemma atom_cmp_zero_eq a b : slot_wf a -> slot_wf b ->
    atom_cmp a b = 0%Z -> k_blind a b = false -> atom_eq a b = true.
  Proof.
    intros Wa Wb C K. apply atom_cmp_spec in C as (C0 & C1 & C2 & _ & C4 & _ & C6 & C7 & C8 & C9).
    unfold k_blind in K. apply orb_false_iff in K as [K K3]. apply orb_false_iff in K as [K1 K2].
    apply negb_false_iff in K1, K2, K3. apply (proj1 (opt_str_eq _ _)) in K1. apply (proj1 (opt_str_eq _ _)) in K2.
    apply (proj1 (str_eqb_eq _ _)) in K3.
    assert (Hs : a_slot a = a_slot b).
    { unfold slot_wf in Wa, Wb. unfold slot_text in C7.
      destruct (a_slot a) as [[|x s]|], (a_slot b) as [[|y t]|]; cbn in *; try congruence; try reflexivity;
        try (exfalso; apply Wa; reflexivity); try (exfalso; apply Wb; reflexivity). }
    apply atom_eq_spec. unfold attrs_equal. repeat split; assumption.
  Qed.

  Lemma atom_eq_hash_outside a b :
    atom_eq a b = true -> k_strength a b = false -> k_use_order a b = false ->
    atom_hash_key a = atom_hash_key b.
  Proof.
    intros E K1 K2. apply (proj1 (atom_eq_spec _ _)) in E. destruct E as (E0 & E1 & E2 & E3 & E4 & E5 & E6 & E7 & E8).
    unfold k_strength in K1. apply negb_false_iff in K1. apply (proj1 (Bool.eqb_true_iff _ _)) in K1.
    unfold k_use_order in K2. apply negb_false_iff in K2. apply (proj1 (opt_list_eq _ _)) in K2.
    unfold atom_hash_key, atom_text. rewrite E0, E1, E2, K1, K2, E5, E6, E7, E8. reflexivity.
  Qed.

  (* the order operators of atoms are those of atom_cmp by definition; == is "atom_cmp = 0" outside
     the classes *)
  Lemma atom_eq_is_cmp a b : atom_consistent a -> atom_consistent b -> slot_wf a -> slot_wf b ->
    k_strength a b = false -> k_blind a b = false -> atom_eq a b = Z.eqb (atom_cmp a b) 0.
  Proof.
    intros Ca Cb Wa Wb K1 K2. destruct (atom_eq a b) eqn:E.
    - symmetry. apply Z.eqb_eq. apply atom_eq_cmp_zero; assumption.
    - destruct (Z.eqb_spec (atom_cmp a b) 0) as [E0|E0]; [|reflexivity].
      rewrite (atom_cmp_zero_eq a b Wa Wb E0 K2) in E. discriminate.
  Qed.

  Lemma atom_clauses_proof a b :
    atom_consistent a -> atom_consistent b -> slot_wf a -> slot_wf b ->
    atom_clauses a b (atom_obs a b) = true.
  Proof.
    intros Ca Cb Wa Wb. unfold atom_clauses, atom_obs, atom_ne, atom_lt, atom_le, atom_gt, atom_ge.
    unfold cl_eq_hash, cl_eq_unordered, cl_neq_strict, cl_ne, cl_le, cl_ge, cl_asym, impb.
    cbn [o_eq o_ne o_lt o_le o_gt o_ge o_hash].
    repeat (apply andb_true_iff; split).
    - (* equal => equal hashes *)
      destruct (k_strength a b) eqn:K1; [reflexivity|]. destruct (k_use_order a b) eqn:K3; [reflexivity|].
      destruct (atom_eq a b) eqn:E; [|reflexivity].
      rewrite (atom_eq_hash_outside a b E K1 K3). apply str_eqb_refl.
    - (* equal => unordered *)
      destruct (k_strength a b) eqn:K1; [reflexivity|]. destruct (atom_eq a b) eqn:E; [|reflexivity].
      rewrite (atom_eq_cmp_zero a b Ca Cb E K1). reflexivity.
    - (* unequal => strictly ordered *)
      destruct (k_blind a b) eqn:K2; [reflexivity|]. destruct (atom_eq a b) eqn:E; [reflexivity|].
      destruct (atom_cmp a b) eqn:C; try reflexivity.
      rewrite (atom_cmp_zero_eq a b Wa Wb C K2) in E. discriminate.
    - destruct (atom_eq a b); reflexivity.
    - (* <= and >= *)
      destruct (k_strength a b) eqn:K1; [reflexivity|]. destruct (k_blind a b) eqn:K2; [reflexivity|].
      rewrite (atom_eq_is_cmp a b Ca Cb Wa Wb K1 K2). destruct (atom_cmp a b); reflexivity.
    - destruct (atom_cmp a b); reflexivity.
  Qed.
End AtomParse.

Definition mk_atom (bs : bool) (op cpvs : str) (u : option (list str)) (sub : option str)
                   (v : option str) : atomf :=
  {| a_cpvstr := cpvs; a_op := op; a_blocks := bs; a_bstrong := bs; a_negate := false; a_use_raw := u;
     a_slot := match sub with Some _ => Some [48]%N | None => None end; a_subslot := sub; a_slotop := None;
     a_repo := None; a_cat := [97]%N; a_pkg := [98]%N; a_ver := v; a_rev := None |}.
Definition weak (a : atomf) : atomf :=
  {| a_cpvstr := a_cpvstr a; a_op := a_op a; a_blocks := true; a_bstrong := false; a_negate := a_negate a;
     a_use_raw := a_use_raw a; a_slot := a_slot a; a_subslot := a_subslot a; a_slotop := a_slotop a;
     a_repo := a_repo a; a_cat := a_cat a; a_pkg := a_pkg a; a_ver := a_ver a; a_rev := a_rev a |}.
Definition ab : str := [97;47;98]%N.                                       (* "a/b" *)

Lemma good_cmp_opt {A} (c : A -> A -> Z) : good c -> good (cmp_opt c).
Proof.
  intros G. constructor.
  - intros [x|] [y|]; cbn; auto. apply (g_range G).
  - intros [x|]; cbn; [apply (g_refl G)|reflexivity].
  - intros [x|] [y|]; cbn; try reflexivity. apply (g_anti G).
  - intros [x|] [y|] [z|]; cbn; intros H; try reflexivity; try discriminate. apply (g_eq G); assumption.
  - intros [x|] [y|] [z|]; cbn; intros H1 H2; try reflexivity; try discriminate. eapply (g_lt G); eassumption.
Qed.

Lemma good_cmp_bool : good cmp_bool.
Proof. apply (good_pull (fun b : bool => if b then 1%Z else 0%Z) _ good_cmpZ). Qed.

(* the inverted key: blockers sort after non-blockers *)
Lemma good_neg_cmp_bool : good (fun a b => (- cmp_bool a b)%Z).
Proof.
  apply (good_ext (on negb cmp_bool)); [intros [] []; reflexivity|apply good_pull, good_cmp_bool].
Qed.

Lemma good_tuple_cmp : good tuple_cmp.
Proof. apply (good_ext (list_lex str_cmp)); [intros; symmetry; apply tuple_cmp_lex|apply good_list_lex, good_str_cmp]. Qed.

(* the version AST is not a field of the atom record: the key pairs the atom with an AST chosen for
   its version text ([ast_of]); [ast_of] also records that a versioned atom has an operator, which
   is what makes the version key comparable only between atoms of equal operator *)
Definition akeyT : Type := (atomf * option vkey)%type.
Definition akcmp : akeyT -> akeyT -> Z :=
  thenc (on (fun x => a_cat (fst x)) str_cmp)
 (thenc (on (fun x => a_pkg (fst x)) str_cmp)
 (thenc (on (fun x => a_op (fst x)) str_cmp)
 (thenc (on snd (cmp_opt kcmp))
 (thenc (on (fun x => a_blocks (fst x)) (fun a b => (- cmp_bool a b)%Z))
 (thenc (on (fun x => a_bstrong (fst x)) cmp_bool)
 (thenc (on (fun x => a_negate (fst x)) cmp_bool)
 (thenc (on (fun x => slot_text (a_slot (fst x))) str_cmp)
 (thenc (on (fun x => a_use (fst x)) (cmp_opt tuple_cmp))
        (on (fun x => a_repo (fst x)) (cmp_opt str_cmp)))))))))).

Lemma good_akcmp : good akcmp.
Proof.
  unfold akcmp. auto 20 using good_cmp_opt, good_cmp_bool, good_neg_cmp_bool, good_tuple_cmp with good.
Qed.

(* a parsed atom: an operator exactly when versioned (atom.__init__ enforces it), valid version *)
Definition atom_valid (a : atomf) : Prop :=
  (a_ver a = None <-> a_op a = []) /\ (forall v, a_ver a = Some v -> is_version v).

Definition ast_of (a : atomf) (va : option vast) : Prop :=
  match a_ver a, va with
  | None, None => a_op a = []
  | Some v, Some t => wf_vast t = true /\ print_vast t = v /\ a_op a <> []
  | _, _ => False
  end.
Definition akey (a : atomf) (va : option vast) : akeyT :=
  (a, option_map (fun t => (t, rev_val (a_rev a))) va).

Lemma atom_valid_ast a : atom_valid a -> exists va, ast_of a va.
Proof.
  intros [H1 H2]. unfold ast_of. destruct (a_ver a) as [v|] eqn:E.
  - destruct (H2 v eq_refl) as [t [W P]]. exists (Some t). repeat split; try assumption.
    intros O. apply H1 in O. discriminate.
  - exists None. apply H1. reflexivity.
Qed.

Lemma atom_cmp_akcmp a b va vb : ast_of a va -> ast_of b vb -> atom_cmp a b = akcmp (akey a va) (akey b vb).
Proof.
  intros Aa Ab. unfold atom_cmp. change cmp_chain with [0;1;2;3;4;5;6;7;8;9]%N.
  cbn [chain_cmp key_cmp]. unfold akcmp, thenc, on, akey. cbn [fst snd].
  (* the version keys agree once the operators are equal: both versioned or both not *)
  apply seqc_ext; intros _. apply seqc_ext; intros _. apply seqc_ext; intros Eo. apply str_cmp_eq in Eo.
  replace (atom_vcmp a b) with (cmp_opt kcmp (option_map (fun t => (t, rev_val (a_rev a))) va)
                                             (option_map (fun t => (t, rev_val (a_rev b))) vb)).
  - repeat (apply seqc_ext; intros _). unfold seqc. destruct (Z.eqb_spec (cmp_opt str_cmp (a_repo a) (a_repo b)) 0); congruence.
  - unfold atom_vcmp, ast_of in *.
    destruct (a_ver a) as [v1|], va as [t1|]; try contradiction;
    destruct (a_ver b) as [v2|], vb as [t2|]; try contradiction; cbn [option_map cmp_opt].
    + destruct Aa as (W1 & P1 & _), Ab as (W2 & P2 & _). rewrite <- P1, <- P2. symmetry. apply ver_cmp_kcmp; assumption.
    + destruct Aa as (_ & _ & N1). rewrite Eo in N1. contradiction.
    + destruct Ab as (_ & _ & N2). rewrite <- Eo in N2. contradiction.
    + reflexivity.
Qed.

Lemma atom_cmp_keys a b c : atom_valid a -> atom_valid b -> atom_valid c ->
  exists ka kb kc, atom_cmp a b = akcmp ka kb /\ atom_cmp a a = akcmp ka ka /\ atom_cmp b a = akcmp kb ka
                   /\ atom_cmp b c = akcmp kb kc /\ atom_cmp a c = akcmp ka kc.
Proof.
  intros Va Vb Vc.
  destruct (atom_valid_ast a Va) as [va Aa], (atom_valid_ast b Vb) as [vb Ab], (atom_valid_ast c Vc) as [vc Ac].
  exists (akey a va), (akey b vb), (akey c vc). repeat split; apply atom_cmp_akcmp; assumption.
Qed.

(* non-vacuity of [atom_valid] *)
Example atom_order_example :
  atom_valid (mk_atom false [61]%N [97;47;98;45;49;46;48]%N None None (Some [49;46;48]%N))
  /\ atom_valid (mk_atom true [] ab None None None).
Proof.
  split; split; cbn; try (split; intros; discriminate); try (split; intros; reflexivity).
  - intros v H. injection H as <-.
    exists {| nums := [[49]%N; [48]%N]; letter := None; sufs := [] |}. split; reflexivity.
  - intros v H. discriminate.
Qed.
