(* Proofs_C01.v — proofs about Model_C01 against Spec_C01. *)
From Coq Require Import List ZArith Bool Lia.
Import ListNotations.
From Verif Require Import Base.Val Base.Lists gen.Tables_C01 C01.Model_C01 C01.Spec_C01 C01.Order_C01.

Lemma is_digit_bounds x : is_digit x = true -> (48 <= x <= 57)%N.
Proof. unfold is_digit. intros H. apply andb_true_iff in H as [H1 H2].
  apply N.leb_le in H1. apply N.leb_le in H2. lia. Qed.

(* both regenerated lists of suffix names (the one ver_cmp parses with, the one of the validity
   regex) read a kind name followed by digits as that kind: "p" is tried after "pre", and a digit
   is not an "r" *)
Lemma parse_suffix_in_kind names k d :
  names = suffix_regexp_names \/ names = valid_suffix_names -> all_digits d = true ->
  parse_suffix_in names (kind_name k ++ d) = Some (kind_name k, d).
Proof.
  intros Hn H.
  destruct Hn as [-> | ->]; destruct k; cbn -[all_digits]; rewrite ?H; try reflexivity;
    (destruct d as [|x d']; [reflexivity|]);
    assert (Hx : is_digit x = true) by (cbn in H; apply andb_true_iff in H; tauto);
    apply is_digit_bounds in Hx;
    (destruct x as [|q]; [lia|]); cbn -[all_digits];
    (destruct (Pos.eqb_spec 114 q) as [E|_]; [subst q; lia|]);
    cbn -[all_digits]; rewrite ?H; reflexivity.
Qed.

Lemma parse_suffix_print k d :
  all_digits d = true -> parse_suffix (kind_name k ++ d) = (kind_name k, d).
Proof. intros H. unfold parse_suffix. rewrite (parse_suffix_in_kind _ k d (or_introl eq_refl) H). reflexivity. Qed.

Lemma suffix_val_rank k1 k2 :
  cmpZ (suffix_val (kind_name k1)) (suffix_val (kind_name k2)) = cmpZ (rank k1) (rank k2).
Proof. destruct k1, k2; vm_compute; reflexivity. Qed.

Lemma split_nonempty c s : split_on c s <> [].
Proof.
  destruct s as [|x s]; cbn; [discriminate|].
  destruct (N.eqb x c); [discriminate|]. destruct (split_on c s); discriminate.
Qed.

Lemma split_notin c s : ~ In c s -> split_on c s = [s].
Proof.
  induction s as [|x s IH]; intros H; cbn; [reflexivity|].
  destruct (N.eqb_spec x c) as [->|_]; [exfalso; apply H; left; reflexivity|].
  rewrite IH; [reflexivity|]. intros H'; apply H; right; exact H'.
Qed.

Lemma split_app_gen c a b : split_on c (a ++ c :: b) = split_on c a ++ split_on c b.
Proof.
  induction a as [|x a IH]; cbn.
  - rewrite N.eqb_refl. reflexivity.
  - destruct (N.eqb x c); [rewrite IH; reflexivity|].
    rewrite IH. destruct (split_on c a) as [|h t] eqn:E; [|reflexivity].
    exfalso. exact (split_nonempty c a E).
Qed.

Lemma split_app c a b : ~ In c a -> split_on c (a ++ c :: b) = a :: split_on c b.
Proof. intros H. rewrite split_app_gen, (split_notin c a H). reflexivity. Qed.

Lemma split_under p ss :
  ~ In 95%N p -> Forall (fun s => ~ In 95%N s) ss ->
  split_on 95 (p ++ concat (map (cons 95%N) ss)) = p :: ss.
Proof.
  revert p; induction ss as [|s ss IH]; intros p Hp Hs; cbn.
  - rewrite app_nil_r. apply split_notin; exact Hp.
  - inversion Hs as [|? ? H1 H2]; subst.
    rewrite split_app by exact Hp. rewrite IH by assumption. reflexivity.
Qed.

Lemma split_dot ns l :
  ns <> [] -> Forall (fun s => ~ In 46%N s) ns -> ~ In 46%N l ->
  split_on 46 (join_dot ns ++ l) = removelast ns ++ [last ns [] ++ l].
Proof.
  induction ns as [|x t IH]; intros Hne Hn Hl; [contradiction|].
  inversion Hn as [|? ? Hx Ht]; subst.
  destruct t as [|y t'].
  - cbn. apply split_notin. intros H; apply in_app_or in H as [H|H]; tauto.
  - change (join_dot (x :: y :: t')) with (x ++ 46%N :: join_dot (y :: t')).
    rewrite <- app_assoc. cbn [app]. rewrite split_app by exact Hx.
    rewrite IH by (try discriminate; assumption). reflexivity.
Qed.

Lemma digit_not_alpha x : is_digit x = true -> is_alpha x = false.
Proof.
  intros H. apply is_digit_bounds in H. unfold is_alpha.
  replace (65 <=? x)%N with false by (symmetry; apply N.leb_gt; lia).
  replace (97 <=? x)%N with false by (symmetry; apply N.leb_gt; lia). reflexivity.
Qed.

Lemma all_digits_notin s c : all_digits s = true -> is_digit c = false -> ~ In c s.
Proof.
  intros H Hc Hin. unfold all_digits in H. rewrite forallb_forall in H.
  apply H in Hin. congruence.
Qed.

Lemma print_suffix_no95 s : all_digits (snd s) = true -> ~ In 95%N (print_suffix s).
Proof.
  intros H Hin. unfold print_suffix in Hin. apply in_app_or in Hin as [Hin|Hin].
  - destruct (fst s); cbn in Hin; repeat (destruct Hin as [Hin|Hin]; [discriminate|]); exact Hin.
  - revert Hin. apply all_digits_notin; [exact H|reflexivity].
Qed.

Definition letter_str (l : option N) : str := match l with Some c => [c] | None => [] end.
Definition numpart (a : vast) : str := join_dot (nums a) ++ letter_str (letter a).

Record wf (a : vast) : Prop := {
  wf_ne : nums a <> [];
  wf_nums : Forall (fun s => s <> [] /\ all_digits s = true) (nums a);
  wf_letter : forall c, letter a = Some c -> is_alpha c = true;
  wf_sufs : Forall (fun s => all_digits (snd s) = true) (sufs a) }.

Lemma wf_vast_wf a : wf_vast a = true -> wf a.
Proof.
  unfold wf_vast. intros H.
  apply andb_true_iff in H as [H HD]. apply andb_true_iff in H as [H HC].
  apply andb_true_iff in H as [HA HB].
  constructor.
  - destruct (nums a); discriminate.
  - apply Forall_forall. intros s Hs. rewrite forallb_forall in HB. apply HB in Hs.
    unfold wf_digits in Hs. apply andb_true_iff in Hs as [Hs1 Hs2]. split; [|exact Hs2].
    destruct s; discriminate.
  - intros c Hc. rewrite Hc in HC. exact HC.
  - apply Forall_forall. intros s Hs. rewrite forallb_forall in HD. apply HD; exact Hs.
Qed.

Lemma wf_nums_notin a c : wf a -> is_digit c = false -> Forall (fun s => ~ In c s) (nums a).
Proof.
  intros W Hc. eapply Forall_impl; [|exact (wf_nums a W)].
  intros s [_ Hd]. apply all_digits_notin; assumption.
Qed.

Lemma wf_letter_notin a c : wf a -> is_alpha c = false -> ~ In c (letter_str (letter a)).
Proof.
  intros W Hc. destruct (letter a) as [x|] eqn:E; [|intros []].
  intros [H|[]]. subst x. rewrite (wf_letter a W c E) in Hc. discriminate.
Qed.

Lemma join_dot_notin c ns : c <> 46%N -> Forall (fun s => ~ In c s) ns -> ~ In c (join_dot ns).
Proof.
  intros Hc. induction ns as [|x t IH]; intros F; [intros []|].
  inversion F as [|? ? Hx Ht]; subst. destruct t as [|y t']; [exact Hx|].
  change (join_dot (x :: y :: t')) with (x ++ 46%N :: join_dot (y :: t')).
  intros Hin. apply in_app_or in Hin as [Hin|[Hin|Hin]]; [exact (Hx Hin)|congruence|exact (IH Ht Hin)].
Qed.

Lemma split_numpart a : wf a ->
  split_on 46 (numpart a) = removelast (nums a) ++ [last (nums a) [] ++ letter_str (letter a)].
Proof.
  intros W. apply split_dot; [exact (wf_ne a W)|apply wf_nums_notin|apply wf_letter_notin]; auto.
Qed.

Lemma print_vast_split a : wf a ->
  split_on 95 (print_vast a) = numpart a :: map print_suffix (sufs a).
Proof.
  intros W. unfold print_vast. rewrite app_assoc. fold (letter_str (letter a)). fold (numpart a).
  rewrite <- (map_map print_suffix (cons 95%N)).
  apply split_under.
  - unfold numpart. intros H. apply in_app_or in H as [H|H]; revert H.
    + apply join_dot_notin; [discriminate|apply wf_nums_notin; auto].
    + apply wf_letter_notin; auto.
  - apply Forall_forall. intros s Hs. apply in_map_iff in Hs as [x [<- Hx]].
    apply print_suffix_no95. pose proof (wf_sufs a W) as F. rewrite Forall_forall in F. apply F; exact Hx.
Qed.

Lemma comp_cmp_false a b : comp_cmp false a b = pms_comp a b.
Proof.
  unfold comp_cmp, pms_comp. destruct (str_eqb_spec a b) as [->|_].
  - destruct (lead0 b || lead0 b); [rewrite str_cmp_refl|rewrite cmpN_refl]; reflexivity.
  - destruct (lead0 a), (lead0 b); reflexivity.
Qed.

Lemma comp_cmp_true a b : comp_cmp true a b = cmpN (int_of a) (int_of b).
Proof. unfold comp_cmp. destruct (str_eqb_spec a b) as [->|_]; [rewrite cmpN_refl|]; reflexivity. Qed.

Lemma comps_cmp_refl f l : comps_cmp f l l = 0%Z.
Proof.
  revert f; induction l as [|x l IH]; intros f; cbn; [reflexivity|].
  unfold comp_cmp. rewrite str_eqb_refl. apply IH.
Qed.

Lemma comps_rest l1 l2 :
  seqc (comps_cmp false l1 l2) (cmp_len (length l1) (length l2)) = pms_rest l1 l2.
Proof.
  revert l2; induction l1 as [|x t1 IH]; intros [|y t2]; try reflexivity.
  change (seqc (seqc (comp_cmp false x y) (comps_cmp false t1 t2)) (cmp_len (length t1) (length t2))
          = seqc (pms_comp x y) (pms_rest t1 t2)).
  rewrite seqc_assoc, IH, comp_cmp_false. reflexivity.
Qed.

Lemma comps_first x t1 y t2 :
  seqc (comps_cmp true (x :: t1) (y :: t2)) (cmp_len (length (x :: t1)) (length (y :: t2)))
  = pms_nums (x :: t1) (y :: t2).
Proof.
  change (seqc (seqc (comp_cmp true x y) (comps_cmp false t1 t2)) (cmp_len (length t1) (length t2))
          = seqc (cmpN (int_of x) (int_of y)) (pms_rest t1 t2)).
  rewrite seqc_assoc, comps_rest, comp_cmp_true. reflexivity.
Qed.

Definition letter_key (l : option N) : Z := match l with Some c => Z.of_N c | None => (-1)%Z end.

Lemma last_digit_not_alpha s : s <> [] -> all_digits s = true -> is_alpha (last s 0%N) = false.
Proof.
  intros Hne H. apply digit_not_alpha. unfold all_digits in H. rewrite forallb_forall in H.
  apply H, last_in, Hne.
Qed.

Lemma pull_letter_print a : wf a ->
  pull_letter (split_on 46 (numpart a)) = (nums a, letter_key (letter a)).
Proof.
  intros W. pose proof (wf_ne a W) as Hne.
  assert (Hlast : last (nums a) [] <> [] /\ all_digits (last (nums a) []) = true).
  { pose proof (wf_nums a W) as F. rewrite Forall_forall in F. apply F, last_in, Hne. }
  rewrite (split_numpart a W). unfold pull_letter. rewrite last_last.
  destruct (letter a) as [c|] eqn:E; cbn [letter_key letter_str].
  - rewrite last_last, (wf_letter a W c E), !removelast_last, <- app_removelast_last by exact Hne.
    destruct (last (nums a) []); reflexivity.
  - rewrite app_nil_r. destruct Hlast as [H1 H2]. rewrite (last_digit_not_alpha _ H1 H2).
    rewrite andb_false_r, <- app_removelast_last by exact Hne. reflexivity.
Qed.

Lemma pms_letter_key l1 l2 : pms_letter l1 l2 = cmpZ (letter_key l1) (letter_key l2).
Proof.
  destruct l1 as [x|], l2 as [y|]; cbn [pms_letter letter_key].
  - apply cmpN_cmpZ.
  - symmetry. apply cmpZ_gt. lia.
  - symmetry. apply cmpZ_lt. lia.
  - reflexivity.
Qed.

(* the body of num_cmp after the string-equality shortcut, which is redundant *)
Definition num_long (fixfirst : bool) (p1 p2 : str) : Z :=
  let '(c1, l1) := pull_letter (split_on 46 p1) in
  let '(c2, l2) := pull_letter (split_on 46 p2) in
  let c := comps_cmp fixfirst c1 c2 in
  if negb (Z.eqb c 0) then c else
  let c := cmp_len (length c1) (length c2) in
  if negb (Z.eqb c 0) then c else
  if Z.eqb l1 l2 then 0%Z else cmpZ l1 l2.

Lemma num_cmp_long f p1 p2 : num_cmp f p1 p2 = num_long f p1 p2.
Proof.
  change (num_cmp f p1 p2) with (if str_eqb p1 p2 then 0%Z else num_long f p1 p2).
  destruct (str_eqb_spec p1 p2) as [->|_]; [|reflexivity].
  unfold num_long. destruct (pull_letter (split_on 46 p2)) as [c l].
  rewrite comps_cmp_refl, cmp_len_refl, (Z.eqb_refl l). reflexivity.
Qed.

Lemma num_cmp_print a b : wf a -> wf b ->
  num_cmp true (numpart a) (numpart b)
  = seqc (pms_nums (nums a) (nums b)) (pms_letter (letter a) (letter b)).
Proof.
  intros Wa Wb. rewrite num_cmp_long. unfold num_long.
  rewrite (pull_letter_print a Wa), (pull_letter_print b Wb), !seqc_negb, <- seqc_assoc.
  pose proof (wf_ne a Wa) as Ha. pose proof (wf_ne b Wb) as Hb.
  destruct (nums a) as [|x t1]; [contradiction|]. destruct (nums b) as [|y t2]; [contradiction|].
  rewrite comps_first, pms_letter_key.
  destruct (Z.eqb_spec (letter_key (letter a)) (letter_key (letter b))) as [->|_];
    [rewrite cmpZ_refl|]; reflexivity.
Qed.

(* the cascade step of a loop that answers [Some c] or goes on *)
Definition optc (c : Z) (k : option Z) : option Z := if Z.eqb c 0 then k else Some c.

Lemma optc_seqc a b k : optc (seqc a b) k = optc a (optc b k).
Proof. unfold optc, seqc. destruct (Z.eqb a 0) eqn:E; [reflexivity|]. rewrite E. reflexivity. Qed.

Lemma kind_eqb_eq k1 k2 : kind_eqb k1 k2 = true <-> k1 = k2.
Proof. destruct k1, k2; cbn; split; intros H; try reflexivity; discriminate. Qed.

Lemma suffix_num_eq d : suffix_num d = suf_num d.
Proof. reflexivity. Qed.

Lemma pms_suffix_seqc s1 s2 :
  pms_suffix s1 s2 = seqc (cmpZ (rank (fst s1)) (rank (fst s2))) (cmpN (suf_num (snd s1)) (suf_num (snd s2))).
Proof.
  unfold pms_suffix. destruct (kind_eqb (fst s1) (fst s2)) eqn:K.
  - apply kind_eqb_eq in K. rewrite K, cmpZ_refl. reflexivity.
  - destruct (fst s1), (fst s2); try discriminate K; reflexivity.
Qed.

Lemma suf_loop_refl l : suf_loop l l = None.
Proof. induction l as [|s l IH]; cbn; [reflexivity|]. rewrite str_eqb_refl. exact IH. Qed.

(* the string-equality shortcut of the loop is redundant: equal texts parse alike *)
Lemma suf_loop_cons s1 t1 s2 t2 :
  suf_loop (s1 :: t1) (s2 :: t2)
  = optc (cmpZ (suffix_val (fst (parse_suffix s1))) (suffix_val (fst (parse_suffix s2))))
      (optc (cmpN (suffix_num (snd (parse_suffix s1))) (suffix_num (snd (parse_suffix s2)))) (suf_loop t1 t2)).
Proof.
  cbn [suf_loop]. destruct (str_eqb_spec s1 s2) as [->|_].
  - rewrite cmpZ_refl, cmpN_refl. reflexivity.
  - destruct (parse_suffix s1), (parse_suffix s2). unfold optc. cbn [fst snd].
    destruct (Z.eqb _ 0); [destruct (Z.eqb _ 0)|]; reflexivity.
Qed.

Lemma suf_loop_print sa sb :
  Forall (fun s => all_digits (snd s) = true) sa -> Forall (fun s => all_digits (snd s) = true) sb ->
  suf_loop (map print_suffix sa) (map print_suffix sb) = optc (pms_sufs sa sb) None.
Proof.
  intros Fa. revert sb. induction Fa as [|[k1 d1] ta H1 _ IH]; intros sb Fb; destruct Fb as [|[k2 d2] tb H2 Fb].
  - reflexivity.
  - cbn [map suf_loop pms_sufs]. unfold print_suffix at 1. cbn [fst snd] in *.
    rewrite (parse_suffix_print k2 d2 H2). destruct k2; reflexivity.
  - cbn [map suf_loop pms_sufs]. unfold print_suffix at 1. cbn [fst snd] in *.
    rewrite (parse_suffix_print k1 d1 H1). destruct k1; reflexivity.
  - cbn [map]. rewrite suf_loop_cons. unfold print_suffix at 1 2 3 4. cbn [fst snd] in *.
    rewrite (parse_suffix_print k1 d1 H1), (parse_suffix_print k2 d2 H2), (IH tb Fb). cbn [fst snd].
    rewrite suffix_val_rank, <- !optc_seqc. cbn [pms_sufs]. rewrite (pms_suffix_seqc (k1, d1) (k2, d2)). reflexivity.
Qed.

Definition ver_long (v1 : str) (r1 : option N) (v2 : str) (r2 : option N) : Z :=
  let parts1 := split_on 95 v1 in
  let parts2 := split_on 95 v2 in
  let c := num_cmp true (hd [] parts1) (hd [] parts2) in
  if negb (Z.eqb c 0) then c else
  match suf_loop (tl parts1) (tl parts2) with
  | Some c => c
  | None => rev_cmp r1 r2
  end.

Lemma ver_cmp_long v1 r1 v2 r2 : ver_cmp v1 r1 v2 r2 = ver_long v1 r1 v2 r2.
Proof.
  change (ver_cmp v1 r1 v2 r2) with (if str_eqb v1 v2 then rev_cmp r1 r2 else ver_long v1 r1 v2 r2).
  destruct (str_eqb_spec v1 v2) as [->|_]; [|reflexivity]. unfold ver_long, num_cmp.
  rewrite str_eqb_refl, suf_loop_refl. reflexivity.
Qed.

Lemma ver_cmp_same v r s : ver_cmp v r v s = rev_cmp r s.
Proof. unfold ver_cmp, ver_cmp_gen. rewrite str_eqb_refl. reflexivity. Qed.

Lemma ver_cmp_is_pms_proof : forall a b r1 r2,
  wf_vast a = true -> wf_vast b = true ->
  ver_cmp (print_vast a) r1 (print_vast b) r2 = pms_cmp a (rev_val r1) b (rev_val r2).
Proof.
  intros a b r1 r2 Ha Hb. apply wf_vast_wf in Ha, Hb.
  rewrite ver_cmp_long. unfold ver_long, pms_cmp.
  rewrite (print_vast_split a Ha), (print_vast_split b Hb). cbn [hd tl].
  rewrite (num_cmp_print a b Ha Hb), (suf_loop_print _ _ (wf_sufs a Ha) (wf_sufs b Hb)), !seqc_negb, seqc_assoc.
  unfold optc, seqc. destruct (Z.eqb (pms_sufs (sufs a) (sufs b)) 0); reflexivity.
Qed.

(* the unrepaired rule for the first component is NOT the PMS algorithm: 09 vs 1 *)
Lemma ver_cmp_orig_refuted :
  exists a b, wf_vast a = true /\ wf_vast b = true /\
    ver_cmp_orig (print_vast a) None (print_vast b) None <> pms_cmp a 0 b 0.
Proof.
  exists {| nums := [[48;57]%N]; letter := None; sufs := [] |},
         {| nums := [[49]%N]; letter := None; sufs := [] |}.
  vm_compute. repeat split. discriminate.
Qed.

(* Every level of pms_cmp is a comparison of keys in a linearly ordered domain.  A non-first
   component maps to (class, string key, integer key): class 0 = leading zero (ordered by the
   zero-stripped string), class 1 = no leading zero (ordered by value); a leading-zero component
   is below every other one under BOTH rules of Algorithm 3.4, which is why the mixed rule is one
   linear preorder. *)
Definition cclass (s : str) : Z := if lead0 s then 0%Z else 1%Z.
Definition strkey (s : str) : str := if lead0 s then rstrip0 s else [].
Definition intkey (s : str) : N := if lead0 s then 0%N else int_of s.
Definition kcomp : str -> str -> Z :=
  thenc (on cclass cmpZ) (thenc (on strkey str_cmp) (on intkey cmpN)).

Lemma good_kcomp : good kcomp.
Proof. unfold kcomp. auto with good. Qed.

Lemma rstrip0_cons c t :
  rstrip0 (c :: t) = if is_nil (rstrip0 t) && N.eqb c 48 then [] else c :: rstrip0 t.
Proof. cbn. destruct (rstrip0 t); [destruct (N.eqb c 48)|]; reflexivity. Qed.

(* a component with a leading zero is below every other one as a zero-stripped string *)
Lemma lead0_below a b :
  lead0 a = true -> lead0 b = false -> b <> [] -> all_digits b = true ->
  str_cmp (rstrip0 a) (rstrip0 b) = (-1)%Z.
Proof.
  destruct a as [|x a']; [discriminate|]. destruct b as [|y b']; [contradiction|]. cbn [lead0].
  intros Ex Ey _ Db. apply N.eqb_eq in Ex. subst x.
  assert (Hy : is_digit y = true) by (cbn in Db; apply andb_true_iff in Db; tauto).
  apply is_digit_bounds in Hy. apply N.eqb_neq in Ey.
  rewrite !rstrip0_cons, (proj2 (N.eqb_neq y 48) Ey), andb_false_r, N.eqb_refl, andb_true_r.
  destruct (is_nil (rstrip0 a')); cbn [str_cmp]; [reflexivity|].
  rewrite (proj2 (N.compare_lt_iff 48 y)) by lia. reflexivity.
Qed.

Lemma pms_comp_kcomp a b :
  a <> [] -> all_digits a = true -> b <> [] -> all_digits b = true -> pms_comp a b = kcomp a b.
Proof.
  intros Ha Da Hb Db. unfold pms_comp, kcomp, thenc, on, cclass, strkey, intkey.
  destruct (lead0 a) eqn:La, (lead0 b) eqn:Lb; cbn [orb].
  - rewrite cmpZ_refl, cmpN_refl. cbn [Z.eqb].
    destruct (Z.eqb_spec (str_cmp (rstrip0 a) (rstrip0 b)) 0) as [->|_]; reflexivity.
  - rewrite (lead0_below a b La Lb Hb Db). reflexivity.
  - rewrite (g_anti good_str_cmp), (lead0_below b a Lb La Ha Da). reflexivity.
  - reflexivity.
Qed.

Lemma pms_rest_lex l1 l2 : pms_rest l1 l2 = list_lex pms_comp l1 l2.
Proof. revert l2; induction l1 as [|x t IH]; intros [|y t2]; cbn; try reflexivity. rewrite IH. reflexivity. Qed.

Definition sufkey (s : skind * str) : Z * N := (rank (fst s), suf_num (snd s)).
Definition sufkey_cmp : Z * N -> Z * N -> Z := thenc (on fst cmpZ) (on snd cmpN).
Definition suf_keys (l : list (skind * str)) : list (Z * N) := map sufkey l ++ [(rank_none, 0%N)].

Lemma pms_sufs_keys l1 l2 : pms_sufs l1 l2 = list_lex sufkey_cmp (suf_keys l1) (suf_keys l2).
Proof.
  revert l2; induction l1 as [|s1 t1 IH]; intros [|s2 t2].
  - reflexivity.
  - destruct s2 as [[] d]; reflexivity.
  - destruct s1 as [[] d]; reflexivity.
  - cbn [pms_sufs]. rewrite pms_suffix_seqc, IH. reflexivity.
Qed.

Definition vkey : Type := (vast * N)%type.
Definition first_int (t : vkey) : N := int_of (hd [] (nums (fst t))).
Definition kcmp : vkey -> vkey -> Z :=
  thenc (on first_int cmpN)
 (thenc (on (fun x => tl (nums (fst x))) (list_lex kcomp))
 (thenc (on (fun x => letter_key (letter (fst x))) cmpZ)
 (thenc (on (fun x => suf_keys (sufs (fst x))) (list_lex sufkey_cmp))
        (on snd cmpN)))).

Lemma good_kcmp : good kcmp.
Proof. unfold kcmp, sufkey_cmp. auto 10 using good_kcomp with good. Qed.
#[export] Hint Resolve good_kcmp : good.

Lemma pms_cmp_kcmp a ra b rb : wf a -> wf b -> pms_cmp a ra b rb = kcmp (a, ra) (b, rb).
Proof.
  intros Wa Wb. unfold pms_cmp, kcmp, thenc, on, first_int. cbn [fst snd].
  pose proof (wf_ne a Wa) as Ha. pose proof (wf_ne b Wb) as Hb.
  pose proof (wf_nums a Wa) as Fa. pose proof (wf_nums b Wb) as Fb.
  destruct (nums a) as [|x t1]; [contradiction|]. destruct (nums b) as [|y t2]; [contradiction|].
  cbn [hd tl pms_nums].
  inversion Fa as [|? ? _ Fa']; subst. inversion Fb as [|? ? _ Fb']; subst.
  assert (R : pms_rest t1 t2 = list_lex kcomp t1 t2).
  { rewrite pms_rest_lex. apply list_lex_ext. intros u v Hu Hv.
    rewrite Forall_forall in Fa', Fb'. destruct (Fa' u Hu), (Fb' v Hv). apply pms_comp_kcomp; assumption. }
  rewrite R, pms_letter_key, pms_sufs_keys, !seqc_negb. unfold seqc.
  destruct (Z.eqb (cmpN (int_of x) (int_of y)) 0) eqn:E; [|cbv iota; rewrite E]; reflexivity.
Qed.

Lemma ver_cmp_kcmp a b r1 r2 : wf_vast a = true -> wf_vast b = true ->
  ver_cmp (print_vast a) r1 (print_vast b) r2 = kcmp (a, rev_val r1) (b, rev_val r2).
Proof.
  intros Ha Hb. rewrite ver_cmp_is_pms_proof by assumption.
  apply pms_cmp_kcmp; apply wf_vast_wf; assumption.
Qed.

(* non-vacuity: the hypotheses are satisfiable by distinct, non-trivially related versions *)
Example preorder_example :
  let v s := {| nums := [[49]%N; s]; letter := None; sufs := [] |} in
  wf_vast (v [48;49]%N) = true /\ wf_vast (v [49]%N) = true /\ wf_vast (v [49;48]%N) = true
  /\ ver_cmp (print_vast (v [48;49]%N)) None (print_vast (v [49]%N)) None = (-1)%Z      (* 1.01 < 1.1 *)
  /\ ver_cmp (print_vast (v [49]%N)) None (print_vast (v [49;48]%N)) (Some 2%N) = (-1)%Z (* 1.1 < 1.10-r2 *)
  /\ ver_cmp (print_vast (v [49;48]%N)) None (print_vast (v [49;48;48]%N)) None = (-1)%Z.
Proof. vm_compute. repeat split. Qed.

Lemma pms_cmp_range a ra b rb : wf_vast a = true -> wf_vast b = true ->
  pms_cmp a ra b rb = (-1)%Z \/ pms_cmp a ra b rb = 0%Z \/ pms_cmp a ra b rb = 1%Z.
Proof.
  intros Ha Hb. rewrite pms_cmp_kcmp by (apply wf_vast_wf; assumption). apply (g_range good_kcmp).
Qed.

Lemma op_vals_holds op c : (op <= 5)%N -> c = (-1)%Z \/ c = 0%Z \/ c = 1%Z ->
  exists vals, op_vals op = Some (N.eqb op 5, vals) /\ memZ c vals = op_holds op c.
Proof.
  intros Hop Hc.
  assert (C : (op = 0 \/ op = 1 \/ op = 2 \/ op = 3 \/ op = 4 \/ op = 5)%N) by lia.
  destruct C as [-> | [-> | [-> | [-> | [-> | -> ]]]]]; eexists; (split; [vm_compute; reflexivity|]);
    destruct Hc as [-> | [-> | ->]]; reflexivity.
Qed.

Example version_match_example :
  let v := {| nums := [[49]%N; [48]%N]; letter := None; sufs := [(Rc, [49]%N)] |} in   (* 1.0_rc1 *)
  let p := {| nums := [[49]%N; [48;48]%N]; letter := None; sufs := [(Rc, [48;49]%N)] |} in (* 1.00_rc01 *)
  wf_vast v = true /\ wf_vast p = true
  /\ version_match 2 false (print_vast v) None (print_vast p) (Some 0%N) = true       (* =  matches the respelling *)
  /\ version_match 5 false (print_vast v) None (print_vast p) (Some 3%N) = true       (* ~  ignores -r3 *)
  /\ version_match 2 false (print_vast v) None (print_vast p) (Some 3%N) = false
  /\ version_match 4 true (print_vast v) None (print_vast p) (Some 3%N) = false.      (* not >  *)
Proof. vm_compute. repeat split. Qed.

Definition cpv_cmp : cpv -> cpv -> Z :=
  thenc (fun a b => str_cmp (cat a) (cat b)) (thenc (fun a b => str_cmp (pkg a) (pkg b)) cpv_vcmp).

Definition cpv_ops_stmt : Prop :=
  forall a b,
    cpv_eq a b = Z.eqb (cpv_cmp a b) 0 /\ cpv_ne a b = negb (Z.eqb (cpv_cmp a b) 0)
    /\ cpv_lt a b = Z.ltb (cpv_cmp a b) 0 /\ cpv_le a b = Z.leb (cpv_cmp a b) 0
    /\ cpv_gt a b = Z.gtb (cpv_cmp a b) 0 /\ cpv_ge a b = Z.geb (cpv_cmp a b) 0.

Lemma str_eqb_false_cmp a b : str_eqb a b = false -> str_cmp a b = (-1)%Z \/ str_cmp a b = 1%Z.
Proof.
  intros H. destruct (g_range good_str_cmp a b) as [E|[E|E]]; auto.
  apply str_eqb_cmp in E. congruence.
Qed.

Lemma cpv_ops_proof : cpv_ops_stmt.
Proof.
  intros a b. unfold cpv_ne, cpv_eq, cpv_lt, cpv_le, cpv_gt, cpv_ge, cpv_rich, same_key, cpv_cmp, thenc.
  destruct (str_eqb (cat a) (cat b)) eqn:E1.
  - rewrite (proj1 (str_eqb_cmp _ _) E1). cbn [Z.eqb andb].
    destruct (str_eqb (pkg a) (pkg b)) eqn:E2.
    + rewrite (proj1 (str_eqb_cmp _ _) E2). cbn [Z.eqb andb]. repeat split; reflexivity.
    + destruct (str_eqb_false_cmp _ _ E2) as [E|E]; rewrite E; repeat split; reflexivity.
  - destruct (str_eqb_false_cmp _ _ E1) as [E|E]; rewrite E; repeat split; reflexivity.
Qed.

Definition ckey : Type := (str * str * vkey)%type.
Definition ckcmp : ckey -> ckey -> Z :=
  thenc (on (fun x => fst (fst x)) str_cmp) (thenc (on (fun x => snd (fst x)) str_cmp) (on snd kcmp)).
Lemma good_ckcmp : good ckcmp.
Proof. unfold ckcmp. auto with good. Qed.

Definition cpv_valid (a : cpv) : Prop := is_version (ver a).

Definition cpv_order_stmt : Prop :=
  forall a b c, cpv_valid a -> cpv_valid b -> cpv_valid c -> preorder_laws cpv_cmp a b c.

Lemma cpv_cmp_key a b va vb :
  wf_vast va = true -> print_vast va = ver a -> wf_vast vb = true -> print_vast vb = ver b ->
  cpv_cmp a b = ckcmp (cat a, pkg a, (va, rev_val (rev a))) (cat b, pkg b, (vb, rev_val (rev b))).
Proof.
  intros Wa Pa Wb Pb. unfold cpv_cmp, ckcmp, thenc, on, cpv_vcmp. cbn [fst snd].
  rewrite <- Pa, <- Pb, ver_cmp_kcmp by assumption. reflexivity.
Qed.

Lemma cpv_order_proof : cpv_order_stmt.
Proof.
  intros a b c [va [Wa Pa]] [vb [Wb Pb]] [vc [Wc Pc]]. unfold preorder_laws.
  rewrite (cpv_cmp_key a b va vb), (cpv_cmp_key a a va va), (cpv_cmp_key b a vb va),
    (cpv_cmp_key b c vb vc), (cpv_cmp_key a c va vc) by assumption.
  apply (good_laws _ good_ckcmp).
Qed.
