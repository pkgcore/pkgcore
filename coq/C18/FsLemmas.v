(* C18/FsLemmas.v — lemmas over C18/Fs.v shared by the filesystem properties: lookup and run
   algebra, the per-op frame, nodes with a private inode, and the staged atomic replacement
   (atomic_replace, staged_replace for any establishing first op). *)
From Coq Require Import List ZArith Bool Lia.
Import ListNotations.
From Verif Require Import Base.Lists C18.Fs.

Lemma lookup_set_node s p n q :
  lookup (set_node s p n) q = if path_eq_dec q p then Some n else lookup s q.
Proof.
  induction s as [|[r m] s IH]; cbn.
  - destruct (path_eq_dec q p); reflexivity.
  - destruct (path_eq_dec p r) as [->|Hpr]; cbn.
    + destruct (path_eq_dec q r); reflexivity.
    + destruct (path_eq_dec q r) as [->|Hqr].
      * destruct (path_eq_dec r p); congruence.
      * exact IH.
Qed.

Lemma lookup_set_same s p n : lookup (set_node s p n) p = Some n.
Proof. rewrite lookup_set_node. destruct (path_eq_dec p p); congruence. Qed.

Lemma lookup_set_other s p n q : q <> p -> lookup (set_node s p n) q = lookup s q.
Proof. intro H. rewrite lookup_set_node. destruct (path_eq_dec q p); congruence. Qed.

Lemma lookup_remove s p q :
  lookup (remove s p) q = if path_eq_dec q p then None else lookup s q.
Proof.
  induction s as [|[r m] s IH]; cbn.
  - destruct (path_eq_dec q p); reflexivity.
  - destruct (path_eq_dec p r) as [->|Hpr]; cbn.
    + rewrite IH. destruct (path_eq_dec q r); reflexivity.
    + destruct (path_eq_dec q r) as [->|Hqr].
      * destruct (path_eq_dec r p); congruence.
      * exact IH.
Qed.

Lemma lookup_remove_same s p : lookup (remove s p) p = None.
Proof. rewrite lookup_remove. destruct (path_eq_dec p p); congruence. Qed.

Lemma lookup_remove_other s p q : q <> p -> lookup (remove s p) q = lookup s q.
Proof. intro H. rewrite lookup_remove. destruct (path_eq_dec q p); congruence. Qed.

Lemma lookup_map_nodes f s p : lookup (map_nodes f s) p = option_map f (lookup s p).
Proof.
  induction s as [|[r m] s IH]; cbn; [reflexivity|].
  destruct (path_eq_dec p r); [reflexivity|exact IH].
Qed.

Lemma lookup_on_ino i f s p :
  lookup (on_ino i f s) p =
  match lookup s p with
  | Some n => match ino_of n with
              | Some j => if N.eqb j i then Some (f n) else Some n
              | None => Some n end
  | None => None
  end.
Proof.
  unfold on_ino. rewrite lookup_map_nodes. destruct (lookup s p) as [n|]; cbn; [|reflexivity].
  destruct (ino_of n) as [j|]; [|reflexivity]. destruct (N.eqb j i); reflexivity.
Qed.

Lemma lookup_In s p n : lookup s p = Some n -> In (p, n) s.
Proof.
  induction s as [|[r m] s IH]; cbn; [discriminate|].
  destruct (path_eq_dec p r) as [->|]; intro H.
  - injection H as ->. now left.
  - right. now apply IH.
Qed.

Lemma fresh_ino_gt s p n i :
  lookup s p = Some n -> ino_of n = Some i -> (i < fresh_ino s)%N.
Proof.
  intros H Hi. apply lookup_In in H. unfold fresh_ino.
  induction s as [|[r m] s IH]; cbn; [destruct H|].
  destruct H as [H|H].
  - injection H as -> ->. rewrite Hi, N.add_1_r. apply N.lt_succ_r, N.le_max_l.
  - specialize (IH H). destruct (ino_of m) as [j|]; [|exact IH].
    eapply N.lt_le_trans; [exact IH|]. apply N.add_le_mono_r, N.le_max_r.
Qed.

Lemma can_create_free s p : can_create s p = true -> lookup s p = None.
Proof. unfold can_create. destruct p; [discriminate|]. now destruct (lookup s _). Qed.

Lemma run_opt_run ops s s' : run_opt ops s = Some s' -> run ops s = s'.
Proof.
  revert s; induction ops as [|o r IH]; cbn; intros s H; [congruence|].
  destruct (apply_op s o); [now apply IH|discriminate].
Qed.

Lemma run_app a b s :
  run (a ++ b) s = match run_opt a s with Some s' => run b s' | None => run a s end.
Proof.
  revert s; induction a as [|o r IH]; cbn; intro s; [reflexivity|].
  destruct (apply_op s o); [apply IH|reflexivity].
Qed.

Lemma run_opt_app a b s :
  run_opt (a ++ b) s = match run_opt a s with Some s' => run_opt b s' | None => None end.
Proof.
  revert s; induction a as [|o r IH]; cbn; intro s; [reflexivity|].
  destruct (apply_op s o); [apply IH|reflexivity].
Qed.

Lemma run_firstn_all ops s k : length ops <= k -> run (firstn k ops) s = run ops s.
Proof. intro H. now rewrite firstn_all2. Qed.

Lemma run_inv (I : fs -> Prop) ops :
  Forall (fun o => forall s s', I s -> apply_op s o = Some s' -> I s') ops ->
  forall s, I s -> I (run ops s).
Proof.
  induction 1 as [|o r Ho _ IH]; cbn; intros s Hs; [exact Hs|].
  destruct (apply_op s o) eqn:E; [apply IH; eapply Ho; eauto|exact Hs].
Qed.

Lemma Forall_firstn {A} (P : A -> Prop) k l : Forall P l -> Forall P (firstn k l).
Proof. apply Lists.Forall_firstn. Qed.

Lemma firstn_app_le {A} (a b : list A) k : k <= length a -> firstn k (a ++ b) = firstn k a.
Proof. intro H. rewrite firstn_app. replace (k - length a) with 0 by lia. cbn. apply app_nil_r. Qed.

Lemma run_prefix_inv (I : fs -> Prop) ops :
  Forall (fun o => forall s s', I s -> apply_op s o = Some s' -> I s') ops ->
  forall s k, I s -> I (run (firstn k ops) s).
Proof. intros H s k Hs. apply run_inv; [now apply Forall_firstn|exact Hs]. Qed.

(* a crash prefix of a ++ b lies in a, or is a complete run of a followed by a prefix of b *)
Lemma run_firstn_app a b k s :
  k <= length a /\ run (firstn k (a ++ b)) s = run (firstn k a) s \/
  length a < k /\ run (firstn k (a ++ b)) s =
                  match run_opt a s with Some s' => run (firstn (k - length a) b) s' | None => run a s end.
Proof.
  destruct (Nat.le_gt_cases k (length a)) as [Hk|Hk]; [left|right]; (split; [exact Hk|]).
  - now rewrite firstn_app_le.
  - rewrite firstn_app, (firstn_all2 a) by lia. apply run_app.
Qed.

(* a run of mkdir calls only turns unbound paths into directories *)
Lemma run_mkdirs (P : path -> Prop) ops :
  Forall (fun o => exists p m, o = Mkdir p m /\ P p) ops -> forall s q,
  lookup (run ops s) q = lookup s q \/
  (lookup s q = None /\ P q /\ exists m u g t, lookup (run ops s) q = Some (Dir m u g t)).
Proof.
  induction 1 as [|o r (p & m & -> & Hp) _ IH]; intros s q; [now left|].
  cbn [run apply_op]. destruct (can_create s p) eqn:Hc; [|now left].
  apply can_create_free in Hc.
  destruct (IH (set_node s p (Dir m ME ME NOW)) q) as [E|(E1 & E2 & E3)]; rewrite lookup_set_node in *.
  - rewrite E. destruct (path_eq_dec q p) as [->|_]; [|now left]. right. eauto 8.
  - destruct (path_eq_dec q p); [discriminate|]. now right.
Qed.

Lemma crash_states_spec ops s st :
  In st (crash_states ops s) <-> exists k, k <= length ops /\ st = run (firstn k ops) s.
Proof.
  unfold crash_states. rewrite in_map_iff. split.
  - intros [k [<- Hk]]. apply in_seq in Hk. exists k. split; [lia|reflexivity].
  - intros [k [Hk ->]]. exists k. split; [reflexivity|]. apply in_seq. lia.
Qed.

(* [update] through p leaves q alone unless q is p or another name of p's inode *)
Definition shares_ino (s : fs) (p q : path) : Prop :=
  exists n m i, lookup s p = Some n /\ lookup s q = Some m /\ ino_of n = Some i /\ ino_of m = Some i.

Lemma update_frame s p f s' q :
  update s p f = Some s' -> q <> p -> ~ shares_ino s p q -> lookup s' q = lookup s q.
Proof.
  unfold update. destruct (lookup s p) as [n|] eqn:Hp; [|discriminate].
  destruct (ino_of n) as [i|] eqn:Hi; intros H Hq Hsh; injection H as <-.
  - rewrite lookup_on_ino. destruct (lookup s q) as [m|] eqn:Hm; [|reflexivity].
    destruct (ino_of m) as [j|] eqn:Hj; [|reflexivity].
    destruct (N.eqb j i) eqn:E; [|reflexivity].
    apply N.eqb_eq in E; subst j. exfalso. apply Hsh. now exists n, m, i.
  - now apply lookup_set_other.
Qed.

Lemma update_self s p f s' n :
  update s p f = Some s' -> lookup s p = Some n -> lookup s' p = Some (f n).
Proof.
  unfold update. intros H Hp. rewrite Hp in H.
  destruct (ino_of n) as [i|] eqn:Hi; injection H as <-.
  - rewrite lookup_on_ino, Hp, Hi, N.eqb_refl. reflexivity.
  - apply lookup_set_same.
Qed.

Lemma is_prefix_refl a : is_prefix a a = true.
Proof. induction a as [|x a IH]; cbn; [reflexivity|]. destruct (list_eq_dec N.eq_dec x x); congruence. Qed.

Lemma is_prefix_app b t : is_prefix b (b ++ t) = true.
Proof. induction b as [|x b IH]; cbn; [reflexivity|]. destruct (list_eq_dec N.eq_dec x x); congruence. Qed.

Lemma is_prefix_inv a : forall q, is_prefix a q = true -> exists r, q = a ++ r.
Proof.
  induction a as [|x a IH]; intros q H; [now exists q|]. destruct q as [|y q]; [discriminate|]. cbn in H.
  destruct (list_eq_dec N.eq_dec x y) as [->|]; [|discriminate]. destruct (IH q H) as [r ->]. now exists r.
Qed.

Lemma rebase_under a b r : is_prefix a r = true -> is_prefix b (rebase a b r) = true.
Proof. intro H. unfold rebase. rewrite H. apply is_prefix_app. Qed.

(* renaming directory a to b leaves the paths outside both alone *)
Lemma lookup_renamed_dir s a b q :
  is_prefix a q = false -> is_prefix b q = false -> lookup (rename_dir s a b) q = lookup s q.
Proof.
  intros Ha Hb. unfold rename_dir.
  assert (Hqb : q <> b) by (intros ->; rewrite is_prefix_refl in Hb; discriminate).
  rewrite <- (lookup_remove_other s b q Hqb).
  induction (remove s b) as [|[r m] t IH]; cbn; [reflexivity|].
  destruct (is_prefix a r) eqn:Har.
  - destruct (path_eq_dec q (rebase a b r)) as [E|_].
    + exfalso. pose proof (rebase_under a b r Har) as Hab. rewrite <- E in Hab. congruence.
    + destruct (path_eq_dec q r) as [->|_]; [congruence|]. exact IH.
  - assert (Hr : rebase a b r = r) by (unfold rebase; now rewrite Har). rewrite Hr.
    destruct (path_eq_dec q r); [reflexivity|exact IH].
Qed.

Lemma lookup_rename_dir s a b q :
  is_prefix a q = false -> is_prefix b q = false ->
  (forall r, is_prefix a r = true -> is_prefix b (rebase a b r) = true) ->
  lookup (rename_dir s a b) q = lookup s q.
Proof. intros Ha Hb _. now apply lookup_renamed_dir. Qed.

(* the set of paths an op may change, given the pre-state *)
Definition affects (s : fs) (o : op) (q : path) : Prop :=
  match o with
  | Rename a b => is_prefix a q = true \/ is_prefix b q = true
  | Append p _ | Pwrite p _ _ | Truncate p | Chmod p _ | Chown p _ _ | Utime p _ =>
      q = p \/ shares_ino s p q
  | _ => In q (op_paths o)
  end.

Lemma set_if_frame (b : bool) s p n s' q :
  (if b then Some (set_node s p n) else None) = Some s' -> q <> p -> lookup s' q = lookup s q.
Proof. destruct b; [|discriminate]. intro H; injection H as <-. apply lookup_set_other. Qed.

Lemma rename_frame s a b s' q :
  apply_op s (Rename a b) = Some s' -> ~ (is_prefix a q = true \/ is_prefix b q = true) ->
  lookup s' q = lookup s q.
Proof.
  cbn [apply_op]. intros H Hq.
  assert (Hqa : q <> a) by (intros ->; apply Hq; left; apply is_prefix_refl).
  assert (Hqb : q <> b) by (intros ->; apply Hq; right; apply is_prefix_refl).
  destruct (lookup s a) as [n|]; [|discriminate]. destruct b as [|d0 b]; [discriminate|].
  set (bb := d0 :: b) in *.
  destruct (path_eq_dec a bb) as [|_]; [now injection H as <-|].
  destruct (negb (isdir s (parent bb))); [discriminate|].
  assert (Hmv : lookup (set_node (remove s a) bb n) q = lookup s q)
    by (rewrite lookup_set_other, lookup_remove_other; auto).
  assert (Hdir : lookup (rename_dir s a bb) q = lookup s q).
  { apply lookup_renamed_dir.
    - destruct (is_prefix a q) eqn:E; [exfalso; apply Hq; now left|reflexivity].
    - destruct (is_prefix bb q) eqn:E; [exfalso; apply Hq; now right|reflexivity]. }
  destruct (is_dir_node n).
  - destruct (is_prefix a bb); [discriminate|].
    destruct (lookup s bb) as [m|]; [|now injection H as <-].
    destruct (is_dir_node m && negb (has_child s bb)); [|discriminate]. now injection H as <-.
  - destruct (lookup s bb) as [m|]; [|now injection H as <-].
    destruct (is_dir_node m); [discriminate|].
    destruct (ino_of n) as [i|], (ino_of m) as [j|]; try (now injection H as <-).
    destruct (N.eqb i j); now injection H as <-.
Qed.

Lemma apply_op_frame s o s' q :
  apply_op s o = Some s' -> ~ affects s o q -> lookup s' q = lookup s q.
Proof.
  destruct o; cbn [apply_op affects op_paths]; intros H Hq.
  - eapply set_if_frame; eauto. intros ->; apply Hq; cbn; auto.
  - eapply set_if_frame; eauto. intros ->; apply Hq; cbn; auto.
  - destruct (lookup s p) as [[]|]; try discriminate. eapply update_frame; eauto; tauto.
  - destruct (lookup s p) as [[]|]; try discriminate.
    destruct (Nat.leb off (length data)); [|discriminate]. eapply update_frame; eauto; tauto.
  - destruct (lookup s p) as [[]|]; try discriminate. eapply update_frame; eauto; tauto.
  - eapply rename_frame; eauto.
  - destruct (lookup s p) as [n|]; [|discriminate]. destruct (is_dir_node n); [discriminate|].
    injection H as <-. apply lookup_remove_other. intros ->; apply Hq; cbn; auto.
  - destruct (lookup s p) as [n|]; [|discriminate].
    destruct (is_dir_node n && negb (has_child s p)); [|discriminate].
    injection H as <-. apply lookup_remove_other. intros ->; apply Hq; cbn; auto.
  - destruct (lookup s src) as [n|]; [|discriminate].
    eapply set_if_frame; eauto. intros ->; apply Hq; cbn; auto.
  - eapply set_if_frame; eauto. intros ->; apply Hq; cbn; auto.
  - eapply set_if_frame; eauto. intros ->; apply Hq; cbn; auto.
  - eapply set_if_frame; eauto. intros ->; apply Hq; cbn; auto.
  - destruct (lookup s p) as [n|]; [|discriminate]. destruct (is_sym_node n); [discriminate|].
    eapply update_frame; eauto; tauto.
  - eapply update_frame; eauto; tauto.
  - destruct (lookup s p) as [n|]; [|discriminate]. destruct (is_sym_node n); [discriminate|].
    eapply update_frame; eauto; tauto.
Qed.

(* no other path shares the inode of the node n bound at p *)
Definition private (s : fs) (p : path) (n : node) : Prop :=
  forall i, ino_of n = Some i -> forall q m, q <> p -> lookup s q = Some m -> ino_of m <> Some i.

Lemma private_nonfile s p n : ino_of n = None -> private s p n.
Proof. intros H i Hi. congruence. Qed.

Lemma update_private s p f s' n :
  update s p f = Some s' -> lookup s p = Some n -> private s p n -> ino_of (f n) = ino_of n ->
  lookup s' p = Some (f n) /\ (forall q, q <> p -> lookup s' q = lookup s q) /\ private s' p (f n).
Proof.
  intros Hu Hl Hp Hi.
  assert (Hfr : forall q, q <> p -> lookup s' q = lookup s q).
  { intros q Hq. eapply update_frame; eauto.
    intros (n1 & m & i & H1 & H2 & H3 & H4). rewrite Hl in H1. injection H1 as <-. eapply Hp; eauto. }
  split; [eapply update_self; eauto|]. split; [exact Hfr|].
  intros i Hfi q m Hq Hm. rewrite Hi in Hfi. rewrite Hfr in Hm by exact Hq. eapply Hp; eauto.
Qed.

(* renaming a non-directory moves it and changes nothing else, unless the target is another
   name of its inode: then rename(2) does nothing *)
Lemma rename_nondir_cases s a b s' n :
  apply_op s (Rename a b) = Some s' -> lookup s a = Some n -> is_dir_node n = false -> a <> b ->
  (s' = s /\ exists m i, lookup s b = Some m /\ ino_of n = Some i /\ ino_of m = Some i) \/
  (lookup s' b = Some n /\ lookup s' a = None /\ (forall q, q <> a -> q <> b -> lookup s' q = lookup s q)).
Proof.
  intros H Ha Hd Hab. cbn in H. rewrite Ha in H. destruct b as [|b0 b]; [discriminate|]. set (bb := b0 :: b) in *.
  destruct (path_eq_dec a bb) as [|_]; [contradiction|].
  destruct (negb (isdir s (parent bb))); [discriminate|]. rewrite Hd in H.
  assert (Hmv : forall s2, Some (set_node (remove s a) bb n) = Some s2 ->
     lookup s2 bb = Some n /\ lookup s2 a = None /\ (forall q, q <> a -> q <> bb -> lookup s2 q = lookup s q)).
  { intros s2 E. injection E as <-. split; [apply lookup_set_same|]. split.
    - rewrite lookup_set_other by exact Hab. apply lookup_remove_same.
    - intros q Hq1 Hq2. now rewrite lookup_set_other, lookup_remove_other. }
  destruct (lookup s bb) as [m|] eqn:Hb; [|right; now apply Hmv].
  destruct (is_dir_node m); [discriminate|].
  destruct (ino_of n) as [i|] eqn:Hi; [|right; now apply Hmv].
  destruct (ino_of m) as [j|] eqn:Hj; [|right; now apply Hmv].
  destruct (N.eqb i j) eqn:E; [|right; now apply Hmv].
  apply N.eqb_eq in E; subst j. injection H as <-. left. eauto 6.
Qed.

Lemma rename_nondir s a b s' n :
  apply_op s (Rename a b) = Some s' -> lookup s a = Some n -> is_dir_node n = false -> a <> b ->
  (forall i, ino_of n = Some i -> forall m, lookup s b = Some m -> ino_of m <> Some i) ->
  lookup s' b = Some n /\ lookup s' a = None /\ (forall q, q <> a -> q <> b -> lookup s' q = lookup s q).
Proof.
  intros H Ha Hd Hab Hp. destruct (rename_nondir_cases _ _ _ _ _ H Ha Hd Hab) as [(_ & m & i & Hm & Hi & Hj)|R];
    [|exact R]. now destruct (Hp i Hi m Hm).
Qed.

Lemma append_data_app d1 d2 n : append_data d2 (append_data d1 n) = append_data (d1 ++ d2) n.
Proof. destruct n; cbn; try reflexivity. now rewrite app_assoc. Qed.

Lemma firstn_bytes p d k : firstn k (bytes p d) = bytes p (firstn k d).
Proof. unfold bytes, appends. now rewrite !firstn_map. Qed.

Lemma concat_singletons (d : list N) : concat (map (fun b => [b]) d) = d.
Proof. induction d; cbn; congruence. Qed.

Definition perm_fun (o : op) : node -> node :=
  match o with
  | Chmod _ m => set_mode m
  | Chown _ u g => set_owner u g
  | Utime _ t => set_mtime t
  | _ => fun n => n
  end.
Definition apply_perms (perms : list op) (n : node) : node := fold_left (fun n o => perm_fun o n) perms n.

Lemma ino_perm_fun o n : ino_of (perm_fun o n) = ino_of n.
Proof. destruct o, n; reflexivity. Qed.
Lemma isdir_perm_fun o n : is_dir_node (perm_fun o n) = is_dir_node n.
Proof. destruct o, n; reflexivity. Qed.
Lemma isdir_apply_perms perms : forall n, is_dir_node (apply_perms perms n) = is_dir_node n.
Proof. induction perms as [|o l IH]; intro n; cbn; [reflexivity|]. now rewrite IH, isdir_perm_fun. Qed.

Lemma perm_update fp o s s1 n :
  perm_on fp o -> apply_op s o = Some s1 -> lookup s fp = Some n -> update s fp (perm_fun o) = Some s1.
Proof.
  intros Ho Ha Hl. destruct o; cbn in Ho; try contradiction; subst p; cbn in Ha; try rewrite Hl in Ha;
    try (destruct (is_sym_node n); [discriminate|]); exact Ha.
Qed.

Lemma perm_step fp o s s1 n :
  perm_on fp o -> apply_op s o = Some s1 -> lookup s fp = Some n -> private s fp n ->
  lookup s1 fp = Some (perm_fun o n) /\ (forall q, q <> fp -> lookup s1 q = lookup s q) /\
  private s1 fp (perm_fun o n).
Proof.
  intros Ho Ha Hl Hp. eapply update_private; eauto using perm_update, ino_perm_fun.
Qed.

Lemma perms_run fp perms : Forall (perm_on fp) perms -> forall s s' n,
  lookup s fp = Some n -> private s fp n -> run_opt perms s = Some s' ->
  lookup s' fp = Some (apply_perms perms n) /\ (forall q, q <> fp -> lookup s' q = lookup s q) /\
  private s' fp (apply_perms perms n).
Proof.
  induction 1 as [|o perms Ho _ IH]; intros s s' n Hl Hp Hr; cbn in Hr.
  - injection Hr as <-. cbn. auto.
  - destruct (apply_op s o) as [s1|] eqn:Ha; [|discriminate].
    destruct (perm_step _ _ _ _ _ Ho Ha Hl Hp) as (H1 & H2 & H3).
    destruct (IH _ _ _ H1 H3 Hr) as (K1 & K2 & K3). cbn. split; [exact K1|]. split; [|exact K3].
    intros q Hq. rewrite K2 by exact Hq. now apply H2.
Qed.

Lemma perms_prefix fp perms : Forall (perm_on fp) perms -> forall s n k,
  lookup s fp = Some n -> private s fp n ->
  (forall q, q <> fp -> lookup (run (firstn k perms) s) q = lookup s q) /\
  exists n', lookup (run (firstn k perms) s) fp = Some n' /\ private (run (firstn k perms) s) fp n'
             /\ is_dir_node n' = is_dir_node n /\ ino_of n' = ino_of n.
Proof.
  intros Hperms s n k Hl Hp.
  set (I := fun st : fs => (forall q, q <> fp -> lookup st q = lookup s q) /\
        exists n', lookup st fp = Some n' /\ private st fp n' /\ is_dir_node n' = is_dir_node n /\ ino_of n' = ino_of n).
  assert (HI : Forall (fun o => forall s1 s2, I s1 -> apply_op s1 o = Some s2 -> I s2) perms).
  { eapply Forall_impl; [|exact Hperms]. intros o Ho s1 s2 [F (n1 & L1 & P1 & D1 & I1)] Ha.
    destruct (perm_step _ _ _ _ _ Ho Ha L1 P1) as (H1 & H2 & H3). split.
    - intros q Hq. rewrite H2 by exact Hq. now apply F.
    - exists (perm_fun o n1). repeat split; auto; [now rewrite isdir_perm_fun|now rewrite ino_perm_fun]. }
  apply (run_prefix_inv I perms HI s k). split; [reflexivity|]. exists n. auto.
Qed.

(* the ops that create an object without an inode of its own, and the node they bind *)
Definition created_node (o : op) : option (path * node) :=
  match o with
  | Mkdir p m => Some (p, Dir m ME ME NOW)
  | Symlink t p => Some (p, Sym t ME ME NOW)
  | Mkfifo p m => Some (p, Fifo m ME ME NOW)
  | Mknod p m r => Some (p, Dev m ME ME NOW r)
  | _ => None
  end.

Lemma apply_created s o p n s' :
  created_node o = Some (p, n) -> apply_op s o = Some s' ->
  lookup s p = None /\ s' = set_node s p n /\ ino_of n = None.
Proof.
  destruct o; try discriminate; intro E; injection E as <- <-; cbn;
    destruct (can_create s _) eqn:Hc; try discriminate; intro E; injection E as <-;
    auto using can_create_free.
Qed.

Lemma new_perms_run s o p n perms s' :
  created_node o = Some (p, n) -> Forall (perm_on p) perms -> run_opt (o :: perms) s = Some s' ->
  lookup s p = None /\ lookup s' p = Some (apply_perms perms n) /\ private s' p (apply_perms perms n) /\
  (forall q, q <> p -> lookup s' q = lookup s q).
Proof.
  intros Ho Hp Hr. cbn [run_opt] in Hr. destruct (apply_op s o) as [s1|] eqn:Ha; [|discriminate].
  destruct (apply_created _ _ _ _ _ Ho Ha) as (Hl & -> & Hi).
  destruct (perms_run p perms Hp _ _ n (lookup_set_same s p n) (private_nonfile _ _ n Hi) Hr) as (K1 & K2 & K3).
  repeat split; auto. intros q Hq. rewrite K2 by exact Hq. now apply lookup_set_other.
Qed.

Lemma new_perms_prefix s o p n perms k q :
  created_node o = Some (p, n) -> Forall (perm_on p) perms -> q <> p ->
  lookup (run (firstn k (o :: perms)) s) q = lookup s q.
Proof.
  intros Ho Hp Hq. destruct k as [|k]; [reflexivity|]. cbn [firstn run].
  destruct (apply_op s o) as [s1|] eqn:Ha; [|reflexivity].
  destruct (apply_created _ _ _ _ _ Ho Ha) as (_ & -> & Hi).
  destruct (perms_prefix p perms Hp _ n k (lookup_set_same s p n) (private_nonfile _ _ n Hi)) as [F _].
  rewrite F by exact Hq. now apply lookup_set_other.
Qed.

(* the staging invariant: everything except tmp is as in s0, and tmp is a private inode *)
Definition staged (s0 : fs) (tmp : path) (s : fs) : Prop :=
  (forall q, q <> tmp -> lookup s q = lookup s0 q) /\
  exists d m u g t i, lookup s tmp = Some (File d m u g t i) /\
    forall q n, q <> tmp -> lookup s q = Some n -> ino_of n <> Some i.

Definition keeps_file (f : node -> node) : Prop :=
  forall d m u g t i, exists d' m' u' g' t', f (File d m u g t i) = File d' m' u' g' t' i.

Lemma staged_update s0 tmp s f s' :
  staged s0 tmp s -> keeps_file f -> update s tmp f = Some s' -> staged s0 tmp s'.
Proof.
  intros [Hfr (d & m & u & g & t & i & Ht & Hpriv)] Hk Hu.
  destruct (Hk d m u g t i) as (d' & m' & u' & g' & t' & Hf).
  destruct (update_private _ _ _ _ _ Hu Ht) as (L & F & Pv).
  - intros j Hj q n Hq Hn. injection Hj as <-. now apply (Hpriv q n).
  - now rewrite Hf.
  - rewrite Hf in L, Pv. split.
    + intros q Hq. rewrite F by exact Hq. now apply Hfr.
    + exists d', m', u', g', t', i. split; [exact L|]. intros q n. now apply (Pv i eq_refl q n).
Qed.

Lemma keeps_append d : keeps_file (append_data d).
Proof. intros d0 m u g t i. cbn. eauto 10. Qed.
Lemma keeps_mode m0 : keeps_file (set_mode m0).
Proof. intros d0 m u g t i. cbn. eauto 10. Qed.
Lemma keeps_owner a b : keeps_file (set_owner a b).
Proof. intros d0 m u g t i. cbn. eauto 10. Qed.
Lemma keeps_mtime t0 : keeps_file (set_mtime t0).
Proof. intros d0 m u g t i. cbn. eauto 10. Qed.
Lemma keeps_truncate : keeps_file truncate_data.
Proof. intros d0 m u g t i. cbn. eauto 10. Qed.
Lemma keeps_perm o : keeps_file (perm_fun o).
Proof. destruct o; cbn; auto using keeps_mode, keeps_owner, keeps_mtime; intros d0 m u g t i; eauto 10. Qed.

Lemma staged_create s tmp mode s' :
  apply_op s (Create tmp mode) = Some s' -> staged s tmp s'.
Proof.
  cbn. destruct (can_create s tmp) eqn:Hc; [|discriminate]. intro H; injection H as <-.
  split.
  - intros q Hq. now apply lookup_set_other.
  - exists [], mode, ME, ME, NOW, (fresh_ino s). split; [apply lookup_set_same|].
    intros q n Hq Hn Hi. rewrite lookup_set_other in Hn by exact Hq.
    pose proof (fresh_ino_gt _ _ _ _ Hn Hi). lia.
Qed.

Lemma staged_step s0 tmp o :
  (exists d, o = Append tmp d) \/ perm_on tmp o ->
  forall s s', staged s0 tmp s -> apply_op s o = Some s' -> staged s0 tmp s'.
Proof.
  intros Ho s s' Hs Ha.
  pose proof Hs as [_ (d0 & m & u & g & t & i & Ht & _)].
  destruct Ho as [[d ->]|Hp].
  - cbn in Ha. rewrite Ht in Ha. eapply staged_update; eauto using keeps_append.
  - eapply staged_update; eauto using keeps_perm, perm_update.
Qed.

Lemma staged_middle s0 tmp chunks perms :
  Forall (perm_on tmp) perms ->
  Forall (fun o => forall s s', staged s0 tmp s -> apply_op s o = Some s' -> staged s0 tmp s')
         (appends tmp chunks ++ perms).
Proof.
  intro Hp. apply Forall_app. split.
  - unfold appends. apply Forall_map. apply Forall_forall. intros d _.
    apply staged_step. left. eauto.
  - eapply Forall_impl; [|exact Hp]. intros o Ho. apply staged_step. now right.
Qed.

Lemma staged_private s0 tmp s n :
  staged s0 tmp s -> lookup s tmp = Some n -> private s tmp n /\ is_dir_node n = false.
Proof.
  intros [_ (d & m & u & g & t & i & Ht & Hp)] Hn. rewrite Ht in Hn. injection Hn as <-.
  split; [|reflexivity]. intros j Hj q n' Hq Hn'. injection Hj as <-. eauto.
Qed.

Lemma staged_renamed s0 tmp p s s' :
  tmp <> p -> staged s0 tmp s -> apply_op s (Rename tmp p) = Some s' ->
  lookup s' p = lookup s tmp /\ lookup s' tmp = None /\
  (forall q, q <> tmp -> q <> p -> lookup s' q = lookup s q).
Proof.
  intros Hne [_ (d & m & u & g & t & i & Ht & Hpriv)] H. rewrite Ht.
  apply (rename_nondir _ _ _ _ _ H Ht eq_refl Hne).
  intros j Hj n Hn. injection Hj as <-. apply (Hpriv p n); [congruence|exact Hn].
Qed.

Lemma staged_rename s0 tmp p s s' :
  tmp <> p -> staged s0 tmp s -> apply_op s (Rename tmp p) = Some s' ->
  (forall q, q <> p -> q <> tmp -> lookup s' q = lookup s0 q) /\ lookup s' p = lookup s tmp.
Proof.
  intros Hne Hs H. destruct (staged_renamed _ _ _ _ _ Hne Hs H) as (Hp & _ & Hfr). destruct Hs as [Hfr0 _].
  split; [|exact Hp]. intros q Hq1 Hq2. rewrite Hfr by assumption. now apply Hfr0.
Qed.

(* A staged replacement in general: any first op that establishes the staging invariant, any
   ops that keep it, then the rename.  A crash prefix has done nothing, or is staging, or has
   staged everything and renamed. *)
Section Replace.
Variables (s : fs) (tmp p : path) (first : op) (mid : list op).
Hypothesis Hne : tmp <> p.
Hypothesis Hfirst : forall s1, apply_op s first = Some s1 -> staged s tmp s1.
Hypothesis Hmid : Forall (fun o => forall s1 s2, staged s tmp s1 -> apply_op s1 o = Some s2 -> staged s tmp s2) mid.

Lemma staging_staged s2 : run_opt (first :: mid) s = Some s2 -> staged s tmp s2.
Proof.
  cbn [run_opt]. destruct (apply_op s first) as [s1|]; [|discriminate]. intro H.
  rewrite <- (run_opt_run _ _ _ H). apply run_inv; auto.
Qed.

(* from a staged state: still staging, or everything staged and renamed *)
Lemma replace_tail s1 k :
  staged s tmp s1 ->
  let sk := run (firstn k (mid ++ [Rename tmp p])) s1 in
  staged s tmp sk \/
  exists s2, run_opt mid s1 = Some s2 /\ apply_op s2 (Rename tmp p) = Some sk /\ length mid < k.
Proof.
  intro Hs1. cbv zeta. destruct (Nat.le_gt_cases k (length mid)) as [Hk|Hk].
  - rewrite firstn_app_le by exact Hk. left. now apply run_prefix_inv.
  - rewrite firstn_all2 by (rewrite app_length; cbn; lia).
    pose proof (run_inv _ _ Hmid s1 Hs1) as Hs2. rewrite run_app.
    destruct (run_opt mid s1) as [s2|] eqn:Hm; [|now left].
    rewrite (run_opt_run _ _ _ Hm) in Hs2. cbn [run].
    destruct (apply_op s2 (Rename tmp p)) as [s3|] eqn:Hr; [right; eauto|now left].
Qed.

Lemma replace_prefix k :
  let ops := first :: mid ++ [Rename tmp p] in
  let sk := run (firstn k ops) s in
  sk = s \/ staged s tmp sk \/
  exists s2, run_opt (first :: mid) s = Some s2 /\ apply_op s2 (Rename tmp p) = Some sk /\ length ops <= k.
Proof.
  cbv zeta. destruct k as [|k]; [now left|].
  cbn [firstn run run_opt]. destruct (apply_op s first) as [s1|] eqn:Hc; [right|now left].
  destruct (replace_tail s1 k (Hfirst _ eq_refl)) as [H|(s2 & Hm & Hr & Hk)]; [now left|right].
  exists s2. split; [exact Hm|]. split; [exact Hr|]. cbn [length]. rewrite app_length. cbn [length]. lia.
Qed.

Theorem staged_replace k :
  let ops := first :: mid ++ [Rename tmp p] in
  let sk := run (firstn k ops) s in
  (forall q, q <> p -> q <> tmp -> lookup sk q = lookup s q) /\
  (lookup sk p = lookup s p \/
   exists s2, run_opt (first :: mid) s = Some s2 /\ lookup sk p = lookup s2 tmp /\
              lookup sk tmp = None /\ length ops <= k).
Proof.
  cbv zeta. destruct (replace_prefix k) as [-> | [[Hfr _] | (s2 & H2 & Hr & Hk)]].
  - split; [reflexivity|now left].
  - split; [intros q _ Hq; now apply Hfr|left; apply Hfr; congruence].
  - pose proof (staging_staged s2 H2) as Hs2.
    destruct (staged_renamed _ _ _ _ _ Hne Hs2 Hr) as (Hp & Hgone & _).
    split; [now apply (staged_rename _ _ _ _ _ Hne Hs2 Hr)|]. right. exists s2. auto.
Qed.
End Replace.

Lemma staged_staging s tmp mode chunks perms s2 :
  Forall (perm_on tmp) perms ->
  run_opt (Create tmp mode :: appends tmp chunks ++ perms) s = Some s2 -> staged s tmp s2.
Proof. intro Hp. apply staging_staged; [apply staged_create|now apply staged_middle]. Qed.

(* For every crash point k of the staged replacement of p through tmp:
   every path other than p and tmp holds its old node, and p holds its old node or the
   complete staged node (the node tmp had after ALL appends and permission ops). *)
Theorem atomic_replace : forall s tmp p mode chunks perms k,
  tmp <> p -> Forall (perm_on tmp) perms ->
  let ops := replace_ops tmp p mode chunks perms in
  let staging := Create tmp mode :: appends tmp chunks ++ perms in
  let sk := run (firstn k ops) s in
  (forall q, q <> p -> q <> tmp -> lookup sk q = lookup s q) /\
  (lookup sk p = lookup s p \/
   exists s2, run_opt staging s = Some s2 /\ lookup sk p = lookup s2 tmp /\
              lookup sk tmp = None /\ length ops <= k).
Proof.
  intros s tmp p mode chunks perms k Hne Hperms. unfold replace_ops. rewrite app_assoc.
  apply staged_replace; [exact Hne|apply staged_create|now apply staged_middle].
Qed.

Definition staged_node (mode : N) (chunks : list (list N)) (perms : list op) (i : N) : node :=
  fold_left (fun n o => perm_fun o n) perms (File (concat chunks) mode ME ME NOW i).

Lemma run_opt_appends_tmp tmp chunks : forall s s' d m u g t i,
  lookup s tmp = Some (File d m u g t i) ->
  run_opt (appends tmp chunks) s = Some s' ->
  chunks = [] /\ s' = s \/ lookup s' tmp = Some (File (d ++ concat chunks) m u g NOW i).
Proof.
  induction chunks as [|c chunks IH]; cbn; intros s s' d m u g t i Ht H.
  - left. split; congruence.
  - right. rewrite Ht in H. destruct (update s tmp (append_data c)) as [s1|] eqn:Hu; [|discriminate].
    pose proof (update_self _ _ _ _ _ Hu Ht) as Ht1. cbn in Ht1.
    destruct (IH _ _ _ _ _ _ _ _ Ht1 H) as [[-> ->]|H2].
    + cbn. now rewrite app_nil_r.
    + rewrite H2. now rewrite <- app_assoc.
Qed.

Lemma run_opt_perms_tmp tmp perms : Forall (perm_on tmp) perms ->
  forall s s' n, lookup s tmp = Some n -> is_file_node n = true ->
  run_opt perms s = Some s' ->
  lookup s' tmp = Some (fold_left (fun n o => perm_fun o n) perms n).
Proof.
  intros Hp s s' n Ht _. revert s n Ht.
  induction Hp as [|o perms Ho _ IH]; cbn; intros s n Ht H; [congruence|].
  destruct (apply_op s o) as [s1|] eqn:Ha; [|discriminate].
  apply (IH s1); [|exact H]. eapply update_self; eauto using perm_update.
Qed.

Theorem staged_complete : forall s tmp mode chunks perms s2,
  Forall (perm_on tmp) perms ->
  run_opt (Create tmp mode :: appends tmp chunks ++ perms) s = Some s2 ->
  lookup s2 tmp = Some (staged_node mode chunks perms (fresh_ino s)).
Proof.
  intros s tmp mode chunks perms s2 Hp H. cbn [run_opt] in H.
  destruct (apply_op s (Create tmp mode)) as [s1|] eqn:Hc; [|discriminate].
  assert (Ht1 : lookup s1 tmp = Some (File [] mode ME ME NOW (fresh_ino s))).
  { cbn in Hc. destruct (can_create s tmp); [|discriminate]. injection Hc as <-. apply lookup_set_same. }
  rewrite run_opt_app in H. destruct (run_opt (appends tmp chunks) s1) as [s1'|] eqn:Ha; [|discriminate].
  unfold staged_node.
  destruct (run_opt_appends_tmp _ _ _ _ _ _ _ _ _ _ Ht1 Ha) as [[-> ->]|Ht2].
  - cbn [concat]. eapply run_opt_perms_tmp; eauto.
  - cbn [app] in Ht2. eapply run_opt_perms_tmp; eauto.
Qed.

Lemma replace_ops_removelast tmp p mode chunks perms :
  removelast (replace_ops tmp p mode chunks perms) = Create tmp mode :: appends tmp chunks ++ perms.
Proof. unfold replace_ops. rewrite (app_assoc _ perms), app_comm_cons. apply removelast_last. Qed.

Theorem replace_complete : forall s tmp p mode chunks perms s',
  tmp <> p -> Forall (perm_on tmp) perms ->
  run_opt (replace_ops tmp p mode chunks perms) s = Some s' ->
  lookup s' p = Some (staged_node mode chunks perms (fresh_ino s)) /\ lookup s' tmp = None /\
  (forall q, q <> p -> q <> tmp -> lookup s' q = lookup s q).
Proof.
  intros s tmp p mode chunks perms s' Hne Hp H. unfold replace_ops in H.
  rewrite (app_assoc _ perms), app_comm_cons, run_opt_app in H.
  destruct (run_opt (Create tmp mode :: appends tmp chunks ++ perms) s) as [s2|] eqn:H2; [|discriminate].
  cbn [run_opt] in H. destruct (apply_op s2 (Rename tmp p)) as [s3|] eqn:Hr; [|discriminate]. injection H as <-.
  pose proof (staged_staging _ _ _ _ _ _ Hp H2) as Hs2.
  destruct (staged_renamed _ _ _ _ _ Hne Hs2 Hr) as (E & Hgone & _).
  rewrite E, (staged_complete _ _ _ _ _ _ Hp H2). split; [reflexivity|]. split; [exact Hgone|].
  now apply (staged_rename _ _ _ _ _ Hne Hs2 Hr).
Qed.

(* any chunking of d, run to completion, equals one Append of d (on a file) *)
Lemma run_appends p chunks : forall s d m u g t i,
  lookup s p = Some (File d m u g t i) -> chunks <> [] ->
  forall q, lookup (run (appends p chunks) s) q = lookup (run [Append p (concat chunks)] s) q.
Proof.
  induction chunks as [|c chunks IH]; intros s d m u g t i Hp Hne q; [congruence|].
  cbn [appends map run apply_op concat]. rewrite Hp.
  destruct (update s p (append_data c)) as [s1|] eqn:Hu.
  2:{ unfold update in Hu. rewrite Hp in Hu. cbn in Hu. discriminate. }
  destruct (update s p (append_data (c ++ concat chunks))) as [s2|] eqn:Hu2.
  2:{ unfold update in Hu2. rewrite Hp in Hu2. cbn in Hu2. discriminate. }
  pose proof (update_self _ _ _ _ _ Hu Hp) as Hp1. cbn in Hp1.
  destruct chunks as [|c2 chunks].
  - cbn. rewrite app_nil_r in Hu2. congruence.
  - fold (appends p (c2 :: chunks)). erewrite IH; eauto; [|discriminate].
    cbn [run apply_op]. rewrite Hp1.
    unfold update in *. rewrite Hp in Hu, Hu2. rewrite Hp1. cbn [ino_of] in *.
    injection Hu as <-. injection Hu2 as <-.
    rewrite !lookup_on_ino. destruct (lookup s q) as [n|]; [|reflexivity].
    destruct (ino_of n) as [j|] eqn:Hj; [|rewrite Hj; reflexivity].
    destruct (N.eqb j i) eqn:E.
    + assert (Hj' : ino_of (append_data c n) = Some j) by (destruct n; cbn in *; congruence).
      rewrite Hj', E. now rewrite append_data_app.
    + now rewrite Hj, E.
Qed.
