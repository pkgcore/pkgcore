(* Prop_C03.v — the property theorems of C03, each followed by the audit of its assumptions. *)
From Coq Require Import List ZArith Bool.
Import ListNotations.
From Verif Require Import gen.Tables_eapi C03.Model_C03 C03.Spec_C03 C03.Proofs_C03
  C03.Version_C03 C03.UseDep_C03 C03.Grammar_C03 C03.Complete_C03.
Local Open Scope N_scope.

(* the gate table regenerated from eapi.py is exactly the PMS feature matrix for EAPI 0..9 and "no EAPI" *)
Theorem eapi_gate_table_is_pms_matrix :
  forallb gates_match (None :: map Some (map fst eapi_options)) = true
  /\ map fst eapi_options = [0;1;2;3;4;5;6;7;8;9].
Proof. exact eapi_gate_table_is_pms_matrix_proof. Qed.
Print Assumptions eapi_gate_table_is_pms_matrix.

(* every accepted atom (any EAPI, any text) renders to text that parses back to the very same
   attribute record *)
Theorem print_parse_roundtrip :
  forall e n s a, parse_atom e n s = Ok a -> parse_atom e n (print_atom a) = Ok a.
Proof. intros e n s a H. destruct (parse_atom_canon _ _ _ _ H) as [-> H']. exact H'. Qed.
Print Assumptions print_parse_roundtrip.

(* what is rendered is the input text with the USE dependencies sorted, nothing else changes *)
Theorem print_is_canon :
  forall e n s a, parse_atom e n s = Ok a -> print_atom a = canon s.
Proof. intros e n s a H. exact (proj1 (parse_atom_canon _ _ _ _ H)). Qed.
Print Assumptions print_is_canon.

(* every accepted atom uses only the features its EAPI has in the PMS feature matrix:
   strong blockers, slot deps, sub-slots / slot operators, USE deps, USE defaults, ::repo only without EAPI *)
Theorem gating_sound :
  forall e n s a, parse_atom e n s = Ok a ->
  exists f, features_of e = Some f
    /\ (a_strong a = true -> f_strong f = true)
    /\ (is_some (a_slot a) = true -> f_slot f = true)
    /\ (is_some (a_subslot a) || is_some (a_slotop a) = true -> f_subslot f = true)
    /\ (is_some (a_use a) = true -> f_use f = true)
    /\ (forall u x, a_use a = Some u -> In x u -> In c_rpar x -> f_defaults f = true)
    /\ (is_some (a_repo a) = true -> e = None).
Proof.
  intros e n s a H. destruct (accepted_gated _ _ _ _ H) as (g & Eg & Hg).
  destruct (gates_features _ _ Eg) as (f & Hf & (G1 & G2 & G3 & G4 & G5) & _).
  exists f. split; [exact Hf|]. now rewrite <- G1, <- G2, <- G3, <- G4, <- G5.
Qed.
Print Assumptions gating_sound.

(* the component recognisers of the code are the PMS character classes (text without newline);
   slot names: the code additionally lets a name begin with "+" *)
Theorem charsets_agree :
  (forall s, ~ In c_nl s -> m_category s = pms_category s)
  /\ (forall s, ~ In c_nl s -> m_use_flag s = pms_use_flag s)
  /\ (forall s, repo_ok (Some s) = pms_repo_name s)
  /\ (forall s, slot_chunk_ok s = (pms_slot_name s
                                   || match s with c :: _ => (c =? c_plus) && forallb s_slot_char s | [] => false end)).
Proof. exact (conj m_category_pms (conj m_use_flag_pms (conj repo_ok_pms slot_chunk_pms))). Qed.
Print Assumptions charsets_agree.

(* isvalid_pkg_name: a name is accepted iff first character and chunks are legal and it does not end
   in "-<version-like>" nor in "-<version-like>-r<digits>" *)
Theorem pkg_name_boundary :
  forall name,
    valid_pkg_name (split_on c_dash name) = true
    <-> (exists x t, name = x :: t /\ x <> c_dash /\ x <> c_plus)
        /\ forallb pkg_chunk_ok (split_on c_dash name) = true
        /\ ~ suffix_version_like name
        /\ ~ suffix_version_rev_like name.
Proof. exact pkg_name_boundary_proof. Qed.
Print Assumptions pkg_name_boundary.

(* the full acceptance statement is false of the faithful model (known classes: trailing newline,
   upper-case version letter, slot beginning with "+"; see Proofs_C03 examples) *)
Theorem accept_iff_grammar_refuted : ~ accept_iff_grammar_statement.
Proof.
  intros H. destruct ex_trailing_newline as (Hm & Hs & _).
  rewrite (H None [97;47;98;10]) in Hm by discriminate. congruence.
Qed.
Print Assumptions accept_iff_grammar_refuted.

(* every rejection is a MalformedAtom, never another exception (holds since /repo 3aa9a5c) *)
Theorem reject_is_malformed :
  forall e s, features_of e <> None -> is_ok (parse_atom e false s) = false -> parse_atom e false s = Malformed.
Proof.
  intros e s Hf Hno. destruct (parse_atom e false s) eqn:E; [discriminate | reflexivity|].
  now apply parse_atom_unsupported, features_gates in E.
Qed.
Print Assumptions reject_is_malformed.

(* the version scanner that models isvalid_version_re = the PMS 3.2 version syntax (without revision):
   equal on text without newline and without upper-case letters; every PMS version is accepted *)
Theorem version_agree :
  (forall v, ~ In c_nl v -> forallb (fun c => negb (s_upper c)) v = true -> m_version v = pms_version v)
  /\ (forall v, pms_version v = true -> m_version v = true).
Proof. exact (conj m_version_pms pms_version_m). Qed.
Print Assumptions version_agree.

(* the USE-dependency token check of atom.__init__ = the PMS 8.3.4 forms, for tokens without newline *)
Theorem use_dep_agree :
  forall d x, ~ In c_nl x -> valid_use_dep d x = pms_use_dep d x.
Proof. exact use_dep_agree_proof. Qed.
Print Assumptions use_dep_agree.

(* SOUNDNESS of acceptance (one half of accept_iff_grammar, in full): whatever is accepted is a PMS
   atom of that EAPI, outside the recorded classes — text without newline, no upper-case letter in
   the version, no slot / sub-slot name beginning with "+" *)
Theorem accept_sound_partial :
  forall e n s a,
    parse_atom e n s = Ok a -> ~ In c_nl s -> clean_atom a -> pms_atom_b e s = true.
Proof.
  intros e n s a H Hnl Hcl. apply parse_atom_inv in H as (Hne & g & body & use & colon & Eg & Eu & Hr).
  destruct (gates_features _ _ Eg) as (f & Hf & G & Hrepo). unfold pms_atom_b. rewrite Hf.
  exact (stages_sound e n g f s body use colon a Hf G Hrepo Hne Eu Hr Hnl Hcl).
Qed.
Print Assumptions accept_sound_partial.

(* isvalid_pkg_name on the "-"-chunks = PMS 3.1.2 package-name rule (tried on every hyphen cut), for
   names without newline in which no chunk is a code-version carrying an upper-case letter *)
Theorem pkg_name_agree :
  forall name, ~ In c_nl name -> upper_version_chunk name = false ->
               valid_pkg_name (split_on c_dash name) = pms_pkg_name name.
Proof.
  intros name Hn Hup. apply eq_true_iff_eq. split; [now apply pkg_name_sound | now apply pkg_name_complete].
Qed.
Print Assumptions pkg_name_agree.

(* COMPLETENESS of acceptance (the other half of accept_iff_grammar, in full): every string the PMS
   grammar recogniser accepts for an EAPI is accepted — for text without newline in which no
   contiguous piece is a code-version ([m_version]) carrying an upper-case letter *)
Theorem accept_complete_partial :
  forall e n s,
    pms_atom_b e s = true -> ~ In c_nl s -> no_upper_version s -> is_ok (parse_atom e n s) = true.
Proof.
  intros e n s H Hn Hup. unfold pms_atom_b in H. destruct (features_of e) as [f|] eqn:Hf; [|discriminate].
  destruct (features_gates_full _ _ Hf) as (g & Eg & G & Hrepo).
  destruct (stages_complete e n g f s Hf G Hrepo H (conj Hn Hup)) as (Hne & st & Eu & Hok).
  unfold parse_atom. destruct s; [congruence|]. now rewrite Eg, Eu.
Qed.
Print Assumptions accept_complete_partial.

(* the first sentence of the property as an equivalence, outside the three recorded classes stated on
   the INPUT: no newline; no contiguous piece that the code's version regex accepts with an upper-case
   letter; no ":+" and no "/+" (a slot or sub-slot name beginning with "+") *)
Theorem accept_iff_grammar_partial :
  forall e n s,
    ~ In c_nl s -> no_upper_version s -> no_plus_slot s ->
    is_ok (parse_atom e n s) = pms_atom_b e s.
Proof.
  intros e n s Hn Hup Hpl. apply eq_true_iff_eq. split.
  - destruct (parse_atom e n s) as [a| |] eqn:E; try discriminate. intros _.
    exact (accept_sound_partial e n s a E Hn (clean_from_input e n s a E Hup Hpl)).
  - intros H. exact (accept_complete_partial e n s H Hn Hup).
Qed.
Print Assumptions accept_iff_grammar_partial.
