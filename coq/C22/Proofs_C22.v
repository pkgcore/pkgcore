(* Proofs_C22.v — lemmas for C22: POSIX paths as component lists; one [dget p (op d) = ...] equation per dict operation. *)
From Coq Require Import List ZArith Bool Lia.
Import ListNotations.
From Verif Require Import Base.Val Base.Lists C22.Model_C22 C22.Spec_C22.

Lemma str_eqb_false a b : a <> b -> str_eqb a b = false.
Proof. apply str_eqb_neq. Qed.

Lemma rev_repeat {A} (x : A) n : rev (repeat x n) = repeat x n.
Proof. induction n as [|n IH]; cbn; [reflexivity|]. rewrite IH. symmetry. apply repeat_cons. Qed.
Lemma rev_nonempty {A} (l : list A) : l <> [] -> rev l <> [].
Proof. intros H E. apply H. rewrite <- (rev_involutive l), E. reflexivity. Qed.
Definition nosl (c : str) : Prop := forallb (fun x => negb (is_sl x)) c = true.
(* components that normpath keeps as they are *)
Definition plainc (c : str) : Prop := c <> [] /\ c <> dot /\ c <> dotdot /\ nosl c.
(* components that are non-empty and slash-free (plain ones and "..") *)
Definition goodc (c : str) : Prop := c <> [] /\ nosl c.

Lemma nosl_cons x c : nosl (x :: c) <-> is_sl x = false /\ nosl c.
Proof. unfold nosl. cbn. rewrite andb_true_iff, negb_true_iff. reflexivity. Qed.
Lemma nosl_rev c : nosl c -> forallb (fun x => negb (is_sl x)) (rev c) = true.
Proof. unfold nosl. rewrite !forallb_forall. intros H x Hx. apply H, in_rev, Hx. Qed.
Lemma plain_good l : Forall plainc l -> Forall goodc l.
Proof. apply Forall_impl. intros c (H & _ & _ & Hn). split; assumption. Qed.
Lemma good_nosl l : Forall goodc l -> Forall nosl l.
Proof. apply Forall_impl. intros c [_ Hn]. exact Hn. Qed.
Lemma plain_nosl l : Forall plainc l -> Forall nosl l.
Proof. intros H. apply good_nosl, plain_good, H. Qed.
Lemma good_last c : goodc c -> exists b z, c = b ++ [z] /\ is_sl z = false.
Proof.
  intros (Hne & Hn). destruct (exists_last Hne) as (b & z & ->). exists b, z. split; [reflexivity|].
  apply nosl_rev in Hn. rewrite rev_app_distr in Hn. cbn in Hn.
  apply andb_true_iff in Hn as [Hn _]. apply negb_true_iff in Hn. exact Hn.
Qed.

Lemma split_ne s : split_sl s <> [].
Proof. destruct s as [|c r]; cbn; [discriminate|]. destruct (is_sl c); [discriminate|].
  destruct (split_sl r); discriminate. Qed.

Lemma split_nosl s : Forall nosl (split_sl s).
Proof.
  induction s as [|c r IH]; cbn.
  - constructor; [reflexivity|constructor].
  - destruct (is_sl c) eqn:E; [constructor; [reflexivity|exact IH]|].
    destruct (split_sl r) as [|h t]; [constructor; [apply nosl_cons; split; [exact E|reflexivity]|constructor]|].
    inversion IH; subst. constructor; [apply nosl_cons|]; auto.
Qed.

Lemma split_nosl_one a : nosl a -> split_sl a = [a].
Proof.
  induction a as [|c a IH]; intros H; cbn; [reflexivity|].
  apply nosl_cons in H as [H1 H2]. rewrite H1, (IH H2). reflexivity.
Qed.

Lemma split_app_sl a s : nosl a -> split_sl (a ++ SL :: s) = a :: split_sl s.
Proof.
  induction a as [|c a IH]; intros H; cbn; [reflexivity|].
  apply nosl_cons in H as [H1 H2]. rewrite H1, (IH H2). reflexivity.
Qed.

Lemma split_join l : l <> [] -> Forall nosl l -> split_sl (join_sl l) = l.
Proof.
  induction l as [|a r IH]; intros Hne HF; [congruence|].
  inversion HF as [|? ? Ha Hr]; subst. cbn [join_sl].
  destruct r as [|b r'].
  - apply split_nosl_one; assumption.
  - rewrite split_app_sl by assumption. f_equal. apply IH; [discriminate|assumption].
Qed.

Lemma split_repeat_sl k s : split_sl (repeat SL k ++ s) = repeat [] k ++ split_sl s.
Proof. induction k as [|k IH]; [reflexivity|]. cbn [repeat app]. rewrite <- IH. reflexivity. Qed.

Lemma join_app l1 l2 : l1 <> [] -> l2 <> [] -> join_sl (l1 ++ l2) = join_sl l1 ++ SL :: join_sl l2.
Proof.
  intros H1 H2. induction l1 as [|a l1 IH]; [congruence|]. destruct l1 as [|b l1'].
  - cbn [app join_sl]. destruct l2; [congruence|reflexivity].
  - change ((a :: b :: l1') ++ l2) with (a :: ((b :: l1') ++ l2)).
    change (join_sl (a :: (b :: l1') ++ l2)) with (a ++ SL :: join_sl ((b :: l1') ++ l2)).
    rewrite IH by discriminate.
    change (join_sl (a :: b :: l1')) with (a ++ SL :: join_sl (b :: l1')).
    rewrite <- app_assoc. reflexivity.
Qed.

Lemma join_head (x : N) (c : str) (r : list str) : exists t, join_sl ((x :: c) :: r) = x :: t.
Proof. destruct r; eexists; reflexivity. Qed.
Lemma join_starts l : Forall goodc l -> l <> [] -> exists x t, join_sl l = x :: t /\ is_sl x = false.
Proof.
  intros HF Hne. destruct l as [|[|x c] r]; [congruence|inversion HF as [|? ? [H _] _]; congruence|].
  inversion HF as [|? ? [_ Hn] _]. apply nosl_cons in Hn as [Hx _].
  destruct (join_head x c r) as [t Ht]. eauto.
Qed.
Lemma join_ends_good l : Forall goodc l -> l <> [] -> exists pre z, join_sl l = pre ++ [z] /\ is_sl z = false.
Proof.
  intros HF Hne. destruct (exists_last Hne) as (l' & c & ->).
  apply Forall_app in HF as [_ Hc]. inversion Hc; subst.
  destruct (good_last c) as (b & z & -> & Hz); [assumption|].
  destruct l' as [|a l''].
  - exists b, z. split; [reflexivity|exact Hz].
  - rewrite join_app by discriminate. cbn [join_sl].
    exists (join_sl (a :: l'') ++ SL :: b), z. split; [|exact Hz].
    rewrite <- app_assoc. reflexivity.
Qed.

Lemma join_ends l : Forall plainc l -> l <> [] -> exists pre z, join_sl l = pre ++ [z] /\ is_sl z = false.
Proof. intros H. apply join_ends_good, plain_good, H. Qed.

Lemma or_dot_app k s : s <> [] -> or_dot (repeat SL k ++ s) = repeat SL k ++ s.
Proof. destruct k, s; try congruence; reflexivity. Qed.

(* normal form of the component stack (top first): plain components above a block of ".."s,
   and no ".." at all under a root *)
Definition nf (rooted : bool) (acc : list str) : Prop :=
  exists n pl, acc = pl ++ repeat dotdot n /\ Forall plainc pl /\ (rooted = true -> n = 0).

Lemma np_step_plain rooted acc c : plainc c -> np_step rooted acc c = c :: acc.
Proof.
  intros (H1 & H2 & H3 & _). unfold np_step.
  rewrite (str_eqb_false _ _ H1), (str_eqb_false _ _ H2), (str_eqb_false _ _ H3). reflexivity.
Qed.

Lemma np_step_nf rooted acc c : nosl c -> nf rooted acc -> nf rooted (np_step rooted acc c).
Proof.
  intros Hc (n & pl & -> & Hpl & Hr). unfold np_step.
  destruct (str_eqb c []) eqn:E1; cbn [orb]; [exists n, pl; auto|].
  destruct (str_eqb c dot) eqn:E2; cbn [orb]; [exists n, pl; auto|].
  destruct (str_eqb c dotdot) eqn:E3; cbn [negb].
  - apply str_eqb_eq in E3; subst c.
    destruct pl as [|t pl'].
    + cbn [app]. destruct n as [|n'].
      * cbn [repeat]. destruct rooted.
        -- exists 0, []. auto.
        -- exists 1, []. repeat split; auto. discriminate.
      * cbn [repeat]. rewrite str_eqb_refl.
        exists (S (S n')), []. repeat split; auto.
        intros H. specialize (Hr H). discriminate.
    + cbn [app]. inversion Hpl as [|? ? Ht Hpl']; subst.
      destruct Ht as (_ & _ & Ht & _). rewrite (str_eqb_false _ _ Ht).
      exists n, pl'. auto.
  - exists n, (c :: pl). repeat split; auto. constructor; auto.
    repeat split; auto; apply str_eqb_neq; assumption.
Qed.

Lemma fold_nf rooted l acc : Forall nosl l -> nf rooted acc -> nf rooted (fold_left (np_step rooted) l acc).
Proof.
  revert acc; induction l as [|c l IH]; intros acc HF Hn; cbn; [assumption|].
  inversion HF; subst. apply IH; [assumption|]. apply np_step_nf; assumption.
Qed.

Lemma np_comps_nf p : nf (Nat.ltb 0 (init_slashes p)) (np_comps p).
Proof. unfold np_comps. apply fold_nf; [apply split_nosl|]. exists 0, []. auto. Qed.

Lemma nf_tail rooted c acc : nf rooted (c :: acc) -> nf rooted acc.
Proof.
  intros (n & pl & E & Hpl & Hr). destruct pl as [|p pl'].
  - cbn in E. destruct n as [|n']; [discriminate|]. cbn in E. injection E as _ ->.
    exists n', []. repeat split; auto. intros H. specialize (Hr H). discriminate.
  - cbn in E. injection E as _ ->. inversion Hpl; subst. exists n, pl'. auto.
Qed.

Lemma nf_good rooted acc : nf rooted acc -> Forall goodc acc.
Proof.
  intros (n & pl & -> & Hpl & _). apply Forall_app. split; [apply plain_good, Hpl|].
  clear. induction n; cbn; constructor; auto. split; [discriminate|reflexivity].
Qed.

Lemma fold_dotdots n m : fold_left (np_step false) (repeat dotdot n) (repeat dotdot m) = repeat dotdot (n + m).
Proof.
  revert m; induction n as [|n IH]; intros m; cbn [repeat fold_left]; [reflexivity|].
  replace (np_step false (repeat dotdot m) dotdot) with (repeat dotdot (S m)).
  - rewrite IH. f_equal. lia.
  - destruct m; reflexivity.
Qed.

Lemma fold_plain rooted l acc : Forall plainc l -> fold_left (np_step rooted) l acc = rev l ++ acc.
Proof.
  revert acc; induction l as [|c l IH]; intros acc HF; cbn; [reflexivity|].
  inversion HF; subst. rewrite np_step_plain by assumption. rewrite IH by assumption.
  rewrite <- app_assoc. reflexivity.
Qed.

Lemma fold_nf_fix rooted acc : nf rooted acc -> fold_left (np_step rooted) (rev acc) [] = acc.
Proof.
  intros (n & pl & -> & Hpl & Hr). rewrite rev_app_distr, rev_repeat, fold_left_app.
  assert (E : fold_left (np_step rooted) (repeat dotdot n) [] = repeat dotdot n).
  { destruct rooted.
    - rewrite (Hr eq_refl). reflexivity.
    - change (@nil str) with (repeat dotdot 0). rewrite fold_dotdots. f_equal. lia. }
  rewrite E. rewrite fold_plain.
  - rewrite rev_involutive. reflexivity.
  - apply Forall_rev. assumption.
Qed.

Lemma fold_skip_empties rooted k l acc :
  fold_left (np_step rooted) (repeat [] k ++ l) acc = fold_left (np_step rooted) l acc.
Proof. induction k; cbn; auto. Qed.

Lemma init_slashes_le2 p : init_slashes p <= 2.
Proof.
  destruct p as [|a [|b [|c r]]]; cbn; repeat (match goal with |- context [if ?x then _ else _] => destruct x end); lia.
Qed.
Lemma init_slashes_repeat k x t : k <= 2 -> is_sl x = false -> init_slashes (repeat SL k ++ x :: t) = k.
Proof. intros Hk Hx. destruct k as [|[|[|k]]]; try lia; cbn; rewrite Hx; reflexivity. Qed.

Lemma normpath_nonempty p :
  p <> [] -> normpath p = or_dot (repeat SL (init_slashes p) ++ join_sl (rev (np_comps p))).
Proof. destruct p; [congruence|reflexivity]. Qed.

(* a path given by its leading slashes and its components: normpath runs the component loop on them *)
Lemma normpath_join k l :
  k <= 2 -> Forall nosl l -> match l with [] => True | c :: _ => c <> [] end ->
  normpath (repeat SL k ++ join_sl l)
  = or_dot (repeat SL k ++ join_sl (rev (fold_left (np_step (Nat.ltb 0 k)) l []))).
Proof.
  intros Hk HF Hc. destruct l as [|[|x c] r]; [destruct k as [|[|[|k]]]; try lia; reflexivity|congruence|].
  destruct (join_head x c r) as [t Ht]. unfold str in *.
  assert (Hx : is_sl x = false) by (inversion HF as [|? ? Hn _]; apply nosl_cons in Hn; apply Hn).
  rewrite normpath_nonempty by (rewrite Ht; destruct k; discriminate). unfold np_comps.
  rewrite Ht, (init_slashes_repeat k x t Hk Hx), split_repeat_sl, <- Ht.
  rewrite split_join by (discriminate || assumption). rewrite fold_skip_empties. reflexivity.
Qed.

Lemma normpath_rooted_comps l :
  Forall nosl l -> (match l with [] => True | c :: _ => c <> [] end) ->
  normpath (SL :: join_sl l) = SL :: join_sl (rev (fold_left (np_step true) l [])).
Proof. intros HF Hc. apply (normpath_join 1); [lia|assumption|assumption]. Qed.

Lemma normpath_nf k acc :
  k <= 2 -> nf (Nat.ltb 0 k) acc ->
  normpath (or_dot (repeat SL k ++ join_sl (rev acc))) = or_dot (repeat SL k ++ join_sl (rev acc)).
Proof.
  intros Hk Hnf. destruct acc as [|c acc'] eqn:E; [destruct k as [|[|[|k]]]; try lia; reflexivity|].
  rewrite <- E in *. assert (Hne : rev acc <> []) by (apply rev_nonempty; rewrite E; discriminate).
  pose proof (Forall_rev (nf_good _ _ Hnf)) as Hg.
  destruct (join_starts _ Hg Hne) as (x & t & Ej & _).
  rewrite or_dot_app by (rewrite Ej; discriminate).
  rewrite normpath_join, fold_nf_fix, or_dot_app; auto using good_nosl.
  - rewrite Ej. discriminate.
  - destruct (rev acc); inversion Hg as [|? ? [H _] _]; auto.
Qed.

Theorem normpath_idempotent_proof : forall p, normpath (normpath p) = normpath p.
Proof.
  intros [|c r]; [reflexivity|]. rewrite (normpath_nonempty (c :: r)) by discriminate.
  apply normpath_nf; [apply init_slashes_le2|apply np_comps_nf].
Qed.

Example normpath_ex1 : normpath [47;97;47;47;98;47;46;47;99;47;46;46;47]%N = [47;97;47;98]%N.  (* "/a//b/./c/../" -> "/a/b" *)
Proof. reflexivity. Qed.
Example normpath_ex2 : normpath [47;47;97]%N = [47;47;97]%N /\ normpath [47;47;47;97]%N = [47;97]%N
                       /\ normpath [] = dot /\ normpath [47;46;46]%N = [47]%N /\ normpath [97;47;46;46;47;46;46]%N = dotdot.
Proof. repeat split; reflexivity. Qed.

Lemma dw_length f l : length (drop_while f l) <= length l.
Proof. induction l as [|c r IH]; cbn; [lia|]. destruct (f c); cbn; lia. Qed.
Lemma dw_all f l Y : forallb f l = true -> drop_while f (l ++ Y) = drop_while f Y.
Proof. induction l as [|c l IH]; cbn; [reflexivity|]. intros H. apply andb_true_iff in H as [H1 H2]. rewrite H1. auto. Qed.

Lemma dirname_length t : length (dirname t) < length t \/ dirname t = t.
Proof.
  unfold dirname. destruct (rev t) as [|c r] eqn:E.
  - right. apply (f_equal (@rev N)) in E. rewrite rev_involutive in E. subst. reflexivity.
  - assert (L : length t = S (length r)) by (rewrite <- (rev_length t), E; reflexivity).
    cbn [drop_while]. destruct (is_sl c) eqn:C; cbn [negb].
    + destruct (forallb is_sl (c :: r)) eqn:F.
      * right. rewrite <- E. apply rev_involutive.
      * left. rewrite rev_length. cbn [drop_while]. rewrite C.
        pose proof (dw_length is_sl r). lia.
    + left. set (rh := drop_while (fun c0 => negb (is_sl c0)) r).
      pose proof (dw_length (fun c0 => negb (is_sl c0)) r) as H1. fold rh in H1.
      destruct (forallb is_sl rh); rewrite rev_length; [lia|].
      pose proof (dw_length is_sl rh). lia.
Qed.
Lemma dirname_le t : length (dirname t) <= length t.
Proof. destruct (dirname_length t) as [H|H]; [lia|rewrite H; lia]. Qed.

Lemma dirname_single k c : nosl c -> dirname (repeat SL k ++ c) = repeat SL k.
Proof.
  intros Hc. unfold dirname. rewrite rev_app_distr, rev_repeat, dw_all by (apply nosl_rev, Hc).
  replace (drop_while (fun x => negb (is_sl x)) (repeat SL k)) with (repeat SL k) by (destruct k; reflexivity).
  replace (forallb is_sl (repeat SL k)) with true by (induction k; cbn; auto). apply rev_repeat.
Qed.
Lemma dirname_snoc_comp B z c : nosl c -> is_sl z = false ->
  dirname ((B ++ [z]) ++ SL :: c) = B ++ [z].
Proof.
  intros Hc Hz. unfold dirname. rewrite rev_app_distr. cbn [rev]. rewrite <- app_assoc. cbn [app].
  rewrite dw_all by (apply nosl_rev, Hc).
  cbn [drop_while]. change (is_sl SL) with true. cbn [negb].
  rewrite rev_app_distr. cbn [rev app forallb drop_while]. change (is_sl SL) with true. rewrite Hz. cbn [andb].
  cbn [rev]. rewrite rev_involutive. reflexivity.
Qed.

Lemma dirname_nf k acc :
  k <= 2 -> nf (Nat.ltb 0 k) acc ->
  let q := or_dot (repeat SL k ++ join_sl (rev acc)) in
  normpath (dirname q) = dirname q \/ dirname q = [].
Proof.
  intros Hk Hnf q. subst q. destruct acc as [|c acc'].
  - destruct k as [|[|[|k]]]; try lia; [right|left|left]; reflexivity.
  - pose proof (nf_good _ _ Hnf) as Hg. inversion Hg as [|? ? [Hcne Hc] Hg']; subst.
    pose proof (nf_tail _ _ _ Hnf) as Hnf'. cbn [rev].
    destruct acc' as [|c2 acc''] eqn:Eacc.
    + cbn [rev app join_sl]. rewrite or_dot_app, dirname_single by assumption.
      destruct k as [|[|[|k]]]; try lia; [right|left|left]; reflexivity.
    + rewrite <- Eacc in *. assert (Hne : rev acc' <> []) by (apply rev_nonempty; rewrite Eacc; discriminate).
      destruct (join_ends_good _ (Forall_rev Hg') Hne) as (pre & z & Ej & Hz).
      rewrite join_app by (assumption || discriminate). cbn [join_sl].
      rewrite or_dot_app by (rewrite Ej; destruct pre; discriminate).
      rewrite Ej, !app_assoc, dirname_snoc_comp by assumption. left.
      rewrite <- app_assoc, <- Ej, <- or_dot_app by (rewrite Ej; destruct pre; discriminate).
      apply normpath_nf; assumption.
Qed.

Lemma dirname_normal p : normpath p = p -> normpath (dirname p) = dirname p \/ dirname p = [].
Proof.
  intros H. destruct p as [|c r]; [discriminate|].
  pose proof (dirname_nf _ _ (init_slashes_le2 (c :: r)) (np_comps_nf (c :: r))) as X.
  cbv zeta in X. rewrite <- normpath_nonempty, H in X by discriminate. exact X.
Qed.

Lemma ancestor_normal p a : normpath p = p -> ancestor p a -> normpath a = a \/ a = [].
Proof.
  intros Hp Ha. revert Hp. induction Ha as [p|p a' Ha' IH]; intros Hp.
  - apply dirname_normal. exact Hp.
  - destruct (IH Hp) as [H| ->]; [apply dirname_normal; exact H|right; reflexivity].
Qed.

Lemma lstrip_slashes_join j l : Forall goodc l -> lstrip_sl (repeat SL j ++ join_sl l) = join_sl l.
Proof.
  intros HF. induction j as [|j IH]; [|exact IH]. destruct l as [|c r] eqn:E; [reflexivity|]. rewrite <- E in *.
  destruct (join_starts l HF) as (x & t & -> & Hx); [rewrite E; discriminate|].
  unfold lstrip_sl; cbn. rewrite Hx. reflexivity.
Qed.

Lemma lstrip_join l : Forall plainc l -> lstrip_sl (join_sl l) = join_sl l.
Proof. intros H. apply (lstrip_slashes_join 0), plain_good, H. Qed.

Lemma rstrip_snoc_sl pre z n : is_sl z = false -> rstrip_sl ((pre ++ [z]) ++ repeat SL n) = pre ++ [z].
Proof.
  intros Hz. unfold rstrip_sl. rewrite rev_app_distr, rev_repeat, dw_all by (induction n; cbn; auto).
  rewrite rev_app_distr. cbn. rewrite Hz. cbn. rewrite rev_involutive. reflexivity.
Qed.

Lemma rstrip_root_join co n : Forall goodc co ->
  rstrip_sl ((SL :: join_sl co) ++ repeat SL n) = match co with [] => [] | _ => SL :: join_sl co end.
Proof.
  intros H. destruct co as [|c0 co'] eqn:E.
  - unfold rstrip_sl. change ((SL :: join_sl []) ++ repeat SL n) with (repeat SL (S n)).
    rewrite rev_repeat. induction n; cbn in *; auto.
  - rewrite <- E in *. destruct (join_ends_good co H) as (pre & z & -> & Hz); [rewrite E; discriminate|].
    apply (rstrip_snoc_sl (SL :: pre)), Hz.
Qed.
Lemma ends_sl_root_join cn : Forall goodc cn ->
  ends_sl (SL :: join_sl cn) = match cn with [] => true | _ => false end.
Proof.
  intros H. destruct cn as [|c0 cn'] eqn:E; [reflexivity|]. rewrite <- E in *.
  destruct (join_ends_good cn H) as (pre & z & -> & Hz); [rewrite E; discriminate|].
  unfold ends_sl. change (SL :: pre ++ [z]) with ((SL :: pre) ++ [z]). rewrite rev_app_distr. exact Hz.
Qed.

Lemma reloc_rest co cr n : Forall plainc co -> Forall plainc cr ->
  lstrip_sl (skipn (length (rstrip_sl ((SL :: join_sl co) ++ repeat SL n))) (SL :: join_sl (co ++ cr)))
  = join_sl cr.
Proof.
  intros Hco Hcr. apply plain_good in Hcr. rewrite rstrip_root_join by (apply plain_good, Hco).
  destruct co as [|c0 co'] eqn:E; [apply (lstrip_slashes_join 1), Hcr|]. rewrite <- E. cbn [length skipn].
  destruct cr as [|c1 cr'] eqn:Ecr; [rewrite app_nil_r, skipn_all; reflexivity|]. rewrite <- Ecr in *.
  rewrite join_app, skipn_app, skipn_all, Nat.sub_diag by (rewrite ?E, ?Ecr; discriminate).
  apply (lstrip_slashes_join 1), Hcr.
Qed.
Lemma pjoin_root cn cr : Forall plainc cn -> Forall plainc cr ->
  pjoin (SL :: join_sl cn) (join_sl cr)
  = SL :: join_sl (cn ++ cr ++ match cn, cr with _ :: _, [] => [[]] | _, _ => [] end).
Proof.
  intros Hcn Hcr. apply plain_good in Hcn, Hcr. unfold pjoin. rewrite (ends_sl_root_join cn Hcn).
  destruct cr as [|c1 cr'].
  - destruct cn as [|d cn']; [reflexivity|]. rewrite app_nil_l, join_app by discriminate. reflexivity.
  - destruct (join_starts _ Hcr) as (x & t & Ej & Hx); [discriminate|].
    rewrite Ej, Hx, <- Ej. destruct cn as [|d cn']; rewrite app_nil_r; [reflexivity|].
    rewrite join_app by discriminate. reflexivity.
Qed.
Lemma normpath_pjoin_root cn cr : Forall plainc cn -> Forall plainc cr ->
  normpath (pjoin (SL :: join_sl cn) (join_sl cr)) = SL :: join_sl (cn ++ cr).
Proof.
  intros Hcn Hcr. rewrite pjoin_root by assumption.
  match goal with |- context [cr ++ ?e0] => set (e := e0) end.
  assert (He : forall acc, fold_left (np_step true) e acc = acc) by (intros acc; destruct cn, cr; reflexivity).
  rewrite normpath_rooted_comps, app_assoc, fold_left_app, He, fold_plain, app_nil_r, rev_involutive; auto.
  - apply Forall_app; split; assumption.
  - rewrite app_assoc. apply Forall_app. split; [apply plain_nosl, Forall_app; split; assumption|].
    destruct cn, cr; repeat constructor.
  - destruct cn as [|d cn']; [destruct cr as [|c1 cr']; [exact I|]|]; cbn.
    + inversion Hcr as [|? ? (H & _) _]. exact H.
    + inversion Hcn as [|? ? (H & _) _]. exact H.
Qed.

Example relocate_ex :
  reloc [47;117;115;114;47]%N [47;111;112;116]%N [47;117;115;114;47;98;105;110;47;120]%N
  = [47;111;112;116;47;98;105;110;47;120]%N.      (* old "/usr/", new "/opt": "/usr/bin/x" -> "/opt/bin/x" *)
Proof. reflexivity. Qed.
(* known class: an old offset that is not normalised cuts the wrong prefix
   (old "/usr///lib", new "/x": "/usr/lib/foo" -> "/x/oo") *)
Example relocate_unnormalised_old :
  reloc [47;117;115;114;47;47;47;108;105;98]%N [47;120]%N [47;117;115;114;47;108;105;98;47;102;111;111]%N
  = [47;120;47;111;111]%N.
Proof. reflexivity. Qed.

Lemma starts_with_iff pre s : starts_with pre s = true <-> exists rest, s = pre ++ rest.
Proof.
  revert s; induction pre as [|a pre IH]; intros s; cbn.
  - split; [intros _; exists s; reflexivity|reflexivity].
  - destruct s as [|b s]; [split; [discriminate|intros [r H]; discriminate]|].
    rewrite andb_true_iff, N.eqb_eq, IH. split.
    + intros [-> [r ->]]. exists r. reflexivity.
    + intros [r H]. injection H as -> ->. split; [reflexivity|exists r; reflexivity].
Qed.
Lemma child_prefix_iff start p :
  starts_with (child_prefix start) p = true <-> exists rest, p = rstrip_sl (normpath start) ++ SL :: rest.
Proof.
  unfold child_prefix. rewrite starts_with_iff. split; intros [r ->]; exists r; rewrite <- app_assoc; reflexivity.
Qed.

Lemma dget_dset p e d : dget p (dset e d) = if str_eqb p (eloc e) then Some e else dget p d.
Proof.
  induction d as [|x r IH]; cbn; [rewrite (str_eqb_sym (eloc e)); reflexivity|].
  destruct (str_eqb (eloc x) (eloc e)) eqn:E0; cbn.
  - apply str_eqb_eq in E0. rewrite E0, (str_eqb_sym (eloc e)). destruct (str_eqb p (eloc e)); reflexivity.
  - rewrite IH. destruct (str_eqb (eloc x) p) eqn:E1; [|reflexivity].
    apply str_eqb_eq in E1. subst p. rewrite E0. reflexivity.
Qed.

Lemma dget_filter_key (f : str -> bool) d p :
  dget p (filter (fun e => f (eloc e)) d) = if f p then dget p d else None.
Proof.
  induction d as [|x r IH]; cbn; [destruct (f p); reflexivity|].
  destruct (f (eloc x)) eqn:F; cbn; rewrite IH; destruct (str_eqb (eloc x) p) eqn:E; try reflexivity;
    apply str_eqb_eq in E; subst; rewrite F; reflexivity.
Qed.

Lemma dget_ddel p k d : dget p (ddel k d) = if str_eqb p k then None else dget p d.
Proof.
  unfold ddel. rewrite (dget_filter_key (fun x => negb (str_eqb x k))). destruct (str_eqb p k); reflexivity.
Qed.

Lemma dget_fold_ddel {A} (key : A -> str) p l d :
  dget p (fold_left (fun d x => ddel (key x) d) l d)
  = if existsb (fun x => str_eqb p (key x)) l then None else dget p d.
Proof.
  revert d; induction l as [|x l IH]; intros d; cbn; [reflexivity|].
  rewrite IH, dget_ddel. destruct (str_eqb p (key x)); cbn; [destruct (existsb _ l); reflexivity|reflexivity].
Qed.

Lemma dhas_dget k d : dhas k d = match dget k d with Some _ => true | None => false end.
Proof. induction d as [|x r IH]; cbn; [reflexivity|]. destruct (str_eqb (eloc x) k); cbn; auto. Qed.

Lemma dhas_iff k d : dhas k d = true <-> exists e, In e d /\ eloc e = k.
Proof.
  unfold dhas. rewrite existsb_exists. split; intros (e & H1 & H2); exists e; split; auto; apply str_eqb_eq; assumption.
Qed.

Lemma dget_app p d1 d2 : dget p (d1 ++ d2) = match dget p d1 with Some e => Some e | None => dget p d2 end.
Proof. induction d1 as [|x r IH]; cbn; [reflexivity|]. destruct (str_eqb (eloc x) p); auto. Qed.

Lemma dget_dupdate p l d :
  dget p (dupdate d l) = match ents_map l p with Some e => Some e | None => dget p d end.
Proof.
  unfold ents_map. revert d; induction l as [|e l IH]; intros d; cbn; [reflexivity|].
  unfold dupdate in *. rewrite IH. rewrite dget_app. destruct (dget p (rev l)); [reflexivity|].
  cbn. rewrite dget_dset. rewrite (str_eqb_sym p). destruct (str_eqb (eloc e) p); reflexivity.
Qed.
Lemma dget_dupdate_nil p l : dget p (dupdate [] l) = ents_map l p.
Proof. rewrite dget_dupdate. destruct (ents_map l p); reflexivity. Qed.

Lemma dget_some p d e : dget p d = Some e -> In e d /\ eloc e = p.
Proof.
  induction d as [|x r IH]; cbn; [discriminate|]. destruct (str_eqb (eloc x) p) eqn:E.
  - intros [= ->]. apply str_eqb_eq in E. auto.
  - intros H. destruct (IH H). auto.
Qed.

Lemma dget_none p d : dget p d = None <-> ~ In p (map eloc d).
Proof.
  induction d as [|x r IH]; cbn; [tauto|]. destruct (str_eqb (eloc x) p) eqn:E.
  - apply str_eqb_eq in E. split; [discriminate|]. intros H. exfalso. apply H. auto.
  - apply str_eqb_neq in E. rewrite IH. tauto.
Qed.

Lemma dget_nodup_in d e : NoDup (map eloc d) -> In e d -> dget (eloc e) d = Some e.
Proof.
  induction d as [|x r IH]; cbn; [tauto|]. intros ND [->|Hin].
  - rewrite str_eqb_refl. reflexivity.
  - inversion ND as [|? ? Hn ND']; subst. destruct (str_eqb (eloc x) (eloc e)) eqn:E.
    + apply str_eqb_eq in E. exfalso. apply Hn. rewrite E. apply in_map. assumption.
    + apply IH; assumption.
Qed.

Lemma ents_map_some l p e : ents_map l p = Some e -> In e l /\ eloc e = p.
Proof. intros H. apply dget_some in H as [H1 H2]. apply in_rev in H1. auto. Qed.
Lemma ents_map_none l p : ents_map l p = None <-> ~ In p (map eloc l).
Proof. unfold ents_map. rewrite dget_none, map_rev, <- in_rev. reflexivity. Qed.
Lemma ents_map_nodup d p : NoDup (map eloc d) -> ents_map d p = dget p d.
Proof.
  intros ND. destruct (dget p d) as [e|] eqn:G.
  - destruct (dget_some _ _ _ G) as [Hin <-]. apply dget_nodup_in.
    + rewrite map_rev. apply NoDup_rev. assumption.
    + apply in_rev. rewrite rev_involutive. assumption.
  - apply ents_map_none. apply dget_none in G. exact G.
Qed.
Lemma ents_map_dom es p : dom (ents_map es) p <-> arg_keys (AIter (map IE es)) p.
Proof.
  unfold dom, arg_keys; cbn. split.
  - intros H. destruct (ents_map es p) as [e|] eqn:G; [|congruence].
    apply ents_map_some in G as [Hin <-]. exists (IE e). split; [apply in_map; assumption|reflexivity].
  - intros (it & Hin & <-) G. apply in_map_iff in Hin as (e & <- & Hin).
    apply ents_map_none in G. apply G. cbn. apply in_map, Hin.
Qed.
Lemma dom_M_inter m1 m2 p : dom (M_inter m1 m2) p <-> dom m2 p /\ dom m1 p.
Proof. unfold dom, M_inter. destruct (m2 p); intuition congruence. Qed.

Lemma dom_iff s p : dom (abs s) p <-> exists e, In e (ents s) /\ eloc e = p.
Proof.
  unfold dom, abs. rewrite <- dhas_iff, dhas_dget. destruct (dget p (ents s)); split; congruence.
Qed.

Lemma in_keys_dset k e d : In k (map eloc (dset e d)) -> k = eloc e \/ In k (map eloc d).
Proof.
  induction d as [|x r IH]; cbn; [intuition|]. destruct (str_eqb (eloc x) (eloc e)) eqn:E; cbn.
  - apply str_eqb_eq in E. rewrite E. intuition.
  - intros [H|H]; [auto|]. destruct (IH H); auto.
Qed.

Lemma wf_dset e d : wf_entry e -> wf_dict d -> wf_dict (dset e d).
Proof.
  intros He [ND HF]. split.
  - induction d as [|x r IH]; cbn; [constructor; [tauto|constructor]|].
    inversion ND as [|? ? Hn ND']; subst. inversion HF; subst.
    destruct (str_eqb (eloc x) (eloc e)) eqn:E; cbn.
    + apply str_eqb_eq in E. rewrite <- E. constructor; assumption.
    + apply str_eqb_neq in E. constructor; [|apply IH; assumption].
      intros H. apply in_keys_dset in H as [H|H]; [congruence|contradiction].
  - clear ND. induction d as [|x r IH]; cbn; [constructor; [assumption|constructor]|].
    inversion HF; subst. destruct (str_eqb (eloc x) (eloc e)); constructor; auto.
Qed.

Lemma wf_filter f d : wf_dict d -> wf_dict (filter f d).
Proof. intros [ND HF]. split; [apply NoDup_map_filter, ND|apply Forall_filter, HF]. Qed.

Lemma wf_nil : wf_dict [].
Proof. split; constructor. Qed.

Lemma wf_dupdate l d : Forall wf_entry l -> wf_dict d -> wf_dict (dupdate d l).
Proof.
  revert d; induction l as [|e l IH]; intros d HF Hd; cbn; [assumption|].
  inversion HF; subst. apply IH; [assumption|]. apply wf_dset; assumption.
Qed.
Lemma wf_dupdate_map {A} (f : A -> entry) l d : (forall x, wf_entry (f x)) -> wf_dict d -> wf_dict (dupdate d (map f l)).
Proof. intros H. apply wf_dupdate, Forall_forall. intros e Hin. apply in_map_iff in Hin as (x & <- & _). apply H. Qed.

Lemma wf_fold_ddel {A} (k : A -> str) l d : wf_dict d -> wf_dict (fold_left (fun acc x => ddel (k x) acc) l d).
Proof. revert d; induction l as [|x l IH]; intros d W; cbn; [assumption|]. apply IH. apply wf_filter. assumption. Qed.

Lemma wf_mk_entry p k t : wf_entry (mk_entry p k t).
Proof. unfold wf_entry; cbn. apply normpath_idempotent_proof. Qed.
Lemma wf_with_loc e l : wf_entry (with_loc e l).
Proof. unfold wf_entry; cbn. apply normpath_idempotent_proof. Qed.

Lemma wf_key_normal d e : wf_dict d -> In e d -> normpath (eloc e) = eloc e.
Proof. intros [_ HF] Hin. rewrite Forall_forall in HF. exact (HF _ Hin). Qed.
Lemma wf_unnormalised_absent s p : wf s -> normpath p <> p -> abs s p = None.
Proof.
  intros W Hp. destruct (abs s p) as [e|] eqn:G; [|reflexivity].
  destruct (dget_some _ _ _ G) as [Hin <-]. destruct Hp. apply (wf_key_normal _ e W Hin).
Qed.

Lemma item_raw_ok_spec (in_list : bool) it loc : item_raw_okb in_list it = true ->
  ((if in_list then match it with IS q => str_eqb q loc | IE _ => false end
    else str_eqb (match it with IS q => q | IE e => eloc e end) loc) = true <-> norm_key it = loc).
Proof.
  destruct it as [e|q]; cbn; intros H.
  - destruct in_list; [discriminate|]. apply str_eqb_eq.
  - apply str_eqb_eq in H. rewrite H. destruct in_list; apply str_eqb_eq.
Qed.

Lemma loc_in_arg_spec a loc :
  raw_in_class a = false -> normpath loc = loc -> (loc_in_arg loc a = true <-> arg_keys a loc).
Proof.
  intros Hc Hl. unfold arg_keys. destruct a as [o|l|l]; cbn in *.
  - rewrite Hl, dhas_iff. split.
    + intros (e & H1 & H2). exists (IE e). split; [apply in_map; assumption|assumption].
    + intros (it & H1 & H2). apply in_map_iff in H1 as (e & <- & Hin). exists e; auto.
  - apply negb_false_iff in Hc. rewrite forallb_forall in Hc. rewrite existsb_exists.
    split; intros (it & Hin & H); exists it; (split; [exact Hin|]); apply (item_raw_ok_spec true it loc (Hc _ Hin)), H.
  - apply negb_false_iff in Hc. rewrite forallb_forall in Hc. rewrite existsb_exists.
    split; intros (it & Hin & H); exists it; (split; [exact Hin|]); apply (item_raw_ok_spec false it loc (Hc _ Hin)), H.
Qed.
Lemma loc_in_arg_ents s a e : wf s -> raw_in_class a = false -> In e (ents s) ->
  (loc_in_arg (eloc e) a = true <-> arg_keys a (eloc e)).
Proof. intros W Hc Hin. apply loc_in_arg_spec; [exact Hc|exact (wf_key_normal _ e W Hin)]. Qed.

Lemma restrict_by_loc_in_arg keep s a :
  wf s -> raw_in_class a = false ->
  is_restrict keep (arg_keys a) (abs s)
    (fun p => dget p (filter (fun x => if keep then loc_in_arg (eloc x) a else negb (loc_in_arg (eloc x) a)) (ents s))).
Proof.
  intros W Hc p.
  rewrite (dget_filter_key (fun k => if keep then loc_in_arg k a else negb (loc_in_arg k a))).
  fold (abs s p). destruct (str_eq_dec (normpath p) p) as [Hn|Hn].
  - pose proof (loc_in_arg_spec a p Hc Hn) as Hs. destruct (loc_in_arg p a) eqn:L.
    + split; [intros _; destruct keep; reflexivity|]. intros HK. exfalso. apply HK. apply Hs. reflexivity.
    + split; [|intros _; destruct keep; reflexivity]. intros HK. apply Hs in HK. discriminate.
  - rewrite (wf_unnormalised_absent _ _ W Hn). split; intros _; destruct keep, (loc_in_arg p a); reflexivity.
Qed.

(* witnesses: a list holding the very fs object / an unnormalised spelling of a stored path *)
Definition w_ab : entry := mk_entry [47;97;47;98]%N 0 1.          (* file /a/b *)
Definition w_set : cset := {| mut := true; ents := [w_ab] |}.
Lemma w_set_wf : wf w_set.
Proof. split; cbn; [constructor; [tauto|constructor]|constructor; [apply wf_mk_entry|constructor]]. Qed.
Lemma w_list_wf : wf_arg (AList [IE w_ab]).
Proof. cbn. constructor; [apply wf_mk_entry|constructor]. Qed.
Lemma w_list_key : arg_keys (AList [IE w_ab]) [47;97;47;98]%N.
Proof. exists (IE w_ab). split; [left; reflexivity|reflexivity]. Qed.
Lemma w_dom : dom (abs w_set) [47;97;47;98]%N.
Proof. vm_compute. discriminate. Qed.
Lemma w_dir_wf : Forall wf_entry [mk_entry [47;97;47;98]%N 1 2].
Proof. constructor; [apply wf_mk_entry|constructor]. Qed.
(* the second half of the class: a path string that is not normalised, here through an iterator *)
Example difference_unnormalised_string :
  abs (difference w_set (AIter [IS [47;97;47;47;98]%N])) [47;97;47;98]%N = Some w_ab
  /\ arg_keys (AIter [IS [47;97;47;47;98]%N]) [47;97;47;98]%N.
Proof. split; [reflexivity|]. exists (IS [47;97;47;47;98]%N). split; [left; reflexivity|reflexivity]. Qed.

Lemma arg_keys_existsb a p : existsb (fun it => str_eqb p (key_of it)) (arg_items a) = true <-> arg_keys a p.
Proof.
  rewrite existsb_exists. unfold arg_keys. split; intros (it & Hin & H); exists it; split; auto.
  - apply str_eqb_eq in H. symmetry. exact H.
  - change (norm_key it) with (key_of it) in H. rewrite H. apply str_eqb_refl.
Qed.

Lemma all_entries_map es : all_entries (map IE es) = Some es.
Proof. induction es as [|e es IH]; cbn; [reflexivity|]. unfold all_entries in IH. rewrite IH. reflexivity. Qed.

Lemma all_entries_some l es : all_entries l = Some es -> l = map IE es.
Proof.
  revert es; induction l as [|it l IH]; intros es; cbn.
  - intros [= <-]. reflexivity.
  - destruct it as [e|q]; [|discriminate]. fold (all_entries l). destruct (all_entries l) as [r|]; [|discriminate].
    intros [= <-]. cbn. f_equal. apply IH. reflexivity.
Qed.

Lemma filter_contains_map s es :
  filter (contains s) (map IE es) = map IE (filter (fun e => dhas (eloc e) (ents s)) es).
Proof.
  induction es as [|e es IH]; cbn; [reflexivity|]. unfold contains at 1; cbn.
  destruct (dhas (eloc e) (ents s)); cbn; rewrite IH; reflexivity.
Qed.

Lemma intersection_ents s es :
  intersection s (AIter (map IE es)) = Ok (with_ents s (dupdate [] (filter (fun e => dhas (eloc e) (ents s)) es))).
Proof. unfold intersection; cbn [arg_items]. rewrite filter_contains_map, all_entries_map. reflexivity. Qed.
Lemma intersection_map s es :
  same_map (abs (with_ents s (dupdate [] (filter (fun e => dhas (eloc e) (ents s)) es)))) (M_inter (ents_map es) (abs s)).
Proof.
  intros p. unfold abs, M_inter; cbn. rewrite dget_dupdate_nil. unfold ents_map. rewrite <- filter_rev.
  rewrite (dget_filter_key (fun k => dhas k (ents s))), dhas_dget. destruct (dget p (ents s)); reflexivity.
Qed.

(* what symdiff_core does once an iterator has become a set *)
Definition symdiff_with (d : dict) (o : arg) : res dict :=
  match add_absent d (arg_items o) with
  | Er k => Er k
  | Ok d1 => Ok (fold_left (fun acc x => ddel (eloc x) acc) (filter (fun x => entry_in_arg x o) d) d1)
  end.
Lemma symdiff_core_iter d es :
  symdiff_core d (AIter (map IE es)) = symdiff_with d (ACs {| mut := true; ents := dupdate [] es |}).
Proof. unfold symdiff_core. rewrite all_entries_map. reflexivity. Qed.

(* add_absent on fs objects only: it cannot fail *)
Fixpoint addnew (d : dict) (es : list entry) : dict :=
  match es with
  | [] => d
  | e :: r => if dhas (eloc e) d then addnew d r else addnew (dset e d) r
  end.
Lemma add_absent_entries d es : add_absent d (map IE es) = Ok (addnew d es).
Proof. revert d; induction es as [|e es IH]; intros d; cbn; [reflexivity|]. destruct (dhas (eloc e) d); apply IH. Qed.
Lemma dget_addnew p es d : dget p (addnew d es) = match dget p d with Some e => Some e | None => dget p es end.
Proof.
  revert d; induction es as [|e es IH]; intros d; cbn; [destruct (dget p d); reflexivity|].
  destruct (dhas (eloc e) d) eqn:H; rewrite IH.
  - destruct (dget p d) eqn:G; [reflexivity|]. destruct (str_eqb (eloc e) p) eqn:E; [|reflexivity].
    apply str_eqb_eq in E; subst. rewrite dhas_dget, G in H. discriminate.
  - rewrite dget_dset. rewrite (str_eqb_sym p). destruct (str_eqb (eloc e) p) eqn:E; [|reflexivity].
    apply str_eqb_eq in E; subst. rewrite dhas_dget in H. destruct (dget (eloc e) d); [discriminate|reflexivity].
Qed.
Lemma existsb_key_filter p (g : str -> bool) d :
  existsb (fun x => str_eqb p (eloc x)) (filter (fun x => g (eloc x)) d) = dhas p d && g p.
Proof.
  induction d as [|x d IH]; cbn; [reflexivity|].
  destruct (str_eqb (eloc x) p) eqn:E.
  - apply str_eqb_eq in E; subst. destruct (g (eloc x)) eqn:G; cbn.
    + rewrite str_eqb_refl. reflexivity.
    + rewrite IH, andb_false_r. reflexivity.
  - destruct (g (eloc x)) eqn:G; cbn; [|exact IH].
    rewrite (str_eqb_sym p (eloc x)), E. cbn. exact IH.
Qed.

Lemma symdiff_with_spec d o es :
  arg_items o = map IE es -> (forall x, In x d -> entry_in_arg x o = dhas (eloc x) es) ->
  exists d', symdiff_with d o = Ok d'
             /\ forall p, dget p d' = M_symdiff (fun p => dget p d) (fun p => dget p es) p.
Proof.
  intros Hi Hm. unfold symdiff_with. rewrite Hi, add_absent_entries.
  rewrite (filter_ext_in _ (fun x => dhas (eloc x) es) _ Hm).
  eexists; split; [reflexivity|]. intros p. rewrite dget_fold_ddel.
  rewrite (existsb_key_filter p (fun k => dhas k es)), dget_addnew.
  unfold M_symdiff. rewrite !dhas_dget. destruct (dget p d), (dget p es); reflexivity.
Qed.
Lemma symdiff_lift s a d' : symdiff_core (ents s) a = Ok d' ->
  symmetric_difference s a = Ok (with_ents s d')
  /\ symmetric_difference_update s a = (if mut s then Ok (with_ents s d') else Er TypeError).
Proof. unfold symmetric_difference_update, symmetric_difference. intros ->. destruct (mut s); split; reflexivity. Qed.

(* given a LIST, membership of self's objects is fsBase.__eq__ (class and location) *)
Lemma entry_in_list_spec d es x :
  NoDup (map eloc d) -> In x d ->
  existsb (fun e => match dget (eloc e) d with Some y => negb (N.eqb (ekind y) (ekind e)) | None => false end) es = false ->
  entry_in_arg x (AList (map IE es)) = dhas (eloc x) es.
Proof.
  intros ND Hin Hc. cbn [entry_in_arg].
  induction es as [|e es IH]; cbn; [reflexivity|].
  cbn in Hc. apply orb_false_iff in Hc as [Hc1 Hc2]. rewrite (IH Hc2).
  destruct (str_eqb (eloc e) (eloc x)) eqn:E; [|rewrite andb_false_r; reflexivity].
  apply str_eqb_eq in E. rewrite E in Hc1. rewrite (dget_nodup_in _ _ ND Hin) in Hc1.
  apply negb_false_iff in Hc1. rewrite N.eqb_sym, Hc1. reflexivity.
Qed.

Lemma wf_mk_raw r : wf_entry (mk_raw r).
Proof. destruct r as [[p k] t]. apply wf_mk_entry. Qed.
Lemma wf_mk_cset m l : wf (mk_cset m l).
Proof. apply wf_dupdate_map; [apply wf_mk_raw|apply wf_nil]. Qed.
Lemma wf_mk_arg a : wf_arg (mk_arg a).
Proof.
  assert (H : forall l, Forall wf_item (map mk_item l)).
  { intros l. apply Forall_map, Forall_forall. intros [r|q] _; [apply wf_mk_raw|exact I]. }
  destruct a as [m l|l|l]; cbn; auto. apply wf_mk_cset.
Qed.

Lemma wf_arg_items a : wf_arg a -> Forall wf_item (arg_items a).
Proof. destruct a as [o|l|l]; cbn; auto. intros [_ HF]. apply Forall_map. exact HF. Qed.

Lemma all_entries_wf l es : Forall wf_item l -> all_entries l = Some es -> Forall wf_entry es.
Proof. intros HF H. apply all_entries_some in H. subst. exact (proj1 (Forall_map IE wf_item es) HF). Qed.

Lemma wf_add_absent l d d' : Forall wf_item l -> wf_dict d -> add_absent d l = Ok d' -> wf_dict d'.
Proof.
  revert d; induction l as [|it l IH]; intros d HF W; cbn.
  - intros [= <-]. assumption.
  - inversion HF; subst. destruct (dhas (key_of it) d); [apply IH; assumption|].
    destruct it as [e|q]; [|discriminate]. apply IH; [assumption|]. apply wf_dset; assumption.
Qed.

Lemma wf_symdiff_with d o d' : wf_dict d -> wf_arg o -> symdiff_with d o = Ok d' -> wf_dict d'.
Proof.
  intros W Wo. unfold symdiff_with. destruct (add_absent d (arg_items o)) as [d1|k] eqn:E; [|discriminate].
  intros [= <-]. apply wf_fold_ddel. eapply wf_add_absent; [apply wf_arg_items; exact Wo|exact W|exact E].
Qed.
Lemma wf_symdiff_core d a d' : wf_dict d -> wf_arg a -> symdiff_core d a = Ok d' -> wf_dict d'.
Proof.
  intros W Wa. destruct a as [o|l|l]; try (apply wf_symdiff_with; assumption).
  unfold symdiff_core. destruct (all_entries l) as [es|] eqn:E; [|discriminate].
  apply wf_symdiff_with; [exact W|]. apply wf_dupdate; [|apply wf_nil]. eapply all_entries_wf; [exact Wa|exact E].
Qed.

Lemma wf_difference s a : wf s -> wf (difference s a).
Proof. intros W. apply wf_filter. exact W. Qed.
Lemma wf_intersection s a s' : wf s -> wf_arg a -> intersection s a = Ok s' -> wf s'.
Proof.
  intros W Wa. unfold intersection. destruct (all_entries _) as [es|] eqn:E; [|discriminate]. intros [= <-].
  apply wf_dupdate; [|apply wf_nil]. eapply all_entries_wf; [|exact E].
  apply Forall_filter. apply wf_arg_items. exact Wa.
Qed.
Lemma wf_union s a s' : wf s -> wf_arg a -> union s a = Ok s' -> wf s'.
Proof.
  intros W Wa. unfold union. destruct (all_entries _) as [es|] eqn:E; [|discriminate]. intros [= <-].
  apply wf_dupdate; [destruct W; assumption|]. apply wf_dupdate; [|apply wf_nil].
  eapply all_entries_wf; [|exact E]. apply wf_arg_items. exact Wa.
Qed.
Lemma wf_symdiff s a s' : wf s -> wf_arg a -> symmetric_difference s a = Ok s' -> wf s'.
Proof.
  intros W Wa. unfold symmetric_difference. destruct (symdiff_core _ _) eqn:E; [|discriminate]. intros [= <-].
  eapply wf_symdiff_core; eauto.
Qed.
Lemma wf_symdiff_update s a s' : wf s -> wf_arg a -> symmetric_difference_update s a = Ok s' -> wf s'.
Proof. unfold symmetric_difference_update. destruct (mut s); cbn; [apply wf_symdiff|discriminate]. Qed.
Lemma wf_difference_update s a s' : wf s -> difference_update s a = Ok s' -> wf s'.
Proof.
  intros W. unfold difference_update. destruct (mut s); cbn; [|discriminate]. intros [= <-].
  apply wf_fold_ddel. exact W.
Qed.
Lemma wf_intersection_update s a s' : wf s -> intersection_update s a = Ok s' -> wf s'.
Proof.
  intros W. unfold intersection_update. destruct (mut s); cbn; [|discriminate]. intros [= <-].
  apply wf_filter. exact W.
Qed.
Lemma wf_update s a s' : wf s -> wf_arg a -> update s a = Ok s' -> wf s'.
Proof.
  intros W Wa. unfold update. destruct (all_entries _) as [es|] eqn:E; [|discriminate]. intros [= <-].
  apply wf_dupdate; [|exact W]. eapply all_entries_wf; [|exact E]. apply wf_arg_items. exact Wa.
Qed.

Lemma wf_update_partial l d : Forall wf_item l -> wf_dict d -> wf_dict (update_partial d l).
Proof.
  revert d; induction l as [|it l IH]; intros d HF W; cbn; [assumption|].
  inversion HF; subst. destruct it as [e|q]; [|assumption]. apply IH; [assumption|]. apply wf_dset; assumption.
Qed.
Lemma wf_add_absent_partial l d : Forall wf_item l -> wf_dict d -> wf_dict (add_absent_partial d l).
Proof.
  revert d; induction l as [|it l IH]; intros d HF W; cbn; [assumption|].
  inversion HF; subst. destruct (dhas (key_of it) d); [apply IH; assumption|].
  destruct it as [e|q]; [|assumption]. apply IH; [assumption|]. apply wf_dset; assumption.
Qed.
Lemma wf_failed_update_state s u a : wf s -> wf_arg a -> wf (failed_update_state s u a).
Proof.
  intros W Wa. pose proof (wf_arg_items a Wa) as Wi. unfold failed_update_state.
  destruct u as [|[[?|?|]|[?|?|]|]]; try exact W;
    try (apply wf_update_partial; assumption).
  destruct (mut s); [|exact W]. destruct a; try exact W; apply wf_add_absent_partial; assumption.
Qed.

Lemma step_wf s o : wf s -> wf (snd (step s o)).
Proof.
  intros W.
  assert (R : forall (r : res cset) failed, wf failed -> (forall s', r = Ok s' -> wf s') ->
              wf (snd (match r with Ok s' => (VNone, s') | Er k => (enc_err k, failed) end))).
  { intros [s'|k] failed Wf H; cbn; [apply H; reflexivity|exact Wf]. }
  destruct o; cbn [step]; try exact W.
  - apply R; [exact W|]. unfold add. destruct (mut s); [|discriminate]. intros s' [= <-].
    apply wf_dset; [apply wf_mk_raw|exact W].
  - apply R; [exact W|]. unfold remove. destruct (mut s); cbn; [|discriminate]. destruct (dhas _ _); [|discriminate].
    intros s' [= <-]. apply wf_filter. exact W.
  - apply wf_filter. exact W.
  - apply R; [exact W|]. unfold clear. destruct (mut s); [|discriminate]. intros s' [= <-]. apply wf_nil.
  - pose proof (wf_mk_arg a) as Wa. apply R; [exact W|]. intros s' H.
    destruct b as [|[[?|?|]|[?|?|]|]]; cbn in H;
      first [ injection H as <-; apply wf_difference; exact W
            | eapply wf_intersection; eassumption
            | eapply wf_union; eassumption
            | eapply wf_symdiff; eassumption ].
  - pose proof (wf_mk_arg a) as Wa. apply R; [apply wf_failed_update_state; assumption|]. intros s' H.
    destruct u as [|[[?|?|]|[?|?|]|]]; cbn in H;
      first [ eapply wf_difference_update; eassumption
            | eapply wf_intersection_update; eassumption
            | eapply wf_symdiff_update; eassumption
            | eapply wf_update; eassumption ].
  - apply wf_dupdate_map; [intros x; apply wf_with_loc|apply wf_nil].
  - apply wf_dupdate_map; [intros x; apply wf_with_loc|apply wf_nil].
  - apply wf_dupdate_map; [intros x; apply wf_mk_entry|exact W].
  - apply wf_filter. exact W.
Qed.

Lemma abs_change_offset s old new q :
  abs (change_offset s old new) q = ents_map (map (fun e => with_loc e (reloc old new (eloc e))) (ents s)) q.
Proof. apply dget_dupdate_nil. Qed.
Lemma abs_add_missing s tag p :
  abs (add_missing_directories s tag) p
  = match ents_map (map (fun x => mk_entry x 1%N tag) (missing_dirs (ents s))) p with Some e => Some e | None => abs s p end.
Proof. apply dget_dupdate. Qed.
Lemma new_dir_some tag m q e' : ents_map (map (fun x => mk_entry x 1%N tag) m) q = Some e' ->
  exists x, In x m /\ e' = mk_entry x 1%N tag /\ q = normpath x.
Proof. intros G. apply ents_map_some in G as [Hin <-]. apply in_map_iff in Hin as (x & <- & Hin). exists x. auto. Qed.

(* add_missing_directories: the parents of the entries that are absent (first_missing), then for each of
   them the ascending loop (walk), then "/" filtered out *)
Definition first_missing (d : dict) : list str :=
  sdedupe (filter (fun x => negb (dhas (normpath x) d)) (map (fun e => dirname (eloc e)) d)).
Definition walk (d : dict) (l m : list str) : list str :=
  fold_left (fun m x => ascend (S (S (length x))) d (dirname x) m) l m.
Lemma missing_dirs_walk d :
  missing_dirs d = filter (fun x => negb (str_eqb x [SL])) (walk d (first_missing d) (first_missing d)).
Proof. reflexivity. Qed.

Lemma sdedupe_In x l : In x (sdedupe l) <-> In x l.
Proof.
  induction l as [|y l IH]; cbn; [tauto|]. destruct (smem y l) eqn:S; cbn; rewrite IH; [|tauto].
  apply existsb_str_In in S. intuition congruence.
Qed.

(* what the loop collects: absent proper ancestors of entries *)
Definition minv (d : dict) (m : list str) : Prop :=
  Forall (fun x => dhas (normpath x) d = false /\ exists e, In e d /\ ancestor (eloc e) x) m.

Lemma ascend_inv fuel d target m :
  minv d m -> (exists e, In e d /\ ancestor (eloc e) target) -> minv d (ascend fuel d target m).
Proof.
  revert target m; induction fuel as [|f IH]; intros target m Hm Ht; cbn; [assumption|].
  destruct (smem target m || dhas (normpath target) d) eqn:E; [assumption|].
  apply orb_false_iff in E as [_ E]. apply IH.
  - constructor; [split; assumption|assumption].
  - destruct Ht as (e & Hin & Ha). exists e. split; [assumption|]. apply anc_up. assumption.
Qed.
Lemma walk_inv d l m : minv d l -> minv d m -> minv d (walk d l m).
Proof.
  revert m. induction l as [|x l IH]; intros m Hl Hm; [assumption|].
  inversion Hl as [|? ? [_ (e & Hin & Ha)] Hl']; subst.
  apply IH; [assumption|]. apply ascend_inv; [assumption|]. exists e. split; [assumption|apply anc_up; assumption].
Qed.

Lemma missing_dirs_inv d : minv d (missing_dirs d) /\ ~ In [SL] (missing_dirs d).
Proof.
  rewrite missing_dirs_walk. split.
  - apply Forall_filter, walk_inv; apply Forall_forall; intros x Hx; apply sdedupe_In, filter_In in Hx as [Hx Hd];
      apply negb_true_iff in Hd; (split; [assumption|]); apply in_map_iff in Hx as (e & <- & Hin);
      exists e; (split; [assumption|apply anc_parent]).
  - intros H. apply filter_In in H as [_ H]. rewrite str_eqb_refl in H. discriminate.
Qed.

Example missing_dirs_ex :
  map eloc (sort_ents (ents (add_missing_directories
     {| mut := true; ents := [mk_entry [47;97;47;98;47;99;47;100]%N 0 1; mk_entry [47;120]%N 0 2] |} 9)))
  = [[47;97]; [47;97;47;98]; [47;97;47;98;47;99]; [47;97;47;98;47;99;47;100]; [47;120]]%N.
Proof. reflexivity. Qed.

(* t is in the collected list or already present in the set *)
Definition covered (d : dict) (m : list str) (t : str) : Prop := In t m \/ dhas (normpath t) d = true.

Lemma covered_mono d m m' t : incl m m' -> covered d m t -> covered d m' t.
Proof. intros Hi [H|H]; [left; apply Hi; exact H|right; exact H]. Qed.

Lemma ascend_incl fuel d t m : incl m (ascend fuel d t m).
Proof.
  revert t m; induction fuel as [|f IH]; intros t m; cbn; [apply incl_refl|].
  destruct (smem t m || dhas (normpath t) d); [apply incl_refl|].
  intros x Hx. apply IH. right. exact Hx.
Qed.

Lemma ascend_covers fuel d t m : covered d (ascend (S fuel) d t m) t.
Proof.
  cbn. destruct (smem t m || dhas (normpath t) d) eqn:E.
  - apply orb_true_iff in E as [E|E]; [left; apply existsb_str_In; exact E|right; exact E].
  - left. apply ascend_incl. left. reflexivity.
Qed.

(* every string the loop adds has its own parent covered, provided the fuel bounds the walk *)
Lemma ascend_closed fuel d t m :
  length t < fuel ->
  forall y, In y (ascend fuel d t m) -> In y m \/ covered d (ascend fuel d t m) (dirname y).
Proof.
  revert t m; induction fuel as [|f IH]; intros t m Hf y Hy; [lia|].
  cbn in Hy |- *. destruct (smem t m || dhas (normpath t) d) eqn:E; [left; exact Hy|].
  destruct (dirname_length t) as [Hlt|Hfix].
  - assert (Hf' : length (dirname t) < f) by lia.
    destruct (IH (dirname t) (t :: m) Hf' y Hy) as [[<-|Hin]|Hc]; auto.
    right. destruct f as [|f']; [lia|]. apply ascend_covers.
  - rewrite Hfix in *.
    assert (A : ascend f d t (t :: m) = t :: m).
    { destruct f; cbn [ascend]; [reflexivity|].
      assert (S : smem t (t :: m) = true) by (apply existsb_str_In; left; reflexivity).
      rewrite S. reflexivity. }
    unfold str in *. rewrite A in Hy |- *. destruct Hy as [<-|Hin]; [|left; exact Hin].
    right. left. rewrite Hfix. left. reflexivity.
Qed.

Lemma walk_incl d l m : incl m (walk d l m).
Proof.
  revert m; induction l as [|x l IH]; intros m; [apply incl_refl|].
  eapply incl_tran; [apply ascend_incl|apply IH].
Qed.

Lemma walk_closed d l m :
  (forall y, In y m -> In y l \/ covered d m (dirname y)) ->
  forall y, In y (walk d l m) -> covered d (walk d l m) (dirname y).
Proof.
  revert m; induction l as [|x l IH]; intros m Hm y Hy.
  - destruct (Hm y Hy) as [[]|H]; exact H.
  - apply IH; [|exact Hy]. clear y Hy. intros y Hy.
    assert (Hf : length (dirname x) < S (S (length x))) by (pose proof (dirname_le x); lia).
    destruct (ascend_closed _ d (dirname x) m Hf y Hy) as [Hin|Hc]; [|right; exact Hc].
    destruct (Hm y Hin) as [[<-|Hl]|Hc].
    + right. apply ascend_covers.
    + left. exact Hl.
    + right. eapply covered_mono; [apply ascend_incl|exact Hc].
Qed.

Lemma missing_core d : wf_dict d ->
  forall e a, In e d -> ancestor (eloc e) a ->
  covered d (walk d (sdedupe (filter (fun x => negb (dhas (normpath x) d)) (map (fun e => dirname (eloc e)) d)))
                    (sdedupe (filter (fun x => negb (dhas (normpath x) d)) (map (fun e => dirname (eloc e)) d)))) a.
Proof.
  intros W. fold (first_missing d). set (M := walk d (first_missing d) (first_missing d)).
  assert (Base : forall e, In e d -> covered d M (dirname (eloc e))).
  { intros e Hin. destruct (dhas (normpath (dirname (eloc e))) d) eqn:H; [right; exact H|].
    left. apply walk_incl, sdedupe_In, filter_In. split.
    - apply in_map_iff. exists e. auto.
    - rewrite H. reflexivity. }
  assert (Closed : forall y, In y M -> covered d M (dirname y)).
  { apply walk_closed. intros y Hy. left. exact Hy. }
  intros e a Hin Ha. pose proof (wf_key_normal d e W Hin) as He.
  remember (eloc e) as p eqn:Ep. revert e Hin Ep.
  induction Ha as [p|p a' Ha' IH]; intros e Hin Ep; subst p.
  - apply Base. exact Hin.
  - destruct (IH He e Hin eq_refl) as [HM|Hd].
    + apply Closed. exact HM.
    + destruct (ancestor_normal _ _ He Ha') as [Hn| ->].
      * rewrite Hn in Hd. apply dhas_iff in Hd as (e' & Hin' & E'). rewrite <- E'. apply Base. exact Hin'.
      * right. exact Hd.
Qed.
