(* C30/Persist.v — the text written by flush() reads back as the same set. *)
From Coq Require Import List NArith Bool Permutation.
Import ListNotations.
From Verif Require Import C24.Model_C24 C24.Roundtrip.
From Verif Require Import C30.Model_C30 C30.Spec_C30 C30.Proofs_C30.

Lemma cut_at_none sep a : Forall (fun c => N.eqb c sep = false) a -> cut_at sep a = (a, None).
Proof. induction 1 as [|c r Hc _ IH]; cbn [cut_at]; [reflexivity|]. now rewrite Hc, IH. Qed.
Lemma cut_at_some sep a b : Forall (fun c => N.eqb c sep = false) a ->
  cut_at sep (a ++ sep :: b) = (a, Some b).
Proof.
  induction 1 as [|c r Hc _ IH]; cbn [cut_at List.app].
  - now rewrite N.eqb_refl.
  - now rewrite Hc, IH.
Qed.

Lemma plain_name_facts s : plain_name s = true ->
  s <> [] /\ plain s /\ Forall (fun c => N.eqb c COLON = false) s /\ Forall (fun c => N.eqb c SLASH = false) s.
Proof.
  unfold plain_name. intro H. apply andb_true_iff in H as [Hn H]. rewrite forallb_forall in H.
  assert (F : forall c, In c s -> py_space c = false /\ N.eqb c COLON = false /\ N.eqb c SLASH = false).
  { intros c Hc. apply H in Hc. unfold name_char in Hc. apply andb_true_iff in Hc as [Hc H3].
    apply andb_true_iff in Hc as [H1 H2]. now rewrite negb_true_iff in *. }
  split; [now destruct s|]. repeat split; apply Forall_forall; intros c Hc; apply (F c Hc).
Qed.
Lemma plain_slot_facts s : plain_slot s = true -> s <> [] /\ plain s.
Proof.
  unfold plain_slot. intro H. apply andb_true_iff in H as [Hn H]. rewrite forallb_forall in H.
  split; [now destruct s|]. apply Forall_forall. intros c Hc. apply H in Hc. now apply negb_true_iff in Hc.
Qed.
Lemma valid_went_facts e : valid_went e = true ->
  plain_name (wcat e) = true /\ plain_name (wpkg e) = true /\
  starts_with_c 35 (wcat e) = false /\ starts_with_c 64 (wcat e) = false /\
  match wslot e with Some s => plain_slot s = true | None => True end.
Proof.
  unfold valid_went. intro H. apply andb_true_iff in H as [H Hs]. apply andb_true_iff in H as [H H64].
  apply andb_true_iff in H as [H H35]. apply andb_true_iff in H as [Hc Hp].
  apply negb_true_iff in H35, H64. repeat split; try assumption. now destruct (wslot e).
Qed.

Lemma plain_has_space s : plain s -> has_space s = false.
Proof.
  intro H. unfold has_space. destruct (existsb py_space s) eqn:E; [|reflexivity].
  apply existsb_exists in E as (c & Hc & E). unfold plain in H. rewrite Forall_forall in H.
  rewrite (H c Hc) in E. discriminate.
Qed.

Lemma went_text_plain e : valid_went e = true -> plain (went_text e) /\ went_text e <> [].
Proof.
  intro Hv. destruct (valid_went_facts e Hv) as (Hc & Hp & _ & _ & Hs).
  apply plain_name_facts in Hc as (Hcn & Hc & _). apply plain_name_facts in Hp as (_ & Hp & _).
  split; [|unfold went_text; now destruct (wcat e)].
  unfold went_text, plain. apply Forall_app. split; [exact Hc|]. constructor; [reflexivity|].
  apply Forall_app. split; [exact Hp|]. destruct (wslot e) as [s|]; [|constructor].
  constructor; [reflexivity|]. now apply plain_slot_facts in Hs.
Qed.

Lemma parse_went_text e : valid_went e = true -> parse_went (went_text e) = Some e.
Proof.
  intro Hv. pose proof (went_text_plain e Hv) as [Hpl _].
  destruct (valid_went_facts e Hv) as (Hc & Hp & _ & _ & Hs).
  apply plain_name_facts in Hc as (Hcn & _ & Hcc & Hcs). apply plain_name_facts in Hp as (Hpn & _ & Hpc & _).
  unfold parse_went. rewrite (plain_has_space _ Hpl).
  destruct e as [c p s]. unfold went_text in *. cbn [wcat wpkg wslot] in *.
  assert (Hkey : Forall (fun x => N.eqb x COLON = false) (c ++ SLASH :: p)).
  { apply Forall_app. split; [exact Hcc|]. constructor; [reflexivity|exact Hpc]. }
  destruct s as [s|].
  - apply plain_slot_facts in Hs as [Hsn _].
    replace (c ++ SLASH :: p ++ COLON :: s) with ((c ++ SLASH :: p) ++ COLON :: s)
      by (now rewrite <- app_assoc).
    rewrite (cut_at_some _ _ _ Hkey), (cut_at_some _ _ _ Hcs).
    destruct c; [congruence|]. destruct p; [congruence|]. destruct s; [congruence|reflexivity].
  - rewrite app_nil_r, (cut_at_none _ _ Hkey), (cut_at_some _ _ _ Hcs).
    destruct c; [congruence|]. destruct p; [congruence|reflexivity].
Qed.

Lemma split_lines_one a : eol_free a -> split_lines a = [a].
Proof. induction 1 as [|c r Hc _ IH]; [reflexivity|]. cbn [split_lines]. now rewrite Hc, IH. Qed.

Lemma split_lines_join ls : ls <> [] -> Forall eol_free ls -> split_lines (join_nl ls) = ls.
Proof.
  intros Hne H. induction H as [|l ls Hl Hls IH]; [congruence|].
  cbn [join_nl]. destruct ls as [|l2 ls]; [now apply split_lines_one|].
  rewrite split_lines_app by exact Hl. rewrite IH by discriminate. reflexivity.
Qed.

Lemma strip_plain s : plain s -> strip s = s.
Proof.
  intro H. destruct s as [|a r]; [reflexivity|].
  apply strip_id; [now inversion H|]. apply ends_plain_plain; [discriminate|exact H].
Qed.

Lemma content_lines_join ls :
  Forall (fun l => plain l /\ l <> []) ls -> content_lines (join_nl ls) = ls.
Proof.
  intro H. unfold content_lines. destruct ls as [|l0 ls0]; [reflexivity|].
  rewrite split_lines_join; [|discriminate|].
  2:{ eapply Forall_impl; [|exact H]. intros l [Hl _]. now apply plain_eol_free. }
  induction H as [|l ls [Hl Hn] _ IH]; [reflexivity|].
  cbn [map filter]. rewrite (strip_plain _ Hl). destruct l; [congruence|]. cbn [nonempty]. now rewrite IH.
Qed.

Lemma starts_text c e : wcat e <> [] -> starts_with_c c (went_text e) = starts_with_c c (wcat e).
Proof. unfold went_text. destruct (wcat e); [congruence|reflexivity]. Qed.

Lemma parse_lines_texts es : forall acc, Forall (fun e => valid_went e = true) es -> NoDup (acc ++ es) ->
  parse_lines (map went_text es) acc = Some (acc ++ es).
Proof.
  induction es as [|e es IH]; intros acc Hv Hn; [now rewrite app_nil_r|].
  inversion Hv as [|? ? He Hes]; subst. cbn [map parse_lines].
  destruct (valid_went_facts e He) as (Hc & _ & H35 & H64 & _). apply plain_name_facts in Hc as [Hc _].
  rewrite !starts_text, H35, H64 by exact Hc.
  rewrite parse_went_text by exact He.
  unfold set_add. replace (wmem e acc) with false.
  - rewrite IH; [now rewrite <- app_assoc|exact Hes|now rewrite <- app_assoc].
  - destruct (wmem e acc) eqn:E; [|reflexivity]. apply wmem_In in E.
    apply NoDup_remove_2 in Hn. exfalso. apply Hn. apply in_or_app. now left.
Qed.

Lemma parse_flush W : NoDup W -> Forall (fun e => valid_went e = true) W ->
  parse_world (flush_text W) = Some (wsort W).
Proof.
  intros Hn Hv.
  assert (Hv' : Forall (fun e => valid_went e = true) (wsort W))
    by (eapply Permutation_Forall; [apply Permutation_sym, wsort_perm|exact Hv]).
  assert (Hn' : NoDup (wsort W))
    by (eapply Permutation_NoDup; [apply Permutation_sym, wsort_perm|exact Hn]).
  unfold parse_world, flush_text. rewrite content_lines_join.
  - now apply (parse_lines_texts (wsort W) []).
  - apply Forall_map. eapply Forall_impl; [|exact Hv']. intros e He. now apply went_text_plain.
Qed.

Example valid_went_example :
  valid_went {| wcat := [100;101;118;45;117;116;105;108]%N; wpkg := [98;115;100;105;102;102]%N;
                wslot := Some [49;46;50]%N |} = true.                      (* dev-util/bsdiff:1.2 *)
Proof. reflexivity. Qed.
