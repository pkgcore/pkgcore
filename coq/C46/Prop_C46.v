(* Prop_C46.v — the property theorems of C46.
   `removed scan_fixed selected o w` is the ordered list of DISTDIR files `pclean dist` removes
   (repaired code, fixes/C46-exclude-exists.patch); `selected` — which names the target-derived
   regexes select — is universally quantified. *)
From Coq Require Import List ZArith.
Import ListNotations.
From Verif Require Import C46.Model_C46 C46.Spec_C46 C46.Proofs_C46.

(* only DISTDIR files that pass the file filters and, when targets are in force, are selected
   by the patterns of a package the targets match — whatever the scan policy *)
Theorem removed_subset_targets_and_filters : forall scan selected o w f,
  In f (removed scan selected o w) ->
  In f (w_all w) /\ passes_filters o f /\
  (targets_in_force o ->
     selected (f_id f) = true /\ exists p, In p (w_repo w) /\ restrict_match o p = true).
Proof.
  intros scan selected o w f. rewrite removed_In. intros [Ha [Ht [_ Hp]]].
  split; [exact Ha|]. split; [apply passes_spec; exact Hp|].
  apply memN_In in Ht. apply (target_files_In selected o w _ Ht).
Qed.
Print Assumptions removed_subset_targets_and_filters.

Theorem never_removes_installed : forall scan selected o w f,
  needed_installed o w (f_id f) -> ~ In f (removed scan selected o w).
Proof. intros scan selected o w f H. apply saved_not_removed, needed_saved. now left. Qed.
Print Assumptions never_removes_installed.

Theorem never_removes_existing : forall selected o w f,
  needed_existing o w (f_id f) -> ~ In f (removed scan_fixed selected o w).
Proof.
  intros selected o w f H. apply saved_not_removed, needed_saved. right. left.
  split; [exact H|]. apply scan_fixed_exists, H.
Qed.
Print Assumptions never_removes_existing.

Theorem never_removes_fetch_restricted : forall selected o w f,
  needed_fetch_restricted o w (f_id f) -> ~ In f (removed scan_fixed selected o w).
Proof.
  intros selected o w f H. apply saved_not_removed, needed_saved. right. right. left.
  split; [exact H|]. apply scan_fixed_fetch, H.
Qed.
Print Assumptions never_removes_fetch_restricted.

Theorem never_removes_excluded : forall scan selected o w f,
  needed_excluded o w (f_id f) -> ~ In f (removed scan selected o w).
Proof. intros scan selected o w f H. apply saved_not_removed, needed_saved. now repeat right. Qed.
Print Assumptions never_removes_excluded.

Theorem never_needed : forall selected o w f,
  needed o w (f_id f) -> ~ In f (removed scan_fixed selected o w).
Proof.
  intros selected o w f. apply never_needed_gen; [apply scan_fixed_exists|apply scan_fixed_fetch].
Qed.
Print Assumptions never_needed.

(* exactness: removed = DISTDIR files passing the filters, selected, and not protected *)
Theorem removed_exact : forall selected o w f,
  In f (removed scan_fixed selected o w) <->
  In f (w_all w) /\ passes_filters o f /\ target_selected selected o w (f_id f)
  /\ ~ protected o w (f_id f).
Proof.
  intros selected o w f.
  rewrite removed_In, memN_In, memN_false, target_files_iff, saving_fixed_In, passes_spec.
  split; [tauto|]. intros [Ha [Hp [Ht Hn]]]. split; [exact Ha|]. split; [|tauto]. split; [|exact Ht].
  unfold all_ids. now apply in_map.
Qed.
Print Assumptions removed_exact.

(* the code before the repair (exists_dist scanned only without restrictions): the statement
   is false; it holds outside the class "-E with targets/exclusions and without -f" *)
Theorem old_exists_clause_refuted : ~ C46_full_statement scan_old.
Proof.
  intro H. apply (H (fun _ => true) wit_o wit_w wit_f).
  - right. left. split; [reflexivity|].
    exists {| p_files := [2%N]; p_fetch := false; p_pats := [] |}. split; [right; left; reflexivity | left; reflexivity].
  - vm_compute. left. reflexivity.
Qed.
Print Assumptions old_exists_clause_refuted.

Theorem old_never_needed_partial : forall selected o w f,
  old_known_class o = false ->
  needed o w (f_id f) -> ~ In f (removed scan_old selected o w).
Proof.
  intros selected o w f Hk. apply never_needed_gen; [now apply scan_old_exists|apply scan_old_fetch].
Qed.
Print Assumptions old_never_needed_partial.

(* the option glue: the parser loop yields the declarative reading of the command line
   (last -x wins, targets accumulate, -m/-s are DIGITS UNIT quantities) *)
Theorem parse_argv_spec : forall ts o, parse_argv ts = POk o -> spec_opts ts = Some o.
Proof.
  intros ts o. unfold parse_argv. destruct (parse_toks ts opts0) as [o'|] eqn:E; [|discriminate].
  destruct (existsb bad_pat (o_excl o')); [discriminate|].
  destruct (existsb bad_pat (o_targets o')); [discriminate|]. intro H. injection H as <-.
  now apply parse_toks_spec.
Qed.
Print Assumptions parse_argv_spec.

Theorem parse_qty_sound : forall tbl s z, parse_qty tbl s = Some z -> qty_denotes tbl s z.
Proof.
  intros tbl s z. unfold parse_qty, qty_denotes.
  destruct (digits s 0 false) as [[v rest]|] eqn:Ed; [|discriminate].
  destruct (lookup (strip_nl rest) tbl) as [u|] eqn:El; [|discriminate]. intro H. injection H as <-.
  apply digits_spec in Ed as [ds [E1 [E2 [E3 [-> _]]]]].
  exists ds, (strip_nl rest), rest, u. repeat split; auto. apply strip_nl_spec.
Qed.
Print Assumptions parse_qty_sound.

Theorem run_never_removes_needed : forall i o kept printed,
  parse_argv (i_argv i) = POk o ->
  outcome scan_fixed i = Some (kept, printed) ->
  forall f, In f (w_all (i_world i)) -> needed o (i_world i) (f_id f) ->
            In (f_id f) kept /\ ~ In (f_id f) printed.
Proof.
  intros i o kept printed Hp H f Hf Hn.
  destruct (outcome_removed _ _ _ _ _ Hp H (f_id f)) as (Hk & _ & Hpr).
  assert (Hrm : ~ In (f_id f) (map f_id (removed scan_fixed (fun y => memN y (i_sel i)) o (i_world i)))).
  { intro Hin. apply in_map_iff in Hin as [g [Hg1 Hg2]]. revert Hg2. apply never_needed. now rewrite Hg1. }
  split; [apply Hk; [now apply in_map|exact Hrm]|]. intro Hin. exact (Hrm (Hpr Hin)).
Qed.
Print Assumptions run_never_removes_needed.

Theorem run_only_removes_selected : forall i o kept printed,
  parse_argv (i_argv i) = POk o ->
  outcome scan_fixed i = Some (kept, printed) ->
  forall x, (In x (map f_id (w_all (i_world i))) /\ ~ In x kept) \/ In x printed ->
  exists f, f_id f = x /\ In f (removed scan_fixed (fun y => memN y (i_sel i)) o (i_world i)).
Proof.
  intros i o kept printed Hp H x Hx. apply in_map_iff.
  destruct (outcome_removed _ _ _ _ _ Hp H x) as (_ & Hg & Hpr). destruct Hx as [[Ha Hk]|Hx]; auto.
Qed.
Print Assumptions run_only_removes_selected.
