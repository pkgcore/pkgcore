(* C32: the image post-conditions lifted through the bodies of the install family (option parsing,
   makedirs, Doins/Dodoc directory handling), and dodir. *)
From Coq Require Import List NArith Bool.
From Verif Require Import Base.Val C32.Model_C32 C32.Spec_C32 C32.Proofs_C32.
Import ListNotations.
Local Open Scope N_scope.

Lemma comps_under dest t : ~ In 47 t -> comps (pjoin dest t) = comps dest ++ nonempty [t].
Proof.
  intro Ht. unfold pjoin.
  assert (Hs : startswith [47] t = false).
  { destruct t as [|c t]; [reflexivity|]. unfold startswith. cbn.
    destruct (N.eqb_spec c 47) as [->|_]; [exfalso; apply Ht; now left|reflexivity]. }
  rewrite Hs. unfold comps, nonempty.
  destruct (is_nil dest || (last dest 0 =? 47)) eqn:E.
  - destruct dest as [|c0 d0].
    + cbn [app]. rewrite (split_on_none 47 t Ht). reflexivity.
    + cbn [is_nil orb] in E. apply N.eqb_eq in E.
      destruct (@exists_last _ (c0 :: d0)) as [a' [x Ea]]; [discriminate|].
      rewrite Ea in *. rewrite last_last in E. subst x.
      rewrite <- app_assoc. cbn [app]. rewrite !split_on_app, !filter_app.
      rewrite (split_on_none 47 t Ht). cbn. now rewrite app_nil_r.
  - rewrite split_on_app, filter_app. now rewrite (split_on_none 47 t Ht).
Qed.

Lemma under_inj dest t1 t2 :
  ~ In 47 t1 -> ~ In 47 t2 -> comps (pjoin dest t1) = comps (pjoin dest t2) -> t1 = t2.
Proof.
  intros H1 H2. rewrite !comps_under by assumption. intro E. apply app_inv_head in E.
  destruct t1, t2; cbn in E; congruence.
Qed.

Lemma no_slash_targets targets t :
  existsb (fun t => mem_N 47 t) targets = false -> In t targets -> ~ In 47 t.
Proof.
  intros H Hin Hc. assert (existsb (fun t => mem_N 47 t) targets = true); [|congruence].
  apply existsb_exists. exists t. split; [assumption|now apply mem_N_In].
Qed.

Lemma same_env_trans w w1 w2 : same_env w w1 -> same_env w1 w2 -> same_env w w2.
Proof. intros [A B] [C D]. split; congruence. Qed.

(* what the two primitives of the directory loop do when they succeed *)
Lemma makedirs_inl w d w1 : makedirs w d = inl w1 ->
  exists i, mk_prefixes [] (comps d) (w_img w) = inl i /\ w1 = set_img w i.
Proof.
  unfold makedirs. destruct (fault_of _ _ _); [discriminate|].
  destruct (mk_prefixes _ _ _) as [i|]; [|discriminate]. intro H; injection H as <-. now exists i.
Qed.
Lemma chmod_dir_inl w d m w1 : chmod_dir w d m = inl w1 -> w1 = set_img w (img_set (comps d) (NDir m) (w_img w)).
Proof. unfold chmod_dir. destruct (fault_of _ _ _); [discriminate|]. intro H. now injection H as <-. Qed.

Lemma makedirs_env w d w1 : makedirs w d = inl w1 -> same_env w w1.
Proof. intro H. destruct (makedirs_inl _ _ _ H) as (i & _ & ->). now split. Qed.
Lemma chmod_dir_env w d m w1 : chmod_dir w d m = inl w1 -> same_env w w1.
Proof. intros ->%chmod_dir_inl. now split. Qed.

Section Lift.
  Variable ed : str.
  Variable ext_effect : list str -> image -> image.

  Lemma install_files_is_int fs im w : (forall ws, im <> IFallback ws) ->
    install_files ed ext_effect fs im w = install_int ed fs im w.
  Proof. intro H. destruct im; try reflexivity. now destruct (H words). Qed.
  Lemma install_dirs_is_int rels dm w : (forall ws, dm <> IFallback ws) ->
    install_dirs ed ext_effect rels dm w = install_dirs_int ed rels dm w.
  Proof. intro H. destruct dm; try reflexivity. now destruct (H words). Qed.

  (* what makedirs and chmod preserve, the directory loop preserves *)
  Lemma install_dirs_int_inv (P : world -> Prop) :
    (forall w d w1, P w -> makedirs w d = inl w1 -> P w1) ->
    (forall w d m w1, P w -> chmod_dir w d m = inl w1 -> P w1) ->
    forall rels dm w r w', P w -> install_dirs_int ed rels dm w = (r, w') -> P w'.
  Proof.
    intros Hm Hc. induction rels as [|d rels IH]; intros dm w r w' Hw; cbn [install_dirs_int].
    - intro H. now inversion H; subst.
    - destruct (makedirs w d) as [w1|e] eqn:Em; [|intro H; now inversion H; subst].
      pose proof (Hm _ _ _ Hw Em) as H1.
      destruct dm; try (apply IH; exact H1).
      destruct (chmod_dir w1 d mode) as [w2|e] eqn:Ec; [|intro H; inversion H; subst; exact H1].
      apply IH. exact (Hc _ _ _ _ H1 Ec).
  Qed.

  Lemma install_dirs_int_env rels dm w r w' : install_dirs_int ed rels dm w = (r, w') -> same_env w w'.
  Proof.
    apply (install_dirs_int_inv (same_env w)); [| |now split]; intros w0 d; intros;
      eapply same_env_trans; eauto using makedirs_env, chmod_dir_env.
  Qed.

  Lemma install_tree_env dest im dm d w r w' :
    (forall ws, im <> IFallback ws) -> (forall ws, dm <> IFallback ws) ->
    install_tree ed ext_effect dest im dm d w = (r, w') -> same_env w w'.
  Proof.
    intros Him Hdm. unfold install_tree. rewrite install_dirs_is_int by assumption.
    destruct (install_dirs_int ed [pjoin dest d] dm w) as [r1 w1] eqn:E. apply install_dirs_int_env in E.
    destruct r1 as [e|]; cbn [then_]; [intro H; now inversion H; subst|].
    destruct (kids_of w1 d) as [|k ks]; [intro H; now inversion H; subst|].
    rewrite install_files_is_int by assumption. intro H. apply install_int_src in H.
    now apply (same_env_trans w w1).
  Qed.
  Lemma fold_dirs_env dest im dm : forall (l : list str) a r w',
    (forall ws, im <> IFallback ws) -> (forall ws, dm <> IFallback ws) ->
    fold_left (fun acc d => then_ acc (install_tree ed ext_effect dest im dm d)) l a = (r, w') ->
    same_env (snd a) w'.
  Proof.
    intros l a r w' Him Hdm. revert a. induction l as [|x l IH]; intros a; cbn [fold_left].
    - intros ->. now split.
    - intro H. apply IH in H. destruct a as [[e|] wa]; cbn [then_ snd] in *; [exact H|].
      destruct (install_tree ed ext_effect dest im dm x wa) as [r1 w1] eqn:E.
      apply (same_env_trans wa w1); [now apply install_tree_env in E|exact H].
  Qed.

  (* success of the copying part of a request (internal path): every regular file named is in the
     image at <dest>/<name> with the source's content *)
  Lemma install_run_post has_r de recursive targets dest im dm w w' :
    (forall ws, im <> IFallback ws) -> (forall ws, dm <> IFallback ws) ->
    install_run ed ext_effect has_r de recursive targets dest im dm w = (HNone, w') ->
    forall t cid, In t targets -> assoc t (w_src w) = Some (SFile cid) ->
                  exists m, img_get (comps (pjoin dest t)) (w_img w') = Some (NFile cid m).
  Proof.
    intros Him Hdm. unfold install_run.
    destruct (existsb (fun t => mem_N 47 t) targets) eqn:Esl; [discriminate|].
    destruct (makedirs w dest) as [w1|e] eqn:Em; [|discriminate]. apply makedirs_env in Em.
    match goal with |- context [if ?b then _ else _] => destruct b end; [discriminate|].
    set (files := if has_r then filter (fun t => negb (is_dir_src w1 t)) targets else targets).
    match goal with |- context [then_ ?a _] => destruct a as [r2 w2] eqn:Ed end.
    assert (E2 : same_env w1 w2 /\ step_ok r2).
    { destruct recursive; [|injection Ed as <- <-; repeat split].
      split; [now apply fold_dirs_env in Ed|].
      change r2 with (fst (r2, w2)). rewrite <- Ed. now apply fold_dirs_ok. }
    destruct E2 as [Ew2 He2]. destruct r2 as [e2|]; cbn [then_ finish]; [intro H; injection H as -> _; destruct He2|].
    rewrite install_files_is_int by assumption.
    pose proof (install_int_ok ed (map (fun f => (f, pjoin dest f)) files) im w2) as He3.
    destruct (install_int ed (map (fun f => (f, pjoin dest f)) files) im w2) as [r3 w3] eqn:Ef.
    destruct r3 as [e3|]; cbn [finish]; [intro H; injection H as -> _; destruct He3|intro H; injection H as <-].
    intros t cid Hin Hc. destruct (same_env_trans _ _ _ Em Ew2) as [Hs2 _]. destruct Em as [Hs1 _].
    assert (Hfile : In t files).
    { unfold files. destruct has_r; [|assumption]. apply filter_In. split; [assumption|].
      unfold is_dir_src. rewrite Hs1, Hc. now destruct (fault_of K_STAT t (w_faults w1)). }
    assert (Hin' : forall f, In f files -> In f targets)
      by (intros f F; unfold files in F; destruct has_r; [now apply filter_In in F|assumption]).
    destruct (install_int_src _ _ _ _ _ _ Ef) as [Hs3 _].
    assert (Hfa : file_at w3 t (pjoin dest t)); [|apply Hfa; now rewrite Hs3, Hs2].
    apply (install_int_post_proof ed (map (fun f => (f, pjoin dest f)) files) im w2 w3); [|exact Ef|].
    - intros s1 d1 s2 d2 H1 H2 Hcq. apply in_map_iff in H1 as [f1 [E1 F1]]. apply in_map_iff in H2 as [f2 [E2 F2]].
      injection E1 as <- <-. injection E2 as <- <-.
      eapply under_inj; [| |exact Hcq]; eapply no_slash_targets; eauto.
    - apply in_map_iff. now exists t.
  Qed.

  (* on disk, internal copy path: when a request to doins/doexe/dodoc/doinfo/dolib* is
     answered with success (the body returned None), every regular file named on the command line
     is in the image at <dest>/<name> with the source's content - through option parsing, makedirs
     and the Doins/Dodoc directory handling *)
  Theorem install_truthful_internal_proof has_r de dflt options args w w' :
    let o := parse_options options {| o_dest := [47]; o_ins := None; o_dir := None; o_unknown := [] |} in
    (forall ws, install_mode (o_ins o) dflt <> IFallback ws) ->
    (forall ws, install_mode (o_dir o) [] <> IFallback ws) ->
    body_install ed ext_effect has_r de dflt options args w = (HNone, w') ->
    forall t cid, In t (snd (fst (split_targets has_r args))) -> assoc t (w_src w) = Some (SFile cid) ->
                  exists m, img_get (comps (pjoin (lstrip_sl (o_dest o)) t)) (w_img w') = Some (NFile cid m).
  Proof.
    intros o Him Hdm H.
    destruct (body_install_cases ed ext_effect has_r de dflt options args w) as [[_ R]|E].
    - rewrite H in R. destruct R.
    - rewrite E in H. exact (install_run_post _ _ _ _ _ _ _ w w' Him Hdm H).
  Qed.

  Lemma install_success_is_none has_r de dflt cwd_ok l1 l2 l3 l4 l5 tail w options d res w1 :
    ~ In NL l1 -> ~ In NL l2 -> ~ In NL l3 -> ~ In NL l4 -> ~ In NL l5 ->
    shlex_split (strip l4) = Some options -> cwd_ok (strip l2) = true ->
    body_install ed ext_effect has_r de dflt options (split_args l5) w = (res, w1) ->
    let r := ipc_call world (body_install ed ext_effect has_r de dflt) cwd_ok (framed l1 l2 l3 l4 l5 tail) w in
    wire_of (fst (fst r)) = d ++ [NL] -> says_success d -> res = HNone /\ snd r = w1.
  Proof.
    intros H1 H2 H3 H4 H5 Hs Hc Eb r Hw Hok.
    pose proof (body_install_ok ed ext_effect has_r de dflt options (split_args l5) w) as Hb. rewrite Eb in Hb.
    split; [|unfold r; rewrite ipc_call_framed by assumption; now rewrite Hs, Hc, Eb].
    assert (Hcompl : completed res).
    { apply (truthful_proof world (body_install ed ext_effect has_r de dflt) cwd_ok
               l1 l2 l3 l4 l5 tail w options res w1 d); try assumption.
      intros code msg ->. exact Hb. }
    destruct res; cbn in *; try contradiction; reflexivity.
  Qed.
End Lift.

(* "the directory p exists": p and every prefix of it are directories of the image *)
Definition is_dir (i : image) (q : path) : Prop := exists m, img_get q i = Some (NDir m).
Definition dir_path (i : image) (p : path) : Prop := forall q r, p = q ++ r -> q <> [] -> is_dir i q.

Lemma is_dir_set i k m q : is_dir i q -> is_dir (img_set k (NDir m) i) q.
Proof.
  intros [m0 H]. destruct (list_eq_dec str_eq_dec q k) as [->|Hne].
  - exists m. apply img_get_set_same.
  - exists m0. rewrite img_get_set_other by assumption. exact H.
Qed.

Lemma mk_prefixes_ok rest : forall pre i i',
  mk_prefixes pre rest i = inl i' ->
  (forall q, is_dir i q -> is_dir i' q)
  /\ (forall a b, rest = a ++ b -> a <> [] -> is_dir i' (pre ++ a)).
Proof.
  induction rest as [|c r IH]; intros pre i i'; cbn [mk_prefixes].
  - intro H; injection H as <-. split; [auto|]. intros a b E. destruct a; [contradiction|discriminate].
  - assert (Step : forall i1, mk_prefixes (pre ++ [c]) r i1 = inl i' -> is_dir i1 (pre ++ [c]) ->
                   (forall q, is_dir i q -> is_dir i1 q) ->
                   (forall q, is_dir i q -> is_dir i' q)
                   /\ (forall a b, c :: r = a ++ b -> a <> [] -> is_dir i' (pre ++ a))).
    { intros i1 H Hc Hmono. destruct (IH _ _ _ H) as [Hk Hn]. split; [auto|].
      intros a b Eab Ha. destruct a as [|x a]; [contradiction|]. injection Eab as <- Er.
      destruct a as [|y a]; [now apply Hk|].
      replace (pre ++ c :: y :: a) with ((pre ++ [c]) ++ y :: a) by (now rewrite <- app_assoc).
      apply (Hn (y :: a) b Er). discriminate. }
    destruct (img_get (pre ++ [c]) i) as [[m|cid m]|] eqn:E; [|discriminate|]; intro H.
    + apply (Step i H); [now exists m|auto].
    + apply (Step _ H); [exists 493; apply img_get_set_same|intros q Hq; now apply is_dir_set].
Qed.

Lemma mk_prefixes_fail rest : forall pre i e,
  mk_prefixes pre rest i = inr e ->
  exists a b cid m, rest = a ++ b /\ a <> [] /\ img_get (pre ++ a) i = Some (NFile cid m).
Proof.
  induction rest as [|c r IH]; intros pre i e; cbn [mk_prefixes]; [discriminate|].
  destruct (img_get (pre ++ [c]) i) as [[m|cid m]|] eqn:E.
  - intro H. destruct (IH _ _ _ H) as [a [b [cid [m' [Er [Ha Hg]]]]]].
    exists (c :: a), b, cid, m'. rewrite <- app_assoc in Hg. cbn [app] in Hg. repeat split; [now rewrite Er|discriminate|exact Hg].
  - intros _. exists [c], r, cid, m. repeat split; [discriminate|exact E].
  - intro H. destruct (IH _ _ _ H) as [a [b [cid [m' [Er [Ha Hg]]]]]].
    exists (c :: a), b, cid, m'. rewrite <- app_assoc in Hg. cbn [app] in Hg. repeat split; [now rewrite Er|discriminate|].
    destruct (list_eq_dec str_eq_dec (pre ++ c :: a) (pre ++ [c])) as [Eq|Hne].
    + rewrite Eq, img_get_set_same in Hg. discriminate.
    + now rewrite img_get_set_other in Hg.
Qed.

Section Dodir.
  Variable ed : str.

  Lemma install_dirs_int_keeps rels dm w r w' q :
    install_dirs_int ed rels dm w = (r, w') -> is_dir (w_img w) q -> is_dir (w_img w') q.
  Proof.
    intros H Hq. apply (install_dirs_int_inv ed (fun w => is_dir (w_img w) q)) with rels dm w r; auto.
    - intros w0 d w1 H0 (i & Em & ->)%makedirs_inl. now apply (mk_prefixes_ok _ _ _ _ Em).
    - intros w0 d m w1 H0 ->%chmod_dir_inl. now apply is_dir_set.
  Qed.

  (* dodir on disk: without injected faults, the directory loop reports success exactly when
     every requested directory (with all its parents) exists in the image afterwards; when it fails,
     a regular file sits on the path of one of them *)
  Theorem dodir_dirs_truthful rels dm : forall w r w',
    w_faults w = [] ->
    install_dirs_int ed rels dm w = (r, w') ->
    (r = None <-> forall d, In d rels -> dir_path (w_img w') (comps d)).
  Proof.
    induction rels as [|d rels IH]; intros w r w' Hf; cbn [install_dirs_int].
    - intro H; inversion H. split; [intros _ d []|reflexivity].
    - unfold makedirs. rewrite Hf. cbn [fault_of].
      destruct (mk_prefixes [] (comps d) (w_img w)) as [i1|e] eqn:Em.
      + destruct (mk_prefixes_ok _ _ _ _ Em) as [Hk Hn].
        assert (Hstep : forall w1, w_faults w1 = [] -> (forall q, is_dir i1 q -> is_dir (w_img w1) q) ->
                  install_dirs_int ed rels dm w1 = (r, w') ->
                  (r = None <-> forall d0, In d0 (d :: rels) -> dir_path (w_img w') (comps d0))).
        { intros w1 Hf1 Hmono Hrun. destruct (IH w1 r w' Hf1 Hrun) as [I1 I2]. split.
          - intros Hr d0 [<-|Hin]; [|now apply I1].
            intros q r0 Eq Hq. eapply install_dirs_int_keeps; [exact Hrun|]. apply Hmono.
            apply (Hn q r0 Eq Hq).
          - intro Hall. apply I2. intros d0 Hin. apply Hall. now right. }
        destruct dm; try (apply Hstep; [exact Hf|cbn; auto]).
        unfold chmod_dir. cbn [w_faults set_img w_img]. rewrite Hf. cbn [fault_of].
        apply Hstep; [exact Hf|]. cbn. intros q Hq. now apply is_dir_set.
      + intro H; inversion H; subst. split; [discriminate|].
        intro Hall. exfalso.
        destruct (mk_prefixes_fail _ _ _ _ Em) as [a [b [cid [m [Ec [Ha Hg]]]]]].
        destruct (Hall d (or_introl eq_refl) a b Ec Ha) as [m' Hd]. cbn [app] in Hg. congruence.
  Qed.

  (* the same through the end of a dodir body: for the internal path, the body completes exactly
     when the directories (the arguments, placed by f) exist afterwards *)
  Lemma dodir_finish_truthful ext_effect (f : str -> str) args dm w res w' :
    w_faults w = [] -> (forall ws, dm <> IFallback ws) ->
    finish (install_dirs ed ext_effect (map f args) dm w) = (res, w') ->
    (res = HNone <-> forall d, In d args -> dir_path (w_img w') (comps (f d))).
  Proof.
    intros Hf Hdm. rewrite install_dirs_is_int by assumption.
    pose proof (install_dirs_int_ok ed (map f args) dm w) as He.
    destruct (install_dirs_int ed (map f args) dm w) as [r w1] eqn:Er. cbn [fst] in He.
    pose proof (dodir_dirs_truthful (map f args) dm w r w1 Hf Er) as T.
    assert (M : (forall d, In d (map f args) -> dir_path (w_img w1) (comps d))
                <-> (forall d, In d args -> dir_path (w_img w1) (comps (f d)))).
    { split; [intros H d Hd; now apply H, in_map|]. intros H d Hd. apply in_map_iff in Hd as [x [<- Hx]]. now apply H. }
    destruct r as [[]|]; cbn [finish]; try contradiction; intro H; injection H as <- <-; rewrite <- M, <- T;
      split; congruence.
  Qed.
End Dodir.
